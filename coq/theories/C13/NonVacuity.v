(* C13 - vacuity audit: the property theorems with premises are applied along one concrete run of the model
   (two polled modules, three polled params, one of them read by doPoll; a world of the shape Run.mk_world
   builds: script = nth n <list> (1, OOk), with ok / SECoP error / other exception / communication failure / silent
   outcomes and durations up to 900 ticks).  The invariant premises (quiet, wf, Lw, Q1, Sinv, J, slow_inv) are
   obtained from the theorems themselves, starting from C13_slow_reachable, so they are jointly satisfiable in
   reachable states. *)
From Coq Require Import List Arith ZArith Bool Lia.
Import ListNotations.
Require Import FV.Gen.C13 FV.C13.Model FV.C13.Lemmas FV.C13.Timing FV.C13.Slow FV.C13.Starve FV.C13.Properties.
Local Open Scope Z_scope.

Definition nvW : world :=
  {| script := fun n => nth n [(8, OOk); (16, OErr 1 0); (700, OOk); (16, OOk); (8, OErr 3 1); (600, OErr 4 0);
                               (8, OOk); (900, OOk); (20, OErr 2 0)] (1, OOk);
     eps := 1; reconn := false |}.
Lemma nvW_dur : forall k, 0 <= fst (script nvW k) <= 900.
Proof. intro k. do 10 (destruct k as [|k]; [simpl; lia|]). simpl. destruct k; simpl; lia. Qed.

Definition nv_ds : list (mdesc * Z) := demo3_ds.
Definition s0 : st := startup nvW (init_state 1024000 nv_ds []).
Definition s1 : st := turn nvW s0.
Definition s2 : st := turn nvW s1.
Definition s3 : st := turn nvW s2.

(* what the run looks like: s0 no iterator, no wait; s1 iterator [(1,0)], module 0 overdue; s2 iterator used up;
   s3 the thread waits *)
Example C13_nonvacuous_run :
  topoll s0 = None /\ waits nvW s0 = false /\ topoll s1 = Some [(1, 0)%nat] /\ topoll s2 = Some [] /\
  waits nvW s3 = true /\ topoll s3 = None /\
  rev (log s2) = [LRead 1024000 0 0; LRead 1024008 0 1; LRead 1024024 1 0; LStarted 1024724; LTurn 1024725;
                  LMain 1024725 0; LMRead 1024741 0 0; LMain 1024749 1; LRead 1025349 0 1; LTurn 1025358;
                  LMain 1025358 0; LMRead 1026258 0 0; LMain 1026278 1; LRead 1026279 1 0].
Proof. vm_compute. repeat split; reflexivity. Qed.

Lemma nv_si_pos : forall d, In d (map fst nv_ds) -> enable d = true -> 0 < si d.
Proof. intros d [<-|[<-|[]]] _; reflexivity. Qed.

Lemma C13_slow_reachable_applies : quiet s0 /\ topoll s0 = None /\ wf s0 /\ Lw s0 /\ Q1 s0.
Proof. apply (C13_slow_reachable nvW 900 nvW_dur 1024000 nv_ds); [lia|exact nv_si_pos|reflexivity]. Qed.

Lemma nv_quiet1 : quiet s1.
Proof. apply (C13_quiet_closed nvW 900 nvW_dur s0). apply C13_slow_reachable_applies. Qed.
Lemma nv_quiet2 : quiet s2.
Proof. apply (C13_quiet_closed nvW 900 nvW_dur s1). exact nv_quiet1. Qed.
Lemma nv_quiet3 : quiet s3.
Proof. apply (C13_quiet_closed nvW 900 nvW_dur s2). exact nv_quiet2. Qed.

(* C13_slow_invariants at s0 (iterator empty: Sinv is established) and at s1 (Sinv kept) *)
Lemma C13_slow_invariants_applies_0 : sameS s0 s1 /\ Lw s1 /\ Q1 s1 /\ Sinv nvW 900 s1.
Proof.
  destruct C13_slow_reachable_applies as (Q & T & Wf & L & q1).
  destruct (C13_slow_invariants nvW 900 nvW_dur ltac:(simpl; lia) s0 Q Wf L q1) as (A & B & C & D & _).
  exact (conj A (conj B (conj C (D (or_introl T))))).
Qed.
Lemma nv_wf1 : wf s1.
Proof. apply (wf_sameS s0); [apply C13_slow_invariants_applies_0|apply C13_slow_reachable_applies]. Qed.
Lemma C13_slow_invariants_applies_1 : sameS s1 s2 /\ Lw s2 /\ Q1 s2 /\ Sinv nvW 900 s2.
Proof.
  destruct C13_slow_invariants_applies_0 as (_ & L & q1 & Sv).
  destruct (C13_slow_invariants nvW 900 nvW_dur ltac:(simpl; lia) s1 nv_quiet1 nv_wf1 L q1) as (A & B & C & D & _).
  exact (conj A (conj B (conj C (D (or_intror Sv))))).
Qed.
Lemma nv_wf2 : wf s2.
Proof. apply (wf_sameS s1); [apply C13_slow_invariants_applies_1|exact nv_wf1]. Qed.

(* the iterator of s2 is used up: all five invariants hold there, and the staleness bound follows for every later turn *)
Lemma C13_slow_inv_when_idle_applies : slow_inv nvW 900 s2.
Proof.
  destruct C13_slow_invariants_applies_1 as (_ & L & q1 & Sv).
  apply C13_slow_inv_when_idle; try assumption; [exact nv_wf2|reflexivity].
Qed.
Example C13_slow_bound_from_applies :
  let s' := turns nvW 3 s2 in
  polled_params (dsc s' 0) = [0; 1]%nat /\ polled_params (dsc s' 1) = [0%nat] /\
  forall m i, en s' m = true -> In i (polled_params (dsc s' m)) ->
    let x := 2 * now s' - (3 * si (dsc s' m) + 4 * (Pn s' * Tn nvW 900 s') + 4 * 900) in
    x <= 2 * ts (get_ps (get_mod s' m) i) \/ exists t, x <= 2 * t /\ In (LRead t m i) (log s').
Proof.
  intro s'. split; [vm_compute; reflexivity|]. split; [vm_compute; reflexivity|].
  apply (C13_slow_bound_from nvW 900 nvW_dur ltac:(simpl; lia) s2 nv_quiet2 C13_slow_inv_when_idle_applies 3%nat).
Qed.

(* main polls: J after the first turn, module 0 overdue at the top of the second turn, polled in it *)
Lemma C13_main_invariant_applies : J 900 s1.
Proof.
  apply (C13_main_invariant nvW 900 nvW_dur s0); [apply C13_slow_reachable_applies|].
  intro k. destruct k as [|[|[|k]]]; vm_compute; congruence.
Qed.
Example C13_main_bound_applies :
  lm s1 0 + iv s1 0 < now s1 + eps nvW /\
  exists c, In (LMain c 0%nat) (log s2) /\ now s1 + eps nvW <= c /\ c <= lm s1 0 + iv s1 0 + eps nvW + sweep 900 s1.
Proof.
  split; [vm_compute; reflexivity|].
  apply (C13_main_bound nvW 900 nvW_dur s1 [] 0%nat [1%nat] nv_quiet1 C13_main_invariant_applies); vm_compute; reflexivity.
Qed.

Example C13_wakeup_by_due_applies :
  now (turn nvW s3) <= Z.max (now s3 + eps nvW) (lm s3 0 + iv s3 0) /\
  now (turn nvW s3) <= Z.max (now s3 + eps nvW) (last_slow (get_mod s3 0) + si (dsc s3 0)).
Proof.
  apply (C13_wakeup_by_due nvW 900 nvW_dur s3 0%nat nv_quiet3); vm_compute; (reflexivity || lia).
Qed.

Example C13_no_wait_during_round_applies : waits nvW s1 = false.
Proof. apply (C13_no_wait_during_round nvW s1 [(1, 0)%nat]). vm_compute. reflexivity. Qed.

(* the entry waiting in the iterator of s1 is dealt with within one turn *)
Example C13_slow_round_applies :
  exists k, (1 <= k <= 1)%nat /\
    let s' := turns nvW k s1 in
    now s' <= now s1 + Z.of_nat k * Tn nvW 900 s1 /\
    ((exists t, now s1 <= t /\ In (LRead t 1 0) (log s')) \/
     2 * now s1 <= 2 * ts (get_ps (get_mod s' 1) 0) + si (dsc s1 1)).
Proof.
  apply (C13_slow_round nvW 900 nvW_dur ltac:(simpl; lia) s1 [(1, 0)%nat] nv_quiet1 nv_wf1 ltac:(vm_compute; reflexivity) 1%nat 0%nat);
    [left; reflexivity|vm_compute; reflexivity].
Qed.

Definition s0m : st := main_phase nvW (top nvW s0).
Example C13_slow_round_complete_applies :
  refill_list s0m = [(0, 0); (0, 1); (1, 0)]%nat /\
  slow_due (now s0m) (get_mod s0m 1) = true /\ In 0%nat (polled_params (dsc s0m 1)).
Proof.
  split; [vm_compute; reflexivity|].
  assert (AL : alive s0m = true) by (vm_compute; reflexivity).
  destruct (C13_slow_round_complete s0m 1%nat 0%nat AL) as [H _]. apply H.
  vm_compute. right; right; left; reflexivity.
Qed.

(* no module starved, third clause: at the refill of the first turn the params of BOTH modules are taken *)
Example C13_no_module_starved_refill_applies :
  let sm := main_phase nvW (top nvW s0) in
  In (LRead (now sm) 1 0) (log (turn nvW s0)) \/ In (1, 0)%nat (cur (turn nvW s0)) \/ fresh sm (1, 0)%nat.
Proof.
  intro sm.
  assert (A1 : finished s0 = false) by (vm_compute; reflexivity).
  assert (A2 : alive s0 = true) by (vm_compute; reflexivity).
  assert (A3 : waits nvW s0 = false) by (vm_compute; reflexivity).
  assert (A4 : alive sm = true) by (vm_compute; reflexivity).
  assert (A5 : wf sm).
  { intro k. destruct k as [|[|[|k]]]; vm_compute; intros; congruence || reflexivity. }
  assert (A6 : scan sm (cur sm) = None) by (vm_compute; reflexivity).
  assert (A7 : slow_due (now sm) (get_mod sm 1) = true) by (vm_compute; reflexivity).
  assert (A8 : In 0%nat (polled_params (dsc sm 1))) by (vm_compute; left; reflexivity).
  pose proof (proj2 (proj2 C13_no_module_starved) nvW s0 A1 A2 A3) as H. cbv zeta in H. fold sm in H.
  exact (H A4 A5 A6 1%nat 0%nat A7 A8).
Qed.

(* run-time requests *)
Definition s0f : st := apply_act nvW (AFast 0 true 100) s0.
Example C13_interval_change_applies :
  (let s' := apply_act nvW (ASetInt 0 300) s0 in interval (get_mod s' 0) = 300 /\ ev s' = true) /\
  fast (get_mod s0f 0) = true /\
  (let s' := apply_act nvW (ASetInt 0 300) s0f in
   interval (get_mod s' 0) = interval (get_mod s0f 0) /\ mpi (get_mod s' 0) = 300) /\
  (let s' := apply_act nvW (ATrig 1 true) s0 in last_main (get_mod s' 1) = 0 /\ ev s' = true).
Proof.
  assert (L0 : (0 < length (mods s0))%nat) by (vm_compute; lia).
  assert (L1 : (1 < length (mods s0))%nat) by (vm_compute; lia).
  assert (E0 : enable (md (get_mod s0 0)) = true) by (vm_compute; reflexivity).
  assert (E1 : enable (md (get_mod s0 1)) = true) by (vm_compute; reflexivity).
  assert (F0 : fast (get_mod s0 0) = false) by (vm_compute; reflexivity).
  assert (Lf : (0 < length (mods s0f))%nat) by (vm_compute; lia).
  assert (Ef : enable (md (get_mod s0f 0)) = true) by (vm_compute; reflexivity).
  assert (Ff : fast (get_mod s0f 0) = true) by (vm_compute; reflexivity).
  destruct (C13_interval_change nvW s0 0%nat L0 E0) as (H1 & _ & _ & _).
  destruct (C13_interval_change nvW s0f 0%nat Lf Ef) as (_ & H2 & _ & _).
  destruct (C13_interval_change nvW s0 1%nat L1 E1) as (_ & _ & _ & H4).
  split; [exact (H1 300 F0)|]. split; [exact Ff|]. split; [exact (H2 300 Ff)|exact H4].
Qed.
Example C13_next_wakeup_applies :
  wait_time (mods s3) (now s3 + 1) <= last_main (get_mod s3 1) + interval (get_mod s3 1) - (now s3 + 1).
Proof.
  assert (A : In (get_mod s3 1) (mods s3)) by (vm_compute; right; left; reflexivity).
  assert (B : enable (md (get_mod s3 1)) = true) by (vm_compute; reflexivity).
  exact (C13_next_wakeup_uses_interval (mods s3) (now s3 + 1) (get_mod s3 1) A B).
Qed.

(* reads made by the poller, with run-time requests and a shutdown in the history *)
Definition nv_acts : list (Z * action) := [(1024800, ASetInt 0 300); (1025000, ATrig 1 true); (1026500, AStop)].
Example C13_nopoll_never_read_applies :
  exists d p, nth_error (map fst nv_ds) 0 = Some d /\ enable d = true /\ nth_error (params d) 1 = Some p /\
              pnopoll p = false /\ pk p <> KNone /\ pk p <> KCommonRest.
Proof.
  apply (C13_nopoll_never_read nvW 2 1024000 nv_ds nv_acts 1025349 0%nat 1%nat).
  vm_compute. tauto.
Qed.
Example C13_survives_applies :
  let s := run nvW 8 (init_state 1024000 nv_ds nv_acts) in
  crashed s = false /\ finished s = true /\ alive s = false /\
  alive (run nvW 8 (init_state 1024000 nv_ds [(1024800, ASetInt 0 300)])) = true.
Proof.
  intro s. destruct (C13_survives nvW 8 1024000 nv_ds nv_acts) as (A & B & _). fold s in A, B.
  split; [exact A|]. assert (F : finished s = true) by (vm_compute; reflexivity). split; [exact F|]. split.
  - destruct (B F) as [H|H]; [exact H|vm_compute in H; discriminate].
  - apply (C13_survives nvW 8 1024000 nv_ds [(1024800, ASetInt 0 300)]). simpl. intros [H|[]]; discriminate.
Qed.

(* C13_nopoll_module_never_polled: the premise is satisfiable (a doPoll of module 1 and a read inside doPoll of module 0
   are in the log of the run with requests), and in a run where a module with enablePoll = false and a configured
   write shares the thread with a polled one (demo5, with a trigger and setFastPoll addressed to the module that is
   not polled) the conclusion excludes every doPoll of that module *)
Example C13_nopoll_module_never_polled_applies :
  (exists d, nth_error (map fst nv_ds) 1 = Some d /\ enable d = true) /\
  (exists d, nth_error (map fst nv_ds) 0 = Some d /\ enable d = true) /\
  (forall n a t, ~ In (LMain t 0%nat) (log (run demo5_W n (init_state 1024000 demo5_ds a)))).
Proof.
  split; [|split].
  - apply (C13_nopoll_module_never_polled nvW 2 1024000 nv_ds nv_acts 1024749 1%nat). left. vm_compute. tauto.
  - apply (C13_nopoll_module_never_polled nvW 2 1024000 nv_ds nv_acts 1024741 0%nat). right. left. exists 0%nat.
    vm_compute. tauto.
  - intros n a t H.
    destruct (C13_nopoll_module_never_polled demo5_W n 1024000 demo5_ds a t 0%nat (or_introl H)) as (d & Hd & He).
    simpl in Hd. inversion Hd; subst d. discriminate He.
Qed.
