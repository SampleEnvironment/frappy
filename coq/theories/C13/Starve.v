(* C13 - no module on a shared poll thread is starved by another one:
   (1) main polls: the due test of each module is made with the clock of the moment its turn comes (the state after the
       polls of the modules before it in this sweep), so a module that is due at that moment is polled in this sweep;
   (2) slow polls: when the iterator is used up, the refill takes the polled parameters of ALL modules whose round is
       due - each of them is read at once, stays in the new iterator, or is skipped because it is fresh.
   Both for every state, every world (durations, outcomes), with or without run-time requests. *)
From Coq Require Import List Arith ZArith Bool Lia.
Import ListNotations.
Require Import FV.Gen.C13 FV.C13.Model FV.C13.Lemmas FV.C13.Timing FV.C13.Slow.
Local Open Scope Z_scope.

Lemma log_upd_mod : forall s m f, log (upd_mod s m f) = log s.
Proof. reflexivity. Qed.

Lemma now_upd_mod : forall s m f, now (upd_mod s m f) = now s.
Proof. reflexivity. Qed.

(* the state in which the turn of a module comes: the modules l1 before it in the sweep have been dealt with *)
Definition turn_comes (W : world) (s : st) (l1 : list nat) : st := fold_left (main_step W) l1 s.

(* what is done when the turn of module m comes: polled exactly when due by the clock of THAT moment *)
Lemma main_step_due : forall W s m, alive s = true -> enable (md (get_mod s m)) = true ->
  last_main (get_mod s m) + interval (get_mod s m) < now s ->
  In (LMain (now s) m) (log (main_step W s m)).
Proof.
  intros W s m Al En Due. unfold main_step. rewrite Al, En. simpl.
  apply Z.ltb_lt in Due. rewrite Due.
  exact (reach_keeps _ _ _ _ (reach_call_main W (upd_mod s m _) m) (or_introl eq_refl)).
Qed.

Lemma main_step_not_due : forall W s m,
  now s <= last_main (get_mod s m) + interval (get_mod s m) -> main_step W s m = s.
Proof.
  intros W s m H. unfold main_step. destruct (negb (alive s)); [reflexivity|].
  apply Z.ltb_ge in H. rewrite H, andb_false_r. reflexivity.
Qed.

Lemma main_sweep_polls_due : forall W s l1 m l2, seq 0 (length (mods s)) = l1 ++ m :: l2 ->
  let sm := turn_comes W s l1 in
  alive sm = true -> enable (md (get_mod sm m)) = true ->
  last_main (get_mod sm m) + interval (get_mod sm m) < now sm ->
  In (LMain (now sm) m) (log (main_phase W s)).
Proof.
  intros W s l1 m l2 E sm Al En Due. unfold main_phase. rewrite E, fold_left_app. simpl.
  apply (reach_keeps _ _ _ _ (reach_fold_main W l2 _)). apply main_step_due; assumption.
Qed.

Lemma fresh_rf : forall s q, alive s = true -> wf s -> fresh (rf s) q -> fresh s q.
Proof.
  intros s [m i] Al Wf. unfold fresh. simpl.
  destruct (rf_spec s Al Wf) as (_ & D & T & _).
  rewrite T. unfold sint. rewrite (proj1 (D m)). intros H; exact H.
Qed.

Lemma refill_takes_all_due : forall W s, alive s = true -> wf s -> scan s (cur s) = None ->
  let s' := slow_phase W s in
  forall m i, slow_due (now s) (get_mod s m) = true -> In i (polled_params (dsc s m)) ->
    In (LRead (now s) m i) (log s') \/ In (m, i) (cur s') \/ fresh s (m, i).
Proof.
  intros W s Al Wf Sc s' m i Du Hi. unfold s'. rewrite (slow_phase_eq W s Al Wf), Sc.
  assert (Hin : In (m, i) (refill_list s)) by (apply in_refill_list; [exact Al|split; assumption]).
  destruct (scan (rf s) (refill_list s)) as [[[m' i'] rest]|] eqn:Sc2.
  - destruct (scan_split _ _ _ _ Sc2) as (pre & E & Hp). rewrite E in Hin.
    destruct (consume_obs W (rf s) m' i' rest) as [T L]. apply in_app_or in Hin. destruct Hin as [Hin|[Heq|Hin]].
    + right; right. apply fresh_rf; auto.
    + inversion Heq; subst m' i'. left. rewrite L. left; reflexivity.
    + right; left. unfold cur. rewrite T. exact Hin.
  - right; right. apply fresh_rf; auto. exact (scan_none _ _ Sc2 _ Hin).
Qed.
