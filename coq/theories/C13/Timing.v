(* C13 - timing of the main loop in periods without run-time requests (acts = []).  The code is walked once for the
   pair (adv, sfr): time passed, main poll schedule kept, slow poll bookings kept, time stamps kept or renewed.
   From it: what a sleeping turn (turn_waits; it ends within the due times, wake_le) and a working turn (work_spec:
   every module is checked within the cost of the modules before it and polled when due then) do to the schedule. *)
From Coq Require Import List Arith ZArith Bool Lia.
Import ListNotations.
Require Import FV.Gen.C13 FV.C13.Model FV.C13.Lemmas.
Local Open Scope Z_scope.

Lemma nth_upd_nth_gen : forall {A} (f : A -> A) (d : A) l m k,
  nth k (upd_nth m f l) d = nth k l d \/ nth k (upd_nth m f l) d = f (nth k l d).
Proof.
  intros A f d l; induction l as [|x l IH]; intros m k; simpl.
  - destruct m; left; reflexivity.
  - destruct m, k; simpl; auto.
Qed.

Lemma nth_upd_nth_other : forall (f : mstate -> mstate) l m k, k <> m -> nth k (upd_nth m f l) m0 = nth k l m0.
Proof.
  intros f l; induction l as [|x l IH]; intros m k H; simpl.
  - destruct m; reflexivity.
  - destruct m, k; simpl; auto. congruence.
Qed.

Lemma nth_upd_nth_same : forall (f : mstate -> mstate) l m, (m < length l)%nat -> nth m (upd_nth m f l) m0 = f (nth m l m0).
Proof.
  intros f l; induction l as [|x l IH]; intros m H; simpl in *; [lia|].
  destruct m; simpl; [reflexivity|]. apply IH. lia.
Qed.

Lemma length_upd_nth : forall (f : mstate -> mstate) l m, length (upd_nth m f l) = length l.
Proof. intros f l; induction l as [|x l IH]; intros [|m]; simpl; auto. Qed.

Lemma get_upd_mod : forall s m f k,
  get_mod (upd_mod s m f) k = get_mod s k \/ get_mod (upd_mod s m f) k = f (get_mod s k).
Proof. intros s m f k. apply nth_upd_nth_gen. Qed.

Lemma wait_time_fold_le : forall ms t w0,
  fold_left (fun wt x => if enable (md x)
                         then Z.min (Z.min (last_main x + interval x - t) wt) (last_slow x + si (md x) - t)
                         else wt) ms w0 <= w0.
Proof.
  intros ms t; induction ms as [|x ms IH]; intros w0; simpl; [lia|].
  destruct (enable (md x)); [|apply IH]. eapply Z.le_trans; [apply IH|]. lia.
Qed.

Lemma wait_time_le : forall ms t x, In x ms -> enable (md x) = true ->
  wait_time ms t <= last_main x + interval x - t /\ wait_time ms t <= last_slow x + si (md x) - t.
Proof.
  intros ms t x. unfold wait_time. generalize max_wait_ticks.
  induction ms as [|y ms IH]; intros w0 Hin He; simpl; [contradiction|].
  destruct Hin as [->|Hin]; [|apply IH; assumption].
  rewrite He. pose proof (wait_time_fold_le ms t
    (Z.min (Z.min (last_main x + interval x - t) w0) (last_slow x + si (md x) - t))). lia.
Qed.

(* Outside this section cost, csum, sweep and J take dmax as their first argument, top and waits take W (adv, sfr, qfr,
   swept, lm, iv, dsc, en, nmods, quiet take none), and a lemma takes W, dmax, Hd as far as its proof uses them. *)
Section Quiet.
Variable W : world.
Variable dmax : Z.
Hypothesis Hd : forall k, 0 <= fst (script W k) <= dmax.

(* s' is reached from s (no pending actions) within time c, keeping the main poll schedule *)
Definition adv (s s' : st) (c : Z) : Prop :=
  acts s' = [] /\ (alive s' = alive s /\ finished s' = finished s) /\ length (mods s') = length (mods s) /\
  (forall k, md (get_mod s' k) = md (get_mod s k) /\ interval (get_mod s' k) = interval (get_mod s k) /\
             last_main (get_mod s' k) = last_main (get_mod s k)) /\
  now s <= now s' <= now s + c /\ (exists l, log s' = l ++ log s).

Lemma adv_now : forall s s' c, adv s s' c -> now s <= now s' <= now s + c.
Proof. intros s s' c H. apply H. Qed.

Lemma adv_log : forall s s' c, adv s s' c -> exists l, log s' = l ++ log s.
Proof. intros s s' c H. apply H. Qed.

Lemma adv_sched : forall s s' c, adv s s' c -> forall k, md (get_mod s' k) = md (get_mod s k) /\
  interval (get_mod s' k) = interval (get_mod s k) /\ last_main (get_mod s' k) = last_main (get_mod s k).
Proof. intros s s' c H. apply H. Qed.

Lemma adv_refl : forall s, acts s = [] -> adv s s 0.
Proof. intros s H. unfold adv. repeat split; auto; try lia. exists []; reflexivity. Qed.

Lemma adv_trans : forall a b c x y, adv a b x -> adv b c y -> adv a c (x + y).
Proof.
  intros a b c x y (A1 & L1 & N1 & K1 & T1 & [l1 G1]) (A2 & L2 & N2 & K2 & T2 & [l2 G2]).
  unfold adv. split; [exact A2|]. split; [destruct L1, L2; split; congruence|]. split; [congruence|]. split.
  - intros k. destruct (K1 k) as (P1 & P2 & P3). destruct (K2 k) as (Q1 & Q2 & Q3). repeat split; congruence.
  - split; [lia|]. exists (l2 ++ l1). rewrite G2, G1, app_assoc. reflexivity.
Qed.

Lemma adv_weaken : forall a b x y, adv a b x -> x <= y -> adv a b y.
Proof. intros a b x y (A1 & [L1 F1] & N1 & K1 & T1 & G1) H. unfold adv. repeat split; auto; try apply K1; lia. Qed.

(* what s -> s' does to the slow polls: no round is booked (last_slow stays), a time stamp is kept or set to a time >= now s *)
Definition sfr (s s' : st) : Prop :=
  now s <= now s' /\ (forall k, last_slow (get_mod s' k) = last_slow (get_mod s k)) /\
  (forall k j, ts (get_ps (get_mod s' k) j) = ts (get_ps (get_mod s k) j) \/ now s <= ts (get_ps (get_mod s' k) j)).

Lemma sfr_refl : forall s, sfr s s.
Proof. intros s. split; [lia|]. split; auto. Qed.

Lemma sfr_trans : forall a b c, sfr a b -> sfr b c -> sfr a c.
Proof.
  intros a b c (N1 & L1 & T1) (N2 & L2 & T2). split; [lia|]. split.
  - intros k. rewrite L2. apply L1.
  - intros k j. destruct (T2 k j) as [E|E]; [rewrite E; apply T1|right; lia].
Qed.

Lemma sfr_upd_mod : forall s m f,
  (forall x, last_slow (f x) = last_slow x /\ forall j, ts (get_ps (f x) j) = ts (get_ps x j) \/ now s <= ts (get_ps (f x) j)) ->
  sfr s (upd_mod s m f).
Proof.
  intros s m f H. split; [simpl; lia|].
  split; intros k; [|intros j]; destruct (get_upd_mod s m f k) as [E|E]; rewrite E; auto; apply H.
Qed.

(* both, for a stretch of poller code that takes at most c in a period without requests *)
Definition qfr (c : Z) (s s' : st) : Prop := acts s = [] -> adv s s' c /\ sfr s s'.

Lemma qfr_refl : forall s, qfr 0 s s.
Proof. intros s Ha. split; [apply adv_refl, Ha|apply sfr_refl]. Qed.

Lemma qfr_trans : forall a b c x y z, qfr x a b -> qfr y b c -> x + y <= z -> qfr z a c.
Proof.
  intros a b c x y z H1 H2 Hz Ha. destruct (H1 Ha) as [A1 F1]. destruct (H2 (proj1 A1)) as [A2 F2].
  split; [eapply adv_weaken; [eapply adv_trans; eassumption|exact Hz]|eapply sfr_trans; eassumption].
Qed.

Lemma qfr_same : forall c s s', acts s' = acts s -> alive s' = alive s -> finished s' = finished s -> mods s' = mods s ->
  now s <= now s' <= now s + c -> (exists l, log s' = l ++ log s) -> qfr c s s'.
Proof.
  intros c s s' A Al Fi M N Lg Ha. unfold adv, sfr, get_mod. rewrite M, A.
  split; [split; [exact Ha|]|split; [lia|]]; auto 6.
Qed.

Lemma adv_upd_mod : forall s m f, acts s = [] ->
  (forall x, md (f x) = md x /\ interval (f x) = interval x /\ last_main (f x) = last_main x) -> adv s (upd_mod s m f) 0.
Proof.
  intros s m f Ha Hf. split; [exact Ha|]. split; [split; reflexivity|]. split; [apply length_upd_nth|]. split.
  - intros k. destruct (get_upd_mod s m f k) as [E|E]; rewrite E; [auto|apply Hf].
  - split; [simpl; lia|]. exists []; reflexivity.
Qed.

(* without pending requests the clock only advances *)
Lemma qfr_sleep : forall s d, 0 <= d -> qfr d s (sleep W s d).
Proof.
  intros s d Hd' Ha. unfold sleep. rewrite Ha. simpl. apply (qfr_same d s); simpl; auto; [lia|exists []; reflexivity].
Qed.

Lemma qfr_body : forall s, qfr dmax s (fst (body W s)).
Proof.
  intros s. unfold body. pose proof (Hd (ctr s)) as H. destruct (script W (ctr s)) as [d o]. simpl in *.
  apply (qfr_trans s (set_ctr s (S (ctr s))) _ 0 d); [|apply qfr_sleep|]; try lia.
  apply qfr_same; auto; [simpl; lia|exists []; reflexivity].
Qed.

Lemma qfr_read_wrapped : forall s m i, qfr dmax s (fst (read_wrapped W s m i)).
Proof.
  intros s m i. unfold read_wrapped. pose proof (qfr_body s) as Hb. destruct (body W s) as [s1 o]. simpl in Hb.
  assert (G : forall e, qfr 0 s1 (upd_mod s1 m (fun x => m_set_ps x (upd_nth i (fun _ => {| ts := now s1; rerr := e |}) (ps x))))).
  { intros e Ha. split; [apply adv_upd_mod; [exact Ha|intros x; repeat split]|].
    apply sfr_upd_mod. intros x. split; [reflexivity|]. intros j. unfold get_ps; simpl.
    destruct (nth_upd_nth_gen (fun _ => {| ts := now s1; rerr := e |}) p0 (ps x) i j) as [E|E]; rewrite E; [left; reflexivity|right; simpl; lia]. }
  destruct o; [|destruct (same_err _ _ _); [exact Hb|]]; simpl; (eapply qfr_trans; [exact Hb|apply G|lia]).
Qed.

Lemma qfr_poll_result : forall s m f r rc, qfr 0 s (fst (poll_result s m f r rc)).
Proof.
  intros s m f r rc. unfold poll_result. destruct r as [[[c k] [|]]|]; simpl; try apply qfr_refl;
    (intros Ha; split; [apply adv_upd_mod; [exact Ha|intros x; repeat split]|apply sfr_upd_mod; intros x; auto]).
Qed.

Lemma qfr_emit : forall s e, qfr 0 s (emit s e).
Proof. intros s e. apply qfr_same; auto; [simpl; lia|exists [e]; reflexivity]. Qed.

Lemma qfr_set_ev : forall s v, qfr 0 s (set_ev s v).
Proof. intros s v. apply qfr_same; auto; [simpl; lia|exists []; reflexivity]. Qed.

Lemma qfr_call_read : forall s m i rc, qfr dmax s (fst (call_read W s m i rc)).
Proof.
  intros s m i rc. unfold call_read. pose proof (qfr_read_wrapped (emit s (LRead (now s) m i)) m i) as H.
  destruct (read_wrapped _ _ _ _) as [s1 r]. simpl in H.
  eapply qfr_trans; [apply qfr_emit|eapply qfr_trans; [exact H|apply qfr_poll_result|reflexivity]|lia].
Qed.

Lemma dmax_nonneg : 0 <= dmax.
Proof. pose proof (Hd 0%nat). lia. Qed.

Lemma qfr_main_reads : forall m l s, qfr (Z.of_nat (length l) * dmax) s (fst (main_reads W s m l)).
Proof.
  intros m l; induction l as [|i l IH]; intros s; simpl main_reads; [apply qfr_refl|].
  pose proof (qfr_read_wrapped (emit s (LMRead (now s) m i)) m i) as H.
  destruct (read_wrapped _ _ _ _) as [s1 res]. simpl in H. pose proof dmax_nonneg.
  assert (Hlen : Z.of_nat (length (i :: l)) = 1 + Z.of_nat (length l)) by (simpl length; lia). rewrite Hlen.
  eapply qfr_trans; [apply qfr_emit| |apply Z.le_refl]. destruct res as [e|]; simpl fst.
  - eapply qfr_trans; [exact H|apply qfr_refl|nia].
  - eapply qfr_trans; [exact H|apply IH|nia].
Qed.

Definition cost (d : mdesc) : Z := (1 + Z.of_nat (length (mainreads d))) * dmax.

Lemma qfr_call_main : forall s m, qfr (cost (md (get_mod s m))) s (call_main W s m).
Proof.
  intros s m. unfold call_main.
  pose proof (qfr_body (emit s (LMain (now s) m))) as H. destruct (body _ _) as [s1 o]. simpl in H.
  eapply qfr_trans; [apply qfr_emit| |apply Z.le_refl]. pose proof dmax_nonneg. unfold cost. destruct o.
  - intros Ha. assert (Md : md (get_mod s1 m) = md (get_mod s m)) by apply (H Ha). revert Ha. rewrite <- Md.
    pose proof (qfr_main_reads m (mainreads (md (get_mod s1 m))) s1) as H2.
    destruct (main_reads _ _ _ _) as [s2 r]. simpl in H2.
    eapply qfr_trans; [exact H|eapply qfr_trans; [exact H2|apply qfr_poll_result|reflexivity]|lia].
  - eapply qfr_trans; [exact H|apply qfr_poll_result|nia].
Qed.

Definition lm (s : st) (k : nat) : Z := last_main (get_mod s k).
Definition iv (s : st) (k : nat) : Z := interval (get_mod s k).
Definition dsc (s : st) (k : nat) : mdesc := md (get_mod s k).
Definition en (s : st) (k : nat) : bool := enable (dsc s k).

Fixpoint csum (s : st) (l : list nat) : Z :=
  match l with [] => 0 | k :: r => cost (dsc s k) + csum s r end.

Lemma csum_ext : forall s s' l, (forall k, dsc s' k = dsc s k) -> csum s' l = csum s l.
Proof. intros s s' l H; induction l as [|k l IH]; simpl; [reflexivity|]. rewrite H, IH. reflexivity. Qed.

Lemma csum_app : forall s l1 l2, csum s (l1 ++ l2) = csum s l1 + csum s l2.
Proof. intros s l1 l2; induction l1 as [|k l IH]; simpl; [reflexivity|]. rewrite IH. lia. Qed.

Lemma cost_nonneg : forall d, 0 <= cost d.
Proof. intros d. unfold cost. pose proof dmax_nonneg. nia. Qed.

Lemma csum_nonneg : forall s l, 0 <= csum s l.
Proof. intros s l; induction l as [|k l IH]; simpl; [lia|]. pose proof (cost_nonneg (dsc s k)). lia. Qed.

Lemma en_lt : forall s k, en s k = true -> (k < length (mods s))%nat.
Proof.
  intros s k H. destruct (Nat.lt_ge_cases k (length (mods s))) as [L|G]; [exact L|].
  unfold en, dsc, get_mod in H. rewrite nth_overflow in H by exact G. discriminate H.
Qed.

(* s' is reached from s by the main polls of the modules l (at most): the rest of the schedule stays *)
Definition swept (l : list nat) (s s' : st) : Prop :=
  acts s' = [] /\ alive s' = true /\ length (mods s') = length (mods s) /\
  (forall k, dsc s' k = dsc s k /\ iv s' k = iv s k /\ (~ In k l -> lm s' k = lm s k)) /\
  now s <= now s' <= now s + csum s l /\ (exists lg, log s' = lg ++ log s) /\ sfr s s'.

Lemma swept_app : forall l1 l2 a b c, swept l1 a b -> swept l2 b c -> swept (l1 ++ l2) a c.
Proof.
  intros l1 l2 a b c (A1 & L1 & N1 & K1 & T1 & [g1 G1] & F1) (A2 & L2 & N2 & K2 & T2 & [g2 G2] & F2).
  rewrite (csum_ext a b) in T2 by (intros k; apply K1).
  split; [exact A2|]. split; [exact L2|]. split; [congruence|]. split.
  - intros k. destruct (K1 k) as (a1 & a2 & a3). destruct (K2 k) as (b1 & b2 & b3).
    split; [congruence|]. split; [congruence|]. intros Hk. rewrite b3, a3; [reflexivity| |]; intros H; apply Hk, in_or_app; auto.
  - split; [rewrite csum_app; lia|]. split; [exists (g2 ++ g1); rewrite G2, G1, app_assoc; reflexivity|].
    exact (sfr_trans _ _ _ F1 F2).
Qed.

(* the due test of module m is made at time c on the way from s to s': the module is polled exactly when it is due then *)
Definition checked_at (s s' : st) (m : nat) (c : Z) : Prop :=
  (lm s m + iv s m < c -> lm s' m = new_last_main c (iv s m) /\ In (LMain c m) (log s')) /\
  (c <= lm s m + iv s m -> lm s' m = lm s m).

Lemma main_step_spec : forall s m, acts s = [] -> alive s = true ->
  let s' := main_step W s m in
  swept [m] s s' /\ (en s m = true -> checked_at s s' m (now s)).
Proof.
  intros s m Ha Al. unfold main_step, swept, checked_at. rewrite Al. simpl negb. cbv iota. simpl csum. rewrite Z.add_0_r.
  unfold en, dsc, lm, iv.
  destruct (enable (md (get_mod s m)) && (last_main (get_mod s m) + interval (get_mod s m) <? now s)) eqn:C.
  - set (f := fun y => m_set_last_main y (new_last_main (now s) (interval y))). set (s1 := upd_mod s m f).
    assert (K1 : forall k, md (get_mod s1 k) = md (get_mod s k) /\ interval (get_mod s1 k) = interval (get_mod s k) /\
                           (~ In k [m] -> last_main (get_mod s1 k) = last_main (get_mod s k))).
    { intros k. unfold s1. split; [|split]; [destruct (get_upd_mod s m f k) as [E|E]; rewrite E; reflexivity..|].
      intros Hk. unfold upd_mod, get_mod; simpl. rewrite nth_upd_nth_other; [reflexivity|]. intros ->. apply Hk. left; reflexivity. }
    destruct (qfr_call_main s1 m Ha) as [(A2 & [L2 F2] & N2 & K2 & T2 & G2) S2].
    rewrite (proj1 (K1 m)) in T2. split; [|intros He; split].
    + split; [exact A2|]. split; [rewrite L2; exact Al|]. split; [rewrite N2; apply length_upd_nth|]. split.
      { intros k. destruct (K2 k) as (P1 & P2 & P3). destruct (K1 k) as (Q1 & Q2 & Q3).
        split; [congruence|]. split; [congruence|]. intros Hk. rewrite P3. apply Q3, Hk. }
      split; [exact T2|]. split; [exact G2|]. eapply sfr_trans; [|exact S2]. apply sfr_upd_mod. intros x; auto.
    + intros _. rewrite (proj2 (proj2 (K2 m))). unfold s1, upd_mod, get_mod at 1; simpl.
      rewrite nth_upd_nth_same by exact (en_lt s m He). split; [reflexivity|].
      exact (reach_keeps _ _ _ _ (reach_call_main W s1 m) (or_introl eq_refl)).
    + intros H. apply andb_true_iff in C. destruct C as [_ C]. apply Z.ltb_lt in C. lia.
  - pose proof (cost_nonneg (md (get_mod s m))). split; [|intros He; split; [|reflexivity]].
    + repeat (split; [auto; lia|]). split; [exists []; reflexivity|apply sfr_refl].
    + intros Hl. rewrite He in C. simpl in C. apply Z.ltb_ge in C. lia.
Qed.

Lemma swept_fold : forall l s, acts s = [] -> alive s = true -> swept l s (fold_left (main_step W) l s).
Proof.
  intros l; induction l as [|m l IH]; intros s Ha Al; simpl fold_left.
  - unfold swept. simpl. repeat (split; [auto; lia|]). split; [exists []; reflexivity|apply sfr_refl].
  - destruct (main_step_spec s m Ha Al) as [S1 _]. apply (swept_app [m] l _ _ _ S1). apply IH; apply S1.
Qed.

(* a module of the sweep is checked at a time c within the accumulated cost of the modules before it, and is polled
   at c when it is due then *)
Lemma main_fold_spec : forall l1 m l2 s, acts s = [] -> alive s = true -> NoDup (l1 ++ m :: l2) -> en s m = true ->
  let s' := fold_left (main_step W) (l1 ++ m :: l2) s in
  exists c, now s <= c <= now s + csum s l1 /\ now s' <= c + csum s (m :: l2) /\ checked_at s s' m c.
Proof.
  intros l1 m l2 s Ha Al Nd Hen. cbv zeta. rewrite fold_left_app. simpl fold_left.
  apply NoDup_remove_2 in Nd. assert (N1 : ~ In m l1) by (intros H; apply Nd, in_or_app; auto).
  assert (N2 : ~ In m l2) by (intros H; apply Nd, in_or_app; auto).
  destruct (swept_fold l1 s Ha Al) as (A1 & L1 & _ & K1 & T1 & _). set (sm := fold_left (main_step W) l1 s) in *.
  destruct (K1 m) as (D1 & I1 & M1). specialize (M1 N1).
  destruct (main_step_spec sm m A1 L1) as ((A2 & L2 & _ & K2 & T2 & _) & PQ). set (s2 := main_step W sm m) in *.
  destruct (swept_fold l2 s2 A2 L2) as (_ & _ & _ & K3 & T3 & [g3 G3] & _).
  unfold checked_at, en in *. rewrite (proj2 (proj2 (K3 m)) N2), G3. rewrite D1, I1, M1 in *. destruct (PQ Hen) as [P Q].
  rewrite (csum_ext sm s2), (csum_ext s sm) in T3 by (intros k; first [apply K2|apply K1]).
  rewrite (csum_ext s sm) in T2 by (intros k; apply K1). simpl csum in *.
  exists (now sm). split; [exact T1|]. split; [lia|]. split; [|exact Q].
  intros Hlt. destruct (P Hlt) as [p1 p2]. split; [exact p1|]. apply in_or_app. right; exact p2.
Qed.

(* the refill books rounds; the main poll schedule stays *)
Lemma adv_refill : forall s, acts s = [] -> adv s (set_mods s (refill_mods s)) 0.
Proof.
  intros s Ha. split; [exact Ha|]. split; [split; reflexivity|]. unfold refill_mods, get_mod. simpl.
  destruct (alive s); [|repeat split; auto; try lia; exists []; reflexivity].
  split; [apply map_length|]. split; [|split; [lia|exists []; reflexivity]].
  intros j. set (g := fun x => if slow_due (now s) x then _ else x). change m0 with (g m0) at 1 3 5.
  rewrite map_nth. unfold g. destruct (slow_due _ _); repeat split.
Qed.

Lemma adv_slow_loop : forall k s, acts s = [] -> adv s (slow_loop W k s) dmax.
Proof.
  intros k s. apply (slow_loop_R W (fun s s' => acts s = [] -> adv s s' dmax)).
  - intros z Ha. exact (adv_weaken _ _ _ _ (adv_refl z Ha) dmax_nonneg).
  - intros z m i rest _ Ha. apply (qfr_call_read (set_topoll z (Some rest)) m i false Ha).
  - intros z v z' _ H Ha. exact (adv_trans _ _ _ _ _ (adv_refill z Ha) (H Ha)).
Qed.

Lemma new_last_main_ge : forall c i, 0 <= i -> c <= new_last_main c i + i.
Proof.
  intros c i Hi. unfold new_last_main. destruct (i =? 0) eqn:E.
  - apply Z.eqb_eq in E. lia.
  - apply Z.eqb_neq in E. pose proof (Z.mod_pos_bound c i ltac:(lia)). pose proof (Z.div_mod c i E). nia.
Qed.

Definition nmods (s : st) : nat := length (mods s).
Definition sweep (s : st) : Z := csum s (seq 0 (nmods s)) + dmax.
Definition quiet (s : st) : Prop := acts s = [] /\ alive s = true /\ finished s = false.

Lemma qfr_fire_due : forall s, qfr 0 s (fire_due W s).
Proof. intros s. apply qfr_sleep. lia. Qed.

Lemma qfr_wait : forall s t, 0 < t -> qfr t s (wait W s t).
Proof.
  intros s0 t Ht. unfold wait. eapply qfr_trans; [apply qfr_fire_due| |apply Z.le_refl]. cbv zeta.
  generalize (fire_due W s0). intros s Ha. generalize (qfr_same t s). simpl. rewrite Ha.
  intros G. destruct (ev s); apply G; auto; simpl; try lia; exists [LWait (now s) t]; reflexivity.
Qed.

(* the state at the top of the turn, after the loop condition was evaluated *)
Definition top (s : st) : st := emit (set_now s (now s + eps W)) (LTurn (now s + eps W)).

Definition waits (s : st) : bool :=
  (0 <? wait_time (mods s) (now s + eps W)) && (match topoll s with None => true | Some _ => false end).

(* the two kinds of turn: the thread sleeps (wait; clear) ... *)
Lemma turn_waits : forall s, quiet s -> waits s = true ->
  let wt := wait_time (mods s) (now s + eps W) in
  adv (top s) (turn W s) wt /\ sfr (top s) (turn W s) /\ topoll s = None /\ topoll (turn W s) = None /\ 0 < wt.
Proof.
  intros s (Ha & Al & Fi) Wt. unfold turn. rewrite Fi, Al. simpl negb. cbv iota.
  change (emit (set_now s (now s + eps W)) _) with (top s).
  change ((0 <? wait_time (mods (top s)) (now (top s))) && _) with (waits s). rewrite Wt.
  apply andb_true_iff in Wt. destruct Wt as [C Tp]. apply Z.ltb_lt in C.
  assert (Tp0 : topoll s = None) by (destruct (topoll s); [discriminate|reflexivity]).
  change (wait_time (mods (top s)) (now (top s))) with (wait_time (mods s) (now s + eps W)).
  set (wt := wait_time (mods s) (now s + eps W)) in *.
  assert (Q : qfr wt (top s) (set_ev (fire_due W (wait W (top s) wt)) false)).
  { apply (qfr_trans _ (wait W (top s) wt) _ wt 0); [apply qfr_wait, C| |lia].
    apply (qfr_trans _ (fire_due W (wait W (top s) wt)) _ 0 0); [apply qfr_fire_due|apply qfr_set_ev|lia]. }
  destruct (Q Ha) as [A F]. split; [exact A|]. split; [exact F|]. split; [exact Tp0|]. split; [|exact C].
  rewrite <- Tp0. apply (reach_wait_clear (fun _ => True) W (top s) wt (fun _ => I)).
Qed.

(* ... or works: loop condition, main polls, slow polls *)
Lemma turn_work : forall s, finished s = false -> alive s = true -> waits s = false ->
  turn W s = slow_phase W (main_phase W (top s)).
Proof. intros s Fi Al Wa. unfold turn. rewrite Fi, Al. unfold waits in Wa. simpl. rewrite Wa. reflexivity. Qed.

Lemma main_part : forall s, quiet s ->
  let s1 := main_phase W (top s) in
  quiet s1 /\ nmods s1 = nmods s /\ (forall k, dsc s1 k = dsc s k /\ iv s1 k = iv s k) /\ topoll s1 = topoll s /\
  now s + eps W <= now s1 <= now s + eps W + csum s (seq 0 (nmods s)) /\
  (exists l, log s1 = l ++ log s) /\ sfr (top s) s1 /\
  (forall l1 m l2, seq 0 (nmods s) = l1 ++ m :: l2 -> en s m = true ->
     exists c, now s + eps W <= c <= now s + eps W + csum s l1 /\ now s1 <= c + csum s (m :: l2) /\ checked_at s s1 m c).
Proof.
  intros s (Ha & Al & Fi). cbv zeta. unfold main_phase.
  destruct (swept_fold (seq 0 (length (mods (top s)))) (top s) Ha Al) as (A1 & L1 & N1 & K1 & T1 & [g1 G1] & F1).
  fold (main_phase W (top s)) in *. pose proof (reach_finished _ _ _ (reach_main_phase W (top s))) as Fi1.
  pose proof (reach_topoll _ _ _ (reach_main_phase W (top s))) as Tp1.
  assert (Cs : forall l, csum (top s) l = csum s l) by (intros; apply csum_ext; reflexivity). rewrite Cs in T1.
  split; [split; [exact A1|split; [exact L1|rewrite Fi1; exact Fi]]|]. split; [exact N1|].
  split; [intros k; split; apply K1|]. split; [exact Tp1|]. split; [exact T1|].
  split; [exists (g1 ++ [LTurn (now s + eps W)]); rewrite G1, <- app_assoc; reflexivity|]. split; [exact F1|].
  intros l1 m l2 Hs Hen. unfold main_phase. change (length (mods (top s))) with (nmods s). rewrite Hs.
  destruct (main_fold_spec l1 m l2 (top s) Ha Al) as (c & Hc); [rewrite <- Hs; apply seq_NoDup|exact Hen|].
  rewrite !Cs in Hc. exists c. exact Hc.
Qed.

Lemma work_spec : forall s, quiet s ->
  let s2 := slow_phase W (main_phase W (top s)) in
  quiet s2 /\ nmods s2 = nmods s /\
  (forall k, dsc s2 k = dsc s k /\ iv s2 k = iv s k) /\
  (forall l1 m l2, seq 0 (nmods s) = l1 ++ m :: l2 -> en s m = true ->
     exists c, now s + eps W <= c <= now s + eps W + csum s l1 /\ now s2 <= c + csum s (m :: l2) + dmax /\
       checked_at s s2 m c).
Proof.
  intros s Q. destruct (main_part s Q) as ((A1 & L1 & F1) & N1 & K1 & _ & _ & _ & _ & R1). cbv zeta.
  destruct (adv_slow_loop 3 (main_phase W (top s)) A1 : adv _ (slow_phase W _) _) as (A2 & [L2 F2] & N2 & K2 & T2 & [g2 G2]).
  split; [split; [exact A2|split; congruence]|]. split; [unfold nmods in *; congruence|]. split.
  { intros k. destruct (K1 k) as (a1 & a2). destruct (K2 k) as (b1 & b2 & _).
    unfold dsc, iv in *. split; [rewrite b1; exact a1|rewrite b2; exact a2]. }
  intros l1 m l2 Hs Hen. destruct (R1 l1 m l2 Hs Hen) as (c & Hc1 & Hc2 & Hc3 & Hc4).
  destruct (K2 m) as (_ & _ & b3). unfold checked_at, lm in *. exists c. split; [exact Hc1|]. split; [lia|]. split.
  - intros Hlt. destruct (Hc3 Hlt) as [p1 p2]. rewrite b3. split; [exact p1|].
    rewrite G2. apply in_or_app. right; exact p2.
  - intros Hle. rewrite b3. apply Hc4; exact Hle.
Qed.

Lemma waits_dec : forall s, quiet s -> forall P : st -> Prop,
  (waits s = true -> P (turn W s)) -> (waits s = false -> P (slow_phase W (main_phase W (top s)))) -> P (turn W s).
Proof.
  intros s (_ & Al & Fi) P H1 H2. destruct (waits s) eqn:C; [apply H1; reflexivity|].
  rewrite (turn_work s Fi Al C). apply H2; reflexivity.
Qed.

Lemma turn_quiet : forall s, quiet s ->
  quiet (turn W s) /\ nmods (turn W s) = nmods s /\ (forall k, dsc (turn W s) k = dsc s k /\ iv (turn W s) k = iv s k).
Proof.
  intros s Q. apply (waits_dec s Q); intros C.
  - destruct (turn_waits s Q C) as ((A & [L F] & N & K & _) & _). destruct Q as (_ & Al & Fi). simpl in L, F.
    split; [split; [exact A|split; congruence]|]. split; [exact N|]. intros k. split; apply K.
  - destruct (work_spec s Q) as (Q2 & N2 & K2 & _). split; [exact Q2|]. split; [exact N2|exact K2].
Qed.

(* J: no module is overdue by more than the rest of a sweep *)
Definition J (s : st) : Prop :=
  forall l1 m l2, seq 0 (nmods s) = l1 ++ m :: l2 -> en s m = true ->
    now s <= lm s m + iv s m + csum s (m :: l2) + dmax.

(* the wake-up time computed at the top of a turn is within the due times of module m *)
Lemma wake_le : forall s m, (m < nmods s)%nat -> en s m = true ->
  let wt := wait_time (mods s) (now s + eps W) in
  now s + eps W + wt <= lm s m + iv s m /\ now s + eps W + wt <= last_slow (get_mod s m) + si (dsc s m).
Proof.
  intros s m Hm Hen. destruct (wait_time_le (mods s) (now s + eps W) (get_mod s m) (nth_In _ _ Hm) Hen).
  unfold lm, iv, dsc. simpl. lia.
Qed.

Lemma split_lt : forall n l1 m l2, seq 0 n = l1 ++ m :: l2 -> (m < n)%nat.
Proof.
  intros n l1 m l2 H. assert (Hin : In m (seq 0 n)) by (rewrite H; apply in_or_app; right; left; reflexivity).
  apply in_seq in Hin. lia.
Qed.

(* while a slow poll round is in progress the thread does not sleep *)
Lemma no_wait_during_round : forall s l, topoll s = Some l -> waits s = false.
Proof. intros s l H. unfold waits. rewrite H. apply andb_false_r. Qed.

End Quiet.
