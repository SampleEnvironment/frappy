(* C13 - facts valid for every world and every schedule of requests.  The code of the poller is walked once, for the
   relation `reach`: module descriptors, crashed, finished and the iterator stay, alive stays unless a shutdown is
   pending, the log grows by exactly a list of permitted events.  From it: only polled parameters are read by the
   poller, the thread ends only by a requested shutdown. *)
From Coq Require Import List Arith ZArith Bool Lia.
Import ListNotations.
Require Import FV.Gen.C13 FV.C13.Model.
Local Open Scope Z_scope.

Definition d0 : mdesc := md m0.
Definition descs (s : st) : list mdesc := map md (mods s).

(* parameter i of module m is polled according to the descriptors *)
Definition pok (ds : list mdesc) (m i : nat) : Prop :=
  enable (nth m ds d0) = true /\ In i (polled_params (nth m ds d0)).

(* module m is polled at all (enablePoll) *)
Definition mok (ds : list mdesc) (m : nat) : Prop := enable (nth m ds d0) = true.

(* what the poller may add to the log: reads of polled parameters of polled modules, doPoll (and the reads made inside
   it) of polled modules only *)
Definition okread (ds : list mdesc) (e : levent) : Prop :=
  match e with
  | LRead _ m i => pok ds m i
  | LMain _ m => mok ds m
  | LMRead _ m _ => mok ds m
  | _ => True
  end.

Definition nostop (l : list (Z * action)) : Prop := ~ In AStop (map snd l).

(* s' is reached from s by poller code: what is static stays, the log grows by permitted entries only *)
Definition ext (s s' : st) : Prop :=
  descs s' = descs s /\ crashed s' = crashed s /\ finished s' = finished s /\
  (nostop (acts s) -> nostop (acts s') /\ alive s' = alive s) /\
  (forall e, In e (log s') -> In e (log s) \/ okread (descs s) e).

Lemma ext_refl : forall s, ext s s.
Proof. intros s; repeat split; auto. Qed.

Lemma ext_trans : forall a b c, ext a b -> ext b c -> ext a c.
Proof.
  intros a b c (D1 & C1 & F1 & N1 & L1) (D2 & C2 & F2 & N2 & L2).
  split; [congruence|]. split; [congruence|]. split; [congruence|]. split.
  - intros H. destruct (N1 H) as [H1 A1]. destruct (N2 H1) as [H2 A2]. split; [exact H2|congruence].
  - intros e He. destruct (L2 e He) as [Hb|Hb].
    + apply L1; exact Hb.
    + right. rewrite <- D1. exact Hb.
Qed.

Definition dp (f : mstate -> mstate) : Prop := forall x, md (f x) = md x.

Lemma map_upd_nth : forall (f : mstate -> mstate) n l, dp f -> map md (upd_nth n f l) = map md l.
Proof.
  intros f n l Hf; revert n; induction l as [|x l IH]; intros [|n]; simpl; auto.
  - rewrite Hf; reflexivity.
  - rewrite IH; reflexivity.
Qed.

Lemma dp_reconnect : dp m_reconnect.
Proof. intros x. unfold m_reconnect. destruct (enable (md x)); reflexivity. Qed.

Lemma md_get_mod : forall s m, md (get_mod s m) = nth m (descs s) d0.
Proof. intros s m. unfold get_mod, descs, d0. rewrite map_nth. reflexivity. Qed.

(* s' is reached from s while the pending requests l become l': what ext says, the iterator is not touched, and the log
   grows by exactly a list of events that satisfy P *)
Definition reachl (P : levent -> Prop) (s s' : st) (l l' : list (Z * action)) : Prop :=
  descs s' = descs s /\ crashed s' = crashed s /\ finished s' = finished s /\ topoll s' = topoll s /\
  (nostop l -> nostop l' /\ alive s' = alive s) /\
  exists g, log s' = g ++ log s /\ Forall P g.

Definition reach (P : levent -> Prop) (s s' : st) : Prop := reachl P s s' (acts s) (acts s').

Lemma reachl_same : forall P s s' l l', descs s' = descs s -> crashed s' = crashed s -> finished s' = finished s ->
  topoll s' = topoll s -> log s' = log s -> (nostop l -> nostop l' /\ alive s' = alive s) -> reachl P s s' l l'.
Proof. intros P s s' l l' D C F T L N. repeat split; auto; try apply N; auto. exists []. auto. Qed.

Lemma reach_refl : forall P s, reach P s s.
Proof. intros. apply reachl_same; auto. Qed.

Lemma reachl_trans : forall P a b c l1 l2 l3, reachl P a b l1 l2 -> reachl P b c l2 l3 -> reachl P a c l1 l3.
Proof.
  intros P a b c l1 l2 l3 (D1 & C1 & F1 & T1 & N1 & g1 & G1 & H1) (D2 & C2 & F2 & T2 & N2 & g2 & G2 & H2).
  repeat (split; [congruence|]). split.
  - intros H. destruct (N1 H) as [H' A1]. destruct (N2 H') as [H'' A2]. split; [exact H''|congruence].
  - exists (g2 ++ g1). rewrite G2, G1, app_assoc. split; [reflexivity|apply Forall_app; auto].
Qed.

Lemma reach_trans : forall P a b c, reach P a b -> reach P b c -> reach P a c.
Proof. intros P a b c. apply reachl_trans. Qed.

Lemma reach_weaken : forall (P Q : levent -> Prop) s s', (forall e, P e -> Q e) -> reach P s s' -> reach Q s s'.
Proof.
  intros P Q s s' HPQ (D & C & F & T & N & g & G & H). repeat (split; [assumption|]).
  exists g. split; [exact G|]. apply (Forall_impl Q HPQ H).
Qed.

Lemma reach_upd_mod : forall P s m f, dp f -> reach P s (upd_mod s m f).
Proof. intros P s m f Hf. apply reachl_same; auto. apply map_upd_nth, Hf. Qed.

Lemma reach_emit : forall (P : levent -> Prop) s e, P e -> reach P s (emit s e).
Proof. intros P s e He. repeat split; auto. exists [e]. auto. Qed.

Lemma reach_finished : forall P s s', reach P s s' -> finished s' = finished s.
Proof. intros P s s' H. apply H. Qed.

Lemma reach_topoll : forall P s s', reach P s s' -> topoll s' = topoll s.
Proof. intros P s s' H. apply H. Qed.

(* what was in the log stays there *)
Lemma reach_keeps : forall P s s' e, reach P s s' -> In e (log s) -> In e (log s').
Proof. intros P s s' e (_ & _ & _ & _ & _ & g & G & _) H. rewrite G. apply in_or_app. right; exact H. Qed.

Lemma acts_apply_act : forall W a s, acts (apply_act W a s) = acts s.
Proof.
  intros W a s. destruct a as [m v|m flag fi|m imm| |]; simpl; try reflexivity.
  - destruct (_ && _); reflexivity.
  - destruct (enable _); reflexivity.
  - destruct (enable _); [destruct imm|]; reflexivity.
  - destruct (reconn W); reflexivity.
Qed.

(* a request of another thread: only the shutdown request touches alive *)
Lemma reachl_apply_act : forall P W t a s l, reachl P s (apply_act W a s) ((t, a) :: l) l.
Proof.
  intros P W t a s l.
  assert (N : forall s', (a <> AStop -> alive s' = alive s) -> nostop ((t, a) :: l) -> nostop l /\ alive s' = alive s).
  { intros s' A H. split; [intros Hin; apply H; right; exact Hin|]. apply A. intros ->. apply H. left; reflexivity. }
  assert (U : forall m f, dp f -> descs (upd_mod s m f) = descs s) by (intros; apply map_upd_nth; assumption).
  destruct a as [m v|m flag fi|m imm| |]; simpl.
  - destruct (_ && _); apply reachl_same; auto; apply U; intros x; reflexivity.
  - destruct (enable _); apply reachl_same; auto. apply U; intros x; reflexivity.
  - destruct (enable _); [destruct imm|]; apply reachl_same; auto. apply U; intros x; reflexivity.
  - destruct (reconn W); apply reachl_same; auto. unfold descs; simpl. rewrite map_map. apply map_ext, dp_reconnect.
  - apply reachl_same; auto. apply N. congruence.
Qed.

Lemma reachl_ext : forall s s' l l', reachl (okread (descs s)) s s' l l' ->
  (nostop (acts s) -> nostop (acts s') /\ alive s' = alive s) -> ext s s'.
Proof.
  intros s s' l l' (D & C & F & _ & _ & g & G & H) N. repeat (split; [assumption|]).
  intros e He. rewrite G in He. apply in_app_or in He. destruct He as [He|He]; [right|left; exact He].
  exact (proj1 (Forall_forall _ _) H e He).
Qed.

Lemma reach_ext : forall s s', reach (okread (descs s)) s s' -> ext s s'.
Proof. intros s s' H. apply (reachl_ext _ _ _ _ H), H. Qed.

Lemma ext_apply_act : forall W a s, a <> AStop -> ext s (apply_act W a s).
Proof.
  intros W a s Ha. pose proof (reachl_apply_act (okread (descs s)) W 0 a s []) as H.
  apply (reachl_ext _ _ _ _ H). rewrite acts_apply_act. intros N. split; [exact N|].
  apply H. intros [E|[]]. exact (Ha E).
Qed.

Lemma reachl_fire_upto : forall P W l tg s,
  reachl P s (fst (fire_upto W l tg s)) l (snd (fire_upto W l tg s)).
Proof.
  intros P W l tg; induction l as [|[t a] l IH]; intros s; simpl; [apply reachl_same; auto|].
  destruct (t <=? tg); [|apply reachl_same; auto].
  eapply reachl_trans; [apply reachl_apply_act|apply IH].
Qed.

Lemma reach_sleep : forall P W s d, reach P s (sleep W s d).
Proof.
  intros P W s d. unfold sleep. pose proof (reachl_fire_upto P W (acts s) (now s + d) s) as H.
  destruct (fire_upto W (acts s) (now s + d) s) as [s1 l]. eapply reachl_trans; [exact H|apply reachl_same; auto].
Qed.

(* Event.wait adds its own entry to the log, then at most one request runs *)
Lemma reach_wait : forall (P : levent -> Prop) W s t, (forall u, P (LWait u t)) -> reach P s (wait W s t).
Proof.
  intros P W s0 t HP. unfold wait. cbv zeta. apply (reach_trans P s0 (fire_due W s0)); [apply reach_sleep|].
  generalize (fire_due W s0). intros s.
  eapply reach_trans; [apply (reach_emit P s (LWait (now s) t)), HP|].
  generalize (emit s (LWait (now s) t)). clear s. intros s.
  destruct (ev s); [apply reach_refl|].
  assert (K : forall v, reach P s (set_now s v)) by (intros; apply reachl_same; auto). unfold reach in *.
  destruct (acts s) as [|[t1 a] r]; [apply K|]. destruct (t1 <=? _); [|apply K]. rewrite acts_apply_act.
  eapply reachl_trans; [|apply (reachl_apply_act P W t1)]. apply reachl_same; auto.
Qed.

(* wait; [due requests run]; clear *)
Lemma reach_wait_clear : forall (P : levent -> Prop) W s t, (forall u, P (LWait u t)) ->
  reach P s (set_ev (fire_due W (wait W s t)) false).
Proof.
  intros P W s t HP. apply (reach_trans _ s (wait W s t)); [apply reach_wait, HP|]. generalize (wait W s t). intros z.
  apply (reach_trans _ z (fire_due W z)); [apply reach_sleep|]. generalize (fire_due W z). intros; apply reachl_same; auto.
Qed.

Lemma reach_body : forall P W s, reach P s (fst (body W s)).
Proof.
  intros P W s. unfold body. destruct (script W (ctr s)) as [d o].
  eapply reach_trans; [|apply reach_sleep]. apply reachl_same; auto.
Qed.

Lemma reach_read_wrapped : forall P W s m i, reach P s (fst (read_wrapped W s m i)).
Proof.
  intros P W s m i. unfold read_wrapped. pose proof (reach_body P W s) as Hb. destruct (body W s) as [s1 o].
  destruct o; [|destruct (same_err _ _ _); [exact Hb|]];
    (eapply reach_trans; [exact Hb|apply reach_upd_mod; intros x; reflexivity]).
Qed.

Lemma reach_poll_result : forall P s m f r rc, reach P s (fst (poll_result s m f r rc)).
Proof.
  intros P s m f r rc. unfold poll_result.
  destruct r as [[[c k] [|]]|]; try apply reach_refl; apply reach_upd_mod; intros x; reflexivity.
Qed.

(* callPollFunc(read_<i>), after its entry in the log *)
Lemma reach_call_read : forall P W s m i rc, reach P (emit s (LRead (now s) m i)) (fst (call_read W s m i rc)).
Proof.
  intros P W s m i rc. unfold call_read. pose proof (reach_read_wrapped P W (emit s (LRead (now s) m i)) m i) as H.
  destruct (read_wrapped _ _ _ _) as [s1 r]. eapply reach_trans; [exact H|apply reach_poll_result].
Qed.

(* a read out of the iterator *)
Lemma consume_obs : forall W z m i rest,
  let z' := fst (call_read W (set_topoll z (Some rest)) m i false) in
  topoll z' = Some rest /\ log z' = LRead (now z) m i :: log z.
Proof.
  intros W z m i rest.
  destruct (reach_call_read (fun _ => False) W (set_topoll z (Some rest)) m i false) as (_ & _ & _ & T & _ & g & G & H).
  split; [exact T|]. destruct H; [exact G|contradiction].
Qed.

(* the entries of doPoll of module m *)
Definition dopoll (m : nat) (e : levent) : Prop :=
  match e with LMain _ k | LMRead _ k _ => k = m | _ => False end.

Lemma reach_main_reads : forall W m l s, reach (dopoll m) s (fst (main_reads W s m l)).
Proof.
  intros W m l; induction l as [|i l IH]; intros s; simpl; [apply reach_refl|].
  eapply reach_trans; [apply (reach_emit (dopoll m) s (LMRead (now s) m i)); reflexivity|].
  pose proof (reach_read_wrapped (dopoll m) W (emit s (LMRead (now s) m i)) m i) as H.
  destruct (read_wrapped _ _ _ _) as [s1 [e|]]; [exact H|]. eapply reach_trans; [exact H|apply IH].
Qed.

(* callPollFunc(doPoll), after its entry in the log *)
Lemma reach_call_main : forall W s m, reach (dopoll m) (emit s (LMain (now s) m)) (call_main W s m).
Proof.
  intros W s m. unfold call_main. pose proof (reach_body (dopoll m) W (emit s (LMain (now s) m))) as H.
  destruct (body _ _) as [s1 o]. eapply reach_trans; [exact H|]. destruct o; [|apply reach_poll_result].
  pose proof (reach_main_reads W m (mainreads (md (get_mod s1 m))) s1) as H2.
  destruct (main_reads _ _ _ _) as [s2 r]. eapply reach_trans; [exact H2|apply reach_poll_result].
Qed.

(* doPoll is called for modules with enablePoll only: the due test is guarded by the existence of a PollInfo *)
Definition mainev (ds : list mdesc) (e : levent) : Prop := exists m, mok ds m /\ dopoll m e.

Lemma mainev_okread : forall ds e, mainev ds e -> okread ds e.
Proof. intros ds e (m & Hm & He). destruct e; try exact I; simpl in He; subst; exact Hm || contradiction. Qed.

Lemma reach_main_step : forall W s m, reach (mainev (descs s)) s (main_step W s m).
Proof.
  intros W s m. unfold main_step. destruct (negb (alive s)); [apply reach_refl|].
  destruct (_ && _) eqn:G; [|apply reach_refl].
  apply andb_true_iff in G. destruct G as [G _]. rewrite md_get_mod in G.
  set (s1 := upd_mod s m _). apply (reach_trans _ s s1); [apply reach_upd_mod; intros x; reflexivity|].
  apply (reach_trans _ s1 (emit s1 (LMain (now s1) m))); [apply reach_emit|eapply reach_weaken; [|apply reach_call_main]].
  - exists m. split; [exact G|reflexivity].
  - intros e He. exists m. split; [exact G|exact He].
Qed.

Lemma reach_fold_main : forall W l s, reach (mainev (descs s)) s (fold_left (main_step W) l s).
Proof.
  intros W l; induction l as [|m l IH]; intros s; simpl; [apply reach_refl|].
  pose proof (reach_main_step W s m) as H. eapply reach_trans; [exact H|].
  rewrite <- (proj1 H). apply IH.
Qed.

Lemma reach_main_phase : forall W s, reach (mainev (descs s)) s (main_phase W s).
Proof. intros; apply reach_fold_main. Qed.

(* which entries a selection of polled parameters by modules contains (refill_list, all_polled) *)
Lemma in_flat_sel : forall (g : mstate -> bool) ms k m i, g m0 = false ->
  (In (m, i) (flat_map (fun im : nat * mstate => if g (snd im) then map (fun i => (fst im, i)) (polled_params (md (snd im))) else [])
                       (combine (seq k (length ms)) ms)) <->
   (k <= m)%nat /\ g (nth (m - k) ms m0) = true /\ In i (polled_params (md (nth (m - k) ms m0)))).
Proof.
  intros g ms; induction ms as [|x ms IH]; intros k m i G0; simpl.
  - split; [contradiction|]. intros (_ & H & _). destruct (m - k)%nat; congruence.
  - rewrite in_app_iff, (IH (S k) m i G0). split.
    + intros [H|(Hk & Hg & Hi)].
      * destruct (g x) eqn:G; [|contradiction]. apply in_map_iff in H. destruct H as (j & Hj & Hin).
        inversion Hj; subst. rewrite Nat.sub_diag. split; [lia|]. split; assumption.
      * replace (m - k)%nat with (S (m - S k)) by lia. split; [lia|]. split; assumption.
    + intros (Hk & Hg & Hi). destruct (Nat.eq_dec m k) as [->|Hne].
      * rewrite Nat.sub_diag in *. left. rewrite Hg. apply in_map_iff. exists i. split; [reflexivity|exact Hi].
      * right. replace (m - k)%nat with (S (m - S k)) in * by lia. split; [lia|]. split; assumption.
Qed.

Lemma in_refill_list : forall s m i, alive s = true ->
  (In (m, i) (refill_list s) <-> slow_due (now s) (get_mod s m) = true /\ In i (polled_params (md (get_mod s m)))).
Proof.
  intros s m i Al. unfold refill_list. rewrite Al.
  rewrite (in_flat_sel (slow_due (now s)) (mods s) 0 m i) by reflexivity.
  rewrite Nat.sub_0_r. unfold get_mod. split; [intros (_ & H); exact H|intros H; split; [lia|exact H]].
Qed.

Lemma refill_list_pok : forall s m i, In (m, i) (refill_list s) -> pok (descs s) m i.
Proof.
  intros s m i H. destruct (alive s) eqn:Al; [|unfold refill_list in H; rewrite Al in H; contradiction].
  apply (in_refill_list s m i Al) in H. destruct H as [D Hi]. apply andb_true_iff in D.
  unfold pok. rewrite <- md_get_mod. split; [apply D|exact Hi].
Qed.

Lemma all_polled_pok : forall ms m i, In (m, i) (all_polled ms) -> pok (map md ms) m i.
Proof.
  intros ms m i H. apply (in_flat_sel (fun x => enable (md x)) ms 0 m i eq_refl) in H.
  rewrite Nat.sub_0_r in H. unfold pok, d0. rewrite map_nth. apply H.
Qed.

(* the entry found by the scan splits the iterator; nothing before it was stale *)
Lemma scan_some : forall s l p rest, scan s l = Some (p, rest) -> exists pre, l = pre ++ p :: rest /\ scan s pre = None.
Proof.
  intros s l; induction l as [|[m i] l IH]; intros p rest H; simpl in H; [discriminate|].
  destruct (_ <? _) eqn:E.
  - inversion H; subst. exists []. split; reflexivity.
  - destruct (IH _ _ H) as (pre & -> & Hp). exists ((m, i) :: pre). simpl. rewrite E. split; [reflexivity|exact Hp].
Qed.

Definition topoll_ok (s : st) : Prop :=
  forall m i, In (m, i) (match topoll s with Some l => l | None => [] end) -> pok (descs s) m i.

Lemma reach_topoll_ok : forall P s s', reach P s s' -> topoll_ok s -> topoll_ok s'.
Proof. intros P s s' (D & _ & _ & T & _) H. unfold topoll_ok. rewrite T, D. exact H. Qed.

Lemma descs_refill : forall s, map md (refill_mods s) = map md (mods s).
Proof.
  intros s. unfold refill_mods. destruct (alive s); [|reflexivity].
  rewrite map_map. apply map_ext. intros x. destruct (slow_due _ _); reflexivity.
Qed.

Lemma ext_set_topoll : forall s v, ext s (set_topoll s v).
Proof. intros; repeat split; auto. Qed.

(* the slow phase: to have R s (slow_loop W k s) it is enough that R holds for a read out of the iterator and that a
   refill (with the new iterator, or none when nothing is due) can be absorbed on the left *)
Section SlowLoop.
Variable W : world.
Variable R : st -> st -> Prop.
Hypothesis R_refl : forall s, R s s.
Hypothesis R_read : forall s m i rest, scan s (match topoll s with Some l => l | None => [] end) = Some ((m, i), rest) ->
  R s (fst (call_read W (set_topoll s (Some rest)) m i false)).
Hypothesis R_refill : forall s v s', v = None \/ v = Some (refill_list s) ->
  R (set_topoll (set_mods s (refill_mods s)) v) s' -> R s s'.

Lemma slow_loop_R : forall k s, R s (slow_loop W k s).
Proof.
  induction k as [|k IH]; intros s; simpl; [apply R_refl|].
  destruct (scan s _) as [[[m i] rest]|] eqn:Sc; [apply R_read, Sc|].
  destruct (refill_list s) as [|p l] eqn:E.
  - apply (R_refill s None); [left; reflexivity|apply R_refl].
  - apply (R_refill s (Some (p :: l))); [right; rewrite E; reflexivity|apply IH].
Qed.
End SlowLoop.

Lemma slow_loop_ok : forall W k s, topoll_ok s ->
  ext s (slow_loop W k s) /\ topoll_ok (slow_loop W k s).
Proof.
  intros W k s. apply (slow_loop_R W (fun s s' => topoll_ok s -> ext s s' /\ topoll_ok s')); clear k s.
  - intros s Ht. split; [apply ext_refl|exact Ht].
  - intros s m i rest Sc Ht. destruct (scan_some _ _ _ _ Sc) as (pre & El & _).
    assert (Hin : forall q, (m, i) = q \/ In q rest -> In q (pre ++ (m, i) :: rest)) by (intros; apply in_or_app; right; assumption).
    rewrite <- El in Hin. set (s1 := set_topoll s (Some rest)).
    assert (E : reach (okread (descs s)) s1 (fst (call_read W s1 m i false))).
    { eapply reach_trans; [apply (reach_emit _ s1 (LRead (now s1) m i)), Ht, Hin; left; reflexivity|apply reach_call_read]. }
    split; [eapply ext_trans; [apply ext_set_topoll|apply reach_ext, E]|].
    apply (reach_topoll_ok _ _ _ E). intros m' i' H'. apply Ht, Hin. right; exact H'.
  - intros s v s' Hv H _.
    assert (E1 : reach (okread (descs s)) s (set_mods s (refill_mods s))) by (apply reachl_same; auto; apply descs_refill).
    destruct H as [E2 T2]; [|split; [|exact T2]].
    + intros m i H'. unfold descs; simpl. rewrite descs_refill. apply refill_list_pok. destruct Hv as [->| ->]; [contradiction|exact H'].
    + eapply ext_trans; [apply reach_ext, E1|]. eapply ext_trans; [apply ext_set_topoll|exact E2].
Qed.

(* at most one read by the poller *)
Lemma slow_loop_log : forall W k s,
  log (slow_loop W k s) = log s \/ exists m i, log (slow_loop W k s) = LRead (now s) m i :: log s.
Proof.
  intros W k s. apply (slow_loop_R W (fun s s' => log s' = log s \/ exists m i, log s' = LRead (now s) m i :: log s)).
  - left; reflexivity.
  - intros z m i rest _. right. exists m, i. apply consume_obs.
  - intros z v z' _ H. exact H.
Qed.

Definition inv (s : st) : Prop := topoll_ok s.

Lemma turn_ok : forall W s, topoll_ok s -> finished s = false -> alive s = true ->
  ext s (turn W s) /\ topoll_ok (turn W s).
Proof.
  intros W s Ht Fi Al. unfold turn. rewrite Fi, Al. simpl negb. cbv iota.
  set (s1 := emit (set_now s (now s + eps W)) _).
  assert (E1 : reach (okread (descs s)) s s1).
  { apply (reach_trans _ s (set_now s (now s + eps W))); [apply reachl_same; auto|apply reach_emit; exact I]. }
  destruct (_ && _).
  - pose proof (reach_trans _ _ _ _ E1 (reach_wait_clear _ W s1 (wait_time (mods s1) (now s1)) (fun _ => I))) as E.
    split; [apply reach_ext, E|apply (reach_topoll_ok _ _ _ E Ht)].
  - assert (E : reach (okread (descs s)) s (main_phase W s1)).
    { apply (reach_trans _ s s1 _ E1). exact (reach_weaken _ _ _ _ (mainev_okread _) (reach_main_phase W s1)). }
    destruct (slow_loop_ok W 3 _ (reach_topoll_ok _ _ _ E Ht)) as [E3 T3].
    split; [eapply ext_trans; [apply reach_ext, E|exact E3]|exact T3].
Qed.

Definition ph_st (p : phase) : st := match p with PGo s | PCom s | PCrash s => s end.
Definition is_crash (p : phase) : bool := match p with PCrash _ => true | _ => false end.

Definition startup_ev (e : levent) : Prop := match e with LWinit _ _ | LIread _ _ => True | _ => False end.

(* the start-up phase is a chain of: entry + driver call (configured write, initialReads), first reads, the started
   callback, the wait of an abandoned start-up.  Every reflexive and transitive R that these respect (the first reads
   as far as C admits them) relates the state before to the state s3 in which the loop is entered; no exception
   leaves the start-up, and the thread ends at once exactly when no module is polled *)
Section Startup.
Variable W : world.
Variable R : st -> st -> Prop.
Variable C : nat -> nat -> Prop.
Hypothesis R_refl : forall s, R s s.
Hypothesis R_trans : forall a b c, R a b -> R b c -> R a c.
Hypothesis R_call : forall s e, startup_ev e -> R s (fst (body W (emit s e))).
Hypothesis R_read : forall s m i, C m i -> R s (fst (call_read W s m i true)).
Hypothesis R_started : forall s, R s (call_started s).
Hypothesis R_wait : forall s, R s (wait W s startup_wait_ticks).

Lemma init_module_R : forall s m, R s (ph_st (init_module W s m)) /\ is_crash (init_module W s m) = false.
Proof.
  intros s m. unfold init_module. destruct (negb (alive s)); [split; [apply R_refl|reflexivity]|].
  set (d := md (get_mod s m)). set (s1 := if winit d then _ else s).
  assert (E1 : R s s1) by (unfold s1; destruct (winit d); [apply R_call; exact I|apply R_refl]).
  destruct (iread d); [|split; [exact E1|reflexivity]].
  pose proof (R_trans _ _ _ E1 (R_call s1 (LIread (now s1) m) I)) as E2.
  destruct (body W (emit s1 (LIread (now s1) m))) as [s2 o].
  (* the containment of other exceptions is the generated fact initialreads_contained = true *)
  destruct o as [|c k]; [|destruct (is_comm c); [|unfold initialreads_contained]]; split; auto.
Qed.

Lemma init_modules_R : forall l s, R s (ph_st (init_modules W s l)) /\ is_crash (init_modules W s l) = false.
Proof.
  intros l; induction l as [|m l IH]; intros s; simpl; [split; [apply R_refl|reflexivity]|].
  destruct (init_module_R s m) as [E Cr]. destruct (init_module W s m) as [s1|s1|s1]; [|split; assumption..].
  destruct (IH s1) as [E2 C2]. split; [exact (R_trans _ _ _ E E2)|exact C2].
Qed.

Lemma first_reads_R : forall l s, (forall m i, In (m, i) l -> C m i) ->
  R s (ph_st (first_reads W s l)) /\ is_crash (first_reads W s l) = false.
Proof.
  intros l; induction l as [|[m i] l IH]; intros s Hl; simpl; [split; [apply R_refl|reflexivity]|].
  pose proof (R_read s m i (Hl m i (or_introl eq_refl))) as E.
  destruct (call_read W s m i true) as [s1 raised]. destruct raised; [split; [exact E|reflexivity]|].
  destruct (IH s1) as [E2 C2]; [intros m' i' H'; apply Hl; right; exact H'|]. split; [exact (R_trans _ _ _ E E2)|exact C2].
Qed.

Lemma startup_R : forall s, (forall s1, R s s1 -> forall m i, In (m, i) (all_polled (mods s1)) -> C m i) ->
  exists s3, R s s3 /\ startup W s = if existsb (fun x => enable (md x)) (mods s3) then s3 else set_finished s3 true.
Proof.
  intros s HC. unfold startup.
  set (ph := match init_modules W s (seq 0 (length (mods s))) with
             | PGo s1 => first_reads W s1 (all_polled (mods s1)) | other => other end).
  assert (H : R s (ph_st ph) /\ is_crash ph = false).
  { unfold ph. destruct (init_modules_R (seq 0 (length (mods s))) s) as [E Cr].
    destruct (init_modules W s (seq 0 (length (mods s)))) as [s1|s1|s1]; [|split; assumption..].
    destruct (first_reads_R (all_polled (mods s1)) s1 (HC s1 E)) as [E3 C3]. split; [exact (R_trans _ _ _ E E3)|exact C3]. }
  clearbody ph. destruct H as [E Cr]. destruct ph as [s1|s1|s1]; simpl in E; [| |discriminate Cr].
  - exists (call_started s1). split; [exact (R_trans _ _ _ E (R_started s1))|reflexivity].
  - exists (call_started (wait W (call_started s1) startup_wait_ticks)). split; [|reflexivity].
    eapply R_trans; [exact E|]. eapply R_trans; [apply R_started|]. eapply R_trans; [apply R_wait|apply R_started].
Qed.
End Startup.

Lemma existsb_descs : forall s, existsb (fun x => enable (md x)) (mods s) = existsb enable (descs s).
Proof. intros s. unfold descs. induction (mods s) as [|x l IH]; simpl; [reflexivity|]. rewrite IH; reflexivity. Qed.

Lemma reach_call_started : forall (P : levent -> Prop) s, (forall t, P (LStarted t)) -> reach P s (call_started s).
Proof.
  intros P s HP. unfold call_started. destruct (started s); [apply reach_refl|].
  eapply reach_trans; [apply (reach_emit P s (LStarted (now s))), HP|apply reachl_same; auto].
Qed.

Lemma startup_ok : forall W s, exists s3, reach (okread (descs s)) s s3 /\
  startup W s = if existsb enable (descs s) then s3 else set_finished s3 true.
Proof.
  intros W s. set (P := okread (descs s)).
  destruct (startup_R W (reach P) (pok (descs s)) (reach_refl P) (reach_trans P)) with (s := s) as (s3 & E & ->).
  - intros z e He. apply (reach_trans P z (emit z e)); [apply reach_emit; destruct e; try exact I; contradiction|apply reach_body].
  - intros z m i Hp. exact (reach_trans P _ _ _ (reach_emit P z (LRead (now z) m i) Hp) (reach_call_read P W z m i true)).
  - intros z. apply reach_call_started. intros; exact I.
  - intros z. apply reach_wait. intros; exact I.
  - intros s1 E1 m i Hin. rewrite <- (proj1 E1). apply all_polled_pok, Hin.
  - exists s3. split; [exact E|]. rewrite existsb_descs, (proj1 E). reflexivity.
Qed.

(* what holds after the start-up and every number of turns of a run with descriptors ds; N: no shutdown is requested *)
Definition runinv (ds : list mdesc) (N : Prop) (s : st) : Prop :=
  descs s = ds /\ topoll_ok s /\ crashed s = false /\ (forall e, In e (log s) -> okread ds e) /\
  (finished s = true -> alive s = false \/ existsb enable ds = false) /\
  (N -> nostop (acts s) /\ alive s = true).

Lemma turn_runinv : forall ds N W s, runinv ds N s -> runinv ds N (turn W s).
Proof.
  intros ds N W s H. pose proof H as (D & T & C & L & F & A).
  destruct (finished s) eqn:Fi; [unfold turn; rewrite Fi; exact H|].
  destruct (alive s) eqn:Al.
  - destruct (turn_ok W s T Fi Al) as [(D' & C' & F' & N' & L') T'].
    split; [congruence|]. split; [exact T'|]. split; [congruence|]. split; [|split].
    + intros e He. destruct (L' e He) as [K|K]; [apply L; exact K|rewrite D in K; exact K].
    + rewrite F', Fi. discriminate.
    + intros HN. destruct (A HN) as [A1 A2]. destruct (N' A1) as [A3 A4]. split; congruence.
  - unfold turn. rewrite Fi, Al. simpl. repeat (split; [assumption|]).
    split; [left; exact Al|]. intros HN. destruct (A HN). congruence.
Qed.

Lemma descs_init : forall t0 ds a, descs (init_state t0 ds a) = map fst ds.
Proof. intros. unfold descs, init_state; simpl. rewrite map_map. apply map_ext. intros [d p]; reflexivity. Qed.

Lemma run_inv : forall W n t0 ds a, runinv (map fst ds) (nostop a) (run W n (init_state t0 ds a)).
Proof.
  intros W n t0 ds a. unfold run.
  assert (H : runinv (map fst ds) (nostop a) (startup W (init_state t0 ds a))).
  { destruct (startup_ok W (init_state t0 ds a)) as (s3 & (D & C & F & T & N & g & G & H) & ->).
    rewrite descs_init in *. simpl in C, F, T, N, G. rewrite app_nil_r in G.
    assert (K : runinv (map fst ds) (nostop a) s3).
    { split; [exact D|]. split; [intros m i; rewrite T; intros []|]. split; [exact C|]. split.
      - intros e. rewrite G. apply Forall_forall. exact H.
      - split; [rewrite F; discriminate|exact N]. }
    destruct (existsb enable (map fst ds)) eqn:E; [exact K|]. destruct K as (K1 & K2 & K3 & K4 & _ & K6).
    repeat (split; [assumption|]). split; [right; exact E|exact K6]. }
  generalize dependent (startup W (init_state t0 ds a)).
  induction n as [|n IH]; intros s H; simpl; [exact H|]. apply IH, turn_runinv, H.
Qed.

(* what the poller adds to the log in any run is permitted by the descriptors: only polled parameters are ever read,
   doPoll - and with it the reads made inside doPoll - is only ever called for modules with enablePoll *)
Lemma log_only_permitted : forall W n t0 ds a e,
  In e (log (run W n (init_state t0 ds a))) -> okread (map fst ds) e.
Proof. intros W n t0 ds a. apply (run_inv W n t0 ds a). Qed.

Lemma enabled_nth_error : forall ds m, enable (nth m ds d0) = true -> nth_error ds m = Some (nth m ds d0).
Proof.
  intros ds m He. destruct (nth_error ds m) as [d|] eqn:E; [rewrite (nth_error_nth _ _ d0 E); reflexivity|].
  apply nth_error_None in E. rewrite nth_overflow in He by exact E. discriminate He.
Qed.

Lemma polled_params_spec : forall d i, In i (polled_params d) ->
  exists p, nth_error (params d) i = Some p /\ is_polled p = true.
Proof.
  intros d i H. unfold polled_params in H. apply in_map_iff in H. destruct H as ([j p] & Hj & Hin).
  simpl in Hj; subst j. apply filter_In in Hin. destruct Hin as [Hin Hp]. simpl in Hp.
  exists p. split; [|exact Hp].
  assert (G : forall (l : list pdesc) k, In (i, p) (combine (seq k (length l)) l) -> (k <= i)%nat /\ nth_error l (i - k) = Some p).
  { clear. intros l; induction l as [|x l IH]; intros k H; simpl in H; [contradiction|].
    destruct H as [H|H].
    - inversion H; subst. rewrite Nat.sub_diag. split; [lia|reflexivity].
    - destruct (IH _ H) as [H1 H2]. split; [lia|]. replace (i - k)%nat with (S (i - S k)) by lia. exact H2. }
  destruct (G _ _ Hin) as [_ H2]. rewrite Nat.sub_0_r in H2. exact H2.
Qed.

(* what the source facts make of the poll flag *)
Lemma is_polled_spec : forall p, is_polled p = true ->
  pnopoll p = false /\ pk p <> KNone /\ pk p <> KCommonRest.
Proof.
  intros [k np]. unfold is_polled; simpl. destruct k, np; vm_compute; intros H; try discriminate H;
    (split; [reflexivity|split; discriminate]).
Qed.

(* the thread ends only by a requested shutdown *)
Lemma survives : forall W n t0 ds a,
  let s := run W n (init_state t0 ds a) in
  crashed s = false /\
  (finished s = true -> alive s = false \/ existsb enable (map fst ds) = false) /\
  (nostop a -> alive s = true).
Proof.
  intros W n t0 ds a. destruct (run_inv W n t0 ds a) as (_ & _ & C & _ & F & A).
  split; [exact C|]. split; [exact F|]. intros H. apply A, H.
Qed.
