(* C13 - the slow polls in periods without run-time requests (acts = []):
   the refill step (rf) and the three shapes of the slow phase, what the slow phase does to every entry it scans,
   the invariants that bound the time between two refreshes of a polled parameter, kept by every turn, and the
   start-up phase of such a period.  At the end, for every world: nreads, the number of poller reads in a log. *)
From Coq Require Import List Arith ZArith Bool Lia.
Import ListNotations.
Require Import FV.Gen.C13 FV.C13.Model FV.C13.Lemmas FV.C13.Timing.
Local Open Scope Z_scope.

Definition cur (s : st) : list (nat * nat) := match topoll s with Some l => l | None => [] end.
Definition lsl (s : st) (k : nat) : Z := last_slow (get_mod s k).
Definition sint (s : st) (k : nat) : Z := si (dsc s k).
Definition tsp (s : st) (k j : nat) : Z := ts (get_ps (get_mod s k) j).

(* sfr read with lsl and tsp, so that its parts rewrite goals stated with them *)
Lemma sfr_obs : forall s s', sfr s s' ->
  now s <= now s' /\ (forall k, lsl s' k = lsl s k) /\ (forall k j, tsp s' k j = tsp s k j \/ now s <= tsp s' k j).
Proof. intros s s' H. exact H. Qed.

Definition fresh (s : st) (p : nat * nat) : Prop := 2 * now s <= 2 * tsp s (fst p) (snd p) + sint s (fst p).

Lemma scan_none : forall s l, scan s l = None -> forall q, In q l -> fresh s q.
Proof.
  intros s l; induction l as [|[m i] l IH]; intros H q Hq; simpl in *; [contradiction|].
  destruct (_ <? _) eqn:E; [discriminate|].
  destruct Hq as [<-|Hq]; [|apply IH; assumption]. apply Z.ltb_ge in E. unfold fresh, tsp, sint, dsc. simpl. lia.
Qed.

Lemma scan_split : forall s l p rest, scan s l = Some (p, rest) ->
  exists pre, l = pre ++ p :: rest /\ (forall q, In q pre -> fresh s q).
Proof.
  intros s l p rest H. destruct (scan_some _ _ _ _ H) as (pre & E & Hp). exists pre. split; [exact E|exact (scan_none _ _ Hp)].
Qed.

Lemma scan_ext : forall z z' l, mods z' = mods z -> now z' = now z -> scan z' l = scan z l.
Proof.
  intros z z' l M N; induction l as [|[m i] l IH]; simpl; [reflexivity|].
  unfold get_mod. rewrite M, N, IH. reflexivity.
Qed.

Definition rfun (u : Z) (x : mstate) : mstate :=
  if slow_due u x then m_set_last_slow x (u / si (md x) * si (md x)) else x.

Definition rf (s : st) : st := set_mods s (refill_mods s).

(* every polled module has a positive slow interval (the datatype of slowinterval is FloatRange(0.1, 120)) *)
Definition wf (s : st) : Prop := forall k, en s k = true -> 0 < sint s k.

Lemma get_mod_rf : forall s k, alive s = true -> get_mod (rf s) k = rfun (now s) (get_mod s k).
Proof.
  intros s k Al. unfold rf, get_mod, refill_mods; simpl. rewrite Al.
  change m0 with (rfun (now s) m0) at 1. apply map_nth.
Qed.

Lemma floor_bounds : forall u i, 0 < i -> u - i < u / i * i <= u.
Proof.
  intros u i Hi. pose proof (Z.mod_pos_bound u i Hi). pose proof (Z.div_mod u i ltac:(lia)). nia.
Qed.

Lemma rf_spec : forall s, alive s = true -> wf s ->
  nmods (rf s) = nmods s /\
  (forall k, dsc (rf s) k = dsc s k /\ iv (rf s) k = iv s k /\ lm (rf s) k = lm s k) /\
  (forall k j, tsp (rf s) k j = tsp s k j) /\
  (forall k, en s k = true -> now s <= lsl (rf s) k + sint s k) /\
  (forall k, lsl (rf s) k = lsl s k \/
             (slow_due (now s) (get_mod s k) = true /\ now s - sint s k < lsl (rf s) k <= now s)).
Proof.
  intros s Al Wf. split; [|split; [|split; [|split]]].
  - unfold nmods, rf, refill_mods; simpl. rewrite Al. apply map_length.
  - intros k. unfold dsc, iv, lm. rewrite (get_mod_rf s k Al). unfold rfun. destruct (slow_due _ _); auto.
  - intros k j. unfold tsp. rewrite (get_mod_rf s k Al). unfold rfun. destruct (slow_due _ _); auto.
  - intros k He. unfold lsl. rewrite (get_mod_rf s k Al). unfold rfun. pose proof (Wf k He) as Hs.
    unfold sint, dsc in *. destruct (slow_due _ _) eqn:D.
    + simpl. pose proof (floor_bounds (now s) _ Hs). lia.
    + unfold slow_due in D. unfold en, dsc in He. rewrite He in D. simpl in D. apply Z.ltb_ge in D. exact D.
  - intros k. unfold lsl. rewrite (get_mod_rf s k Al). unfold rfun. destruct (slow_due _ _) eqn:D; [right|left; reflexivity].
    split; [reflexivity|]. simpl. assert (He : en s k = true).
    { unfold slow_due in D. apply andb_true_iff in D. apply D. }
    pose proof (floor_bounds (now s) _ (Wf k He)). unfold sint, dsc in *. lia.
Qed.

(* the number of polled parameters of the polled modules: no iterator is longer *)
Definition npol (ds : list mdesc) : nat :=
  fold_right (fun d n => ((if enable d then length (polled_params d) else 0) + n)%nat) 0%nat ds.

Lemma flat_sel_length : forall (g : mstate -> bool) ms k, (forall x, g x = true -> enable (md x) = true) ->
  (length (flat_map (fun im : nat * mstate => if g (snd im) then map (fun i => (fst im, i)) (polled_params (md (snd im))) else [])
                    (combine (seq k (length ms)) ms)) <= npol (map md ms))%nat.
Proof.
  intros g ms; induction ms as [|x ms IH]; intros k Hg; simpl; [lia|].
  rewrite app_length. specialize (IH (S k) Hg). destruct (g x) eqn:G.
  - rewrite (Hg x G), map_length. lia.
  - simpl. lia.
Qed.

Lemma refill_list_length : forall s, (length (refill_list s) <= npol (descs s))%nat.
Proof.
  intros s. unfold refill_list. destruct (alive s); [|simpl; lia].
  apply flat_sel_length. intros x H. unfold slow_due in H. apply andb_true_iff in H. apply H.
Qed.

Lemma descs_eq : forall s s', nmods s' = nmods s -> (forall k, dsc s' k = dsc s k) -> descs s' = descs s.
Proof.
  intros s s' N D. unfold descs. apply (nth_ext _ _ (md m0) (md m0)).
  - rewrite !map_length. exact N.
  - intros k _. rewrite !map_nth. apply D.
Qed.

(* after a refill no module is due *)
Lemma rf_not_due : forall s k, alive s = true -> wf s -> slow_due (now s) (get_mod (rf s) k) = false.
Proof.
  intros s k Al Wf. destruct (rf_spec s Al Wf) as (_ & D & _ & R & _).
  unfold slow_due. destruct (enable (md (get_mod (rf s) k))) eqn:E; [|reflexivity]. simpl.
  assert (He : en s k = true). { unfold en. destruct (D k) as (d & _). rewrite <- d. exact E. }
  apply Z.ltb_ge. specialize (R k He). destruct (D k) as (d & _). unfold lsl, sint, dsc in *. rewrite d. exact R.
Qed.

Lemma refill_list_rf : forall s, alive s = true -> wf s -> refill_list (rf s) = [].
Proof.
  intros s Al Wf. destruct (refill_list (rf s)) as [|[m i] l] eqn:E; [reflexivity|].
  assert (H : In (m, i) (refill_list (rf s))) by (rewrite E; left; reflexivity).
  apply (in_refill_list (rf s) m i Al) in H. destruct H as [H _].
  change (now (rf s)) with (now s) in H. rewrite rf_not_due in H by assumption. discriminate H.
Qed.

Lemma refill_mods_rf : forall s, alive s = true -> wf s -> refill_mods (rf s) = mods (rf s).
Proof.
  intros s Al Wf. unfold refill_mods. change (alive (rf s)) with (alive s). rewrite Al.
  rewrite <- (map_id (mods (rf s))) at 2. apply map_ext_in. intros x Hx.
  destruct (In_nth _ _ m0 Hx) as (k & _ & Hk).
  pose proof (rf_not_due s k Al Wf) as H. unfold get_mod in H. rewrite Hk in H.
  change (now (rf s)) with (now s). rewrite H. reflexivity.
Qed.

Lemma slow_phase_eq : forall W s, alive s = true -> wf s ->
  slow_phase W s =
  match scan s (cur s) with
  | Some ((m, i), rest) => fst (call_read W (set_topoll s (Some rest)) m i false)
  | None =>
      match scan (rf s) (refill_list s) with
      | Some ((m, i), rest) => fst (call_read W (set_topoll (rf s) (Some rest)) m i false)
      | None => set_topoll (rf s) None
      end
  end.
Proof.
  intros W s Al Wf. unfold slow_phase. simpl slow_loop. fold (cur s).
  destruct (scan s (cur s)) as [[[m i] rest]|]; [reflexivity|].
  fold (rf s). destruct (refill_list s) as [|p l] eqn:R; [reflexivity|].
  simpl topoll. rewrite (scan_ext (rf s) (set_topoll (rf s) (Some (p :: l))) (p :: l)) by reflexivity.
  destruct (scan (rf s) (p :: l)) as [[[m i] rest]|]; [reflexivity|].
  change (refill_list (set_topoll (rf s) (Some (p :: l)))) with (refill_list (rf s)).
  rewrite (refill_list_rf s Al Wf).
  change (refill_mods (set_topoll (rf s) (Some (p :: l)))) with (refill_mods (rf s)).
  rewrite (refill_mods_rf s Al Wf). reflexivity.
Qed.

(* Outside this section Tn, Sinv, slack, BB, Q2, slow_inv and turn_kept take W and dmax as their first arguments (Pn, polled,
   sameS, Lw, rem, Evd, Q1, dealt take none), and a lemma takes W, dmax and those of Hd, Heps that its proof uses. *)
Section SlowQuiet.
Variable W : world.
Variable dmax : Z.
Hypothesis Hd : forall k, 0 <= fst (script W k) <= dmax.
Hypothesis Heps : 0 <= eps W.

Lemma adv_rf : forall s, acts s = [] -> adv s (rf s) 0.
Proof. exact adv_refill. Qed.

Definition Tn (s : st) : Z := eps W + sweep dmax s.
Definition Pn (s : st) : Z := Z.of_nat (npol (descs s)).
Definition polled (s : st) (m i : nat) : Prop := en s m = true /\ In i (polled_params (dsc s m)).
Definition sameS (s s' : st) : Prop := nmods s' = nmods s /\ forall k, dsc s' k = dsc s k.

Lemma sameS_refl : forall s, sameS s s.
Proof. intros s; split; auto. Qed.

Lemma sameS_trans : forall a b c, sameS a b -> sameS b c -> sameS a c.
Proof. intros a b c [N1 D1] [N2 D2]. split; [congruence|]. intros k. rewrite D2. apply D1. Qed.

Lemma sameS_adv : forall s s' c, adv s s' c -> sameS s s'.
Proof. intros s s' c (_ & _ & N & K & _). split; [exact N|]. intros k. apply K. Qed.

Lemma sameS_facts : forall s s', sameS s s' ->
  (forall k, en s' k = en s k) /\ (forall k, sint s' k = sint s k) /\ Tn s' = Tn s /\ Pn s' = Pn s /\
  (forall m i, polled s' m i <-> polled s m i).
Proof.
  intros s s' [N D].
  assert (E : forall k, en s' k = en s k) by (intros k; unfold en; rewrite D; reflexivity).
  split; [exact E|]. split; [intros k; unfold sint; rewrite D; reflexivity|]. split; [|split].
  - unfold Tn, sweep. rewrite N. f_equal. f_equal. apply csum_ext. exact D.
  - unfold Pn. rewrite (descs_eq s s' N D). reflexivity.
  - intros m i. unfold polled. rewrite E, D. tauto.
Qed.

Lemma wf_sameS : forall s s', sameS s s' -> wf s -> wf s'.
Proof. intros s s' [_ D] Wf k. unfold wf, en, sint in *. rewrite D. apply Wf. Qed.

Lemma Tn_nonneg : forall s, 0 <= Tn s.
Proof.
  intros s. unfold Tn, sweep. pose proof (csum_nonneg W dmax Hd s (seq 0 (nmods s))). pose proof (dmax_nonneg W dmax Hd). lia.
Qed.

Lemma Pn_nonneg : forall s, 0 <= Pn s.
Proof. intros s. unfold Pn. lia. Qed.

(* no polled module has a slow-poll round booked in the future *)
Definition Lw (s : st) : Prop := forall k, en s k = true -> lsl s k <= now s.

(* number of turns after which the next refill happens at the latest *)
Definition rem (s : st) : Z := match topoll s with None => 0 | Some l => Z.of_nat (length l) + 1 end.
Definition slack (s : st) : Z := match topoll s with None => 0 | Some _ => Pn s * Tn s + dmax end.

(* the next refill is never later than last_slow + slowinterval + (all polled parameters) * (one turn) + one read *)
Definition Sinv (s : st) : Prop :=
  forall k, en s k = true -> now s + rem s * Tn s <= lsl s k + sint s k + slack s.

(* evidence that parameter i of module m was refreshed at a time t with x <= 2 t: its time stamp, or a read by the poller *)
Definition Evd (s : st) (m i : nat) (x : Z) : Prop :=
  x <= 2 * tsp s m i \/ exists t, x <= 2 * t /\ In (LRead t m i) (log s).

(* a polled parameter is waiting in the iterator, or was refreshed since half a slow interval before the round of its
   module was booked *)
Definition Q1 (s : st) : Prop :=
  forall m i, polled s m i -> In (m, i) (cur s) \/ Evd s m i (2 * lsl s m - sint s m).

Definition BB (s : st) (m : nat) : Z := 3 * sint s m + 4 * (Pn s * Tn s) + 4 * dmax.

(* while it waits in the iterator, its last refresh is not older than BB / 2 at the projected end of the round *)
Definition Q2 (s : st) : Prop :=
  forall m i, polled s m i -> In (m, i) (cur s) -> Evd s m i (2 * (now s + rem s * Tn s) - BB s m).

Lemma Evd_weaken : forall s m i x x', x' <= x -> Evd s m i x -> Evd s m i x'.
Proof. intros s m i x x' H [E|(t & E & I)]; [left; lia|right; exists t; split; [lia|exact I]]. Qed.

(* evidence not younger than now s survives whatever keeps or renews the time stamps and extends the log *)
Lemma Evd_step : forall s s' m i x, (forall k j, tsp s' k j = tsp s k j \/ now s <= tsp s' k j) ->
  (exists l, log s' = l ++ log s) -> x <= 2 * now s -> Evd s m i x -> Evd s' m i x.
Proof.
  intros s s' m i x T [l L] Hx [E|(t & E & I)].
  - left. destruct (T m i) as [Q|Q]; [rewrite Q; exact E|lia].
  - right. exists t. split; [exact E|]. rewrite L. apply in_or_app. right; exact I.
Qed.

(* an entry scanned at time t was skipped because it was fresh, or it was read *)
Definition dealt (t : Z) (s : st) (m i : nat) : Prop :=
  2 * t <= 2 * tsp s m i + sint s m \/ In (LRead t m i) (log s).

Lemma dealt_Evd : forall t s m i, 0 <= sint s m -> dealt t s m i -> Evd s m i (2 * t - sint s m).
Proof. intros t s m i Hs [H|H]; [left; lia|right; exists t; split; [lia|exact H]]. Qed.

Lemma fresh_dealt : forall s s' m i, fresh s (m, i) -> (forall k j, tsp s' k j = tsp s k j \/ now s <= tsp s' k j) ->
  sint s' m = sint s m -> 0 <= sint s m -> dealt (now s) s' m i.
Proof.
  intros s s' m i F T S Hs. left. unfold fresh in F; cbn [fst snd] in F. rewrite S.
  destruct (T m i) as [E|E]; [rewrite E; exact F|lia].
Qed.

(* the scan of an iterator l in state z finds an entry: it is read; the entries before it were fresh *)
Lemma scan_consume : forall z l m' i' rest, acts z = [] -> scan z l = Some ((m', i'), rest) ->
  let z' := fst (call_read W (set_topoll z (Some rest)) m' i' false) in
  adv z z' dmax /\ sfr z z' /\ topoll z' = Some rest /\ (exists pre, l = pre ++ (m', i') :: rest) /\
  forall m i, 0 <= sint z m -> In (m, i) l -> In (m, i) rest \/ dealt (now z) z' m i.
Proof.
  intros z l m' i' rest Ha Sc. destruct (scan_split _ _ _ _ Sc) as (pre & E & Hp). cbv zeta.
  destruct (qfr_call_read W dmax Hd (set_topoll z (Some rest)) m' i' false Ha) as [A F].
  destruct (consume_obs W z m' i' rest) as [T L].
  split; [exact A|]. split; [exact F|]. split; [exact T|]. split; [exists pre; exact E|].
  intros m i Hs Hin. rewrite E in Hin. apply in_app_or in Hin. destruct Hin as [Hin|[Heq|Hin]]; [right|right|left; exact Hin].
  - apply (fresh_dealt z); [apply Hp, Hin|apply F| |exact Hs]. destruct (sameS_facts _ _ (sameS_adv _ _ _ A)) as (_ & S & _). apply S.
  - inversion Heq; subst m' i'. right. rewrite L. left; reflexivity.
Qed.

(* what the slow phase does: a running round goes on by one read; or every entry left was fresh and the rounds that
   are due are booked, then the new iterator is scanned at once *)
Lemma slow_phase_spec : forall s1, acts s1 = [] -> alive s1 = true -> wf s1 ->
  let s2 := slow_phase W s1 in
  sameS s1 s2 /\ acts s2 = [] /\ (exists l, log s2 = l ++ log s1) /\ now s1 <= now s2 <= now s1 + dmax /\
  (forall k j, tsp s2 k j = tsp s1 k j \/ now s1 <= tsp s2 k j) /\
  ((exists pre e rest, cur s1 = pre ++ e :: rest /\ topoll s2 = Some rest) /\
   (forall k, lsl s2 k = lsl s1 k) /\
   (forall m i, 0 <= sint s1 m -> In (m, i) (cur s1) -> In (m, i) (cur s2) \/ dealt (now s1) s2 m i)
   \/
   (forall k, lsl s2 k = lsl (rf s1) k) /\ now s2 + rem s2 * Tn s1 <= now s1 + slack s2 /\
   (forall m i, 0 <= sint s1 m -> In (m, i) (cur s1) -> dealt (now s1) s2 m i) /\
   (forall m i, 0 <= sint s1 m -> In (m, i) (refill_list s1) -> In (m, i) (cur s2) \/ dealt (now s1) s2 m i)).
Proof.
  intros s1 Ha Al Wf. cbv zeta. rewrite (slow_phase_eq W s1 Al Wf).
  destruct (scan s1 (cur s1)) as [[[m' i'] rest]|] eqn:Sc.
  - destruct (scan_consume s1 _ m' i' rest Ha Sc) as (A & F & T & (pre & E) & D).
    set (s2 := fst (call_read W (set_topoll s1 (Some rest)) m' i' false)) in *.
    assert (Cu : cur s2 = rest) by (unfold cur; rewrite T; reflexivity). rewrite Cu.
    split; [apply (sameS_adv _ _ _ A)|]. split; [apply A|]. split; [apply A|]. split; [apply A|]. split; [apply F|].
    left. split; [exists pre, (m', i'), rest; split; assumption|]. split; [apply F|exact D].
  - pose proof (scan_none _ _ Sc) as Hc.
    destruct (rf_spec s1 Al Wf) as (Nr & Kr & Tsr & _).
    assert (Str : sameS s1 (rf s1)) by (split; [exact Nr|intros k; apply Kr]).
    destruct (sameS_facts _ _ Str) as (_ & Sir & _).
    destruct (scan (rf s1) (refill_list s1)) as [[[m' i'] rest]|] eqn:Sc2.
    + destruct (scan_consume (rf s1) _ m' i' rest Ha Sc2) as (A & F & T & (pre & E) & D).
      set (s2 := fst (call_read W (set_topoll (rf s1) (Some rest)) m' i' false)) in *.
      assert (St : sameS s1 s2) by (eapply sameS_trans; [exact Str|apply (sameS_adv _ _ _ A)]).
      destruct (sameS_facts _ _ St) as (_ & Si & TT & PP & _).
      assert (Ts : forall k j, tsp s2 k j = tsp s1 k j \/ now s1 <= tsp s2 k j).
      { intros k j. rewrite <- Tsr. apply F. }
      assert (Cu : cur s2 = rest) by (unfold cur; rewrite T; reflexivity). rewrite Cu.
      split; [exact St|]. split; [apply A|]. split; [apply A|]. split; [apply A|]. split; [exact Ts|].
      right. split; [apply F|]. split.
      { (* the read takes at most dmax, and the new iterator has fewer entries than the refill list, which has at most Pn *)
        unfold rem, slack. rewrite T, TT, PP.
        assert (Hlen : Z.of_nat (length rest) + 1 <= Pn s1).
        { pose proof (refill_list_length s1) as H. rewrite E, app_length in H. simpl length in H. unfold Pn. lia. }
        pose proof (Z.mul_le_mono_nonneg_r _ _ (Tn s1) (Tn_nonneg s1) Hlen). pose proof (adv_now _ _ _ A) as N.
        change (now (rf s1)) with (now s1) in N. lia. }
      split; [|intros m i Hs; apply D; rewrite Sir; exact Hs].
      intros m i Hs Hin. apply (fresh_dealt s1); [apply Hc, Hin|exact Ts|apply Si|exact Hs].
    + pose proof (dmax_nonneg W dmax Hd).
      split; [exact Str|]. split; [exact Ha|]. split; [exists []; reflexivity|]. split; [simpl; lia|].
      split; [intros k j; left; apply Tsr|]. right. split; [reflexivity|]. split; [unfold rem, slack; simpl; lia|]. split.
      * intros m i Hs Hin. apply (fresh_dealt s1); [apply Hc, Hin|intros; left; apply Tsr|apply Sir|exact Hs].
      * intros m i Hs Hin. right. left. apply (scan_none _ _ Sc2 _ Hin).
Qed.

Lemma sfr_top : forall s, sfr s (top W s).
Proof. intros s. split; [simpl; lia|]. split; auto. Qed.

(* the main polls of a turn, seen from the slow polls *)
Lemma work_start : forall s, quiet s -> wf s ->
  let s1 := main_phase W (top W s) in
  acts s1 = [] /\ alive s1 = true /\ wf s1 /\ sameS s s1 /\ cur s1 = cur s /\ sfr s s1 /\
  (exists l, log s1 = l ++ log s) /\ now s1 + dmax <= now s + Tn s.
Proof.
  intros s Q Wf. destruct (main_part W dmax Hd s Q) as ((A1 & Al1 & _) & N1 & K1 & Tp1 & Tm1 & Lg1 & Fr1 & _).
  assert (St : sameS s (main_phase W (top W s))) by (split; [exact N1|intros k; apply K1]).
  split; [exact A1|]. split; [exact Al1|]. split; [apply (wf_sameS _ _ St Wf)|]. split; [exact St|].
  split; [unfold cur; rewrite Tp1; reflexivity|]. split; [exact (sfr_trans _ _ _ (sfr_top s) Fr1)|].
  split; [exact Lg1|]. unfold Tn, sweep. lia.
Qed.

(* what a loop turn s -> s' keeps *)
Definition turn_kept (s s' : st) : Prop :=
  sameS s s' /\ Lw s' /\ Q1 s' /\ ((topoll s = None \/ Sinv s) -> Sinv s') /\ (Sinv s -> Q2 s -> Q2 s').

(* the thread sleeps: nothing waits in the iterator, nothing changes but the clock *)
Lemma sleep_keeps : forall s, quiet s -> wf s -> Lw s -> Q1 s -> waits W s = true -> turn_kept s (turn W s).
Proof.
  intros s Q Wf L q1 Wt. unfold turn_kept.
  destruct (turn_waits W s Q Wt) as (A & F & Tp0 & Tp' & _). set (s' := turn W s) in *.
  assert (St : sameS s s') by apply (sameS_adv _ _ _ A).
  destruct (sameS_facts s s' St) as (En & Si & TT & PP & Pol).
  destruct (sfr_obs _ _ (sfr_trans _ _ _ (sfr_top s) F)) as (N & Ls & Ts).
  assert (Lg : exists l, log s' = l ++ log s).
  { destruct (adv_log _ _ _ A) as [l G]. exists (l ++ [LTurn (now s + eps W)]). rewrite G, <- app_assoc. reflexivity. }
  assert (Cu : cur s' = []) by (unfold cur; rewrite Tp'; reflexivity).
  assert (Cu0 : cur s = []) by (unfold cur; rewrite Tp0; reflexivity).
  split; [exact St|]. split; [|split; [|split]].
  + intros k Hk. rewrite En in Hk. rewrite Ls. specialize (L k Hk). lia.
  + intros m i Hp. apply (proj1 (Pol m i)) in Hp. right. rewrite Ls, Si.
    destruct (q1 m i Hp) as [Hin|He]; [rewrite Cu0 in Hin; contradiction|].
    apply (Evd_step s s' m i _ Ts Lg); [|exact He].
    pose proof (Wf m (proj1 Hp)). pose proof (L m (proj1 Hp)). lia.
  + intros _ k Hk. rewrite En in Hk. unfold rem, slack. rewrite Tp', Ls, Si.
    destruct (wake_le W s k (en_lt s k Hk) Hk) as [_ W2]. pose proof (adv_now _ _ _ A) as T.
    change (now (top W s)) with (now s + eps W) in T. unfold lsl, sint. lia.
  + intros _ _ m i _ Hin. rewrite Cu in Hin. contradiction.
Qed.

(* the thread works: main polls, then the slow phase *)
Lemma work_keeps : forall s, quiet s -> wf s -> Lw s -> Q1 s -> turn_kept s (slow_phase W (main_phase W (top W s))).
Proof.
  intros s Q Wf L q1. unfold turn_kept.
  pose proof (Tn_nonneg s) as HT. pose proof (Pn_nonneg s) as HP. pose proof (dmax_nonneg W dmax Hd) as HD.
  pose proof (Z.mul_nonneg_nonneg _ _ HP HT) as HPT.
  destruct (work_start s Q Wf) as (A1 & Al1 & Wf1 & St1 & Cu1 & Fr1 & Lg1 & Hu).
  set (s1 := main_phase W (top W s)) in *.
  destruct (sameS_facts s s1 St1) as (En1 & Si1 & TT1 & PP1 & _).
  destruct (sfr_obs _ _ Fr1) as (N1 & Ls1 & Ts1).
  destruct (slow_phase_spec s1 A1 Al1 Wf1) as (St12 & _ & Lg2 & N2 & Ts2 & Sh).
  set (s2 := slow_phase W s1) in *.
  assert (St2 : sameS s s2) by exact (sameS_trans _ _ _ St1 St12).
  destruct (sameS_facts s s2 St2) as (En & Si & TT & PP & Pol).
  (* evidence not younger than now s is kept through the turn *)
  assert (Keep : forall m i x, x <= 2 * now s -> Evd s m i x -> Evd s2 m i x).
  { intros m i x Hx He. apply (Evd_step s1 s2 m i x Ts2 Lg2); [lia|]. apply (Evd_step s s1 m i x Ts1 Lg1 Hx He). }
  (* an entry scanned in this turn and found fresh, or read, has evidence since half a slow interval before the scan *)
  assert (Dealt : forall m i, polled s m i -> dealt (now s1) s2 m i -> Evd s2 m i (2 * now s1 - sint s m)).
  { intros m i Hp H. pose proof (Wf m (proj1 Hp)). rewrite <- Si. apply dealt_Evd; [rewrite Si; lia|exact H]. }
  assert (Hs1 : forall m i, polled s m i -> 0 <= sint s1 m).
  { intros m i Hp. pose proof (Wf m (proj1 Hp)). rewrite Si1. lia. }
  destruct Sh as [((pre & e & rest & Ec & Tp2) & Ls2 & D)|(Ls2 & U & Dc & Dr)].
  + (* an entry of the running round is read *)
    rewrite Cu1 in Ec. unfold cur in Ec. destruct (topoll s) as [l|] eqn:Tp0; [|destruct pre; discriminate Ec].
    (* the projected end of the round, now + rem * Tn, does not move later: the turn lasts at most Tn and at least one
       entry left the iterator; the slack is the same *)
    assert (End : now s2 + rem s2 * Tn s <= now s + rem s * Tn s).
    { unfold rem. rewrite Tp2, Tp0, Ec, app_length. simpl length.
      pose proof (Z.mul_le_mono_nonneg_r (Z.of_nat (length rest) + 2) (Z.of_nat (length pre + S (length rest)) + 1)
                    (Tn s) HT ltac:(lia)). lia. }
    assert (Sl : slack s2 = slack s) by (unfold slack; rewrite Tp2, Tp0, TT, PP; reflexivity).
    assert (Cu0 : cur s = l) by (unfold cur; rewrite Tp0; reflexivity).
    split; [exact St2|]. split; [|split; [|split]].
    * intros k Hk. rewrite En in Hk. rewrite Ls2, Ls1. specialize (L k Hk). lia.
    * intros m i Hp. apply (proj1 (Pol m i)) in Hp. rewrite Ls2, Ls1, Si.
      pose proof (Wf m (proj1 Hp)) as Hsi. pose proof (L m (proj1 Hp)) as Hl.
      destruct (q1 m i Hp) as [Hin|He]; [|right; apply Keep; [lia|exact He]].
      rewrite <- Cu1 in Hin. destruct (D m i (Hs1 m i Hp) Hin) as [H|H]; [left; exact H|right].
      eapply Evd_weaken; [|exact (Dealt m i Hp H)]. lia.
    * intros [H|Sv]; [discriminate H|]. intros k Hk. rewrite En in Hk. specialize (Sv k Hk).
      rewrite TT, Sl, Ls2, Ls1, Si. lia.
    * intros Sv q2 m i Hp Hin. apply (proj1 (Pol m i)) in Hp.
      assert (Hin0 : In (m, i) (cur s)).
      { unfold cur in Hin. rewrite Tp2 in Hin. rewrite Cu0, Ec. apply in_or_app. right; right; exact Hin. }
      pose proof (q2 m i Hp Hin0) as He. pose proof (Sv m (proj1 Hp)) as Svm.
      pose proof (Wf m (proj1 Hp)) as Hsi. pose proof (L m (proj1 Hp)) as Hl.
      assert (Bs : BB s2 m = BB s m) by (unfold BB; rewrite Si, TT, PP; reflexivity). rewrite TT, Bs.
      (* the evidence of Q2 s is older than now s (by Sinv s the round ends within BB / 2 from now s) and so is kept *)
      apply Keep; [unfold BB, slack in *; rewrite Tp0 in Svm; lia|]. eapply Evd_weaken; [|exact He]. lia.
  + (* every entry left was fresh: the rounds that are due are booked, the new iterator is scanned *)
    destruct (rf_spec s1 Al1 Wf1) as (_ & _ & _ & R2 & R3).
    assert (Lr : forall k, en s k = true -> lsl s2 k <= now s1).
    { intros k Hk. rewrite Ls2. destruct (R3 k) as [E|[_ E]]; [rewrite E, Ls1; specialize (L k Hk); lia|lia]. }
    (* every polled parameter has been refreshed since half a slow interval before the round of its module was booked *)
    assert (Strong : forall m i, polled s m i -> Evd s2 m i (2 * lsl s m - sint s m)).
    { intros m i Hp. pose proof (Wf m (proj1 Hp)) as Hsi. pose proof (L m (proj1 Hp)) as Hl.
      destruct (q1 m i Hp) as [Hin|He]; [|apply Keep; [lia|exact He]]. rewrite <- Cu1 in Hin.
      eapply Evd_weaken; [|exact (Dealt m i Hp (Dc m i (Hs1 m i Hp) Hin))]. lia. }
    split; [exact St2|]. split; [|split; [|split]].
    * intros k Hk. rewrite En in Hk. specialize (Lr k Hk). lia.
    * intros m i Hp. apply (proj1 (Pol m i)) in Hp. rewrite Si. pose proof (Wf m (proj1 Hp)) as Hsi. pose proof (Lr m (proj1 Hp)) as Hl.
      destruct (R3 m) as [E|[Due _]]; [right; rewrite Ls2, E, Ls1; apply Strong, Hp|].
      assert (Hin : In (m, i) (refill_list s1)).
      { apply (in_refill_list s1 m i Al1). split; [exact Due|]. fold (dsc s1 m). rewrite (proj2 St1 m). apply Hp. }
      destruct (Dr m i (Hs1 m i Hp) Hin) as [H|H]; [left; exact H|right].
      eapply Evd_weaken; [|exact (Dealt m i Hp H)]. lia.
    * (* the projected end of the new round is within now s1 + slack (U), and no booked round is due before now s1 (R2) *)
      intros _ k Hk. rewrite En in Hk. rewrite Ls2, Si, TT. rewrite TT1 in U.
      specialize (R2 k (eq_trans (En1 k) Hk)). rewrite Si1 in R2. lia.
    * (* Strong gives evidence since lsl s m - sint / 2.  The new round ends by now s1 + Pn * Tn + dmax (U), and by
         Sinv s the refill came no later than lsl s m + sint + Pn * Tn + dmax (Hub): the end is at most
         lsl s m + sint + 2 * Pn * Tn + 2 * dmax, which is BB / 2 after that evidence - this fixes the constant BB *)
      intros Sv _ m i Hp Hin. apply (proj1 (Pol m i)) in Hp.
      pose proof (Wf m (proj1 Hp)) as Hsi. pose proof (L m (proj1 Hp)) as Hl. pose proof (Sv m (proj1 Hp)) as Svm.
      unfold cur in Hin. unfold rem, slack, BB in *. rewrite Si, TT, PP. rewrite TT1, PP in U.
      destruct (topoll s2) as [l2|]; [|contradiction].
      assert (Hl2 : 1 <= Z.of_nat (length l2)) by (destruct l2; [contradiction|simpl length; lia]).
      pose proof (Z.mul_le_mono_nonneg_r 2 (Z.of_nat (length l2) + 1) (Tn s) HT ltac:(lia)).
      assert (Hub : now s1 <= lsl s m + sint s m + Pn s * Tn s + dmax).
      { destruct (topoll s) as [l|]; [|lia].
        pose proof (Z.mul_le_mono_nonneg_r 1 (Z.of_nat (length l) + 1) (Tn s) HT ltac:(lia)). lia. }
      eapply Evd_weaken; [|exact (Strong m i Hp)]. lia.
Qed.

Lemma turn_slow : forall s, quiet s -> wf s -> Lw s -> Q1 s -> turn_kept s (turn W s).
Proof.
  intros s Q Wf L q1. apply (waits_dec W s Q (turn_kept s)); intros Wt; [apply sleep_keeps|apply work_keeps]; assumption.
Qed.

Lemma turns_S : forall n s, turns W (S n) s = turns W n (turn W s).
Proof. reflexivity. Qed.

Lemma turns_add : forall a b s, turns W (a + b) s = turns W b (turns W a s).
Proof. intros a; induction a as [|a IH]; intros b s; simpl; [reflexivity|apply IH]. Qed.

Lemma turns_ind : forall I : st -> Prop, (forall s, I s -> I (turn W s)) -> forall n s, I s -> I (turns W n s).
Proof. intros I H n; induction n as [|n IH]; intros s Hs; simpl; [exact Hs|apply IH, H, Hs]. Qed.

(* the part of the invariants that holds from the start of the thread on, with what is needed to apply turn_slow again *)
Definition loop_inv (s0 s : st) : Prop := quiet s /\ sameS s0 s /\ wf s /\ Lw s /\ Q1 s.

Lemma turn_loop_inv : forall s0 s, loop_inv s0 s ->
  loop_inv s0 (turn W s) /\ ((topoll s = None \/ Sinv s) -> Sinv (turn W s)) /\ (Sinv s -> Q2 s -> Q2 (turn W s)).
Proof.
  intros s0 s (Q & St0 & Wf & L & q1). destruct (turn_slow s Q Wf L q1) as (St & L' & q1' & S').
  split; [|exact S']. split; [apply (turn_quiet W dmax Hd s Q)|]. split; [exact (sameS_trans _ _ _ St0 St)|].
  split; [apply (wf_sameS _ _ St Wf)|]. split; assumption.
Qed.

Lemma turns_loop_inv : forall n s, quiet s -> wf s -> Lw s -> Q1 s -> loop_inv s (turns W n s).
Proof.
  intros n s Q Wf L q1. apply (turns_ind (loop_inv s) (fun z Hz => proj1 (turn_loop_inv s z Hz))).
  split; [exact Q|]. split; [apply sameS_refl|]. auto.
Qed.

(* after the first turn the next refill is always in time *)
Lemma turns_Sinv : forall n s, quiet s -> wf s -> Lw s -> Q1 s -> (topoll s = None \/ Sinv s) -> Sinv (turns W (S n) s).
Proof.
  intros n s Q Wf L q1 H. simpl. apply (turns_ind (fun z => loop_inv s z /\ Sinv z)).
  - intros z [B Sv]. destruct (turn_loop_inv s z B) as (B' & S' & _). split; [exact B'|apply S'; right; exact Sv].
  - destruct (turn_loop_inv s s (turns_loop_inv 0 s Q Wf L q1)) as (B' & S' & _). split; [exact B'|exact (S' H)].
Qed.

Definition slow_inv (s : st) : Prop := wf s /\ Lw s /\ Sinv s /\ Q1 s /\ Q2 s.

Lemma turns_slow_inv : forall n s, quiet s -> slow_inv s ->
  let s' := turns W n s in quiet s' /\ sameS s s' /\ slow_inv s'.
Proof.
  intros n s Q I. apply (turns_ind (fun z => quiet z /\ sameS s z /\ slow_inv z)); [|auto using sameS_refl].
  intros z (Qz & St & Wf & L & Sv & q1 & q2).
  destruct (turn_loop_inv s z (conj Qz (conj St (conj Wf (conj L q1))))) as ((Q' & St' & Wf' & L' & q1') & S' & q2').
  split; [exact Q'|]. split; [exact St'|]. split; [exact Wf'|]. split; [exact L'|].
  split; [apply S'; right; exact Sv|]. split; [exact q1'|apply q2'; assumption].
Qed.

(* the bound: every polled parameter was refreshed (time stamp) or read by the poller not longer ago than BB / 2 *)
Lemma stale_bound : forall s, slow_inv s -> forall m i, polled s m i -> Evd s m i (2 * now s - BB s m).
Proof.
  intros s (Wf & L & Sv & q1 & q2) m i Hp.
  pose proof (Tn_nonneg s) as HT. pose proof (Pn_nonneg s) as HP. pose proof (dmax_nonneg W dmax Hd) as HD.
  pose proof (Wf m (proj1 Hp)) as Hsi. pose proof (Sv m (proj1 Hp)) as Svm.
  assert (HPT : 0 <= Pn s * Tn s) by (apply Z.mul_nonneg_nonneg; assumption).
  assert (Hrem : 0 <= rem s * Tn s).
  { apply Z.mul_nonneg_nonneg; [|exact HT]. unfold rem. destruct (topoll s); lia. }
  assert (Hsl : slack s <= Pn s * Tn s + dmax) by (unfold slack; destruct (topoll s); lia).
  destruct (q1 m i Hp) as [Hin|He].
  - eapply Evd_weaken; [|apply (q2 m i Hp Hin)]. lia.
  - eapply Evd_weaken; [|exact He]. unfold BB. lia.
Qed.

(* every entry of the iterator is dealt with within as many turns as the iterator is long: it is read by the poller,
   or it is skipped, which happens only when its time stamp is younger than half a slow interval *)
Lemma round_progress : forall n s l, quiet s -> wf s -> topoll s = Some l -> (length l <= n)%nat ->
  forall m i, In (m, i) l -> en s m = true ->
  exists k, (1 <= k <= length l)%nat /\
    let s' := turns W k s in
    now s' <= now s + Z.of_nat k * Tn s /\
    ((exists t, now s <= t /\ In (LRead t m i) (log s')) \/ 2 * now s <= 2 * tsp s' m i + sint s m).
Proof.
  intros n; induction n as [|n IH]; intros s l Q Wf Tp0 Hn m i Hin Hen.
  { destruct l; [contradiction|simpl in Hn; lia]. }
  pose proof (Wf m Hen) as Hsi. pose proof (Tn_nonneg s) as HT.
  assert (Tu : turn W s = slow_phase W (main_phase W (top W s))).
  { destruct Q as (_ & Al & Fi). apply (turn_work W s Fi Al (no_wait_during_round W s l Tp0)). }
  destruct (work_start s Q Wf) as (A1 & Al1 & Wf1 & St1 & Cu1 & Fr1 & _ & Hu).
  set (s1 := main_phase W (top W s)) in *.
  destruct (sameS_facts s s1 St1) as (_ & Si1 & _). destruct (sfr_obs _ _ Fr1) as (N1 & _).
  destruct (slow_phase_spec s1 A1 Al1 Wf1) as (St12 & _ & _ & N2 & _ & Sh). rewrite <- Tu in *. set (s2 := turn W s) in *.
  pose proof (sameS_trans _ _ _ St1 St12) as St2. destruct (sameS_facts s s2 St2) as (En2 & Si2 & TT2 & _).
  assert (Hin1 : In (m, i) (cur s1)) by (rewrite Cu1; unfold cur; rewrite Tp0; exact Hin).
  assert (Hs1 : 0 <= sint s1 m) by (rewrite Si1; lia).
  assert (H : (exists pre e rest, l = pre ++ e :: rest /\ topoll s2 = Some rest /\ In (m, i) rest) \/ dealt (now s1) s2 m i).
  { destruct Sh as [((pre & e & rest & Ec & Tp2) & _ & D)|(_ & _ & Dc & _)]; [|right; apply Dc; assumption].
    destruct (D m i Hs1 Hin1) as [H|H]; [left|right; exact H]. exists pre, e, rest.
    rewrite Cu1 in Ec. unfold cur in Ec, H. rewrite Tp0 in Ec. rewrite Tp2 in H. auto. }
  destruct H as [(pre & e & rest & Ec & Tp2 & H)|H].
  - (* still waiting: the rest of the round *)
    assert (Hlen : length l = (length pre + S (length rest))%nat) by (rewrite Ec, app_length; reflexivity).
    destruct (IH s2 rest (proj1 (turn_quiet W dmax Hd s Q)) (wf_sameS _ _ St2 Wf) Tp2 ltac:(lia) m i H (eq_trans (En2 m) Hen)) as (k & Hk & Hnow & Hev).
    exists (S k). split; [lia|]. rewrite turns_S. fold s2. cbv zeta in Hnow, Hev |- *. rewrite TT2 in Hnow. rewrite Si2 in Hev.
    split; [rewrite Nat2Z.inj_succ; lia|].
    destruct Hev as [(t & Ht & It)|Hev]; [left; exists t; split; [lia|exact It]|right; lia].
  - (* dealt with in this turn: skipped as fresh, or read *)
    assert (Hl1 : (1 <= length l)%nat) by (destruct l; [contradiction|simpl; lia]).
    exists 1%nat. split; [lia|]. cbv zeta. change (turns W 1 s) with s2. split; [lia|].
    destruct H as [H|H]; [right; rewrite Si2 in H; lia|left; exists (now s1); split; [lia|exact H]].
Qed.

Definition qex (s s' : st) : Prop := exists c, qfr c s s'.

Lemma qex_refl : forall s, qex s s.
Proof. intros s. exists 0. apply qfr_refl. Qed.

Lemma qex_trans : forall a b c, qex a b -> qex b c -> qex a c.
Proof. intros a b c [x H1] [y H2]. exists (x + y). exact (qfr_trans a b c x y _ H1 H2 (Z.le_refl _)). Qed.

Lemma qex_emit_body : forall s e, qex s (fst (body W (emit s e))).
Proof. intros s e. apply (qex_trans _ (emit s e)); [exists 0; apply qfr_emit|exists dmax; apply (qfr_body W dmax Hd)]. Qed.

Lemma qex_call_started : forall s, qex s (call_started s).
Proof.
  intros s. unfold call_started. destruct (started s); [apply qex_refl|]. exists 0.
  apply qfr_same; auto; [simpl; lia|exists [LStarted (now s)]; reflexivity].
Qed.

(* the state in which the main loop is entered *)
Lemma startup_quiet : forall s, acts s = [] -> existsb enable (descs s) = true -> qex s (startup W s).
Proof.
  intros s Ha Hen.
  destruct (startup_R W qex (fun _ _ => True) qex_refl qex_trans) with (s := s) as (s3 & Q & E); auto.
  - intros z e _. apply qex_emit_body.
  - intros z m i _. exists dmax. apply (qfr_call_read W dmax Hd).
  - apply qex_call_started.
  - intros z. exists startup_wait_ticks. apply (qfr_wait W). reflexivity.
  - destruct Q as [c H]. destruct (sameS_adv _ _ _ (proj1 (H Ha))) as [N D].
    rewrite existsb_descs, (descs_eq s s3 N D), Hen in E. rewrite E. exists c. exact H.
Qed.

Lemma init_obs : forall t0 ds a k, lsl (init_state t0 ds a) k = 0 /\ forall j, tsp (init_state t0 ds a) k j = 0.
Proof.
  intros t0 ds a k. unfold lsl, tsp, get_mod, get_ps; simpl.
  destruct (nth_in_or_default k (map (fun dp : mdesc * Z => init_mod (fst dp) (snd dp)) ds) m0) as [H|H].
  - apply in_map_iff in H. destruct H as (dp & <- & _). split; [reflexivity|]. intros j. simpl.
    destruct (nth_in_or_default j (map (fun _ : pdesc => p0) (params (fst dp))) p0) as [H2|H2]; [|rewrite H2; reflexivity].
    apply in_map_iff in H2. destruct H2 as (x & <- & _). reflexivity.
  - rewrite H. split; [reflexivity|]. intros j. destruct j; reflexivity.
Qed.

End SlowQuiet.

Fixpoint nreads (l : list levent) : nat :=
  match l with
  | [] => 0%nat
  | LRead _ _ _ :: r => S (nreads r)
  | _ :: r => nreads r
  end.

Definition noread (e : levent) : Prop := nreads [e] = 0%nat.

Lemma nreads_reach : forall s s', reach noread s s' -> nreads (log s') = nreads (log s).
Proof.
  intros s s' (_ & _ & _ & _ & _ & g & -> & H). induction H as [|e g He _ IH]; [reflexivity|].
  destruct e; simpl in *; try exact IH. discriminate He.
Qed.
