(* C13 - the property theorems, proved from the lemmas of Lemmas.v, Timing.v, Slow.v and Starve.v, and the examples.
   W ranges over every duration/outcome script of the driver functions (ok, SECoP error, silent error, any other
   exception, communication failure), every per-turn overhead and both kinds of thread owner; ds over every list of
   module descriptors with their poll intervals; a over every schedule of run-time requests; n over every number
   of loop turns.  Time unit: 2^-10 s. *)
From Coq Require Import List Arith ZArith Bool Lia.
Import ListNotations.
Require Import FV.Gen.C13 FV.C13.Model FV.C13.Lemmas FV.C13.Timing FV.C13.Slow FV.C13.Starve.
Local Open Scope Z_scope.

(* obligations on the facts regenerated from /repo (Gen/C13.v) *)
Theorem C13_source_facts :
  poll_default_read = true /\ poll_without_read_func = false /\ nopoll_value = false /\
  poll_default_handler = true /\ poll_common_rest = false /\ thread_collects_only_polled = true /\
  callpoll_contains_exceptions = true /\ callpoll_reraise_guarded = true /\ mainloop_never_reraises = true /\
  main_due_rule = true /\ wait_rule = true /\ slow_fresh_twice = 1 /\ refill_rule = true /\ trigger_rule = true /\
  initialreads_contained = true /\ startup_single_pass = true /\ main_clock_per_module = true /\
  refill_all_due = true /\ timestamp_default_zero = true /\ pollinfo_only_polled_modules = true /\
  0 < max_wait_ticks /\ 0 < startup_wait_ticks.
Proof. repeat split; reflexivity. Qed.

(* parameters marked as not polled (no read function, @nopoll, not the first key of a common handler), and
   parameters of modules with polling disabled, are never read by the poller: every read the poller makes in any
   run is of a parameter that exists, has a read function carrying poll = True, in a module with enablePoll *)
Theorem C13_nopoll_never_read : forall W n t0 ds a t m i,
  In (LRead t m i) (log (run W n (init_state t0 ds a))) ->
  exists d p, nth_error (map fst ds) m = Some d /\ enable d = true /\ nth_error (params d) i = Some p /\
              pnopoll p = false /\ pk p <> KNone /\ pk p <> KCommonRest.
Proof.
  intros W n t0 ds a t m i H. destruct (log_only_permitted W n t0 ds a _ H) as [He Hi].
  destruct (polled_params_spec _ _ Hi) as (p & Hp & Hpol). exists (nth m (map fst ds) d0), p.
  split; [apply enabled_nth_error, He|]. split; [exact He|]. split; [exact Hp|apply is_polled_spec, Hpol].
Qed.

(* modules marked as not polled (enablePoll = False) are never polled: whatever shares the poll thread with them
   (polled modules, configured values written at start-up, initialReads), for every script, schedule of run-time
   requests (setFastPoll / trigger / pollinterval changes addressed to them included) and number of turns, the poller
   never calls their doPoll, hence makes no read inside it, and never calls one of their read functions; what the
   thread does do for such a module is confined to the start-up (configured write, initialReads).
   Code fact behind it: pollinfo_only_polled_modules (only modules of polled_modules get a PollInfo). *)
Theorem C13_nopoll_module_never_polled : forall W n t0 ds a t m,
  let lg := log (run W n (init_state t0 ds a)) in
  In (LMain t m) lg \/ (exists i, In (LMRead t m i) lg) \/ (exists i, In (LRead t m i) lg) ->
  exists d, nth_error (map fst ds) m = Some d /\ enable d = true.
Proof.
  intros W n t0 ds a t m lg H.
  assert (He : enable (nth m (map fst ds) d0) = true).
  { destruct H as [H|[[i H]|[i H]]]; apply (log_only_permitted W n t0 ds a _ H). }
  exists (nth m (map fst ds) d0). split; [apply enabled_nth_error, He|exact He].
Qed.

(* for every outcome script (ok, SECoP error, silent error, any other exception, communication failure) of every read,
   poll, configured write and initialReads call: no exception leaves the thread body, the thread ends only by a
   requested shutdown (or at once when no module is polled), and without a shutdown request the module list is intact.
   (frappy as of fix 3828d54: an exception of an overridden initialReads, other than a communication failure, is
   logged and the start-up goes on.) *)
Theorem C13_survives : forall W n t0 ds a,
  let s := run W n (init_state t0 ds a) in
  crashed s = false /\
  (finished s = true -> alive s = false \/ existsb enable (map fst ds) = false) /\
  (~ In AStop (map snd a) -> alive s = true).
Proof. intros W n t0 ds a. exact (survives W n t0 ds a). Qed.

(* In a period without run-time requests (acts = []), with every driver call lasting at most dmax: *)

(* the thread never sleeps beyond the time a main poll or a slow poll round of any polled module is due *)
Theorem C13_wakeup_by_due : forall W dmax, (forall k, 0 <= fst (script W k) <= dmax) ->
  forall s m, quiet s -> (m < nmods s)%nat -> en s m = true -> waits W s = true ->
  now (turn W s) <= Z.max (now s + eps W) (lm s m + iv s m) /\
  now (turn W s) <= Z.max (now s + eps W) (last_slow (get_mod s m) + si (dsc s m)).
Proof.
  intros W dmax Hd s m Q Hm Hen Wt. pose proof (adv_now _ _ _ (proj1 (turn_waits W s Q Wt))) as T.
  destruct (wake_le W s m Hm Hen). change (now (top W s)) with (now s + eps W) in T. lia.
Qed.

(* after every loop turn, whatever happened before (interval changes, triggers, failing or slow reads), no polled
   module is overdue by more than the rest of one sweep (the main polls of the modules from it on, one slow poll) *)
Theorem C13_main_invariant : forall W dmax, (forall k, 0 <= fst (script W k) <= dmax) ->
  forall s, quiet s -> (forall k, 0 <= iv s k) -> J dmax (turn W s).
Proof.
  intros W dmax Hd s Q Hiv. destruct (turn_quiet W dmax Hd s Q) as (_ & Nn & Kk).
  unfold J. rewrite Nn. intros l1 m l2 Hs Hen.
  assert (Hen0 : en s m = true) by (unfold en in *; rewrite <- (proj1 (Kk m)); exact Hen).
  rewrite (csum_ext dmax s (turn W s)) by apply Kk. rewrite (proj2 (Kk m)). clear Hen Kk Nn.
  pose proof (csum_nonneg W dmax Hd s (m :: l2)) as Hc. pose proof (dmax_nonneg W dmax Hd) as Hdm.
  apply (waits_dec W s Q); intros C.
  - (* the thread slept, but not beyond the due time of m *)
    destruct (turn_waits W s Q C) as (A & _). pose proof (adv_now _ _ _ A) as T.
    assert (Lm : lm (turn W s) m = lm s m) by apply (adv_sched _ _ _ A m). rewrite Lm.
    destruct (wake_le W s m (split_lt _ _ _ _ Hs) Hen0) as [W1 _]. change (now (top W s)) with (now s + eps W) in T. lia.
  - (* m was checked at a time c: polled then (last_main := floor of c), or not yet due at c *)
    destruct (work_spec W dmax Hd s Q) as (_ & _ & _ & R). destruct (R l1 m l2 Hs Hen0) as (c & Hc1 & Hc2 & Hc3 & Hc4).
    destruct (Z_lt_le_dec (lm s m + iv s m) c) as [Hlt|Hle].
    + destruct (Hc3 Hlt) as [p1 _]. rewrite p1. pose proof (new_last_main_ge c (iv s m) (Hiv m)). lia.
    + rewrite (Hc4 Hle). lia.
Qed.

(* bounded staleness of the main poll: a module whose doPoll is due at the top of a turn has it started in this very
   turn, at a time c no later than due time + per-turn overhead + one sweep of the thread's work
   (sweep = (1 + reads in doPoll) * dmax for every module + dmax for the one slow poll); outcomes are arbitrary *)
Theorem C13_main_bound : forall W dmax, (forall k, 0 <= fst (script W k) <= dmax) ->
  forall s l1 m l2, quiet s -> J dmax s ->
  seq 0 (nmods s) = l1 ++ m :: l2 -> en s m = true ->
  lm s m + iv s m < now s + eps W ->
  exists c, In (LMain c m) (log (turn W s)) /\ now s + eps W <= c /\ c <= lm s m + iv s m + eps W + sweep dmax s.
Proof.
  intros W dmax Hd s l1 m l2 Q Jn Hs Hen Hov.
  assert (Wt : waits W s = false).
  { destruct (wake_le W s m (split_lt _ _ _ _ Hs) Hen) as [W1 _]. unfold waits.
    destruct (0 <? wait_time (mods s) (now s + eps W)) eqn:E; [|reflexivity]. apply Z.ltb_lt in E. lia. }
  rewrite (turn_work W s (proj2 (proj2 Q)) (proj1 (proj2 Q)) Wt).
  destruct (work_spec W dmax Hd s Q) as (_ & _ & _ & R). destruct (R l1 m l2 Hs Hen) as (c & Hc1 & Hc2 & Hc3 & _).
  destruct (Hc3 ltac:(lia)) as [_ Hin]. exists c. split; [exact Hin|]. split; [lia|].
  pose proof (Jn l1 m l2 Hs Hen) as Hj. unfold sweep. rewrite Hs, csum_app. lia.
Qed.

(* quiet periods are closed under turns, so the two theorems above apply to every later turn *)
Theorem C13_quiet_closed : forall W dmax, (forall k, 0 <= fst (script W k) <= dmax) ->
  forall s, quiet s ->
  quiet (turn W s) /\ nmods (turn W s) = nmods s /\ (forall k, dsc (turn W s) k = dsc s k /\ iv (turn W s) k = iv s k).
Proof. intros W dmax Hd s. apply (turn_quiet W dmax Hd). Qed.

(* a slow poll round in progress is never interrupted by sleeping *)
Theorem C13_no_wait_during_round : forall W s l, topoll s = Some l -> waits W s = false.
Proof. intros W s l. apply no_wait_during_round. Qed.

(* changing the poll interval, switching fast polling, an immediate trigger: the PollInfo holds the new value at once
   and the trigger event is set, so the next wake-up computes with it *)
Theorem C13_interval_change : forall W s m, (m < length (mods s))%nat -> enable (md (get_mod s m)) = true ->
  (forall v, fast (get_mod s m) = false ->
     let s' := apply_act W (ASetInt m v) s in interval (get_mod s' m) = v /\ ev s' = true) /\
  (forall v, fast (get_mod s m) = true ->
     let s' := apply_act W (ASetInt m v) s in interval (get_mod s' m) = interval (get_mod s m) /\ mpi (get_mod s' m) = v) /\
  (forall flag fi, let s' := apply_act W (AFast m flag fi) s in
     interval (get_mod s' m) = (if flag then fi else mpi (get_mod s m)) /\ fast (get_mod s' m) = flag /\ ev s' = true) /\
  (let s' := apply_act W (ATrig m true) s in last_main (get_mod s' m) = 0 /\ ev s' = true).
Proof.
  intros W s m Hm He.
  assert (G : forall f, get_mod (upd_mod s m f) m = f (get_mod s m)) by (intros f; apply nth_upd_nth_same, Hm).
  assert (G' : forall f, get_mod (set_ev (upd_mod s m f) true) m = f (get_mod s m)) by exact G.
  cbv zeta. unfold apply_act. rewrite He. split; [|split; [|split]].
  - intros v Hfast. rewrite Hfast. cbn [andb negb]. rewrite G'. split; reflexivity.
  - intros v Hfast. rewrite Hfast. cbn [andb negb]. rewrite G. split; reflexivity.
  - intros flag fi. rewrite G'. repeat split.
  - rewrite G'. split; reflexivity.
Qed.

Theorem C13_next_wakeup_uses_interval : forall ms t x, In x ms -> enable (md x) = true ->
  wait_time ms t <= last_main x + interval x - t.
Proof. intros ms t x H He. apply (wait_time_le ms t x H He). Qed.

(* ---------------------------------------------------------------- slow polls
   Periods without run-time requests (acts = []), every driver call lasting at most dmax, 0 <= eps, every polled module
   with a positive slow interval (wf; the datatype of slowinterval is FloatRange(0.1, 120)).
     Tn = eps + sweep    the longest a loop turn can last (all main polls + one slow poll + overhead)
     Pn                  the number of polled parameters of all polled modules of the thread (no iterator is longer)
     Lw s                no last_slow lies in the future
     Sinv s              for every polled module: now + (entries left in the iterator + 1) * Tn
                           <= last_slow + slowinterval + Pn * Tn + dmax   (nothing left: now <= last_slow + slowinterval),
                         i.e. the refill that books the next round of a module happens no later than
                         Pn * Tn + dmax after the round is due
     Q1 s                every polled parameter waits in the iterator or was refreshed (time stamp) / read by the poller
                         not earlier than last_slow - slowinterval / 2 of its module
     Q2 s                an entry waiting in the iterator was refreshed / read not earlier than BB / 2 before the
                         projected end of the running round,  BB / 2 = 3/2 slowinterval + 2 * Pn * Tn + 2 * dmax *)

(* a refill books exactly the polled parameters of the modules whose round is due *)
Theorem C13_slow_round_complete : forall s m i, alive s = true ->
  (In (m, i) (refill_list s) <-> slow_due (now s) (get_mod s m) = true /\ In i (polled_params (dsc s m))).
Proof. intros s m i. apply in_refill_list. Qed.

(* the round is worked off: every entry (m, i) of the iterator is dealt with within as many turns as the iterator is
   long (each lasting at most Tn, the thread does not sleep meanwhile): it is read by the poller, or it is skipped,
   which happens only when its time stamp is younger than half a slow interval; outcomes of the reads are arbitrary *)
Theorem C13_slow_round : forall W dmax, (forall k, 0 <= fst (script W k) <= dmax) -> 0 <= eps W ->
  forall s l, quiet s -> wf s -> topoll s = Some l ->
  forall m i, In (m, i) l -> en s m = true ->
  exists k, (1 <= k <= length l)%nat /\
    let s' := turns W k s in
    now s' <= now s + Z.of_nat k * Tn W dmax s /\
    ((exists t, now s <= t /\ In (LRead t m i) (log s')) \/
     2 * now s <= 2 * ts (get_ps (get_mod s' m) i) + si (dsc s m)).
Proof. intros W dmax Hd He s l Q Wf Tp m i Hin Hen. apply (round_progress W dmax Hd He (length l) s l); auto. Qed.

(* one loop turn: Lw and Q1 are kept; Sinv holds after every turn that starts with an empty iterator, whatever the
   state was, and is kept; Q2 is kept.  The static data (module descriptors) do not change. *)
Theorem C13_slow_invariants : forall W dmax, (forall k, 0 <= fst (script W k) <= dmax) -> 0 <= eps W ->
  forall s, quiet s -> wf s -> Lw s -> Q1 s ->
  let s' := turn W s in
  sameS s s' /\ Lw s' /\ Q1 s' /\ ((topoll s = None \/ Sinv W dmax s) -> Sinv W dmax s') /\
  (Sinv W dmax s -> Q2 W dmax s -> Q2 W dmax s').
Proof. intros W dmax Hd He s. apply (turn_slow W dmax Hd He). Qed.

(* the state in which the main loop is entered - for every module list, every outcome (failures included) and duration
   of the start-up calls - satisfies the part of the invariants that needs no history *)
Theorem C13_slow_reachable : forall W dmax, (forall k, 0 <= fst (script W k) <= dmax) ->
  forall t0 ds, 0 <= t0 ->
  (forall d, In d (map fst ds) -> enable d = true -> 0 < si d) -> existsb enable (map fst ds) = true ->
  let s0 := startup W (init_state t0 ds []) in
  quiet s0 /\ topoll s0 = None /\ wf s0 /\ Lw s0 /\ Q1 s0.
Proof.
  intros W dmax Hd t0 ds Ht Hsi Hen. simpl. set (si0 := init_state t0 ds []).
  assert (I0 : forall k, lsl si0 k = 0 /\ forall j, tsp si0 k j = 0) by (intros; apply init_obs).
  assert (Hen0 : existsb enable (descs si0) = true) by (unfold si0; rewrite descs_init; exact Hen).
  destruct (startup_quiet W dmax Hd si0 eq_refl Hen0) as [c H]. destruct (H eq_refl) as [Ad Fr].
  pose proof (sameS_adv _ _ _ Ad) as St. destruct Ad as (A & [Al Fi] & _). destruct (sfr_obs _ _ Fr) as (N & Ls & Ts).
  assert (Tp : topoll (startup W si0) = None).
  { destruct (startup_ok W si0) as (s3 & R3 & E3). rewrite Hen0 in E3. rewrite E3. exact (reach_topoll _ _ _ R3). }
  destruct (sameS_facts W dmax si0 (startup W si0) St) as (En & Si & _ & _ & Pol).
  assert (Wf0 : wf si0).
  { intros k Hk. unfold en, sint, dsc in *. rewrite md_get_mod in *. unfold si0 in *. rewrite descs_init in *.
    destruct (nth_in_or_default k (map fst ds) d0) as [K|K]; [apply Hsi; assumption|].
    rewrite K in Hk. discriminate Hk. }
  split; [|split; [exact Tp|split; [apply (wf_sameS _ _ St Wf0)|split]]].
  - split; [exact A|]. split; [exact Al|exact Fi].
  - intros k Hk. rewrite Ls, (proj1 (I0 k)). change (now si0) with t0 in N. lia.
  - intros m i Hp. right. left. rewrite Ls, (proj1 (I0 m)), Si. apply (proj1 (Pol m i)) in Hp.
    pose proof (Wf0 m (proj1 Hp)). change (now si0) with t0 in Ts. destruct (Ts m i) as [E|E]; [rewrite E, (proj2 (I0 m))|]; lia.
Qed.

(* bounded staleness of every polled parameter, from any state that satisfies the invariants: after any number of
   turns the invariants hold again and every polled parameter (m, i) has a time stamp, or a read by the poller, that is
   not older than BB / 2 = 3/2 slowinterval + 2 * Pn * Tn + 2 * dmax; failing reads count (the poller did its work),
   a read that repeats its previous error leaves the time stamp but is in the log *)
Theorem C13_slow_bound_from : forall W dmax, (forall k, 0 <= fst (script W k) <= dmax) -> 0 <= eps W ->
  forall s, quiet s -> slow_inv W dmax s ->
  forall n, let s' := turns W n s in
  quiet s' /\ slow_inv W dmax s' /\
  forall m i, en s' m = true -> In i (polled_params (dsc s' m)) ->
    let x := 2 * now s' - (3 * si (dsc s' m) + 4 * (Pn s' * Tn W dmax s') + 4 * dmax) in
    x <= 2 * ts (get_ps (get_mod s' m) i) \/ exists t, x <= 2 * t /\ In (LRead t m i) (log s').
Proof.
  intros W dmax Hd He s Q I n. destruct (turns_slow_inv W dmax Hd He n s Q I) as (Q' & _ & I').
  split; [exact Q'|]. split; [exact I'|]. intros m i Hen Hin.
  exact (stale_bound W dmax Hd He _ I' m i (conj Hen Hin)).
Qed.

(* the invariants hold whenever nothing waits in the iterator *)
Theorem C13_slow_inv_when_idle : forall W dmax s,
  wf s -> Lw s -> Sinv W dmax s -> Q1 s -> cur s = [] -> slow_inv W dmax s.
Proof.
  intros W dmax s Wf L Sv q1 C. repeat split; try assumption. intros m i _ Hin. rewrite C in Hin. contradiction.
Qed.

(* bounded staleness for whole histories: for every module list, start time, outcome and duration script (calls lasting
   at most dmax) and every number of turns, without run-time requests: once the iterator has been found empty at the
   end of a turn (n1 >= 1: the first round is worked off), at the end of every later turn every polled parameter has a
   time stamp or a poller read not older than 3/2 slowinterval + 2 * Pn * Tn + 2 * dmax *)
Theorem C13_slow_bound : forall W dmax, (forall k, 0 <= fst (script W k) <= dmax) -> 0 <= eps W ->
  forall t0 ds, 0 <= t0 ->
  (forall d, In d (map fst ds) -> enable d = true -> 0 < si d) -> existsb enable (map fst ds) = true ->
  forall n1, (1 <= n1)%nat -> cur (run W n1 (init_state t0 ds [])) = [] ->
  forall k, let s := run W (n1 + k) (init_state t0 ds []) in
  forall m i, en s m = true -> In i (polled_params (dsc s m)) ->
    let x := 2 * now s - (3 * si (dsc s m) + 4 * (Pn s * Tn W dmax s) + 4 * dmax) in
    x <= 2 * ts (get_ps (get_mod s m) i) \/ exists t, x <= 2 * t /\ In (LRead t m i) (log s).
Proof.
  intros W dmax Hd He t0 ds Ht Hsi Hen n1 Hn1 Hc k s m i Hm Hi. unfold s, run in *. clear s.
  destruct (C13_slow_reachable W dmax Hd t0 ds Ht Hsi Hen) as (Q0 & T0 & Wf0 & L0 & q0).
  set (s0 := startup W (init_state t0 ds [])) in *.
  destruct (turns_loop_inv W dmax Hd He n1 s0 Q0 Wf0 L0 q0) as (Q1' & _ & Wf1 & L1 & q1).
  assert (S1 : Sinv W dmax (turns W n1 s0)).
  { destruct n1 as [|n]; [lia|]. exact (turns_Sinv W dmax Hd He n s0 Q0 Wf0 L0 q0 (or_introl T0)). }
  pose proof (C13_slow_inv_when_idle W dmax _ Wf1 L1 S1 q1 Hc) as I1.
  rewrite turns_add in *. destruct (turns_slow_inv W dmax Hd He k _ Q1' I1) as (_ & _ & Ik).
  exact (stale_bound W dmax Hd He _ Ik m i (conj Hm Hi)).
Qed.

(* main polls are not starved by slow polls: in every state (run-time requests or not) a loop turn contains at most
   one read by the poller, and it comes after the main polls of the turn (C13_main_bound: every module overdue at the
   top of the turn is polled in it) *)
Theorem C13_one_slow_poll_per_turn : forall W s,
  (nreads (log s) <= nreads (log (turn W s)) <= S (nreads (log s)))%nat.
Proof.
  intros W s. unfold turn. destruct (finished s); [lia|]. destruct (negb (alive s)); [simpl; lia|].
  set (s1 := emit (set_now s (now s + eps W)) _). change (nreads (log s)) with (nreads (log s1)).
  destruct (_ && _).
  - rewrite (nreads_reach s1 _ (reach_wait_clear noread W s1 _ (fun _ => eq_refl))). lia.
  - assert (H : nreads (log (main_phase W s1)) = nreads (log s1)).
    { apply nreads_reach. eapply reach_weaken; [|apply reach_main_phase].
      intros e (m & _ & He). destruct e; try reflexivity; contradiction. }
    rewrite <- H. unfold slow_phase. destruct (slow_loop_log W 3 (main_phase W s1)) as [->|(m & i & ->)]; simpl; lia.
Qed.

(* no module on a shared poll thread is starved by another one - for every state (any history, run-time requests or
   not), every duration and outcome script:
   (1) in a loop turn that does not wait, the due test of module m is made in the state `turn_comes W (top W s) l1`
       reached after the polls of the modules l1 before it in this sweep - its clock is the one read after the poll of
       the previous module (second conjunct: that state is `main_step` of the previous module applied to the state in
       which that module's turn came) - and a module due at THAT moment is polled in this very turn, at that moment
       (however long the polls of the earlier modules took, and even if it was not yet due at the top of the turn);
   (2) when the iterator of slow polls is used up (`scan .. = None`) the refill takes the polled parameters of ALL
       modules whose slow round is due (`slow_due`), not only those of the first one: each of them is read in this
       turn, waits in the new iterator (and is then dealt with within as many turns as the iterator is long:
       C13_slow_round), or was skipped because its time stamp is younger than half a slow interval.
   The code facts behind the two shapes: main_clock_per_module, refill_all_due (C13_source_facts). *)
Theorem C13_no_module_starved :
  (forall W s l1 m l2, finished s = false -> alive s = true -> waits W s = false ->
     seq 0 (length (mods s)) = l1 ++ m :: l2 ->
     let sm := turn_comes W (top W s) l1 in
     alive sm = true -> enable (md (get_mod sm m)) = true ->
     last_main (get_mod sm m) + interval (get_mod sm m) < now sm ->
     In (LMain (now sm) m) (log (turn W s))) /\
  (forall W s l0 p, turn_comes W s (l0 ++ [p]) = main_step W (turn_comes W s l0) p) /\
  (forall W s, finished s = false -> alive s = true -> waits W s = false ->
     let s1 := main_phase W (top W s) in
     alive s1 = true -> wf s1 -> scan s1 (cur s1) = None ->
     forall m i, slow_due (now s1) (get_mod s1 m) = true -> In i (polled_params (dsc s1 m)) ->
       In (LRead (now s1) m i) (log (turn W s)) \/ In (m, i) (cur (turn W s)) \/ fresh s1 (m, i)).
Proof.
  split; [|split].
  - intros W s l1 m l2 Fi Al Wa E sm Alm En Due. rewrite (turn_work W s Fi Al Wa).
    pose proof (main_sweep_polls_due W (top W s) l1 m l2 E Alm En Due) as H. unfold slow_phase.
    destruct (slow_loop_log W 3 (main_phase W (top W s))) as [->|(m' & i' & ->)]; [|right]; exact H.
  - intros W s l0 p. unfold turn_comes. rewrite fold_left_app. reflexivity.
  - intros W s Fi Al Wa s1 Al1 Wf1 Sc m i Du Hi. rewrite (turn_work W s Fi Al Wa).
    exact (refill_takes_all_due W s1 Al1 Wf1 Sc m i Du Hi).
Qed.

(* non-vacuity of (1): module 0 (interval 1 s) has a doPoll of 4 s, module 1 (interval 5 s) is not due at the top of
   the second turn (t0 + 4106 <= t0 + 5120) but is when its turn comes (t0 + 8202): polled in the same turn *)
Definition demo4_ds : list (mdesc * Z) :=
  [({| enable := true; si := 15360; winit := false; iread := false; mainreads := []; params := [] |}, 1024);
   ({| enable := true; si := 15360; winit := false; iread := false; mainreads := []; params := [] |}, 5120)].
Definition demo4_W : world := {| script := fun n => (if Nat.even n then 4096 else 8, OOk); eps := 1; reconn := false |}.
Example C13_demo_not_starved :
  let s := run demo4_W 1 (init_state 1024000 demo4_ds []) in
  now (top demo4_W s) <= last_main (get_mod s 1) + interval (get_mod s 1) /\
  In (LMain (1024000 + 8202) 1%nat) (log (turn demo4_W s)).
Proof.
  cbv zeta. split; [vm_compute; congruence|].
  apply (proj1 C13_no_module_starved demo4_W (run demo4_W 1 (init_state 1024000 demo4_ds [])) [0%nat] 1%nat []);
    vm_compute; reflexivity.
Qed.

(* non-vacuity: two modules, reads that fail, the log of a short run *)
Definition demo_ds : list (mdesc * Z) :=
  [({| enable := true; si := 2048; winit := false; iread := false; mainreads := [0%nat];
       params := [{| pk := KRead; pnopoll := false |}; {| pk := KRead; pnopoll := true |}] |}, 1024);
   ({| enable := true; si := 1024; winit := false; iread := false; mainreads := [];
       params := [{| pk := KHandler; pnopoll := false |}] |}, 0)].
Definition demo_W : world :=
  {| script := fun n => if Nat.even n then (8, OErr 3 0) else (16, OOk); eps := 1; reconn := false |}.
Example C13_demo :
  let s := run demo_W 3 (init_state 1024000 demo_ds []) in
  crashed s = false /\ finished s = false /\
  rev (log s) = [LRead 1024000 0 0; LRead 1024008 1 0; LStarted 1024024;
                 LTurn 1024025; LMain 1024025 0; LMain 1024033 1;
                 LTurn 1024050; LMain 1024050 1;
                 LTurn 1024059; LMain 1024059 1].
Proof. vm_compute. auto. Qed.

(* non-vacuity of C13_survives: initialReads of the first module raises an ordinary SECoP error; the start-up goes on,
   the callback is called, both modules are polled *)
Definition demo2_ds : list (mdesc * Z) :=
  [({| enable := true; si := 1024; winit := false; iread := true; mainreads := [];
       params := [{| pk := KRead; pnopoll := false |}] |}, 1024);
   ({| enable := true; si := 1024; winit := false; iread := false; mainreads := [];
       params := [{| pk := KRead; pnopoll := false |}] |}, 1024)].
Definition demo2_W : world :=
  {| script := fun n => match n with O => (64, OErr 3 0) | _ => (1, OOk) end; eps := 1; reconn := false |}.
Example C13_demo_initialreads :
  let s := run demo2_W 1 (init_state 1024000 demo2_ds []) in
  crashed s = false /\ finished s = false /\ started s = true /\
  rev (log s) = [LIread 1024000 0; LRead 1024064 0 0; LRead 1024065 1 0; LStarted 1024066;
                 LTurn 1024067; LMain 1024067 0; LMain 1024068 1].
Proof. vm_compute. auto. Qed.

(* non-vacuity of C13_slow_bound: two polled modules with three polled parameters, one of them also read by doPoll;
   the iterator is empty after the 4th turn; the hypotheses hold, so the bound holds for every later turn *)
Definition demo3_ds : list (mdesc * Z) :=
  [({| enable := true; si := 2048; winit := false; iread := false; mainreads := [0%nat];
       params := [{| pk := KRead; pnopoll := false |}; {| pk := KRead; pnopoll := false |}] |}, 1024);
   ({| enable := true; si := 1024; winit := false; iread := false; mainreads := [];
       params := [{| pk := KHandler; pnopoll := false |}] |}, 512)].
Definition demo3_W : world := {| script := fun n => (if Nat.even n then 8 else 16, if Nat.eqb n 5 then OErr 1 0 else OOk);
                                 eps := 1; reconn := false |}.
Lemma demo3_dur : forall k, 0 <= fst (script demo3_W k) <= 16.
Proof. intros k. simpl. destruct (Nat.even k); lia. Qed.
Example C13_demo_slow :
  cur (run demo3_W 4 (init_state 1024000 demo3_ds [])) = [] /\
  forall k, let s := run demo3_W (4 + k) (init_state 1024000 demo3_ds []) in
  forall m i, en s m = true -> In i (polled_params (dsc s m)) ->
    let x := 2 * now s - (3 * si (dsc s m) + 4 * (Pn s * Tn demo3_W 16 s) + 4 * 16) in
    x <= 2 * ts (get_ps (get_mod s m) i) \/ exists t, x <= 2 * t /\ In (LRead t m i) (log s).
Proof.
  assert (C : cur (run demo3_W 4 (init_state 1024000 demo3_ds [])) = []) by (vm_compute; reflexivity).
  split; [exact C|].
  apply (C13_slow_bound demo3_W 16 demo3_dur); try (vm_compute; congruence); try lia; try exact C.
  intros d [<-|[<-|[]]] _; reflexivity.
Qed.

(* non-vacuity of C13_nopoll_module_never_polled: module 0 has enablePoll = false and a configured value that is written
   at start-up, module 1 is polled; a trigger and setFastPoll are addressed to module 0 at run time.  The thread writes
   the value, polls module 1 and never touches doPoll / read_p0 of module 0 *)
Definition demo5_ds : list (mdesc * Z) :=
  [({| enable := false; si := 1024; winit := true; iread := false; mainreads := [0%nat];
       params := [{| pk := KRead; pnopoll := false |}] |}, 0);
   ({| enable := true; si := 1024; winit := false; iread := false; mainreads := [];
       params := [{| pk := KRead; pnopoll := false |}] |}, 1024)].
Definition demo5_W : world := {| script := fun n => (8, OOk); eps := 1; reconn := false |}.
Example C13_demo_nopoll_module :
  let s := run demo5_W 4 (init_state 1024000 demo5_ds [(1024020, ATrig 0 true); (1024021, AFast 0 true 0)]) in
  crashed s = false /\ finished s = false /\
  rev (log s) = [LWinit 1024000 0; LRead 1024008 1 0; LStarted 1024016;
                 LTurn 1024017; LMain 1024017 1; LTurn 1024026; LWait 1024026 998;
                 LTurn 1025025; LMain 1025025 1; LRead 1025033 1 0; LTurn 1025042] /\
  forall t, ~ In (LMain t 0%nat) (log s).
Proof.
  cbv zeta. split; [vm_compute; reflexivity|]. split; [vm_compute; reflexivity|]. split; [vm_compute; reflexivity|].
  intros t H.
  destruct (C13_nopoll_module_never_polled demo5_W 4 1024000 demo5_ds _ t 0%nat (or_introl H)) as (d & Hd & He).
  simpl in Hd. inversion Hd; subst d. discriminate He.
Qed.

(* non-vacuity of C13_survives for an abandoned start-up: the first read of module 0 fails with a communication
   failure, the first reads of p1 and of module 1 are skipped (their time stamps are still the class default 0 when
   the slow-poll due test reaches them); the thread goes on and reads them in its first rounds *)
Definition demo6_ds : list (mdesc * Z) :=
  [({| enable := true; si := 1024; winit := false; iread := false; mainreads := [];
       params := [{| pk := KRead; pnopoll := false |}; {| pk := KRead; pnopoll := false |}] |}, 1024);
   ({| enable := true; si := 1024; winit := false; iread := false; mainreads := [];
       params := [{| pk := KRead; pnopoll := false |}] |}, 1024)].
Definition demo6_W : world :=
  {| script := fun n => match n with O => (8, OErr 4 0) | _ => (8, OOk) end; eps := 1; reconn := false |}.
Example C13_demo_abandoned_startup :
  let s1 := startup demo6_W (init_state 1024000 demo6_ds []) in
  let s := run demo6_W 3 (init_state 1024000 demo6_ds []) in
  ts (get_ps (get_mod s1 0) 1) = 0 /\ ts (get_ps (get_mod s1 1) 0) = 0 /\
  crashed s = false /\ finished s = false /\
  In (LRead 1024127 0 1) (log s) /\ In (LRead 1024136 1 0) (log s).
Proof. vm_compute. repeat apply conj; try reflexivity; tauto. Qed.

Print Assumptions C13_source_facts.
Print Assumptions C13_nopoll_never_read.
Print Assumptions C13_nopoll_module_never_polled.
Print Assumptions C13_survives.
Print Assumptions C13_wakeup_by_due.
Print Assumptions C13_main_invariant.
Print Assumptions C13_main_bound.
Print Assumptions C13_quiet_closed.
Print Assumptions C13_no_wait_during_round.
Print Assumptions C13_interval_change.
Print Assumptions C13_next_wakeup_uses_interval.
Print Assumptions C13_slow_round_complete.
Print Assumptions C13_slow_round.
Print Assumptions C13_slow_invariants.
Print Assumptions C13_slow_reachable.
Print Assumptions C13_slow_bound_from.
Print Assumptions C13_slow_inv_when_idle.
Print Assumptions C13_slow_bound.
Print Assumptions C13_one_slow_poll_per_turn.
Print Assumptions C13_no_module_starved.
