(* C18 - the property theorems, each following from an invariant or a specification lemma of Lemmas*.v, and computed
   examples with their layouts.  In the theorems layouts, states and histories are universally quantified; the guards name
   exactly the finding classes proved in Refuted.v. *)
From Coq Require Import List Arith ZArith Bool Lia.
Import ListNotations.
Require Import FV.Gen.C18 FV.C18.Model FV.C18.LemmasSt FV.C18.LemmasFe FV.C18.LemmasLi FV.C18.LemmasCo FV.C18.Refuted.

(* obligations on the facts regenerated from /repo (Gen/C18.v) *)
Theorem C18_source_facts :
  struct_callbacks_shape = true /\ struct_generated_methods_shape = true /\
  struct_member_write_returns_readback = true /\
  floatenum_value_derived_from_index = true /\ floatenum_write_selects_closest = true /\
  floatenum_write_returns_current_value = true /\ floatenum_init_shape = true /\
  check_limits_shape = true /\ check_function_installed_for_limits = true /\
  limit_check_installed_per_class_dict = true /\ limit_postfixes = true /\
  limit_datatype_from_base = true /\ limitstype_refuses_inverted = true /\
  activate_control_shape = true /\ self_controlled_shape = true /\ update_target_lookup_by_member = true /\
  callbacks_before_update_sent = true /\
  input_callbacks_per_instance = true /\ read_wrapper_announces_inside_access_lock = true.
Proof. repeat split; reflexivity. Qed.

(* STRUCT.  Full statement: for every layout, every fault script and every history, struct and members agree member by
   member.  It fails (Refuted.v, four witnesses) for a driver assignment to the side from which no callback propagates and
   for a generated struct read / write loop that a raising member aborts after the cache of an earlier member changed.
   Proved for every other history (LemmasSt.run_ok: well formed operations, no such assignment, no such abort), in every
   layout: reads, writes, hardware changes, propagating assignments, and faults of the fake driver - raising member methods
   in direct access, raising first member (or any member before a change) inside the generated loops, raising combined
   methods.  The insideRW counter is restored by try/finally (source fact), which is why it is not part of the state. *)
Theorem C18_struct_agree_except_unpropagated_assign_and_partial_abort : forall L ops,
  LemmasSt.run_ok L (St.init L) ops ->
  let s := St.run L ops in
  length (St.cst s) = St.sl_n L /\ length (St.cmem s) = St.sl_n L /\
  forall i, i < St.sl_n L -> nth i (St.cst s) 0%Z = nth i (St.cmem s) 0%Z.
Proof. intros L ops Hr. exact (LemmasSt.inv_agree L _ (LemmasSt.run_inv L ops Hr)). Qed.

(* while the fault script is empty no loop is ever aborted (the guard above then only excludes the two assignments) *)
Theorem C18_no_fault_no_partial_abort : forall L s o, LemmasSt.no_faults s -> St.partial_abort L s o = false.
Proof. intros L s o H. exact (LemmasSt.no_fault_no_abort L s o H). Qed.

(* WRITE OF A MEMBER in the layout with combined read_<struct> / write_<struct>, for EVERY coercion script of the hardware
   behind write_<struct> (it rounds / clamps / replaces any member, also members that were not written), every fault script
   and every layout (both methods written, or only one of them).  The generated write_<member> is
   [write_<struct>(cached struct with the member replaced); return read_<member>()]:
   (1) from every state in which struct and members agree (so after every admitted history): they agree afterwards, whether
       the write succeeded or failed (RangeError: write_<struct> raised or answered outside the range; HardwareError: the
       read back raised); a successful write replies the value the member parameter now holds - the value READ BACK; with a
       user written read_<struct> struct = members = what the hardware holds; with a user written write_<struct> the reply is
       what the hardware made of the request (clookup), not the request;
   (2) after every admitted history (LemmasSt.run_ok: the guards of the open findings, as in the theorem above) followed by a
       member write: struct and members agree member by member. *)
Theorem C18_struct_member_write_consistent :
  (forall L s i v, St.sl_rw L = true -> i < St.sl_n L -> LemmasSt.Inv L s ->
     let '(s', r) := St.step L s (St.WriteM i v) in
     St.cst s' = St.cmem s' /\ length (St.cmem s') = St.sl_n L /\
     match r with
     | ROk x => x = [nth i (St.cmem s') 0%Z] /\ x = [nth i (St.cst s') 0%Z] /\
                (St.sl_sr L = true -> St.cmem s' = St.hw s') /\
                (St.sl_sw L = true -> x = [St.clookup i v (St.csc s)])
     | RErr c => c = 1 \/ c = 3
     end) /\
  (forall L ops i v, LemmasSt.run_ok L (St.init L) ops -> St.sl_rw L = true -> i < St.sl_n L ->
     let s := St.run L (ops ++ [St.WriteM i v]) in
     length (St.cst s) = St.sl_n L /\ length (St.cmem s) = St.sl_n L /\
     forall j, j < St.sl_n L -> nth j (St.cst s) 0%Z = nth j (St.cmem s) 0%Z).
Proof.
  split.
  - intros L s i v Hrw Hi HI. simpl. destruct (St.in_range L v); [|destruct HI as (E & Hm & _); auto].
    rewrite Hrw. pose proof (LemmasSt.rw_write_mem_spec L i v s HI) as H.
    destruct (St.rw_write_mem L i v s) as (s', r). destruct H as ((E & Hm & _) & H).
    split; [exact E|]. split; [exact Hm|]. destruct r as [x|c]; [|exact H]. destruct H as (H1 & H2 & H3).
    rewrite E. auto.
  - intros L ops i v Hr Hrw Hi. cbv zeta. rewrite LemmasSt.run_snoc.
    apply LemmasSt.inv_agree, LemmasSt.step_inv; [exact Hi | exact I | reflexivity | now apply LemmasSt.run_inv].
Qed.

(* FLOAT/ENUM.  Full statement: after every history the value given to clients is the table value of the index.
   It fails on the fresh module and after a driver assignment to the float parameter (Refuted.v);
   proved: (a) from a consistent initial cache, (b) from any state as soon as the index was announced once,
   for every later history without such an assignment. *)
Theorem C18_floatenum_value_from_consistent_init : forall L ops,
  LemmasFe.consistent L (Fe.init L) -> forallb (fun o => negb (LemmasFe.is_setf o)) ops = true ->
  Fe.cf (Fe.run L ops) = Fe.shown L (Fe.run L ops).
Proof. intros L ops H0 Hn. exact (LemmasFe.value_from_init L ops H0 Hn). Qed.

Theorem C18_floatenum_value_after_index_update : forall L pre o post,
  LemmasFe.establishes L (Fe.run L pre) o = true -> forallb (fun o => negb (LemmasFe.is_setf o)) post = true ->
  Fe.cf (Fe.run L (pre ++ o :: post)) = Fe.shown L (Fe.run L (pre ++ o :: post)).
Proof. intros L pre o post He Hn. exact (LemmasFe.value_after_index_update L pre o post He Hn). Qed.

(* WRITE OF THE FLOAT PARAMETER, every layout (also a driver-defined write_<idx> that follows an arbitrary script: takes the
   requested index over, sets ANOTHER index instead, or raises), from every state (so after every history):
   - a write outside the table range is refused (RangeError) without effect;
   - otherwise write_<idx> is asked for closest v, an index whose table value has minimal distance to v, and every table value
     is writable (inside the range);
   - if write_<idx> raises, the write fails (HardwareError) and NOTHING has changed;
   - otherwise the cached value, the reply and the updates sent (float, index, float) are the table value of the index that
     write_<idx> REALLY set; that index is the closest one whenever the driver takes the request over. *)
Theorem C18_closest : forall L s v, Fe.vdict L <> [] ->
  (let '(s', r) := Fe.step L s (Fe.WriteF v) in
   let k := Fe.closest v (Fe.vdict L) in
   if ((v <? Fe.vmin (Fe.vdict L)) || (Fe.vmax (Fe.vdict L) <? v))%Z
   then s' = s /\ r = RErr 1
   else if LemmasFe.drv_ok L s k
        then r = ROk [Fe.shown L s'] /\ Fe.cf s' = Fe.shown L s' /\
             Fe.evs s' = (0, [Fe.shown L s']) :: (1, [Fe.ci s']) :: (0, [Fe.shown L s']) :: Fe.evs s /\
             (LemmasFe.takes_over L s k = true -> Fe.ci s' = k)
        else s' = s /\ r = RErr 3) /\
  (exists x, In (Fe.closest v (Fe.vdict L), x) (Fe.vdict L) /\
             forall j y, In (j, y) (Fe.vdict L) -> (Z.abs (x - v) <= Z.abs (y - v))%Z) /\
  (forall j y, In (j, y) (Fe.vdict L) -> (Fe.vmin (Fe.vdict L) <= y <= Fe.vmax (Fe.vdict L))%Z).
Proof.
  intros L s v Hne. split; [exact (LemmasFe.write_float_spec L s v)|]. split.
  - exact (LemmasFe.closest_spec _ v Hne).
  - exact (LemmasFe.table_in_range (Fe.vdict L)).
Qed.

(* after a write of the float parameter - successful or failed, whatever write_<idx> does with the request - the value
   belongs to the index: (1) from ANY state a successful write leaves cache = reply = table value of the current index and a
   failed one (RangeError of the datatype, or write_<idx> raised) leaves the state exactly as it was; (2) hence after every
   history in which the index was announced once and the float parameter was not assigned since (the guards of the two
   theorems above: the open findings floatenum-initial-cache and floatenum-assign-float), a further write of the float
   parameter - successful or not - ends with cache = valuedict[index]. *)
Theorem C18_floatenum_write_consistent :
  (forall L s v, let '(s', r) := Fe.step L s (Fe.WriteF v) in
     match r with
     | ROk x => Fe.cf s' = Fe.shown L s' /\ x = [Fe.shown L s']
     | RErr c => s' = s /\ (c = 1 \/ c = 3)
     end) /\
  (forall L pre o post v,
     LemmasFe.establishes L (Fe.run L pre) o = true -> forallb (fun o => negb (LemmasFe.is_setf o)) post = true ->
     let s := Fe.run L (pre ++ o :: post ++ [Fe.WriteF v]) in Fe.cf s = Fe.shown L s) /\
  (forall L ops v,
     LemmasFe.consistent L (Fe.init L) -> forallb (fun o => negb (LemmasFe.is_setf o)) ops = true ->
     let s := Fe.run L (ops ++ [Fe.WriteF v]) in Fe.cf s = Fe.shown L s).
Proof.
  split; [|split].
  - intros L s v. pose proof (LemmasFe.write_float_spec L s v) as H. cbv zeta in H.
    destruct (Fe.step L s (Fe.WriteF v)) as (s', r).
    destruct ((v <? Fe.vmin (Fe.vdict L)) || (Fe.vmax (Fe.vdict L) <? v))%Z; [destruct H as (-> & ->); auto|].
    destruct (LemmasFe.drv_ok L s (Fe.closest v (Fe.vdict L))); [destruct H as (-> & H & _) | destruct H as (-> & ->)]; auto.
  - intros L pre o post v He Hn. apply LemmasFe.value_after_index_update; auto. rewrite forallb_app, Hn. reflexivity.
  - intros L ops v H0 Hn. apply LemmasFe.value_from_init; auto. rewrite forallb_app, Hn. reflexivity.
Qed.

(* LIMITS.  For every class layout of the module - which class of the hierarchy defines the parameter, which classes (also
   plain mixins, also several) define a_min / a_max / a_limits as Limit(), which classes carry a check_a written by the
   programmer - with the list of check functions DERIVED as HasAccessibles.__init_subclass__ derives it (class by class,
   `check_a not in base.__dict__`), and from every state (so after every history, including driver assignments to the limits):
   an accepted write lies inside the datatype range and inside EVERY limit parameter of the module and is stored; a refused
   write changes nothing.  LemmasLi.layout_wf: the module class derives from Module, a is an accessible, and a check_a written
   in the very class that defines a limit parameter calls checkLimits itself (it replaces the generated one by design).
   (checkLimits is modelled as repaired by e1c174f: the a_limits test no longer shadows a_min / a_max.)
   Second part: the verdict is the same in every class layout - accepted iff inside the datatype range, accepted by checkLimits
   and (if a check_a exists anywhere) by the plausibility test of the programmer. *)
Theorem C18_limits_respected :
  (forall L s v s', LemmasLi.layout_wf L ->
     (forall r, Li.step L s (Li.WriteA v) = (s', ROk r) -> LemmasLi.within_all L s v /\ Li.va s' = v /\ r = [v]) /\
     (forall c, Li.step L s (Li.WriteA v) = (s', RErr c) -> s' = s /\ c = 1)) /\
  (forall L s v, LemmasLi.layout_wf L ->
     ((exists s', Li.step L s (Li.WriteA v) = (s', ROk [v])) <->
      Li.in_base L v = true /\ Li.check_limits L s v = true /\ (LemmasLi.any_user L = true -> Li.plausible v = true))).
Proof.
  split.
  - intros L s v s' Hwf. rewrite (LemmasLi.write_a_spec L s v Hwf). destruct (LemmasLi.accepted L s v) eqn:E.
    + apply LemmasLi.accepted_iff in E. destruct E as (Eb & Ec & _). split; [intros r [= <- <-] | discriminate].
      split; [now apply LemmasLi.checked_within_all | split; reflexivity].
    + split; [discriminate | intros c [= <- <-]; auto].
  - intros L s v Hwf. rewrite (LemmasLi.write_a_spec L s v Hwf), <- LemmasLi.accepted_iff.
    destruct (LemmasLi.accepted L s v); split;
      [reflexivity | intros _; eexists; reflexivity | intros (s' & H); discriminate H | discriminate].
Qed.

(* an inverted pair in force (a_limits hi < lo, or a_min > a_max, in any class layout) refuses every write of the base parameter; a LimitsType
   parameter refuses an inverted pair and never holds one, whatever the history *)
Theorem C18_inverted_refused :
  (forall L s v, LemmasLi.layout_wf L -> LemmasLi.inverted_in_force L s -> Li.step L s (Li.WriteA v) = (s, RErr 1)) /\
  (forall L s lo hi, (hi < lo)%Z -> Li.step L s (Li.WriteRng lo hi) = (s, RErr 1)) /\
  (forall L ops, (fst (Li.vrng (Li.run L ops)) <= snd (Li.vrng (Li.run L ops)))%Z).
Proof.
  split; [exact LemmasLi.inverted_refuses_all|]. split; [exact LemmasLi.rng_inverted_refused|].
  exact LemmasLi.run_rng_ordered.
Qed.

(* limits set through write requests only stay inside the base range *)
Theorem C18_limits_in_base_range : forall L ops, (Li.l_lo L <= 0 <= Li.l_hi L)%Z ->
  forallb (fun o => negb (LemmasLi.is_set o)) ops = true -> LemmasLi.limits_in_base L (Li.run L ops).
Proof. intros L ops H0 Hn. exact (LemmasLi.run_limits_in_base L ops H0 Hn). Qed.

(* CONTROL.  Controllers of three kinds: plain; switch-off first writes the safe value to the output's target (the output
   calls self_controlled in the middle of the take-over); switch-off raises while its fault flag is set.
   Full statement: after every history at most one controller is marked, the output names exactly the marked one, and names
   self iff nobody is marked.  It fails (Refuted.v) when the output's own target is written while the switch-off of the
   controlling module raises.  Proved for every other history of target writes (controllers, output), update_target calls
   and fault script changes - including every take-over through a safe-value writer and every refused take-over. *)
Theorem C18_single_controller_except_failing_self_controlled : forall kinds ops,
  LemmasCo.run_ok kinds (Co.init kinds) ops ->
  let s := Co.run kinds ops in
  (forall j k, nth j (Co.act s) false = true -> nth k (Co.act s) false = true -> j = k) /\
  (forall j, nth j (Co.act s) false = true <-> Co.by_ s = S j) /\
  (Co.by_ s = 0 <-> forall j, nth j (Co.act s) false = false) /\
  Co.by_ s <= length kinds /\ length (Co.act s) = length kinds.
Proof. intros kinds ops Hr. exact (LemmasCo.single_controller kinds _ (LemmasCo.run_inv kinds ops Hr)). Qed.

(* taking over from any consistent state (so: any reachable one): either the new controller is the only one marked and the
   output names it, or the switch-off of the previous controller raised, the take-over is refused and NOTHING has changed *)
Theorem C18_takeover_switches_previous_off_or_is_refused : forall kinds s i v, i < length kinds -> LemmasCo.Inv kinds s ->
  let '(s', r) := Co.step kinds s (Co.WriteT i v) in
  match r with
  | ROk _ => Co.by_ s' = S i /\ (forall j, nth j (Co.act s') false = true <-> j = i)
  | RErr _ => s' = s /\ exists j, Co.by_ s = S j /\ j <> i /\ LemmasCo.failing kinds s j = true
  end.
Proof.
  intros kinds s i v Hi HI. pose proof (LemmasCo.write_target_spec kinds s i v Hi HI) as H.
  destruct (Co.step kinds s (Co.WriteT i v)) as (s', [x|c]); destruct H as (HI' & H); [|exact H].
  split; [exact H | exact (LemmasCo.inv_named kinds s' i HI' H)].
Qed.

(* every single step keeps the invariant (this is what makes the order inside activate_control matter) *)
Theorem C18_control_step_invariant : forall kinds s o,
  LemmasCo.op_wf kinds o -> LemmasCo.self_controlled_fails kinds s o = false -> LemmasCo.Inv kinds s ->
  LemmasCo.Inv kinds (fst (Co.step kinds s o)).
Proof. intros kinds s o Hw Hg HI. exact (LemmasCo.step_inv kinds s o Hw Hg HI). Qed.

(* non-vacuity: concrete histories *)
Example C18_demo_struct :
  let s := St.run Refuted.L_combined [St.Hw [7%Z]; St.WriteM 0 3%Z] in (St.cst s, St.cmem s, St.hw s) = ([3%Z], [3%Z], [3%Z]).
Proof. vm_compute. reflexivity. Qed.
Example C18_demo_floatenum :
  let s := Fe.run Refuted.L_desc [Fe.WriteF 1%Z] in (Fe.ci s, Fe.cf s, rev (Fe.evs s)) = (1%Z, 1%Z, [(0, [1%Z]); (1, [1%Z]); (0, [1%Z])]).
Proof. vm_compute. reflexivity. Qed.
(* a driver-defined write_<idx> that answers with index 0 when index 1 is requested: the float write of 0.5 (closest: index 1)
   ends with index 0 and value, reply and updates of index 0 (1.0); when it raises nothing changes *)
Definition L_scripted : Fe.layout :=
  {| Fe.f_labels := Fe.f_labels Refuted.L_desc; Fe.f_ri := false; Fe.f_wi := 3 |}.
Example C18_demo_floatenum_coerced :
  let '(s, r) := Fe.step L_scripted (Fe.run L_scripted [Fe.SetI 1%Z; Fe.Script [(1%Z, Some 0%Z)]]) (Fe.WriteF 1%Z) in
  (r, Fe.ci s, Fe.cf s, Fe.hwi s, firstn 3 (Fe.evs s)) = (ROk [2%Z], 0%Z, 2%Z, 0%Z, [(0, [2%Z]); (1, [0%Z]); (0, [2%Z])]) /\
  Fe.step L_scripted (Fe.run L_scripted [Fe.SetI 0%Z; Fe.Script [(1%Z, None)]]) (Fe.WriteF 1%Z)
  = (Fe.run L_scripted [Fe.SetI 0%Z; Fe.Script [(1%Z, None)]], RErr 3).
Proof. vm_compute. split; reflexivity. Qed.
Example C18_demo_control :
  let s := Co.run [0; 0; 0] [Co.WriteT 0 1%Z; Co.WriteT 2 5%Z] in
  (Co.by_ s, Co.act s) = (3, [false; false; true]) /\ In (10, [0%Z]) (Co.evs s).
Proof. vm_compute. split; [reflexivity|]. right. right. right. left. reflexivity. Qed.
(* take-over from a safe-value writer: the output went through controlled_by = self and target 0 in the middle *)
Example C18_demo_control_safe_writer :
  let s := Co.run [1; 0] [Co.WriteT 0 1%Z; Co.WriteT 1 5%Z] in
  (Co.by_ s, Co.act s, Co.otarget s) = (2, [false; true], 0%Z) /\
  rev (firstn 8 (Co.evs s)) = [(0, [0%Z]); (1, [0%Z]); (10, [0%Z]); (1, [0%Z]); (10, [0%Z]); (0, [2%Z]); (12, [1%Z]); (13, [5%Z])].
Proof. vm_compute. split; reflexivity. Qed.
(* refused take-over, and a fault inside a generated struct read that is admissible (first member raises) *)
Example C18_demo_control_refused :
  let s := Co.run [2; 0] [Co.WriteT 0 1%Z; Co.CFault [true]; Co.WriteT 1 5%Z] in (Co.by_ s, Co.act s) = (1, [true; false]).
Proof. vm_compute. reflexivity. Qed.
Example C18_demo_struct_fault :
  LemmasSt.run_ok Refuted.L_two (St.init Refuted.L_two)
    [St.Hw [5%Z; 6%Z]; St.Fault [true; false] []; St.ReadS; St.Fault [] []; St.WriteM 1 3%Z] /\
  St.cst (St.run Refuted.L_two [St.Hw [5%Z; 6%Z]; St.Fault [true; false] []; St.ReadS; St.Fault [] []; St.WriteM 1 3%Z]) = [0%Z; 3%Z].
Proof. vm_compute. repeat constructor. Qed.

(* class layouts.  An ancestor defines a together with its own check_a, a subclass adds a_min / a_max: the generated limit check
   is put on the subclass (check_a is inherited, but not in the __dict__ of the subclass) and stands before the inherited one *)
Definition K (acc par : bool) (u : nat) (mn mx lm : bool) : Li.cls :=
  {| Li.c_acc := acc; Li.c_param := par; Li.c_user := u; Li.c_min := mn; Li.c_max := mx; Li.c_lim := lm |}.
Definition L_sub : Li.layout :=
  {| Li.l_lo := (-10)%Z; Li.l_hi := 10%Z; Li.l_classes := [K true false 0 true true false; K true true 1 false false false] |}.
Example C18_demo_limits_in_subclass :
  Li.chain (Li.l_classes L_sub) = [Li.CkAuto; Li.CkUser 1] /\ LemmasLi.layout_wf L_sub /\
  let s := Li.run L_sub [Li.WriteMin 0%Z] in
  snd (Li.step L_sub s (Li.WriteA (-6)%Z)) = RErr 1 /\ snd (Li.step L_sub s (Li.WriteA 5%Z)) = ROk [5%Z] /\
  snd (Li.step L_sub s (Li.WriteA 7%Z)) = RErr 1.
Proof. vm_compute. repeat split; eauto. Qed.
(* test_limit_inheritance of the repository: limits in a plain mixin between the module class and the base class, both with
   a check_a; and limits split over two classes (each gets a generated check) *)
Example C18_demo_limits_in_mixin :
  Li.chain [K true false 1 false false false; K false false 0 true true false; K true true 1 false false false]
    = [Li.CkUser 1; Li.CkAuto; Li.CkUser 1] /\
  Li.chain [K true false 0 false true false; K true true 0 true false false] = [Li.CkAuto; Li.CkAuto].
Proof. vm_compute. split; reflexivity. Qed.
(* the guard of layout_wf is needed: a check_a written in the class that defines the limit and not calling checkLimits replaces
   the generated check (by design), the limit is then not tested at all *)
Example C18_demo_user_check_next_to_limit_replaces_generated_check :
  let L := {| Li.l_lo := (-10)%Z; Li.l_hi := 10%Z; Li.l_classes := [K true true 1 true false false] |} in
  Li.chain (Li.l_classes L) = [Li.CkUser 1] /\
  snd (Li.step L (Li.run L [Li.WriteMin 0%Z]) (Li.WriteA (-6)%Z)) = ROk [(-6)%Z].
Proof. vm_compute. split; reflexivity. Qed.
(* a member write through a write_<struct> whose hardware takes 5 when 7 is asked for member 0: reply, member, struct and
   hardware all show 5 *)
Example C18_demo_struct_member_write_coerced :
  let '(s, r) := St.step Refuted.L_combined (St.run Refuted.L_combined [St.Coerce [(0, 7%Z, 5%Z)]]) (St.WriteM 0 7%Z) in
  (r, St.cst s, St.cmem s, St.hw s, rev (St.evs s)) = (ROk [5%Z], [5%Z], [5%Z], [5%Z],
     [(1, [5%Z]); (0, [5%Z]); (1, [5%Z]); (0, [5%Z]); (1, [5%Z]); (1, [5%Z])]).
Proof. vm_compute. reflexivity. Qed.

(* SEVERAL OUTPUT MODULES on one node, each with its own controllers (any number of outputs, any controller kinds, any
   history of addressed operations - take-overs, manual writes, update_target calls, fault changes - interleaved at will):
   (1) frame: one operation addressed to output k leaves the complete control state of every other output k' untouched
       (controlled_by, the control_active flags and targets of ITS controllers, its update stream);
   (2) after every history the state of output k is the state of the single-output model run on the operations addressed
       to k alone, so two histories that agree on k agree on its state whatever happens on the other outputs;
   (3) hence per output: at most one controller marked, the output names exactly that one, self iff nobody (for the
       histories admitted for that output by LemmasCo.run_ok, the guard being the open finding of failing switch-off).
   This rests on the source fact input_callbacks_per_instance (the callback dict is created per output instance). *)
Theorem C18_control_outputs_independent : forall Ls,
  (forall s k o k', k' <> k ->
     nth k' (Mo.outs (fst (Mo.step Ls s (k, o)))) Mo.co0 = nth k' (Mo.outs s) Mo.co0) /\
  (forall ops k, k < length Ls ->
     nth k (Mo.outs (Mo.run Ls ops)) Mo.co0 = Co.run (nth k Ls []) (Mo.ops_for k ops)) /\
  (forall ops ops' k, k < length Ls -> Mo.ops_for k ops = Mo.ops_for k ops' ->
     nth k (Mo.outs (Mo.run Ls ops)) Mo.co0 = nth k (Mo.outs (Mo.run Ls ops')) Mo.co0) /\
  (forall ops k, k < length Ls ->
     LemmasCo.run_ok (nth k Ls []) (Co.init (nth k Ls [])) (Mo.ops_for k ops) ->
     let s := nth k (Mo.outs (Mo.run Ls ops)) Mo.co0 in
     (forall j j', nth j (Co.act s) false = true -> nth j' (Co.act s) false = true -> j = j') /\
     (forall j, nth j (Co.act s) false = true <-> Co.by_ s = S j) /\
     (Co.by_ s = 0 <-> forall j, nth j (Co.act s) false = false)).
Proof.
  intros Ls. split; [intros; now apply LemmasCo.step_frame|]. split; [intros; now apply LemmasCo.run_proj|].
  split; [intros; now apply LemmasCo.run_independent|].
  intros ops k Hk Hr. cbv zeta. rewrite LemmasCo.run_proj by exact Hk.
  destruct (LemmasCo.single_controller _ _ (LemmasCo.run_inv _ _ Hr)) as (H1 & H2 & H3 & _). auto.
Qed.

(* TWO THREADS on a module with a struct parameter.  Every wrapped read_ / write_ method is
   [acquire accessLock; body; release]; read_<struct> of the layout without combined methods is split in its two halves
   (collect the members / announce the collected dict) with a possible thread switch in between and at every lock
   operation.  For EVERY pair of programs and EVERY schedule:
   (1) mutual exclusion: at most one thread is inside a body, and exactly the lock holder is;
   (2) while the lock is free (in particular at quiescence) the module state is the state of the SERIAL execution of the
       completed operations in the order in which the lock was released - so between the collection and the announcement
       of read_<struct> no write of the other thread took place;
   (3) therefore struct and members agree member by member whenever the lock is free, under the guard of the
       sequential theorem applied to that serial history.
   Rests on the source fact read_wrapper_announces_inside_access_lock. *)
Theorem C18_struct_read_atomic : forall L pa pb sched,
  let c := Cs.run L pa pb sched in
  (forall t u, Cs.phase (Cs.get c t) <> 0 -> Cs.phase (Cs.get c u) <> 0 -> t = u) /\
  (Cs.holder c = None <-> forall t, Cs.phase (Cs.get c t) = 0) /\
  (Cs.quiescent c = true -> Cs.holder c = None) /\
  (Cs.holder c = None -> Cs.sst c = St.run L (rev (Cs.lin c))) /\
  (Cs.holder c = None -> LemmasSt.run_ok L (St.init L) (rev (Cs.lin c)) ->
     length (St.cst (Cs.sst c)) = St.sl_n L /\ length (St.cmem (Cs.sst c)) = St.sl_n L /\
     forall i, i < St.sl_n L -> nth i (St.cst (Cs.sst c)) 0%Z = nth i (St.cmem (Cs.sst c)) 0%Z).
Proof.
  intros L pa pb sched c. pose proof (LemmasSt.sched_inv L pa pb sched) as HI. fold c in HI.
  destruct (LemmasSt.mutual_exclusion L c HI) as (H1 & H2).
  split; [exact H1|]. split; [exact H2|]. split; [exact (LemmasSt.quiescent_free L c HI)|].
  split; [exact (LemmasSt.serial_when_free L c HI)|].
  intros Hn Hr. rewrite (LemmasSt.serial_when_free L c HI Hn). exact (LemmasSt.inv_agree L _ (LemmasSt.run_inv L _ Hr)).
Qed.

(* non-vacuity: read_st of thread A and write_a 9 of thread B, layout without combined methods, hardware member a;
   B chosen between the two halves of the read stays blocked: the result is the serial run [ReadS; WriteM 0 9] *)
Example C18_demo_struct_read_atomic :
  let L := {| St.sl_n := 2; St.sl_rw := false; St.sl_sr := false; St.sl_sw := false; St.sl_mr := [true; true];
              St.sl_mw := [true; true]; St.sl_lo := (-100)%Z; St.sl_hi := 100%Z |} in
  let c := Cs.run L [St.ReadS] [St.WriteM 0 9%Z] [false; false; true; true; false; true; true; true] in
  Cs.quiescent c = true /\ rev (Cs.lin c) = [St.ReadS; St.WriteM 0 9%Z] /\
  St.cst (Cs.sst c) = [9%Z; 0%Z] /\ St.cmem (Cs.sst c) = [9%Z; 0%Z].
Proof. vm_compute. repeat split; reflexivity. Qed.

(* non-vacuity: two outputs; b (output 1) takes control, then a take-over and a manual write on output 0 *)
Example C18_demo_outputs_independent :
  let s := Mo.run [[0; 0]; [0]] [(1, Co.WriteT 0 1%Z); (0, Co.WriteT 0 2%Z); (0, Co.WriteT 1 3%Z); (0, Co.WriteO 4%Z)] in
  map Co.by_ (Mo.outs s) = [0; 1] /\ map Co.act (Mo.outs s) = [[false; false]; [true]].
Proof. vm_compute. split; reflexivity. Qed.

Print Assumptions C18_source_facts.
Print Assumptions C18_control_outputs_independent.
Print Assumptions C18_struct_read_atomic.
Print Assumptions C18_struct_agree_except_unpropagated_assign_and_partial_abort.
Print Assumptions C18_no_fault_no_partial_abort.
Print Assumptions C18_struct_member_write_consistent.
Print Assumptions C18_floatenum_value_from_consistent_init.
Print Assumptions C18_floatenum_value_after_index_update.
Print Assumptions C18_closest.
Print Assumptions C18_floatenum_write_consistent.
Print Assumptions C18_limits_respected.
Print Assumptions C18_inverted_refused.
Print Assumptions C18_limits_in_base_range.
Print Assumptions C18_single_controller_except_failing_self_controlled.
Print Assumptions C18_takeover_switches_previous_off_or_is_refused.
Print Assumptions C18_control_step_invariant.
Print Assumptions Refuted.C18_refuted_struct_assign_without_combined_methods.
Print Assumptions Refuted.C18_refuted_member_assign_with_combined_methods.
Print Assumptions Refuted.C18_refuted_floatenum_initial_cache.
Print Assumptions Refuted.C18_refuted_floatenum_assign_float.
Print Assumptions Refuted.C18_refuted_struct_write_partial_failure.
Print Assumptions Refuted.C18_refuted_struct_read_partial_failure.
Print Assumptions Refuted.C18_refuted_self_controlled_switch_off_fails.
