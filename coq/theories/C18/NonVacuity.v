(* C18 - vacuity audit.  Every theorem of Properties.v that has premises is APPLIED at a concrete instance: a layout of the
   kind the harness generates (harness/props/C18.py gen_*_layout; Run.check_case starts every case at St.init / Fe.init /
   Li.init / Co.init of such a layout - C18 has no oracles, environments or Section variables with laws), a history of
   10..19 operations that reaches the state, and - where the conclusion is a case distinction - one instance per branch, with
   a computed companion example saying which branch is taken.  All premises are closed by vm_compute / reflexivity / lia or by
   the invariant lemma applied to a computed run_ok.
   Kinds of premises met: (1) run_ok guards evaluated along the run (St, Co) - closed by computation on histories that contain
   faults, refused operations and aborted loops; (2) invariants of reachable states (LemmasSt.Inv, LemmasCo.Inv) - closed by
   run_inv from the computed run_ok; (3) decidable layout conditions (layout_wf, vdict <> [], consistent init, 0 in the base
   range); (4) premises about reachable states that an invariant might contradict (inverted_in_force, failing controller in
   control, no_faults) - each shown at a state reached by client requests only. *)
From Coq Require Import List Arith ZArith Bool Lia.
Import ListNotations.
Require Import FV.C18.Model FV.C18.LemmasSt FV.C18.LemmasFe FV.C18.LemmasLi FV.C18.LemmasCo FV.C18.Refuted.
Require Import FV.C18.Properties.
Local Open Scope Z_scope.

(* layout without combined methods, 3 members, mixed user methods (member 0: write only, 1: read only, 2: both) *)
Definition LS3 : St.layout :=
  {| St.sl_n := 3; St.sl_rw := false; St.sl_sr := false; St.sl_sw := false;
     St.sl_mr := [false; true; true]; St.sl_mw := [true; false; true]; St.sl_lo := (-100); St.sl_hi := 100 |}.

(* 15 operations: hardware change, complete struct read / write, member write, propagating driver assignment, then a fault
   script under which a direct member read raises (HardwareError), a direct member write raises (RangeError), the generated
   struct read is aborted at member 1 BEFORE any cache changed (member 0 has no read method), a struct write is refused by
   the datatype, a struct write is aborted at member 2 after members 0 and 1 were written with the values they already
   had; faults cleared, hardware change, member read, struct write *)
Definition opsS3 : list St.op :=
  [St.Hw [5; 6; 7]; St.ReadS; St.WriteS [1; 2; 3]; St.WriteM 1 9; St.SetM 2 4;
   St.Fault [false; true; false] [false; false; true]; St.ReadM 1; St.WriteM 2 8; St.ReadS;
   St.WriteS [1; 200; 3]; St.WriteS [1; 9; 3]; St.Fault [] []; St.Hw [11; 12; 13]; St.ReadM 2; St.WriteS [21; 22; 23]].

Example C18_nonvacuous_run_ok_S3 : LemmasSt.run_ok LS3 (St.init LS3) opsS3.
Proof. vm_compute. repeat constructor. Qed.

(* the results of the 15 operations: 5 of them fail, with both error codes *)
Fixpoint st_results (L : St.layout) (s : St.state) (ops : list St.op) : list res :=
  match ops with [] => [] | o :: r => let '(s', x) := St.step L s o in x :: st_results L s' r end.
Example C18_S3_results :
  st_results LS3 (St.init LS3) opsS3 =
  [ROk []; ROk [0; 6; 7]; ROk [1; 2; 3]; ROk [9]; ROk []; ROk []; RErr 3; RErr 1; RErr 3; RErr 1; RErr 1; ROk []; ROk [];
   ROk [13]; ROk [21; 22; 23]] /\
  (let s := St.run LS3 (firstn 11 opsS3) in (St.cst s, St.cmem s, St.hw s, St.est s, St.emem s)
     = ([1; 9; 4], [1; 9; 4], [1; 6; 3], true, [false; false; false])).
Proof. vm_compute. split; reflexivity. Qed.

Example C18_struct_agree_applies_S3 :
  let s := St.run LS3 opsS3 in
  length (St.cst s) = St.sl_n LS3 /\ length (St.cmem s) = St.sl_n LS3 /\
  forall i, (i < St.sl_n LS3)%nat -> nth i (St.cst s) 0 = nth i (St.cmem s) 0.
Proof. apply C18_struct_agree_except_unpropagated_assign_and_partial_abort. exact C18_nonvacuous_run_ok_S3. Qed.

(* combined layout (read_<struct> and write_<struct> written by the programmer), 2 members *)
Definition LC2 : St.layout :=
  {| St.sl_n := 2; St.sl_rw := true; St.sl_sr := true; St.sl_sw := true;
     St.sl_mr := [false; false]; St.sl_mw := [false; false]; St.sl_lo := (-100); St.sl_hi := 100 |}.

(* 14 operations: hardware change, member read, coercion script, coerced struct write, propagating driver assignment,
   read_<struct> raising (struct read and member read fail), write_<struct> raising (struct write and member write fail),
   a member write whose coerced value leaves the range (RangeError after the hardware was set), a coerced member write *)
Definition opsC2 : list St.op :=
  [St.Hw [5; 6]; St.ReadM 1; St.Coerce [(0%nat, 7, 5); (1%nat, 50, 200)]; St.WriteS [7; 8]; St.SetS [1; 2];
   St.Fault [true] []; St.ReadS; St.ReadM 0; St.Fault [] [true]; St.WriteS [3; 4]; St.WriteM 0 3; St.Fault [] [];
   St.WriteM 1 50; St.WriteM 0 7].

Example C18_nonvacuous_run_ok_C2 : LemmasSt.run_ok LC2 (St.init LC2) opsC2.
Proof. vm_compute. repeat constructor. Qed.

Example C18_C2_results :
  st_results LC2 (St.init LC2) opsC2 =
  [ROk []; ROk [6]; ROk []; ROk [5; 8]; ROk []; ROk []; RErr 3; RErr 3; ROk []; RErr 1; RErr 1; ROk []; RErr 1; ROk [5]] /\
  (let s := St.run LC2 opsC2 in (St.cst s, St.cmem s, St.hw s) = ([5; 2], [5; 2], [5; 2])).
Proof. vm_compute. split; reflexivity. Qed.

Example C18_struct_agree_applies_C2 :
  let s := St.run LC2 opsC2 in
  length (St.cst s) = St.sl_n LC2 /\ length (St.cmem s) = St.sl_n LC2 /\
  forall i, (i < St.sl_n LC2)%nat -> nth i (St.cst s) 0 = nth i (St.cmem s) 0.
Proof. apply C18_struct_agree_except_unpropagated_assign_and_partial_abort. exact C18_nonvacuous_run_ok_C2. Qed.

(* C18_no_fault_no_partial_abort: the premise no_faults is a universally quantified statement about the two fault lists of
   the state; it holds in the state reached by the first 5 operations of opsS3 (no script yet) and in the state after the
   whole history (script set, then cleared); an explicit all-false script of the right length satisfies it as well *)
Example C18_nonvacuous_no_faults :
  LemmasSt.no_faults (St.run LS3 (firstn 5 opsS3)) /\ LemmasSt.no_faults (St.run LS3 opsS3) /\
  LemmasSt.no_faults (St.run LS3 (opsS3 ++ [St.Fault [false; false; false] [false; false; false]])).
Proof.
  split; [|split]; split; intros i; vm_compute; do 4 (destruct i as [|i]; [reflexivity|]); reflexivity.
Qed.

Example C18_no_fault_no_partial_abort_applies :
  St.partial_abort LS3 (St.run LS3 opsS3) St.ReadS = false /\
  St.partial_abort LS3 (St.run LS3 (firstn 5 opsS3)) (St.WriteS [30; 31; 32]) = false.
Proof.
  split; apply C18_no_fault_no_partial_abort.
  - exact (proj1 (proj2 C18_nonvacuous_no_faults)).
  - exact (proj1 C18_nonvacuous_no_faults).
Qed.
(* ... while the guard is not identically false: with the fault script of opsS3 a struct write that changes member 0 first
   IS a partial abort (this is the finding class, excluded by run_ok) *)
Example C18_partial_abort_happens :
  St.partial_abort LS3 (St.run LS3 (firstn 9 opsS3)) (St.WriteS [2; 9; 3]) = true.
Proof. vm_compute. reflexivity. Qed.

(* C18_struct_member_write_consistent, first part: premises sl_rw L = true, i < sl_n L, Inv L s.  Inv at a reachable state
   follows from the computed run_ok *)
Definition member_write_concl (L : St.layout) (s : St.state) (i : nat) (v : Z) : Prop :=
  let '(s', r) := St.step L s (St.WriteM i v) in
  St.cst s' = St.cmem s' /\ length (St.cmem s') = St.sl_n L /\
  match r with
  | ROk x => x = [nth i (St.cmem s') 0] /\ x = [nth i (St.cst s') 0] /\
             (St.sl_sr L = true -> St.cmem s' = St.hw s') /\
             (St.sl_sw L = true -> x = [St.clookup i v (St.csc s)])
  | RErr c => c = 1%nat \/ c = 3%nat
  end.

(* the four outcomes of a member write in the combined layout, each from a state reached by a prefix of opsC2:
   coerced write accepted (ROk [5] for the request 7), write_<struct> raises (RErr 1), coerced value outside the range
   (RErr 1), read back raises (RErr 3) *)
Example C18_struct_member_write_applies :
  member_write_concl LC2 (St.run LC2 (firstn 13 opsC2)) 0 7 /\
  member_write_concl LC2 (St.run LC2 (firstn 10 opsC2)) 0 3 /\
  member_write_concl LC2 (St.run LC2 (firstn 12 opsC2)) 1 50 /\
  member_write_concl LC2 (St.run LC2 (firstn 6 opsC2)) 1 4.
Proof.
  split; [|split; [|split]];
    (apply (proj1 C18_struct_member_write_consistent);
     [reflexivity | repeat constructor | apply LemmasSt.run_inv, LemmasSt.run_ok_firstn, C18_nonvacuous_run_ok_C2]).
Qed.
Example C18_struct_member_write_branches :
  snd (St.step LC2 (St.run LC2 (firstn 13 opsC2)) (St.WriteM 0 7)) = ROk [5] /\
  snd (St.step LC2 (St.run LC2 (firstn 10 opsC2)) (St.WriteM 0 3)) = RErr 1 /\
  snd (St.step LC2 (St.run LC2 (firstn 12 opsC2)) (St.WriteM 1 50)) = RErr 1 /\
  snd (St.step LC2 (St.run LC2 (firstn 6 opsC2)) (St.WriteM 1 4)) = RErr 3.
Proof. vm_compute. repeat split; reflexivity. Qed.

(* the inner premises sl_sr L = true / sl_sw L = true of the ROk branch: both hold in LC2; a layout with only read_<struct>
   and one with only write_<struct> (the other two shapes the harness generates) *)
Definition LC2r : St.layout :=
  {| St.sl_n := 2; St.sl_rw := true; St.sl_sr := true; St.sl_sw := false;
     St.sl_mr := [false; false]; St.sl_mw := [false; false]; St.sl_lo := (-100); St.sl_hi := 100 |}.
Definition LC2w : St.layout :=
  {| St.sl_n := 2; St.sl_rw := true; St.sl_sr := false; St.sl_sw := true;
     St.sl_mr := [false; false]; St.sl_mw := [false; false]; St.sl_lo := (-100); St.sl_hi := 100 |}.
Definition opsC2x : list St.op := [St.Hw [5; 6]; St.ReadS; St.Coerce [(1%nat, 9, 10)]; St.WriteS [3; 4]; St.Hw [7; 8]].
Example C18_struct_member_write_applies_other_layouts :
  member_write_concl LC2r (St.run LC2r opsC2x) 1 9 /\ member_write_concl LC2w (St.run LC2w opsC2x) 1 9 /\
  snd (St.step LC2r (St.run LC2r opsC2x) (St.WriteM 1 9)) = ROk [8] /\
  snd (St.step LC2w (St.run LC2w opsC2x) (St.WriteM 1 9)) = ROk [10].
Proof.
  split; [|split; [|vm_compute; split; reflexivity]];
    (apply (proj1 C18_struct_member_write_consistent);
     [reflexivity | repeat constructor | apply LemmasSt.run_inv; vm_compute; repeat constructor]).
Qed.

(* second part: admissible history followed by a member write *)
Example C18_struct_member_write_after_history_applies :
  let s := St.run LC2 (opsC2 ++ [St.WriteM 1 50]) in
  length (St.cst s) = St.sl_n LC2 /\ length (St.cmem s) = St.sl_n LC2 /\
  forall j, (j < St.sl_n LC2)%nat -> nth j (St.cst s) 0 = nth j (St.cmem s) 0.
Proof.
  apply (proj2 C18_struct_member_write_consistent); [exact C18_nonvacuous_run_ok_C2 | reflexivity | repeat constructor].
Qed.

Definition lab (i : option Z) (e : bool) (v : Z) : Fe.label := {| Fe.fl_idx := i; Fe.fl_explicit := e; Fe.fl_val := v |}.

(* ascending positive table ('0.5', (2, 'L1', 2.0), '5'): one explicit index, one explicit value, user read_<idx> and a
   scripted write_<idx>.  valuedict = {2: 4, 0: 1, 3: 10} (half units), datatype default = min = value of index 0, so the
   cache of the fresh module is consistent (the premise of C18_floatenum_value_from_consistent_init; it is false for
   descending tables - Refuted.C18_refuted_floatenum_initial_cache - and true for every table whose first label carries
   the smallest value of a positive table or the value 0, which gen_fe_layout produces with style asc) *)
Definition LFa : Fe.layout :=
  {| Fe.f_labels := [lab None false 1; lab (Some 2) true 4; lab None false 10]; Fe.f_ri := true; Fe.f_wi := 3 |}.

(* 13 operations without assignment to the float parameter: write taken over, script (index 3 locked out -> 0, index 0
   refused), coerced write, refused write (HardwareError), write outside the table (RangeError), hardware change picked
   up by read_<idx>, index writes (one raising), reads by client and driver, driver announcement of the index, write *)
Definition opsFa : list Fe.op :=
  [Fe.WriteF 5; Fe.Script [(3, Some 0); (0, None)]; Fe.WriteF 9; Fe.WriteF 2; Fe.WriteF 11; Fe.HwI 3; Fe.ReadI;
   Fe.WriteI 2; Fe.WriteI 0; Fe.ReadF true; Fe.ReadF false; Fe.SetI 0; Fe.WriteF 3].

Fixpoint fe_results (L : Fe.layout) (s : Fe.state) (ops : list Fe.op) : list (res * Z * Z) :=
  match ops with [] => [] | o :: r => let '(s', x) := Fe.step L s o in (x, Fe.ci s', Fe.cf s') :: fe_results L s' r end.

Example C18_nonvacuous_consistent_init :
  Fe.vdict LFa = [(2, 4); (0, 1); (3, 10)] /\ LemmasFe.consistent LFa (Fe.init LFa) /\
  forallb (fun o => negb (LemmasFe.is_setf o)) opsFa = true.
Proof. vm_compute. repeat split; reflexivity. Qed.

Example C18_Fa_results :
  fe_results LFa (Fe.init LFa) opsFa =
  [(ROk [4], 2, 4); (ROk [], 2, 4); (ROk [1], 0, 1); (RErr 3, 0, 1); (RErr 1, 0, 1); (ROk [], 0, 1); (ROk [3], 3, 10);
   (ROk [2], 2, 4); (RErr 3, 2, 4); (ROk [4], 2, 4); (ROk [4], 2, 4); (ROk [], 0, 1); (ROk [4], 2, 4)].
Proof. vm_compute. reflexivity. Qed.

Example C18_floatenum_value_from_consistent_init_applies :
  Fe.cf (Fe.run LFa opsFa) = Fe.shown LFa (Fe.run LFa opsFa) /\
  Fe.cf (Fe.run LFa (firstn 7 opsFa)) = Fe.shown LFa (Fe.run LFa (firstn 7 opsFa)).
Proof.
  split; apply C18_floatenum_value_from_consistent_init;
    try exact (proj1 (proj2 C18_nonvacuous_consistent_init)); vm_compute; reflexivity.
Qed.

(* descending table ('5', '2', ('L2', 0.5)), no read_<idx>, scripted write_<idx>: the fresh cache is NOT consistent (cache 0.5,
   index 0 means 5.0); the driver also assigns the float parameter first.  The index is announced by the 4th operation - a
   float write that the driver coerces from index 1 to index 2 - and six more operations follow (none a float assignment):
   hardware change, read, write outside the range, script change, refused write, index write *)
Definition LFd : Fe.layout :=
  {| Fe.f_labels := [lab None false 10; lab None false 4; lab None true 1]; Fe.f_ri := false; Fe.f_wi := 3 |}.
Definition preFd : list Fe.op := [Fe.SetF 7; Fe.Script [(1, Some 2)]; Fe.ReadF true].
Definition postFd : list Fe.op :=
  [Fe.HwI 0; Fe.ReadI; Fe.WriteF 100; Fe.Script [(0, None)]; Fe.WriteF 10; Fe.WriteI 1].

Example C18_nonvacuous_establishes :
  ~ LemmasFe.consistent LFd (Fe.init LFd) /\ ~ LemmasFe.consistent LFd (Fe.run LFd preFd) /\
  LemmasFe.establishes LFd (Fe.run LFd preFd) (Fe.WriteF 5) = true /\
  forallb (fun o => negb (LemmasFe.is_setf o)) postFd = true /\
  fe_results LFd (Fe.init LFd) (preFd ++ Fe.WriteF 5 :: postFd) =
  [(ROk [], 0, 7); (ROk [], 0, 7); (ROk [7], 0, 7); (ROk [1], 2, 1); (ROk [], 2, 1); (ROk [2], 2, 1); (RErr 1, 2, 1);
   (ROk [], 2, 1); (RErr 3, 2, 1); (ROk [1], 1, 4)].
Proof. vm_compute. repeat split; try reflexivity; discriminate. Qed.

Example C18_floatenum_value_after_index_update_applies :
  Fe.cf (Fe.run LFd (preFd ++ Fe.WriteF 5 :: postFd)) = Fe.shown LFd (Fe.run LFd (preFd ++ Fe.WriteF 5 :: postFd)).
Proof. apply C18_floatenum_value_after_index_update; vm_compute; reflexivity. Qed.

(* the other establishing operations: read_<idx> of LFa (f_ri = true), an index write the driver accepts, SetI - each after
   a float assignment that made the cache wrong *)
Example C18_floatenum_value_after_index_update_applies_other_ops :
  (let h := [Fe.HwI 3; Fe.SetF 7] ++ Fe.ReadI :: [Fe.ReadF true] in Fe.cf (Fe.run LFa h) = Fe.shown LFa (Fe.run LFa h)) /\
  (let h := [Fe.SetF 7] ++ Fe.WriteI 3 :: [Fe.ReadF true; Fe.ReadI] in Fe.cf (Fe.run LFa h) = Fe.shown LFa (Fe.run LFa h)) /\
  (let h := [Fe.SetF 7; Fe.ReadI] ++ Fe.SetI 2 :: [Fe.WriteF 100] in Fe.cf (Fe.run LFd h) = Fe.shown LFd (Fe.run LFd h)) /\
  ~ LemmasFe.consistent LFa (Fe.run LFa [Fe.HwI 3; Fe.SetF 7]) /\ ~ LemmasFe.consistent LFd (Fe.run LFd [Fe.SetF 7; Fe.ReadI]).
Proof.
  split; [|split; [|split]]; try (apply C18_floatenum_value_after_index_update; vm_compute; reflexivity).
  vm_compute. split; discriminate.
Qed.

(* C18_closest: the only premise is vdict L <> [] (a FloatEnumParam has at least one label).  The conclusion at the four
   kinds of state / value: request taken over, request coerced by the script, request refused by the script, value outside
   the table *)
Definition closest_concl (L : Fe.layout) (s : Fe.state) (v : Z) : Prop :=
  (let '(s', r) := Fe.step L s (Fe.WriteF v) in
   let k := Fe.closest v (Fe.vdict L) in
   if ((v <? Fe.vmin (Fe.vdict L)) || (Fe.vmax (Fe.vdict L) <? v))%Z
   then s' = s /\ r = RErr 1
   else if LemmasFe.drv_ok L s k
        then r = ROk [Fe.shown L s'] /\ Fe.cf s' = Fe.shown L s' /\
             Fe.evs s' = (0%nat, [Fe.shown L s']) :: (1%nat, [Fe.ci s']) :: (0%nat, [Fe.shown L s']) :: Fe.evs s /\
             (LemmasFe.takes_over L s k = true -> Fe.ci s' = k)
        else s' = s /\ r = RErr 3) /\
  (exists x, In (Fe.closest v (Fe.vdict L), x) (Fe.vdict L) /\
             forall j y, In (j, y) (Fe.vdict L) -> (Z.abs (x - v) <= Z.abs (y - v))%Z) /\
  (forall j y, In (j, y) (Fe.vdict L) -> (Fe.vmin (Fe.vdict L) <= y <= Fe.vmax (Fe.vdict L))%Z).

Example C18_closest_applies :
  let s := Fe.run LFa (firstn 2 opsFa) in
  closest_concl LFa s 5 /\ closest_concl LFa s 9 /\ closest_concl LFa s 2 /\ closest_concl LFa s 11 /\
  closest_concl LFd (Fe.run LFd preFd) 7.
Proof.
  cbv zeta. unfold closest_concl.
  split; [|split; [|split; [|split]]]; apply C18_closest; vm_compute; discriminate.
Qed.
(* which branch each of them is: (in range, driver accepts, takes over) and the closest index / the index really set *)
Example C18_closest_branches :
  let s := Fe.run LFa (firstn 2 opsFa) in
  let d := Fe.vdict LFa in
  let info v := (Fe.closest v d, LemmasFe.drv_ok LFa s (Fe.closest v d), LemmasFe.takes_over LFa s (Fe.closest v d),
                 snd (Fe.step LFa s (Fe.WriteF v)), Fe.ci (fst (Fe.step LFa s (Fe.WriteF v)))) in
  info 5 = (2, true, true, ROk [4], 2) /\ info 9 = (3, true, false, ROk [1], 0) /\
  info 2 = (0, false, false, RErr 3, 2) /\ snd (Fe.step LFa s (Fe.WriteF 11)) = RErr 1 /\
  (* a tie: 7 is as far from 10 (index 0) as from 4 (index 1); python's min takes the first key of the dict, here index 0 *)
  Fe.closest 7 (Fe.vdict LFd) = 0 /\ Fe.vdict LFd = [(2, 1); (0, 10); (1, 4)].
Proof. vm_compute. repeat split; reflexivity. Qed.

(* C18_floatenum_write_consistent: part 1 has no premise (instances for the three outcomes); parts 2 and 3 have the premises
   of the two theorems above *)
Definition write_concl (L : Fe.layout) (s : Fe.state) (v : Z) : Prop :=
  let '(s', r) := Fe.step L s (Fe.WriteF v) in
  match r with
  | ROk x => Fe.cf s' = Fe.shown L s' /\ x = [Fe.shown L s']
  | RErr c => s' = s /\ (c = 1%nat \/ c = 3%nat)
  end.
Example C18_floatenum_write_consistent_applies :
  (let s := Fe.run LFd preFd in write_concl LFd s 5 /\ write_concl LFd s 100 /\
     write_concl LFd (Fe.run LFd (preFd ++ [Fe.Script [(0, None)]])) 10) /\
  (let s := Fe.run LFd (preFd ++ Fe.WriteF 5 :: postFd ++ [Fe.WriteF 1]) in Fe.cf s = Fe.shown LFd s) /\
  (let s := Fe.run LFa (opsFa ++ [Fe.WriteF 2]) in Fe.cf s = Fe.shown LFa s).
Proof.
  split; [|split].
  - cbv zeta. unfold write_concl. split; [|split]; apply (proj1 C18_floatenum_write_consistent).
  - apply (proj1 (proj2 C18_floatenum_write_consistent)); vm_compute; reflexivity.
  - apply (proj2 (proj2 C18_floatenum_write_consistent));
      [exact (proj1 (proj2 C18_nonvacuous_consistent_init)) | vm_compute; reflexivity].
Qed.
Example C18_floatenum_write_branches :
  let s := Fe.run LFd preFd in
  snd (Fe.step LFd s (Fe.WriteF 5)) = ROk [1] /\ snd (Fe.step LFd s (Fe.WriteF 100)) = RErr 1 /\
  snd (Fe.step LFd (Fe.run LFd (preFd ++ [Fe.Script [(0, None)]])) (Fe.WriteF 10)) = RErr 3 /\
  snd (Fe.step LFd (Fe.run LFd (preFd ++ Fe.WriteF 5 :: postFd)) (Fe.WriteF 1)) = ROk [1] /\
  snd (Fe.step LFa (Fe.run LFa opsFa) (Fe.WriteF 2)) = RErr 3.
Proof. vm_compute. repeat split; reflexivity. Qed.

(* three classes, MRO order: the module class (own check_a that calls checkLimits itself, defines a_min and a_limits), a plain
   mixin (not a HasAccessibles; defines a_max), the base class (defines a, check_a = plausibility test only).  gen_li_layout
   builds it with shape random.  All three limit parameters exist; the chain of check functions is user(2), generated, user(1) *)
Definition LL3 : Li.layout :=
  {| Li.l_lo := -10; Li.l_hi := 10;
     Li.l_classes := [K true false 2 true false true; K false false 0 false true false; K true true 1 false false false] |}.

Example C18_nonvacuous_layout_wf : LemmasLi.layout_wf LL3.
Proof. split; [eexists; eexists; split; reflexivity | split; reflexivity]. Qed.

Example C18_LL3_shape :
  Li.chain (Li.l_classes LL3) = [Li.CkUser 2; Li.CkAuto; Li.CkUser 1] /\
  (Li.l_lim LL3, Li.l_min LL3, Li.l_max LL3, LemmasLi.any_user LL3) = (true, true, true, true).
Proof. vm_compute. split; reflexivity. Qed.

(* 19 operations: the three limits narrowed by write requests; a written: accepted, refused by a_max, refused by a_limits, refused
   by the datatype, refused by the plausibility test alone (3 is inside every limit); rng written in order and inverted; driver
   assignment of a_max beyond the base range; a accepted again; a_max outside the base range refused; a_limits written INVERTED
   (accepted: the tuple datatype does not check the order) - every write of a is refused from then on; the driver resets
   a_limits; a_min above a_max by two write requests - again every write of a is refused *)
Definition opsL : list Li.op :=
  [Li.WriteMin (-4); Li.WriteMax 6; Li.WriteLim (-2) 8; Li.WriteA 5; Li.WriteA 7; Li.WriteA (-3); Li.WriteA 11; Li.WriteA 3;
   Li.WriteRng 1 3; Li.WriteRng 3 1; Li.SetMax 20; Li.WriteA 8; Li.WriteMax 11; Li.WriteLim 5 2; Li.WriteA 4;
   Li.SetLim (-20) 20; Li.WriteMin 9; Li.WriteMax 1; Li.WriteA 4].
Fixpoint li_results (L : Li.layout) (s : Li.state) (ops : list Li.op) : list res :=
  match ops with [] => [] | o :: r => let '(s', x) := Li.step L s o in x :: li_results L s' r end.
Example C18_L_results :
  li_results LL3 (Li.init LL3) opsL =
  [ROk [-4]; ROk [6]; ROk [-2; 8]; ROk [5]; RErr 1; RErr 1; RErr 1; RErr 1; ROk [1; 3]; RErr 1; ROk []; ROk [8]; RErr 1;
   ROk [5; 2]; RErr 1; ROk []; ROk [9]; ROk [1]; RErr 1] /\
  (let s := Li.run LL3 (firstn 3 opsL) in (Li.vmin s, Li.vmax s, Li.vlim s) = (-4, 6, (-2, 8))).
Proof. vm_compute. split; reflexivity. Qed.

(* C18_limits_respected, first part.  Premises: layout_wf L and the equation  step L s (WriteA v) = (s', result)  for an
   arbitrary s' - satisfiable by construction; instances for an accepted and three refused writes from the state reached by
   the first three operations *)
Example C18_limits_respected_applies_accepted :
  let s := Li.run LL3 (firstn 3 opsL) in
  let s' := fst (Li.step LL3 s (Li.WriteA 5)) in
  LemmasLi.within_all LL3 s 5 /\ Li.va s' = 5 /\ [5] = [5].
Proof.
  cbv zeta.
  apply (proj1 (proj1 C18_limits_respected LL3 (Li.run LL3 (firstn 3 opsL)) 5 _ C18_nonvacuous_layout_wf) [5]).
  vm_compute. reflexivity.
Qed.
Example C18_limits_respected_applies_refused :
  let s := Li.run LL3 (firstn 3 opsL) in
  (fst (Li.step LL3 s (Li.WriteA 7)) = s /\ 1%nat = 1%nat) /\ (fst (Li.step LL3 s (Li.WriteA (-3))) = s /\ 1%nat = 1%nat) /\
  (fst (Li.step LL3 s (Li.WriteA 11)) = s /\ 1%nat = 1%nat) /\ (fst (Li.step LL3 s (Li.WriteA 3)) = s /\ 1%nat = 1%nat).
Proof.
  cbv zeta.
  pose proof (fun v => proj2 (proj1 C18_limits_respected LL3 (Li.run LL3 (firstn 3 opsL)) v
                                 (fst (Li.step LL3 (Li.run LL3 (firstn 3 opsL)) (Li.WriteA v))) C18_nonvacuous_layout_wf) 1%nat) as H.
  split; [|split; [|split]]; apply H; vm_compute; reflexivity.
Qed.
(* within_all is not trivially true at this instance: all three implications have a true premise (C18_LL3_shape) and the
   bounds are the narrowed ones *)
Example C18_limits_respected_within_all_is_strict :
  let s := Li.run LL3 (firstn 3 opsL) in
  ~ LemmasLi.within_all LL3 s 7 /\ ~ LemmasLi.within_all LL3 s (-3) /\ ~ LemmasLi.within_all LL3 s 11.
Proof.
  cbv zeta. split; [|split]; intros (H0 & H1 & H2 & H3); vm_compute in H0, H1, H2, H3.
  - specialize (H3 eq_refl). apply H3. reflexivity.
  - specialize (H1 eq_refl). destruct H1 as (H1 & _). apply H1. reflexivity.
  - destruct H0 as (_ & H0). apply H0. reflexivity.
Qed.

(* second part, both directions of the equivalence; the inner premise any_user L = true holds in LL3 *)
Example C18_limits_verdict_applies :
  let s := Li.run LL3 (firstn 3 opsL) in
  (exists s', Li.step LL3 s (Li.WriteA 5) = (s', ROk [5])) /\
  (Li.in_base LL3 5 = true /\ Li.check_limits LL3 s 5 = true /\ (LemmasLi.any_user LL3 = true -> Li.plausible 5 = true)) /\
  ~ (exists s', Li.step LL3 s (Li.WriteA 3) = (s', ROk [3])).
Proof.
  cbv zeta. split; [|split].
  - apply (proj2 C18_limits_respected LL3 _ 5 C18_nonvacuous_layout_wf). vm_compute. repeat split; reflexivity.
  - apply (proj2 C18_limits_respected LL3 _ 5 C18_nonvacuous_layout_wf). eexists. vm_compute. reflexivity.
  - intros H. apply (proj2 C18_limits_respected LL3 _ 3 C18_nonvacuous_layout_wf) in H.
    destruct H as (_ & _ & H). specialize (H eq_refl). vm_compute in H. discriminate.
Qed.

(* C18_inverted_refused, first part: layout_wf L together with inverted_in_force L s at REACHABLE states - the inverted a_limits
   after 14 operations (written by a client), a_min > a_max after 18 operations (two client writes) *)
Example C18_nonvacuous_inverted_in_force :
  LemmasLi.inverted_in_force LL3 (Li.run LL3 (firstn 14 opsL)) /\ LemmasLi.inverted_in_force LL3 (Li.run LL3 (firstn 18 opsL)) /\
  ~ LemmasLi.inverted_in_force LL3 (Li.run LL3 (firstn 3 opsL)).
Proof.
  split; [|split].
  - left. vm_compute. split; reflexivity.
  - right. vm_compute. repeat split; reflexivity.
  - intros [(_ & H) | (_ & _ & H)]; vm_compute in H; discriminate.
Qed.
Example C18_inverted_refused_applies :
  (let s := Li.run LL3 (firstn 14 opsL) in Li.step LL3 s (Li.WriteA 4) = (s, RErr 1)) /\
  (let s := Li.run LL3 (firstn 18 opsL) in Li.step LL3 s (Li.WriteA 4) = (s, RErr 1)) /\
  (let s := Li.run LL3 (firstn 9 opsL) in Li.step LL3 s (Li.WriteRng 3 1) = (s, RErr 1)) /\
  (let s := Li.run LL3 opsL in fst (Li.vrng s) <= snd (Li.vrng s)) /\ Li.vrng (Li.run LL3 opsL) = (1, 3).
Proof.
  split; [|split; [|split; [|split]]].
  - apply (proj1 C18_inverted_refused); [exact C18_nonvacuous_layout_wf | exact (proj1 C18_nonvacuous_inverted_in_force)].
  - apply (proj1 C18_inverted_refused);
      [exact C18_nonvacuous_layout_wf | exact (proj1 (proj2 C18_nonvacuous_inverted_in_force))].
  - apply (proj1 (proj2 C18_inverted_refused)). lia.
  - apply (proj2 (proj2 C18_inverted_refused)).
  - vm_compute. reflexivity.
Qed.

(* C18_limits_in_base_range: 0 inside the base range (true for the five ranges of gen_li_layout), no driver assignment *)
Definition opsLw : list Li.op := filter (fun o => negb (LemmasLi.is_set o)) opsL.
Example C18_limits_in_base_range_applies :
  length opsLw = 17%nat /\ LemmasLi.limits_in_base LL3 (Li.run LL3 opsLw) /\
  (let s := Li.run LL3 opsLw in (Li.va s, Li.vmin s, Li.vmax s, Li.vlim s) = (5, 9, 1, (5, 2))) /\
  ~ LemmasLi.limits_in_base LL3 (Li.run LL3 opsL).
Proof.
  split; [reflexivity|]. split; [|split].
  - apply C18_limits_in_base_range; [simpl; lia | vm_compute; reflexivity].
  - vm_compute. reflexivity.
  - intros (_ & _ & H & _). vm_compute in H. destruct H as (H & _). apply H. reflexivity.
Qed.

(* three controllers on one output: 0 writes the safe value to the output's target when switched off, 1 raises in its
   switch-off while its fault flag is set, 2 is plain (one of the layouts of exhaustive_cases; gen_co_layout draws kinds
   from 0, 1, 2) *)
Definition KC : list nat := [1%nat; 2%nat; 0%nat].

(* 15 operations: every controller takes over at least once (through the raising kind while it does not fail, through the
   safe-value writer, through the plain one), update_target calls, the fault flag of controller 1 set while it controls:
   take-over by controller 0 REFUSED, controller 1 rewrites its own target; flag cleared; the output's own target written
   while controller 1 controls (switched off, output names self), while nobody controls, and while the safe-value writer
   controls *)
Definition opsK : list Co.op :=
  [Co.WriteT 1 3; Co.UpdT 1 4; Co.WriteT 0 5; Co.WriteT 2 6; Co.CFault [false; true; false]; Co.WriteT 1 7; Co.WriteT 0 8;
   Co.WriteT 1 9; Co.CFault [false; false; false]; Co.WriteO 9; Co.WriteO 2; Co.WriteT 0 1; Co.WriteO 3; Co.WriteT 2 2;
   Co.UpdT 0 7].

Example C18_nonvacuous_run_ok_K : LemmasCo.run_ok KC (Co.init KC) opsK.
Proof. vm_compute. repeat constructor. Qed.

Fixpoint co_results (s : Co.state) (ops : list Co.op) : list (res * nat * list bool) :=
  match ops with [] => [] | o :: r => let '(s', x) := Co.step KC s o in (x, Co.by_ s', Co.act s') :: co_results s' r end.
Example C18_K_results :
  co_results (Co.init KC) opsK =
  [(ROk [3], 2%nat, [false; true; false]); (ROk [], 2%nat, [false; true; false]); (ROk [5], 1%nat, [true; false; false]);
   (ROk [6], 3%nat, [false; false; true]); (ROk [], 3%nat, [false; false; true]); (ROk [7], 2%nat, [false; true; false]);
   (RErr 3, 2%nat, [false; true; false]); (ROk [9], 2%nat, [false; true; false]); (ROk [], 2%nat, [false; true; false]);
   (ROk [9], 0%nat, [false; false; false]); (ROk [2], 0%nat, [false; false; false]); (ROk [1], 1%nat, [true; false; false]);
   (ROk [3], 0%nat, [false; false; false]); (ROk [2], 3%nat, [false; false; true]); (ROk [], 3%nat, [false; false; true])].
Proof. vm_compute. reflexivity. Qed.

Example C18_single_controller_applies :
  let s := Co.run KC opsK in
  (forall j k, nth j (Co.act s) false = true -> nth k (Co.act s) false = true -> j = k) /\
  (forall j, nth j (Co.act s) false = true <-> Co.by_ s = S j) /\
  (Co.by_ s = 0%nat <-> forall j, nth j (Co.act s) false = false) /\
  (Co.by_ s <= length KC)%nat /\ length (Co.act s) = length KC.
Proof. apply C18_single_controller_except_failing_self_controlled. exact C18_nonvacuous_run_ok_K. Qed.

(* the guard of run_ok is not identically false: after 7 operations (controller 1 controls, its fault flag set) a write of
   the output's target is the finding class *)
Example C18_self_controlled_fails_happens :
  LemmasCo.self_controlled_fails KC (Co.run KC (firstn 7 opsK)) (Co.WriteO 1) = true.
Proof. vm_compute. reflexivity. Qed.

(* Inv at reachable states from the computed run_ok *)
Lemma co_inv_prefix : forall n, LemmasCo.Inv KC (Co.run KC (firstn n opsK)).
Proof. intros n. exact (LemmasCo.run_inv KC _ (LemmasCo.run_ok_firstn KC n opsK _ C18_nonvacuous_run_ok_K)). Qed.

(* C18_takeover_switches_previous_off_or_is_refused: premises i < length kinds and Inv kinds s.  Five instances:
   nobody controls; the safe-value writer controls (nested write of the output's target in the middle of the take-over); the
   failing controller controls and another one asks (REFUSED, the RErr branch with its existential); the failing controller
   rewrites its own target (no switch-off needed); the same controller after its flag was cleared is switched off *)
Definition takeover_concl (s : Co.state) (i : nat) (v : Z) : Prop :=
  let '(s', r) := Co.step KC s (Co.WriteT i v) in
  match r with
  | ROk _ => Co.by_ s' = S i /\ (forall j, nth j (Co.act s') false = true <-> j = i)
  | RErr _ => s' = s /\ exists j, Co.by_ s = S j /\ j <> i /\ LemmasCo.failing KC s j = true
  end.
Example C18_takeover_applies :
  takeover_concl (Co.run KC (firstn 0 opsK)) 1 3 /\ takeover_concl (Co.run KC (firstn 3 opsK)) 2 6 /\
  takeover_concl (Co.run KC (firstn 6 opsK)) 0 8 /\ takeover_concl (Co.run KC (firstn 6 opsK)) 1 9 /\
  takeover_concl (Co.run KC (firstn 9 opsK)) 2 5.
Proof.
  unfold takeover_concl.
  split; [|split; [|split; [|split]]];
    (apply C18_takeover_switches_previous_off_or_is_refused; [repeat constructor | apply co_inv_prefix]).
Qed.
Example C18_takeover_branches :
  snd (Co.step KC (Co.run KC (firstn 3 opsK)) (Co.WriteT 2 6)) = ROk [6] /\
  snd (Co.step KC (Co.run KC (firstn 6 opsK)) (Co.WriteT 0 8)) = RErr 3 /\
  snd (Co.step KC (Co.run KC (firstn 6 opsK)) (Co.WriteT 1 9)) = ROk [9] /\
  snd (Co.step KC (Co.run KC (firstn 9 opsK)) (Co.WriteT 2 5)) = ROk [5] /\
  (let s := Co.run KC (firstn 6 opsK) in (Co.by_ s, Co.act s, LemmasCo.failing KC s 1) = (2%nat, [false; true; false], true)).
Proof. vm_compute. repeat split; reflexivity. Qed.

(* C18_control_step_invariant: premises op_wf, self_controlled_fails = false, Inv - for each kind of operation, in particular
   the output's own write while a controller of each kind controls (kind 2 with its flag cleared) *)
Example C18_control_step_invariant_applies :
  LemmasCo.Inv KC (fst (Co.step KC (Co.run KC (firstn 9 opsK)) (Co.WriteO 9))) /\
  LemmasCo.Inv KC (fst (Co.step KC (Co.run KC (firstn 12 opsK)) (Co.WriteO 3))) /\
  LemmasCo.Inv KC (fst (Co.step KC (Co.run KC (firstn 14 opsK)) (Co.WriteO 3))) /\
  LemmasCo.Inv KC (fst (Co.step KC (Co.run KC (firstn 6 opsK)) (Co.WriteT 0 8))) /\
  LemmasCo.Inv KC (fst (Co.step KC (Co.run KC (firstn 6 opsK)) (Co.UpdT 2 1))) /\
  LemmasCo.Inv KC (fst (Co.step KC (Co.run KC (firstn 4 opsK)) (Co.CFault [true; true; true]))).
Proof.
  split; [|split; [|split; [|split; [|split]]]];
    (apply C18_control_step_invariant; [repeat constructor | vm_compute; reflexivity | apply co_inv_prefix]).
Qed.
Example C18_control_step_invariant_states :
  (let s := Co.run KC (firstn 9 opsK) in (Co.by_ s, nth 1 KC 0%nat, LemmasCo.failing KC s 1) = (2%nat, 2%nat, false)) /\
  (let s := Co.run KC (firstn 12 opsK) in (Co.by_ s, nth 0 KC 0%nat) = (1%nat, 1%nat)) /\
  (let s := Co.run KC (firstn 14 opsK) in (Co.by_ s, nth 2 KC 0%nat) = (3%nat, 0%nat)).
Proof. vm_compute. repeat split; reflexivity. Qed.

(* the same premise after the 17 client requests alone (no driver assignment anywhere in the history): both disjuncts hold *)
Example C18_inverted_refused_applies_client_only :
  let s := Li.run LL3 opsLw in
  (Li.l_lim LL3 = true /\ snd (Li.vlim s) < fst (Li.vlim s)) /\
  (Li.l_min LL3 = true /\ Li.l_max LL3 = true /\ Li.vmax s < Li.vmin s) /\
  Li.step LL3 s (Li.WriteA 0) = (s, RErr 1).
Proof.
  cbv zeta. split; [|split].
  - vm_compute. split; reflexivity.
  - vm_compute. repeat split; reflexivity.
  - apply (proj1 C18_inverted_refused); [exact C18_nonvacuous_layout_wf|]. left. vm_compute. split; reflexivity.
Qed.

(* C18_source_facts has no premises (a conjunction of the facts regenerated from /repo into Gen/C18.v, closed by reflexivity). *)

Print Assumptions C18_struct_agree_applies_S3.
Print Assumptions C18_struct_agree_applies_C2.
Print Assumptions C18_no_fault_no_partial_abort_applies.
Print Assumptions C18_struct_member_write_applies.
Print Assumptions C18_struct_member_write_applies_other_layouts.
Print Assumptions C18_struct_member_write_after_history_applies.
Print Assumptions C18_floatenum_value_from_consistent_init_applies.
Print Assumptions C18_floatenum_value_after_index_update_applies.
Print Assumptions C18_floatenum_value_after_index_update_applies_other_ops.
Print Assumptions C18_closest_applies.
Print Assumptions C18_floatenum_write_consistent_applies.
Print Assumptions C18_limits_respected_applies_accepted.
Print Assumptions C18_limits_respected_applies_refused.
Print Assumptions C18_limits_verdict_applies.
Print Assumptions C18_inverted_refused_applies.
Print Assumptions C18_limits_in_base_range_applies.
Print Assumptions C18_single_controller_applies.
Print Assumptions C18_takeover_applies.
Print Assumptions C18_control_step_invariant_applies.
