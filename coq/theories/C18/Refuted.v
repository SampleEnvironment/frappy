(* C18 - witnesses of the places where the pinned code (faithfully modelled) violates the property.
   Each corresponds to one open entry of findings/C18.json and to the guard of the positive theorem; the layouts are
   also used by the examples of Properties.v. *)
From Coq Require Import List Arith ZArith Bool Lia.
Import ListNotations.
Require Import FV.C18.Model FV.C18.LemmasSt FV.C18.LemmasFe FV.C18.LemmasCo.

(* layout without combined read/write methods: the driver assigns the struct, the members keep their old values *)
Definition L_members : St.layout :=
  {| St.sl_n := 1; St.sl_rw := false; St.sl_sr := false; St.sl_sw := false; St.sl_mr := [true]; St.sl_mw := [true];
     St.sl_lo := (-100)%Z; St.sl_hi := 100%Z |}.
Theorem C18_refuted_struct_assign_without_combined_methods :
  exists L ops, Forall (LemmasSt.op_wf L) ops /\ nth 0 (St.cst (St.run L ops)) 0%Z <> nth 0 (St.cmem (St.run L ops)) 0%Z.
Proof. exists L_members, [St.SetS [5%Z]]. split; [repeat constructor|]. vm_compute. discriminate. Qed.

(* combined layout: the driver assigns a member, the struct keeps its old value *)
Definition L_combined : St.layout :=
  {| St.sl_n := 1; St.sl_rw := true; St.sl_sr := true; St.sl_sw := true; St.sl_mr := [false]; St.sl_mw := [false];
     St.sl_lo := (-100)%Z; St.sl_hi := 100%Z |}.
Theorem C18_refuted_member_assign_with_combined_methods :
  exists L ops, Forall (LemmasSt.op_wf L) ops /\ nth 0 (St.cst (St.run L ops)) 0%Z <> nth 0 (St.cmem (St.run L ops)) 0%Z.
Proof. exists L_combined, [St.SetM 0 5%Z]. split; [repeat constructor|]. vm_compute. discriminate. Qed.

(* a descending table ('1', '0.5'): index 0 means 1.0, but the cache of the fresh module holds the datatype default 0.5 *)
Definition L_desc : Fe.layout :=
  {| Fe.f_labels := [ {| Fe.fl_idx := None; Fe.fl_explicit := false; Fe.fl_val := 2%Z |};
                      {| Fe.fl_idx := None; Fe.fl_explicit := false; Fe.fl_val := 1%Z |} ];
     Fe.f_ri := false; Fe.f_wi := 0 |}.
Theorem C18_refuted_floatenum_initial_cache : exists L, ~ LemmasFe.consistent L (Fe.init L).
Proof. exists L_desc. vm_compute. discriminate. Qed.

(* the driver assigns the float parameter itself: the cache no longer belongs to the index *)
Theorem C18_refuted_floatenum_assign_float :
  exists L pre v, LemmasFe.consistent L (Fe.run L pre) /\ ~ LemmasFe.consistent L (Fe.run L (pre ++ [Fe.SetF v])).
Proof. exists L_desc, [Fe.SetI 0%Z], 1%Z. split; vm_compute; [reflexivity|discriminate]. Qed.

(* generated write_<struct>: the second member write raises after the first member was written *)
Definition L_two : St.layout :=
  {| St.sl_n := 2; St.sl_rw := false; St.sl_sr := false; St.sl_sw := false; St.sl_mr := [true; true]; St.sl_mw := [true; true];
     St.sl_lo := (-100)%Z; St.sl_hi := 100%Z |}.
Theorem C18_refuted_struct_write_partial_failure :
  exists L ops, Forall (LemmasSt.op_wf L) ops /\ Forall (LemmasSt.op_safe L) ops /\
    St.est (St.run L ops) = false /\ nth 0 (St.cst (St.run L ops)) 0%Z <> nth 0 (St.cmem (St.run L ops)) 0%Z.
Proof.
  exists L_two, [St.Fault [] [false; true]; St.WriteS [5%Z; 6%Z]].
  split; [repeat constructor|]. split; [repeat constructor|]. vm_compute. split; [reflexivity|discriminate].
Qed.

(* generated read_<struct>: the second member read raises after the first member was refreshed; the struct is in error
   state; the next update of the other member republishes the struct with the stale first member *)
Theorem C18_refuted_struct_read_partial_failure :
  exists L ops, Forall (LemmasSt.op_wf L) ops /\ Forall (LemmasSt.op_safe L) ops /\
    St.est (St.run L ops) = false /\ nth 0 (St.cst (St.run L ops)) 0%Z <> nth 0 (St.cmem (St.run L ops)) 0%Z.
Proof.
  exists L_two, [St.Hw [5%Z; 6%Z]; St.Fault [false; true] []; St.ReadS; St.Fault [] []; St.ReadM 1].
  split; [repeat constructor|]. split; [repeat constructor|]. vm_compute. split; [reflexivity|discriminate].
Qed.

(* the output's own target is written while the switch-off of the controlling module raises: self_controlled has
   already set controlled_by = self, the controller stays marked *)
Theorem C18_refuted_self_controlled_switch_off_fails :
  exists kinds ops, Forall (LemmasCo.op_wf kinds) ops /\
    Co.by_ (Co.run kinds ops) = 0 /\ nth 0 (Co.act (Co.run kinds ops)) false = true.
Proof.
  exists [2], [Co.WriteT 0 1%Z; Co.CFault [true]; Co.WriteO 2%Z].
  split; [repeat constructor|]. vm_compute. split; reflexivity.
Qed.
