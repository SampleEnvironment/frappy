(* C18 - limit parameters: an accepted write lies inside the limits in force; inverted pairs are refused *)
From Coq Require Import List Arith ZArith Bool Lia.
Import ListNotations.
Require Import FV.C18.Model.
Require FV.C18.LemmasSt.
Import Li.
Local Open Scope Z_scope.

(* inside every limit parameter the module has (the full property) *)
Definition within_all (L : layout) (s : state) (v : Z) : Prop :=
  l_lo L <= v <= l_hi L /\
  (l_lim L = true -> fst (vlim s) <= v <= snd (vlim s)) /\
  (l_min L = true -> vmin s <= v) /\
  (l_max L = true -> v <= vmax s).

Lemma check_limits_sound : forall L s v, check_limits L s v = true ->
  (l_lim L = true -> fst (vlim s) <= v <= snd (vlim s)) /\
  (l_min L = true -> vmin s <= v) /\ (l_max L = true -> v <= vmax s) /\
  (l_min L = true -> l_max L = true -> vmin s <= vmax s).
Proof.
  intros L s v H. unfold check_limits in H. apply andb_prop in H. destruct H as (Hl & H). split.
  - intros El. rewrite El in Hl. apply andb_prop in Hl. destruct Hl as (H1 & H2). apply Z.leb_le in H1, H2. lia.
  - clear Hl. destruct (l_min L) eqn:Em, (l_max L) eqn:Ex; simpl in H.
    + destruct (vmax s <? vmin s) eqn:E; [discriminate|]. apply Z.ltb_ge in E.
      apply andb_prop in H. destruct H as (H1 & H2). apply negb_true_iff in H1, H2.
      apply Z.ltb_ge in H1, H2. repeat split; intros; lia.
    + apply andb_prop in H. destruct H as (H1 & _). apply negb_true_iff, Z.ltb_ge in H1.
      repeat split; intros; try discriminate; lia.
    + apply negb_true_iff, Z.ltb_ge in H. repeat split; intros; try discriminate; lia.
    + repeat split; intros; discriminate.
Qed.

(* positions in the class list are naturals: nat_scope up to chain_tests_limits *)
Local Close Scope Z_scope.

(* layouts covered: the module class derives from Module (so its __init_subclass__ runs), a is one of its accessibles, and a
   class in which the programmer wrote a check_a WITHOUT a call of checkLimits does not define a limit parameter itself
   (a check_a written next to the limit parameter replaces the generated one by design: the programmer then has to call
   checkLimits himself, see the docstring of Module.checkLimits) *)
Definition cls_ok (c : cls) : bool := negb (Nat.eqb (c_user c) 1) || negb (c_min c || c_max c || c_lim c).
Definition layout_wf (L : layout) : Prop :=
  (exists c r, l_classes L = c :: r /\ c_acc c = true) /\ existsb c_param (l_classes L) = true /\
  forallb cls_ok (l_classes L) = true.

Definition has_limit (L : layout) : bool := l_lim L || l_min L || l_max L.

Definition calls_check_limits (c : check) : bool :=
  match c with CkAuto => true | CkUser 0 => false | CkUser 1 => false | CkUser _ => true end.

Lemma nth_set_nth_mono : forall (l : list bool) i j, nth j l false = true -> nth j (set_nth i true l) false = true.
Proof. induction l; destruct i, j; simpl; intros; auto. Qed.

Lemma last_def_spec : forall pf l k j, last_def pf l k = Some j ->
  k <= j < k + length l /\ defines pf (nth (j - k) l cls0) = true.
Proof.
  induction l as [|c r IH]; simpl; intros k j H; [discriminate|].
  destruct (last_def pf r (S k)) as [j'|] eqn:E.
  - injection H as <-. destruct (IH _ _ E) as (H1 & H2). split; [lia|].
    replace (j' - k) with (S (j' - S k)) by lia. exact H2.
  - destruct (defines pf c) eqn:Ed; [|discriminate]. injection H as <-. split; [lia|].
    rewrite Nat.sub_diag. exact Ed.
Qed.

Lemma last_def_exists : forall pf l k, existsb (defines pf) l = true -> exists j, last_def pf l k = Some j.
Proof.
  induction l as [|c r IH]; simpl; intros k H; [discriminate|].
  destruct (last_def pf r (S k)) as [j'|] eqn:E; [eauto|].
  destruct (defines pf c) eqn:Ed; [eauto|]. simpl in H. destruct (IH (S k) H) as (j & Hj). congruence.
Qed.

Lemma treat_postfix_length : forall cs k inst pf, length (treat_postfix cs k inst pf) = length inst.
Proof.
  intros. unfold treat_postfix. destruct (last_def pf (skipn k cs) k); auto.
  destruct (in_dict cs inst n); auto using LemmasSt.set_nth_length.
Qed.

Lemma treat_postfix_mono : forall cs k inst pf j, in_dict cs inst j = true -> in_dict cs (treat_postfix cs k inst pf) j = true.
Proof.
  intros cs k inst pf j H. unfold treat_postfix. destruct (last_def pf (skipn k cs) k) as [j'|]; auto.
  destruct (in_dict cs inst j'); auto. unfold in_dict in *.
  destruct (negb (Nat.eqb (c_user (nth j cs cls0)) 0)); [reflexivity | now apply nth_set_nth_mono].
Qed.

(* after the body of the postfix loop the class that defines the limit first has a check_a in its __dict__ *)
Lemma treat_postfix_installs : forall cs inst pf j, length inst = length cs ->
  last_def pf cs 0 = Some j -> in_dict cs (treat_postfix cs 0 inst pf) j = true.
Proof.
  intros cs inst pf j Hl H. unfold treat_postfix. simpl. rewrite H.
  destruct (in_dict cs inst j) eqn:E; [exact E|]. unfold in_dict. apply orb_true_iff. right.
  apply LemmasSt.nth_set_nth_eq. destruct (last_def_spec _ _ _ _ H) as (H1 & _). lia.
Qed.

Lemma init_subclass_length : forall cs inst k, length (init_subclass cs inst k) = length inst.
Proof.
  intros. unfold init_subclass. destruct (c_acc (nth k cs cls0) && existsb c_param (skipn k cs)); [|reflexivity].
  simpl. now rewrite !treat_postfix_length.
Qed.

Lemma fold_init_subclass_length : forall cs ks inst, length (fold_left (init_subclass cs) ks inst) = length inst.
Proof. induction ks; simpl; intros; auto. now rewrite IHks, init_subclass_length. Qed.

Lemma install_length : forall cs, length (install cs) = length cs.
Proof. intros. unfold install. now rewrite fold_init_subclass_length, repeat_length. Qed.

(* the module class is created last: its __init_subclass__ leaves a check_a in the __dict__ of the class that defines a
   limit parameter first, for each of the three kinds of limit parameters *)
Lemma install_in_dict : forall c r pf j, c_acc c = true -> existsb c_param (c :: r) = true ->
  last_def pf (c :: r) 0 = Some j -> in_dict (c :: r) (install (c :: r)) j = true.
Proof.
  intros c r pf j Ha Hp Hd. unfold install. cbn [length seq rev]. rewrite fold_left_app.
  set (inst' := fold_left (init_subclass (c :: r)) (rev (seq 1 (length r))) (repeat false (S (length r)))).
  assert (Hl : length inst' = length (c :: r)) by (unfold inst'; now rewrite fold_init_subclass_length, repeat_length).
  cbn [fold_left]. unfold init_subclass. cbn [nth skipn]. rewrite Ha, Hp. cbn [andb fold_left].
  destruct pf.
  - apply treat_postfix_mono, treat_postfix_mono. now apply treat_postfix_installs.
  - apply treat_postfix_mono. apply treat_postfix_installs; auto. now rewrite treat_postfix_length.
  - apply treat_postfix_installs; auto. now rewrite !treat_postfix_length.
Qed.

(* every covered layout with a limit parameter: the chain of check functions contains one that tests the limits *)
Lemma chain_tests_limits : forall L, layout_wf L -> has_limit L = true ->
  exists ck, In ck (chain (l_classes L)) /\ calls_check_limits ck = true.
Proof.
  intros L ((c & r & Hc & Ha) & Hp & Hok) Hh. unfold has_limit, l_lim, l_min, l_max in Hh. rewrite Hc in *.
  assert (Hpf : exists pf, existsb (defines pf) (c :: r) = true).
  { apply orb_true_iff in Hh. destruct Hh as [Hh|Hh]; [apply orb_true_iff in Hh; destruct Hh as [Hh|Hh]|];
      [exists PLim | exists PMin | exists PMax]; exact Hh. }
  destruct Hpf as (pf & Hpf). destruct (last_def_exists pf (c :: r) 0 Hpf) as (j & Hj).
  pose proof (install_in_dict c r pf j Ha Hp Hj) as Hd.
  destruct (last_def_spec _ _ _ _ Hj) as (Hr & Hdef). rewrite Nat.sub_0_r in Hdef.
  assert (Hcj : cls_ok (nth j (c :: r) cls0) = true) by (rewrite forallb_forall in Hok; apply Hok, nth_In; lia).
  assert (Hch : forall ck, In ck (chain_at (c :: r) (install (c :: r)) j) -> In ck (chain (c :: r))).
  { intros ck H. apply in_flat_map. exists j. split; [apply in_seq; lia | exact H]. }
  unfold in_dict in Hd. unfold cls_ok in Hcj. unfold chain_at in Hch.
  destruct (c_user (nth j (c :: r) cls0)) as [|[|u]].
  - simpl in Hd. rewrite Hd in Hch. exists CkAuto. split; [apply Hch; now left | reflexivity].
  - exfalso. destruct pf; cbn [defines] in Hdef; rewrite Hdef, ?orb_true_r in Hcj; discriminate Hcj.
  - exists (CkUser (S (S u))). split; [apply Hch; now left | reflexivity].
Qed.

Local Open Scope Z_scope.

(* without limit parameters checkLimits lets everything pass *)
Lemma check_limits_no_limit : forall L s v, has_limit L = false -> check_limits L s v = true.
Proof.
  intros L s v H. unfold has_limit in H. apply orb_false_iff in H. destruct H as (H & H3).
  apply orb_false_iff in H. destruct H as (H1 & H2). unfold check_limits. rewrite H1, H2, H3. reflexivity.
Qed.

(* the write wrapper of a covered layout lets a value pass only if checkLimits accepts it *)
Lemma run_checks_sound : forall L s v, layout_wf L -> run_checks L s v = true -> check_limits L s v = true.
Proof.
  intros L s v Hwf H. destruct (has_limit L) eqn:Eh; [|now apply check_limits_no_limit].
  destruct (chain_tests_limits L Hwf Eh) as (ck & Hin & Hc).
  unfold run_checks in H. rewrite forallb_forall in H. specialize (H ck Hin).
  destruct ck as [|[|[|u]]]; simpl in *; try discriminate; auto. apply andb_prop in H. tauto.
Qed.

(* ... and the verdict does not depend on the class layout at all: the checks pass exactly when checkLimits accepts the value
   and - if the programmer wrote a check_a anywhere in the hierarchy - his plausibility test accepts it *)
Definition any_user (L : layout) : bool := existsb (fun c => negb (Nat.eqb (c_user c) 0)) (l_classes L).

Lemma chain_user_origin : forall cs k, In (CkUser k) (chain cs) ->
  k <> 0%nat /\ existsb (fun c => negb (Nat.eqb (c_user c) 0)) cs = true.
Proof.
  intros cs k H. unfold chain in H. apply in_flat_map in H. destruct H as (j & Hj & H).
  apply in_seq in Hj. unfold chain_at in H. destruct (c_user (nth j cs cls0)) eqn:Eu.
  - destruct (nth j (install cs) false); simpl in H; [destruct H as [H|[]]; discriminate|destruct H].
  - destruct H as [H|[]]. injection H as <-. split; [discriminate|].
    apply existsb_exists. exists (nth j cs cls0). split; [apply nth_In; lia|]. now rewrite Eu.
Qed.

Lemma chain_user_present : forall cs, existsb (fun c => negb (Nat.eqb (c_user c) 0)) cs = true ->
  exists k, In (CkUser (S k)) (chain cs).
Proof.
  intros cs H. apply existsb_exists in H. destruct H as (c & Hin & Hu).
  destruct (In_nth cs c cls0 Hin) as (j & Hj & Hn).
  destruct (c_user c) as [|k] eqn:Eu; [discriminate|]. exists k.
  unfold chain. apply in_flat_map. exists j. split; [apply in_seq; lia|].
  unfold chain_at. rewrite Hn, Eu. now left.
Qed.

Lemma run_checks_exact : forall L s v, layout_wf L ->
  run_checks L s v = check_limits L s v && (negb (any_user L) || plausible v).
Proof.
  intros L s v Hwf. apply eq_true_iff_eq. rewrite andb_true_iff. split.
  - intros H. split; [now apply run_checks_sound|]. destruct (any_user L) eqn:Hu; [|reflexivity].
    destruct (chain_user_present _ Hu) as (k & Hin).
    unfold run_checks in H. rewrite forallb_forall in H. specialize (H _ Hin).
    destruct k; simpl in H; auto. apply andb_prop in H. tauto.
  - intros (Hc & Hu). unfold run_checks. apply forallb_forall. intros ck Hin.
    destruct ck as [|k]; [exact Hc|].
    destruct (chain_user_origin _ _ Hin) as (Hk & Ha). unfold any_user in Hu. rewrite Ha in Hu.
    destruct k as [|[|k]]; simpl in *; auto. now rewrite Hu, Hc.
Qed.

(* a write of the base parameter, in every covered class layout: the verdict does not depend on the layout *)
Definition accepted (L : layout) (s : state) (v : Z) : bool :=
  in_base L v && (check_limits L s v && (negb (any_user L) || plausible v)).

Lemma accepted_iff : forall L s v, accepted L s v = true <->
  in_base L v = true /\ check_limits L s v = true /\ (any_user L = true -> plausible v = true).
Proof.
  intros. unfold accepted. rewrite !andb_true_iff.
  destruct (any_user L); simpl; split; intros (A & B & C); repeat split; auto; discriminate.
Qed.

Lemma write_a_spec : forall L s v, layout_wf L ->
  step L s (WriteA v) =
  if accepted L s v then (upd s 0 v (vmin s) (vmax s) (vlim s) (vrng s) [v], ROk [v]) else (s, RErr 1).
Proof. intros L s v Hwf. unfold accepted. simpl. now rewrite run_checks_exact. Qed.

Lemma in_base_range : forall L v, in_base L v = true -> l_lo L <= v <= l_hi L.
Proof. intros L v H. apply andb_prop in H. destruct H as (A & B). apply Z.leb_le in A, B. auto. Qed.

Lemma checked_within_all : forall L s v, in_base L v = true -> check_limits L s v = true -> within_all L s v.
Proof.
  intros L s v Eb Ec. destruct (check_limits_sound L s v Ec) as (H1 & H2 & H3 & _).
  split; [now apply in_base_range | auto].
Qed.

(* an inverted pair in force - the limits tuple or a_min > a_max, whatever else exists - refuses every write *)
Definition inverted_in_force (L : layout) (s : state) : Prop :=
  (l_lim L = true /\ snd (vlim s) < fst (vlim s)) \/ (l_min L = true /\ l_max L = true /\ vmax s < vmin s).

Lemma inverted_refuses_all : forall L s v, layout_wf L -> inverted_in_force L s -> step L s (WriteA v) = (s, RErr 1).
Proof.
  intros L s v Hwf H. rewrite write_a_spec by exact Hwf. destruct (accepted L s v) eqn:E; [|reflexivity].
  apply accepted_iff in E. destruct E as (_ & Ec & _). destruct (check_limits_sound L s v Ec) as (H1 & _ & _ & Ho).
  destruct H as [(Hl & Hlt) | (Hm & Hx & Hlt)]; [specialize (H1 Hl) | specialize (Ho Hm Hx)]; lia.
Qed.

(* LimitsType parameter: an inverted pair is refused by a write, and the parameter never holds one *)
Lemma rng_inverted_refused : forall L s lo hi, hi < lo -> step L s (WriteRng lo hi) = (s, RErr 1).
Proof.
  intros L s lo hi H. simpl. apply Z.ltb_lt in H. rewrite H. simpl. rewrite andb_false_r. reflexivity.
Qed.

Definition rng_ordered (s : state) : Prop := fst (vrng s) <= snd (vrng s).

(* only WriteRng touches rng, and it stores (lo, hi) only when hi < lo is false *)
Lemma step_rng_ordered : forall L s o, rng_ordered s -> rng_ordered (fst (step L s o)).
Proof.
  intros L s o H. destruct o; simpl;
    try (repeat match goal with |- context [if ?c then _ else _] => destruct c end; exact H).
  destruct (hi <? lo) eqn:E; destruct (in_base L lo && in_base L hi); simpl; try exact H.
  apply Z.ltb_ge in E. exact E.
Qed.

Lemma run_rng_ordered : forall L ops, rng_ordered (run L ops).
Proof.
  intros L ops. unfold run. assert (H : rng_ordered (init L)) by (unfold rng_ordered; simpl; lia).
  revert H. generalize (init L). induction ops as [|o ops IH]; intros s H; simpl; auto.
  apply IH. now apply step_rng_ordered.
Qed.

(* limit parameters written through write_ stay inside the base range (assignments by the driver are not checked) *)
Definition is_set (o : op) : bool :=
  match o with SetMin _ | SetMax _ | SetLim _ _ => true | _ => false end.

Definition limits_in_base (L : layout) (s : state) : Prop :=
  l_lo L <= vmin s <= l_hi L /\ l_lo L <= vmax s <= l_hi L /\
  l_lo L <= fst (vlim s) <= l_hi L /\ l_lo L <= snd (vlim s) <= l_hi L /\ l_lo L <= va s <= l_hi L.

(* every write_ that stores a, a limit or a pair of limits does so only after in_base accepted the value(s); the
   operations that store unchecked values are the driver assignments, which is_set excludes *)
Lemma step_limits_in_base : forall L s o, is_set o = false -> limits_in_base L s -> limits_in_base L (fst (step L s o)).
Proof.
  intros L s o Hn H. pose proof H as (H1 & H2 & H3 & H4 & H5). pose proof (in_base_range L) as B.
  destruct o; try discriminate Hn; simpl;
    repeat match goal with |- context [if ?c then _ else _] => destruct c eqn:? end; try exact H;
    repeat match goal with E : _ && _ = true |- _ => apply andb_prop in E; destruct E end;
    unfold limits_in_base; simpl; auto 7.
Qed.

Lemma run_limits_in_base : forall L ops, l_lo L <= 0 <= l_hi L -> forallb (fun o => negb (is_set o)) ops = true ->
  limits_in_base L (run L ops).
Proof.
  intros L ops H0. unfold run.
  assert (H : limits_in_base L (init L)) by (unfold limits_in_base; simpl; lia).
  revert H. generalize (init L). induction ops as [|o ops IH]; intros s H Hn; simpl in *; auto.
  apply andb_prop in Hn. destruct Hn as (H1 & H2). apply IH; auto. apply step_limits_in_base; auto.
  now apply negb_true_iff.
Qed.
