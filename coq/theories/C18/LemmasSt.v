(* C18 - struct parameter and member parameters agree: invariant of St.step over all histories; two threads under
   accessLock: every schedule is a serial execution of the operations in the order in which the lock was released *)
From Coq Require Import List Arith ZArith Bool Lia.
Import ListNotations.
Require Import FV.C18.Model.
Import St.

Lemma set_nth_length : forall A (l : list A) i v, length (set_nth i v l) = length l.
Proof. induction l; destruct i; simpl; intros; auto. Qed.

Lemma nth_set_nth_eq : forall A (l : list A) i v d, i < length l -> nth i (set_nth i v l) d = v.
Proof. induction l; destruct i; simpl; intros; try lia; auto. apply IHl. lia. Qed.

Lemma nth_set_nth_neq : forall A (l : list A) i j v d, i <> j -> nth j (set_nth i v l) d = nth j l d.
Proof. induction l; intros [|i] [|j] v d H; simpl; auto; lia. Qed.

Lemma set_nth_app : forall A (a b : list A) x v, set_nth (length a) v (a ++ x :: b) = a ++ v :: b.
Proof. induction a; simpl; intros; auto. now rewrite IHa. Qed.

Lemma set_nth_same : forall A (l : list A) i d, set_nth i (nth i l d) l = l.
Proof. induction l; destruct i; simpl; intros; auto. now rewrite IHl. Qed.

Lemma zl_eqb_eq : forall a b, zl_eqb a b = true -> a = b.
Proof.
  induction a as [|x a IH]; destruct b as [|y b]; simpl; intros H; try discriminate; auto.
  apply andb_prop in H. destruct H as (H1 & H2). apply Z.eqb_eq in H1. subst. f_equal. auto.
Qed.

(* s' holds the same struct value, member values and hardware as s *)
Definition same_values (s s' : state) : Prop := cst s' = cst s /\ cmem s' = cmem s /\ hw s' = hw s.

Lemma ann_err_mem_same : forall i s, same_values s (ann_err_mem i s).
Proof. intros. unfold ann_err_mem. destruct (nth i (emem s) false); repeat split. Qed.

Lemma ann_err_struct_same : forall s, same_values s (ann_err_struct s).
Proof. intros. unfold ann_err_struct. destruct (est s); repeat split. Qed.

Lemma ann_mem_quiet_same : forall i s, same_values s (ann_mem_quiet i (nth i (cmem s) 0%Z) s).
Proof. intros. unfold same_values, ann_mem_quiet; simpl. now rewrite set_nth_same. Qed.

(* the callback of the combined layout copies the whole struct value into the members *)
Lemma assign_members_frame : forall idx v s,
  cst (assign_members idx v s) = cst s /\ hw (assign_members idx v s) = hw s.
Proof. induction idx as [|i idx IH]; intros v s; simpl; [auto | exact (IH v (ann_mem_quiet i (nth i v 0%Z) s))]. Qed.

Lemma assign_members_cmem : forall vb a b va s,
  length b = length vb -> length a = length va -> cmem s = a ++ b ->
  cmem (assign_members (seq (length a) (length b)) (va ++ vb) s) = a ++ vb.
Proof.
  induction vb as [|y vb IH]; intros a b va s Hb Ha Hc; destruct b as [|x b]; simpl in Hb; try discriminate; simpl.
  - now rewrite Hc.
  - injection Hb as Hb. replace (nth (length a) (va ++ y :: vb) 0%Z) with y by (now rewrite Ha, nth_middle).
    specialize (IH (a ++ [y]) b (va ++ [y]) (ann_mem_quiet (length a) y s) Hb).
    rewrite !app_length, !Nat.add_1_r, <- !app_assoc in IH. apply IH; [now rewrite Ha|].
    simpl. now rewrite Hc, set_nth_app.
Qed.

Lemma ann_struct_cb_spec : forall n v s, length v = n -> length (cmem s) = n ->
  let s' := ann_struct_cb n v s in cst s' = v /\ cmem s' = v /\ hw s' = hw s.
Proof.
  intros n v s Hv Hm. unfold ann_struct_cb. simpl.
  destruct (assign_members_frame (seq 0 n) v (set_cst s v)) as (H1 & H2).
  split; [exact H1|]. split; [|exact H2].
  rewrite <- Hm. apply (assign_members_cmem v [] (cmem s) []); auto. congruence.
Qed.

(* generated struct read / write of the layout without combined methods: both loops have this shape; f i is the wrapped
   read_ / write_ method of member i *)
Fixpoint nr_all (f : nat -> state -> state * option Z) (idx : list nat) (s : state) : state * option (list Z) :=
  match idx with
  | [] => (s, Some [])
  | i :: r => match f i s with
              | (s1, None) => (s1, None)
              | (s1, Some v) => match nr_all f r s1 with
                                | (s2, None) => (s2, None)
                                | (s2, Some vs) => (s2, Some (v :: vs))
                                end
              end
  end.

Lemma nr_read_all_eq : forall L idx s, nr_read_all L idx s = nr_all (nr_read_mem L true) idx s.
Proof.
  induction idx as [|i r IH]; intros s; cbn [nr_read_all nr_all]; [reflexivity|].
  destruct (nr_read_mem L true i s) as (s1, [v|]); [rewrite IH|]; reflexivity.
Qed.

Lemma nr_write_all_eq : forall L val idx s,
  nr_write_all L idx val s = nr_all (fun i => nr_write_mem L true i (nth i val 0%Z)) idx s.
Proof.
  induction idx as [|i r IH]; intros s; cbn [nr_write_all nr_all]; [reflexivity|].
  destruct (nr_write_mem L true i (nth i val 0%Z) s) as (s1, [v|]); [rewrite IH|]; reflexivity.
Qed.

(* what a member access inside a loop does: the struct value and the fault script stay, the member takes the value
   returned; it raises only on a fault flag of its own and then leaves the member values alone *)
Definition member_step (f : nat -> state -> state * option Z) : Prop := forall i s,
  let (s1, r) := f i s in
  cst s1 = cst s /\ length (hw s1) = length (hw s) /\ frd s1 = frd s /\ fwr s1 = fwr s /\
  match r with
  | Some v => cmem s1 = set_nth i v (cmem s)
  | None => cmem s1 = cmem s /\ (nth i (frd s) false = true \/ nth i (fwr s) false = true)
  end.

Lemma nr_read_mem_step : forall L, member_step (nr_read_mem L true).
Proof.
  intros L i s. unfold nr_read_mem, ann_err_mem.
  destruct (nth i (sl_mr L) false); [destruct (nth i (frd s) false) eqn:E; [destruct (nth i (emem s) false)|]|];
    simpl; rewrite ?set_nth_same; repeat split; auto.
Qed.

Lemma nr_write_mem_step : forall L val, member_step (fun i => nr_write_mem L true i (nth i val 0%Z)).
Proof.
  intros L val i s. unfold nr_write_mem.
  destruct (nth i (sl_mw L) false); [destruct (nth i (fwr s) false) eqn:E|]; simpl; rewrite ?set_nth_length; repeat split; auto.
Qed.

(* complete loop: the member values are exactly the collected ones; aborted loop: the struct value is untouched *)
Lemma nr_all_spec : forall f, member_step f -> forall b a s, cmem s = a ++ b ->
  let (s', r) := nr_all f (seq (length a) (length b)) s in
  cst s' = cst s /\ length (hw s') = length (hw s) /\
  match r with
  | Some vs => cmem s' = a ++ vs /\ length vs = length b
  | None => length (cmem s') = length (cmem s)
  end.
Proof.
  intros f Hf. induction b as [|x b IH]; intros a s Hc; simpl; [now rewrite Hc|].
  specialize (Hf (length a) s). destruct (f (length a) s) as (s1, [v|]); destruct Hf as (H1 & H2 & _ & _ & H3).
  - rewrite Hc, set_nth_app in H3. specialize (IH (a ++ [v]) s1).
    rewrite app_length, Nat.add_1_r, <- app_assoc in IH. specialize (IH H3).
    destruct (nr_all f (seq (S (length a)) (length b)) s1) as (s2, [vs|]); destruct IH as (I1 & I2 & I3).
    + destruct I3 as (I3 & I4). rewrite <- app_assoc in I3. simpl. rewrite I1, I2, I3, I4. auto.
    + rewrite I1, I2, I3, H3, Hc, !app_length. auto.
  - destruct H3 as (H3 & _). rewrite H3. auto.
Qed.

Definition Inv (L : layout) (s : state) : Prop :=
  cst s = cmem s /\ length (cmem s) = sl_n L /\ length (hw s) = sl_n L.

Definition op_wf (L : layout) (o : op) : Prop :=
  match o with
  | ReadS => True
  | ReadM i => i < sl_n L
  | WriteS v => length v = sl_n L
  | WriteM i _ => i < sl_n L
  | SetS v => length v = sl_n L
  | SetM i _ => i < sl_n L
  | Hw v => length v = sl_n L
  | Fault _ _ => True
  | Coerce _ => True
  end.

(* two finding classes: assignment to the side from which no callback propagates *)
Definition op_safe (L : layout) (o : op) : Prop :=
  match o with
  | SetS _ => sl_rw L = true
  | SetM _ _ => sl_rw L = false
  | _ => True
  end.

Lemma init_inv : forall L, Inv L (init L).
Proof. intros; unfold Inv, init; simpl. rewrite repeat_length. auto. Qed.

Lemma inv_same : forall L s s', same_values s s' -> Inv L s -> Inv L s'.
Proof. intros L s s' (E1 & E2 & E3) (E & Hm & Hh). unfold Inv. rewrite E1, E2, E3. auto. Qed.

Lemma inv_agree : forall L s, Inv L s ->
  length (cst s) = sl_n L /\ length (cmem s) = sl_n L /\ forall i, i < sl_n L -> nth i (cst s) 0%Z = nth i (cmem s) 0%Z.
Proof. intros L s (E & Hm & _). rewrite E. auto. Qed.

Lemma ann_struct_cb_inv : forall L v s, length v = sl_n L -> Inv L s -> Inv L (ann_struct_cb (sl_n L) v s).
Proof.
  intros L v s Hv (_ & Hm & Hh). destruct (ann_struct_cb_spec (sl_n L) v s Hv Hm) as (H1 & H2 & H3).
  unfold Inv. rewrite H1, H2, H3. auto.
Qed.

Lemma ann_mem_cb_inv : forall L i v s, Inv L s -> Inv L (ann_mem_cb i v s).
Proof. intros L i v s (E & Hm & Hh). unfold Inv, ann_mem_cb; simpl. rewrite E, set_nth_length. auto. Qed.

(* the struct loops: complete -> agreement; aborted -> agreement iff no member cache changed (the guard) *)
Lemma nr_all_inv : forall L f s, member_step f -> Inv L s ->
  let (s1, r) := nr_all f (seq 0 (sl_n L)) s in
  match r with
  | Some vs => Inv L (ann_struct_quiet vs s1)
  | None => negb (zl_eqb (cmem s1) (cmem s)) = false -> Inv L s1
  end.
Proof.
  intros L f s Hf (E & Hm & Hh). pose proof (nr_all_spec f Hf (cmem s) [] s eq_refl) as H. simpl in H. rewrite Hm in H.
  destruct (nr_all f (seq 0 (sl_n L)) s) as (s1, [vs|]); destruct H as (H1 & H2 & H3); unfold Inv.
  - destruct H3 as (H3 & H4). simpl. rewrite H3, H2, H4. auto.
  - intros Hc. apply negb_false_iff, zl_eqb_eq in Hc. rewrite H1, H2, Hc. auto.
Qed.

Lemma nr_read_struct_inv : forall L s, partial_abort L s ReadS = false -> sl_rw L = false -> Inv L s ->
  Inv L (fst (nr_read_struct L s)).
Proof.
  intros L s Hp Hrw HI. unfold nr_read_struct. unfold partial_abort in Hp. rewrite Hrw in Hp. simpl in Hp.
  rewrite nr_read_all_eq in *. pose proof (nr_all_inv L _ s (nr_read_mem_step L) HI) as H.
  destruct (nr_all (nr_read_mem L true) (seq 0 (sl_n L)) s) as (s1, [vs|]); [exact H|].
  exact (inv_same L _ _ (ann_err_struct_same s1) (H Hp)).
Qed.

Lemma nr_write_struct_inv : forall L v s, partial_abort L s (WriteS v) = false -> forallb (in_range L) v = true ->
  sl_rw L = false -> Inv L s -> Inv L (fst (nr_write_struct L v s)).
Proof.
  intros L v s Hp Hr Hrw HI. unfold nr_write_struct. unfold partial_abort in Hp. rewrite Hrw, Hr in Hp. simpl in Hp.
  rewrite nr_write_all_eq in *. pose proof (nr_all_inv L _ s (nr_write_mem_step L v) HI) as H.
  destruct (nr_all (fun i => nr_write_mem L true i (nth i v 0%Z)) (seq 0 (sl_n L)) s) as (s1, [vs|]); [exact H|].
  exact (H Hp).
Qed.

Lemma rw_read_struct_spec : forall L s, Inv L s ->
  let (s', r) := rw_read_struct L s in
  Inv L s' /\ forall d, r = Some d -> d = cmem s' /\ d = (if sl_sr L then hw s else cst s) /\ hw s' = hw s.
Proof.
  intros L s HI. pose proof HI as (E & Hm & Hh). unfold rw_read_struct. destruct (sl_sr L).
  - destruct (nth 0 (frd s) false).
    + split; [exact (inv_same L _ _ (ann_err_struct_same s) HI) | discriminate].
    + split; [now apply ann_struct_cb_inv|]. intros d [= <-].
      destruct (ann_struct_cb_spec (sl_n L) (hw s) s Hh Hm) as (_ & H2 & H3). auto.
  - split; [exact HI|]. intros d [= <-]. auto.
Qed.

(* generated rfunc: the value returned and announced is the member's entry of what read_<struct> returned *)
Lemma rw_read_mem_spec : forall L i s, Inv L s ->
  let (s', r) := rw_read_mem L i s in
  Inv L s' /\ forall v, r = Some v ->
    v = nth i (cmem s') 0%Z /\ (sl_sr L = true -> cmem s' = hw s') /\ v = nth i (if sl_sr L then hw s else cst s) 0%Z.
Proof.
  intros L i s HI. unfold rw_read_mem. pose proof (rw_read_struct_spec L s HI) as H.
  destruct (rw_read_struct L s) as (s1, [d|]); destruct H as (H1 & H).
  - destruct (H d eq_refl) as (-> & Hd & Hh). pose proof (ann_mem_quiet_same i s1) as Hs.
    split; [exact (inv_same L _ _ Hs H1)|]. intros v [= <-]. destruct Hs as (_ & -> & ->).
    split; [reflexivity|]. split; [|now rewrite Hd]. intros Hsr. rewrite Hsr in Hd. congruence.
  - split; [exact (inv_same L _ _ (ann_err_mem_same i s1) H1) | discriminate].
Qed.

Lemma coerce_from_length : forall l v k, length (coerce_from k l v) = length v.
Proof. induction v; simpl; intros; auto. Qed.

Lemma coerce_length : forall l v, length (coerce l v) = length v.
Proof. intros. apply coerce_from_length. Qed.

Lemma nth_coerce_from : forall l v k i, i < length v -> nth i (coerce_from k l v) 0%Z = clookup (k + i) (nth i v 0%Z) l.
Proof.
  induction v as [|x v IH]; simpl; intros k i Hi; [lia|]. destruct i.
  - now rewrite Nat.add_0_r.
  - rewrite IH by lia. f_equal. lia.
Qed.

(* whatever the hardware makes of the requested members: struct and members get the SAME (returned) values *)
Lemma rw_write_struct_spec : forall L v s, length v = sl_n L -> Inv L s ->
  let (s', r) := rw_write_struct L v s in
  Inv L s' /\ forall c, r = Some c -> cst s' = c /\ (sl_sw L = true -> c = coerce (csc s) v /\ hw s' = c).
Proof.
  intros L v s Hv HI. pose proof HI as (E & Hm & Hh). unfold rw_write_struct. destruct (sl_sw L).
  - destruct (nth 0 (fwr s) false); [split; [exact HI | discriminate]|].
    set (c := coerce (csc s) v). assert (Hc : length c = sl_n L) by (unfold c; now rewrite coerce_length).
    assert (HI1 : Inv L (set_hw s c)) by (unfold Inv; simpl; auto).
    destruct (forallb (in_range L) c); [|split; [exact HI1 | discriminate]].
    split; [now apply ann_struct_cb_inv|]. intros c' [= <-].
    destruct (ann_struct_cb_spec (sl_n L) c (set_hw s c) Hc Hm) as (H1 & _ & H3). auto.
  - split; [now apply ann_struct_cb_inv|]. intros c [= <-].
    destruct (ann_struct_cb_spec (sl_n L) v s Hv Hm) as (H1 & _). split; [exact H1 | discriminate].
Qed.

(* write of a member in the combined layout: generated wfunc = write_<struct>(copy with the member replaced), then the
   value READ BACK through read_<member>() is returned and announced; with a user written write_<struct> that is what
   the hardware made of the request *)
Lemma rw_write_mem_spec : forall L i v s, Inv L s ->
  let (s', r) := rw_write_mem L i v s in
  Inv L s' /\
  match r with
  | ROk x => x = [nth i (cmem s') 0%Z] /\ (sl_sr L = true -> cmem s' = hw s') /\
             (sl_sw L = true -> i < sl_n L -> x = [clookup i v (csc s)])
  | RErr c => c = 1 \/ c = 3
  end.
Proof.
  intros L i v s HI. unfold rw_write_mem.
  assert (Hd : length (set_nth i v (cst s)) = sl_n L) by (destruct HI as (E & Hm & _); now rewrite set_nth_length, E).
  pose proof (rw_write_struct_spec L _ s Hd HI) as W.
  destruct (rw_write_struct L (set_nth i v (cst s)) s) as (s1, [c|]); destruct W as (I1 & W); [|auto].
  pose proof (rw_read_mem_spec L i s1 I1) as R.
  destruct (rw_read_mem L i s1) as (s2, [r|]); destruct R as (I2 & R); [|auto].
  destruct (R r eq_refl) as (-> & Rh & Rv). destruct (W c eq_refl) as (Wc & Ws).
  pose proof (ann_mem_quiet_same i s2) as Hs. split; [exact (inv_same L _ _ Hs I2)|]. destruct Hs as (_ & -> & ->).
  split; [reflexivity|]. split; [exact Rh|]. intros Hsw Hi. destruct (Ws Hsw) as (Hc & Hh).
  rewrite Rv. replace (if sl_sr L then hw s1 else cst s1) with c by (destruct (sl_sr L); congruence).
  rewrite Hc. unfold coerce. rewrite nth_coerce_from by now rewrite Hd.
  rewrite set_nth_length in Hd. rewrite nth_set_nth_eq by now rewrite Hd. reflexivity.
Qed.

Lemma step_inv : forall L s o, op_wf L o -> op_safe L o -> partial_abort L s o = false -> Inv L s ->
  Inv L (fst (step L s o)).
Proof.
  intros L s o Hw Hs Hp HI. destruct o; simpl in Hw, Hs; simpl.
  - destruct (sl_rw L) eqn:Erw.
    + pose proof (rw_read_struct_spec L s HI) as H. destruct (rw_read_struct L s). apply H.
    + pose proof (nr_read_struct_inv L s Hp Erw HI) as H. destruct (nr_read_struct L s). exact H.
  - destruct (sl_rw L).
    + pose proof (rw_read_mem_spec L i s HI) as H. destruct (rw_read_mem L i s). apply H.
    + unfold nr_read_mem. destruct (nth i (sl_mr L) false); [|exact HI].
      destruct (nth i (frd s) false); [exact (inv_same L _ _ (ann_err_mem_same i s) HI) | now apply ann_mem_cb_inv].
  - destruct (forallb (in_range L) v) eqn:Er; [|exact HI]. destruct (sl_rw L) eqn:Erw.
    + pose proof (rw_write_struct_spec L v s Hw HI) as H. destruct (rw_write_struct L v s). apply H.
    + pose proof (nr_write_struct_inv L v s Hp Er Erw HI) as H. destruct (nr_write_struct L v s). exact H.
  - destruct (in_range L v); [|exact HI]. destruct (sl_rw L).
    + pose proof (rw_write_mem_spec L i v s HI) as H. destruct (rw_write_mem L i v s). apply H.
    + unfold nr_write_mem. destruct (nth i (sl_mw L) false && nth i (fwr s) false); [exact HI|].
      apply ann_mem_cb_inv. destruct HI as (E & Hm & Hh).
      destruct (nth i (sl_mw L) false); unfold Inv; simpl; rewrite ?set_nth_length; auto.
  - rewrite Hs. now apply ann_struct_cb_inv.
  - rewrite Hs. now apply ann_mem_cb_inv.
  - destruct HI as (E & Hm & Hh). unfold Inv; simpl. auto.
  - exact HI.
  - exact HI.
Qed.

(* a history is admissible when every operation is well formed, is not an assignment to the non-propagating side, and no
   generated struct loop is aborted after it changed a member cache; faults that abort a loop before any change, faults
   of direct member access and faults in the combined layout are all admissible *)
Fixpoint run_ok (L : layout) (s : state) (ops : list op) : Prop :=
  match ops with
  | [] => True
  | o :: r => op_wf L o /\ op_safe L o /\ partial_abort L s o = false /\ run_ok L (fst (step L s o)) r
  end.

Lemma fold_inv : forall L ops s, run_ok L s ops -> Inv L s -> Inv L (fold_left (fun s o => fst (step L s o)) ops s).
Proof.
  induction ops as [|o ops IH]; intros s Hr HI; simpl; auto.
  destruct Hr as (Hw & Hs & Hp & Hr). apply IH; auto. now apply step_inv.
Qed.

Lemma run_inv : forall L ops, run_ok L (init L) ops -> Inv L (run L ops).
Proof. intros L ops Hr. exact (fold_inv L ops (init L) Hr (init_inv L)). Qed.

Lemma run_ok_firstn : forall L n ops s, run_ok L s ops -> run_ok L s (firstn n ops).
Proof.
  intros L n. induction n as [|n IH]; intros [|o ops] s H; simpl; auto.
  destruct H as (H1 & H2 & H3 & H4). auto.
Qed.

Lemma run_snoc : forall L ops o, run L (ops ++ [o]) = fst (step L (run L ops) o).
Proof. intros. unfold run. now rewrite fold_left_app. Qed.

(* without faults in the script nothing is ever aborted: the guard reduces to the two assignment classes *)
Definition no_faults (s : state) : Prop := (forall i, nth i (frd s) false = false) /\ (forall i, nth i (fwr s) false = false).


Lemma nr_all_no_fault : forall f, member_step f -> forall idx s, no_faults s -> snd (nr_all f idx s) <> None.
Proof.
  intros f Hf. induction idx as [|i idx IH]; intros s Hn; simpl; [discriminate|].
  specialize (Hf i s). destruct (f i s) as (s1, [v|]); destruct Hf as (_ & _ & Hr & Hw & H).
  - assert (Hn1 : no_faults s1) by (unfold no_faults; now rewrite Hr, Hw).
    specialize (IH s1 Hn1). destruct (nr_all f idx s1) as (s2, [vs|]); [discriminate | exact IH].
  - destruct Hn as (Nr & Nw). destruct H as (_ & [H|H]); congruence.
Qed.

Lemma no_fault_no_abort : forall L s o, no_faults s -> partial_abort L s o = false.
Proof.
  intros L s o Hn. destruct o; simpl; auto.
  - pose proof (nr_all_no_fault _ (nr_read_mem_step L) (seq 0 (sl_n L)) s Hn) as H. rewrite <- nr_read_all_eq in H.
    destruct (nr_read_all L (seq 0 (sl_n L)) s) as (s1, [vs|]); [apply andb_false_r | now destruct H].
  - pose proof (nr_all_no_fault _ (nr_write_mem_step L v) (seq 0 (sl_n L)) s Hn) as H. rewrite <- nr_write_all_eq in H.
    destruct (nr_write_all L (seq 0 (sl_n L)) v s) as (s1, [vs|]); [apply andb_false_r | now destruct H].
Qed.

(* two threads on one module (accessLock); inside this section state, init, run are those of Cs *)
Section Threads.
Import Cs.

(* the two halves of the body are the body *)
Lemma split_ok : forall L o s, finish L o (snd (collect L o s)) (fst (collect L o s)) = fst (St.step L s o).
Proof.
  intros L o s. unfold collect, finish. destruct (split_read L o) eqn:E; [|reflexivity].
  destruct o; simpl in E; try discriminate. apply negb_true_iff in E. simpl. rewrite E.
  unfold St.nr_read_struct. destruct (St.nr_read_all L (seq 0 (St.sl_n L)) s) as (s1, [vs|]); reflexivity.
Qed.

(* nobody holds the lock: both threads are outside and the module state is the serial run of the linearisation;
   thread t holds it: the other thread is outside, t is at an operation o, and either has not touched the state yet or
   finishing o gives the serial run extended by o *)
Definition lock_inv (L : St.layout) (c : state) : Prop :=
  match holder c with
  | None => (forall u, phase (get c u) = 0) /\ sst c = St.run L (rev (lin c))
  | Some t => phase (get c (negb t)) = 0 /\
      exists o rest, todo (get c t) = o :: rest /\
        ((phase (get c t) = 1 /\ sst c = St.run L (rev (lin c))) \/
         (phase (get c t) = 2 /\ finish L o (pend (get c t)) (sst c) = St.run L (rev (o :: lin c))))
  end.

Lemma lock_init_inv : forall L pa pb, lock_inv L (init L pa pb).
Proof. intros. unfold lock_inv; simpl. split; [intros [|]; reflexivity|reflexivity]. Qed.

Lemma inside_holds : forall L c t, lock_inv L c -> phase (get c t) <> 0 -> holder c = Some t.
Proof.
  intros L c t HI Hp. unfold lock_inv in HI. destruct (holder c) as [u|].
  - destruct HI as (H0 & _). destruct t, u; simpl in *; congruence.
  - destruct HI as (H0 & _). now rewrite H0 in Hp.
Qed.

(* one move of thread t: it is idle; or outside and acquires (or stays blocked); or inside with the lock, where the first
   half of the body is justified by split_ok and the second half ends with the release.  The new configuration stays behind
   the name c' while the hypotheses are taken apart: once it is written out, every case analysis carries all of it *)
Lemma move_inv : forall L c t, lock_inv L c -> lock_inv L (move L c t).
Proof.
  intros L c t HI. remember (move L c t) as c' eqn:Hm. unfold move in Hm. cbv zeta in Hm.
  destruct (todo (get c t)) as [|o rest] eqn:Et; [now rewrite Hm|].
  destruct (phase (get c t)) as [|p] eqn:Ep.
  - (* outside *) destruct (holder c) eqn:Eh; [now rewrite Hm|]. rewrite Hm. clear Hm.
    unfold lock_inv in HI. rewrite Eh in HI. destruct HI as (H0 & Hs). pose proof (H0 (negb t)) as Hn.
    unfold lock_inv. destruct t; simpl in *; (split; [exact Hn|]); exists o, rest; auto.
  - (* inside *) assert (Hh : holder c = Some t) by (apply (inside_holds L); [exact HI|rewrite Ep; discriminate]).
    unfold lock_inv in HI. rewrite Hh in HI. destruct HI as (H0 & o' & rest' & Ht & Hc).
    rewrite Et in Ht. injection Ht as <- <-. rewrite Ep in Hc. destruct p as [|p].
    + (* first half *) destruct Hc as [(_ & Hs)|(Hp & _)]; [|discriminate Hp].
      pose proof (split_ok L o (sst c)) as Hsp. destruct (collect L o (sst c)) as (s1, p). simpl in Hsp.
      rewrite Hs, <- run_snoc in Hsp. rewrite Hm. clear Hm.
      unfold lock_inv. destruct t; simpl in *; rewrite Hh; (split; [exact H0|]); exists o, rest; auto.
    + (* second half, release *) destruct Hc as [(Hp & _)|(_ & Hf)]; [discriminate Hp|]. rewrite Hm. clear Hm.
      unfold lock_inv. destruct t; simpl in *; (split; [|exact Hf]); intros [|]; auto.
Qed.

Lemma sched_inv : forall L pa pb sched, lock_inv L (run L pa pb sched).
Proof.
  intros L pa pb sched. unfold run. generalize (lock_init_inv L pa pb). generalize (init L pa pb).
  induction sched as [|t r IH]; intros c HI; simpl; auto. apply IH. now apply move_inv.
Qed.

Lemma mutual_exclusion : forall L c, lock_inv L c ->
  (forall t u, phase (get c t) <> 0 -> phase (get c u) <> 0 -> t = u) /\
  (holder c = None <-> forall t, phase (get c t) = 0).
Proof.
  intros L c HI. split.
  - intros t u Ht Hu. pose proof (inside_holds L c t HI Ht). pose proof (inside_holds L c u HI Hu). congruence.
  - split.
    + intros Hn. unfold lock_inv in HI. rewrite Hn in HI. apply HI.
    + intros H0. unfold lock_inv in HI. destruct (holder c) as [t|]; [|reflexivity].
      destruct HI as (_ & o & rest & _ & [(Hp & _)|(Hp & _)]); rewrite H0 in Hp; discriminate.
Qed.

Lemma quiescent_free : forall L c, lock_inv L c -> quiescent c = true -> holder c = None.
Proof.
  intros L c HI Hq. unfold lock_inv in HI. destruct (holder c) as [t|]; [|reflexivity].
  destruct HI as (_ & o & rest & Ht & _). unfold quiescent in Hq.
  destruct t; simpl in Ht; rewrite Ht in Hq; [destruct (todo (ta c))|]; discriminate.
Qed.

Lemma serial_when_free : forall L c, lock_inv L c -> holder c = None -> sst c = St.run L (rev (lin c)).
Proof. intros L c HI Hn. unfold lock_inv in HI. rewrite Hn in HI. apply HI. Qed.
End Threads.
