(* C18 - control hand-over: at most one controller is marked, the output names exactly that one; with controllers whose
   switch-off writes the output's target (kind 1) or may raise (kind 2).  Several output modules on one node: an
   operation on one output leaves every other output alone *)
From Coq Require Import List Arith ZArith Bool Lia.
Import ListNotations.
Require Import FV.C18.Model.
Require FV.C18.LemmasSt.
Import Co.

Lemma nth_set_false : forall (l : list bool) j k,
  nth k (set_nth j false l) false = negb (Nat.eqb k j) && nth k l false.
Proof.
  induction l as [|x l IH]; intros j k; simpl.
  - destruct j, k; simpl; now rewrite ?andb_false_r.
  - destruct j, k; simpl; auto; apply IH.
Qed.

Lemma nth_set_true : forall (l : list bool) i k, i < length l ->
  nth k (set_nth i true l) false = Nat.eqb k i || nth k l false.
Proof.
  induction l as [|x l IH]; intros i k Hi; simpl in *; [lia|].
  destruct i, k; simpl; auto. apply IH. lia.
Qed.

Definition on (s : state) (k : nat) : bool := nth k (act s) false.
Definition others_off (s : state) (j : nat) : Prop := forall k, k <> j -> on s k = false.
Definition all_off (s : state) : Prop := forall k, on s k = false.

Lemma off_single : forall s j, others_off s j ->
  all_off (off j s) /\ by_ (off j s) = by_ s /\ length (act (off j s)) = length (act s).
Proof.
  intros s j H. split; [|split; [reflexivity | apply LemmasSt.set_nth_length]].
  intros k. unfold on, off; simpl. rewrite nth_set_false. destruct (Nat.eqb_spec k j) as [->|Hne]; [reflexivity|].
  now apply H.
Qed.

Section Loops.
  Variable f : nat -> state -> state * bool.

  Lemma dloop_inactive : forall skip idx s,
    (forall k, In k idx -> skip <> Some k -> on s k = false) -> dloop f skip idx s = (s, true).
  Proof.
    induction idx as [|j r IH]; intros s H; simpl; auto.
    assert (IH' : dloop f skip r s = (s, true)) by (apply IH; intros k Hk; apply H; now right).
    destruct skip as [i|]; [destruct (Nat.eqb_spec i j) as [->|Hne]; [exact IH'|]|];
      (unfold on in H; rewrite (H j); [exact IH' | now left | congruence]).
  Qed.

  (* exactly one input is marked: the loop is the call of its switch-off *)
  Lemma dloop_single : forall skip idx j0 s,
    In j0 idx -> others_off s j0 -> on s j0 = true -> skip <> Some j0 ->
    (snd (f j0 s) = true -> all_off (fst (f j0 s))) ->
    dloop f skip idx s = f j0 s.
  Proof.
    induction idx as [|j r IH]; intros j0 s Hin Ho Hon Hs Hf; [destruct Hin|]. simpl.
    destruct (Nat.eq_dec j j0) as [->|Hne].
    - replace (match skip with Some i => Nat.eqb i j0 | None => false end) with false
        by (destruct skip as [i|]; [symmetry; apply Nat.eqb_neq; congruence | reflexivity]).
      unfold on in Hon. rewrite Hon. simpl.
      destruct (f j0 s) as [s1 [|]]; [|reflexivity]. apply dloop_inactive. intros k _ _. now apply Hf.
    - pose proof (Ho j Hne) as Hj. unfold on in Hj. rewrite Hj, orb_true_r.
      apply IH; auto. destruct Hin as [E|Hin]; [congruence | exact Hin].
  Qed.
End Loops.

Section Kinds.
  Variable kinds : list nat.
  Let n := length kinds.

  Definition failing (s : state) (j : nat) : bool := Nat.eqb (nth j kinds 0) 2 && nth j (cfail s) false.

  (* The three ways of switching off the only marked input j: it raises exactly when [failing s j]; otherwise nobody is
     marked afterwards.  First the switch-off while the output names self *)
  Lemma set_inactive0_single : forall s j, others_off s j ->
    let (s1, ok) := set_inactive0 kinds j s in
    ok = negb (failing s j) /\
    if ok then all_off s1 /\ by_ s1 = by_ s /\ length (act s1) = length (act s) else s1 = s.
  Proof.
    intros s j Ho. unfold failing, set_inactive0.
    destruct (nth j kinds 0) as [|[|[|k]]]; simpl; try (split; [reflexivity | now apply off_single]).
    - split; [reflexivity | exact (off_single (out_write_idle 0%Z s) j Ho)].
    - destruct (nth j (cfail s) false); split; auto. now apply off_single.
  Qed.

  (* the output's write_target while the output names somebody *)
  Lemma out_write_single : forall v s j0, j0 < n -> others_off s j0 -> on s j0 = true -> by_ s <> 0 ->
    let (s1, ok) := out_write kinds v s in
    ok = negb (failing s j0) /\
    if ok then all_off s1 /\ by_ s1 = 0 /\ length (act s1) = length (act s) else s1 = name_self s.
  Proof.
    intros v s j0 Hj Ho Hon Hb. unfold out_write. destruct (by_ s); [congruence|].
    pose proof (set_inactive0_single (name_self s) j0 Ho) as H0. fold n.
    assert (Hin : In j0 (seq 0 n)) by (apply in_seq; lia).
    assert (Hoff : snd (set_inactive0 kinds j0 (name_self s)) = true -> all_off (fst (set_inactive0 kinds j0 (name_self s))))
      by (destruct (set_inactive0 kinds j0 (name_self s)) as (s1, [|]); [intros _; apply H0 | discriminate]).
    rewrite (dloop_single _ None _ j0 (name_self s) Hin Ho Hon ltac:(discriminate) Hoff).
    destruct (set_inactive0 kinds j0 (name_self s)) as (s1, [|]); exact H0.
  Qed.

  Lemma set_inactive1_single : forall s j0, j0 < n -> others_off s j0 -> on s j0 = true -> by_ s <> 0 ->
    let (s1, ok) := set_inactive1 kinds j0 s in
    ok = negb (failing s j0) /\ if ok then all_off s1 /\ length (act s1) = length (act s) else s1 = s.
  Proof.
    intros s j0 Hj Ho Hon Hb. unfold set_inactive1.
    pose proof (set_inactive0_single s j0 Ho) as H0. pose proof (out_write_single 0%Z s j0 Hj Ho Hon Hb) as H1.
    assert (Hplain : let (s1, ok) := set_inactive0 kinds j0 s in
              ok = negb (failing s j0) /\ if ok then all_off s1 /\ length (act s1) = length (act s) else s1 = s).
    { destruct (set_inactive0 kinds j0 s) as (s1, [|]); destruct H0 as (E & H0); (split; [exact E|]);
        [destruct H0 as (A & _ & B); split; assumption | exact H0]. }
    destruct (nth j0 kinds 0) as [|[|k]] eqn:Ek.
    - exact Hplain.
    - (* kind 1 does not raise: the nested write of the output's target switches j0 off, then j0 clears its flag *)
      unfold failing in *. rewrite Ek in *. simpl in *.
      destruct (out_write kinds 0%Z s) as (s1, ok). destruct H1 as (-> & Ha & _ & Hl). split; [reflexivity|].
      destruct (off_single s1 j0) as (A & _ & L); [intros k _; apply Ha|]. split; [exact A | congruence].
    - exact Hplain.
  Qed.

  (* at most one controller is marked; the output names it; nobody marked <-> controlled_by = self *)
  Definition Inv (s : state) : Prop :=
    length (act s) = n /\ by_ s <= n /\ forall j, on s j = true <-> by_ s = S j.

  Definition op_wf (o : op) : Prop :=
    match o with WriteT i _ => i < n | UpdT i _ => i < n | WriteO _ => True | CFault _ => True end.

  (* the finding class: the output's own target is written while the switch-off of the controlling module raises *)
  Definition self_controlled_fails (s : state) (o : op) : bool :=
    match o, by_ s with
    | WriteO _, S j => failing s j
    | _, _ => false
    end.

  Lemma init_inv : Inv (init kinds).
  Proof.
    unfold Inv, init, on; simpl. rewrite repeat_length. split; auto. split; [lia|].
    intros j. rewrite nth_repeat. split; discriminate.
  Qed.

  Lemma inv_single : forall s j0, Inv s -> by_ s = S j0 -> j0 < n /\ others_off s j0 /\ on s j0 = true.
  Proof.
    intros s j0 (Hl & Hb & Hi) E. split; [lia|]. split.
    - intros k Hk. destruct (on s k) eqn:F; auto. apply Hi in F. congruence.
    - now apply Hi.
  Qed.

  Lemma inv_idle : forall s, Inv s -> by_ s = 0 -> all_off s.
  Proof. intros s (Hl & Hb & Hi) E k. destruct (on s k) eqn:F; auto. apply Hi in F. congruence. Qed.

  Lemma idle_inv : forall s, all_off s -> by_ s = 0 -> length (act s) = n -> Inv s.
  Proof. intros s Ha Hb Hl. unfold Inv. rewrite Hb, Hl. split; auto. split; [lia|]. intros j. rewrite Ha. split; discriminate. Qed.

  Lemma inv_named : forall s i, Inv s -> by_ s = S i -> forall j, nth j (act s) false = true <-> j = i.
  Proof. intros s i (_ & _ & Hi) E j. fold (on s j). rewrite Hi, E. split; congruence. Qed.

  (* activate_control, first part: the loop that switches every other input off either ends with nobody else marked or
     was left by the raising switch-off of the controlling module, and then NOTHING has changed *)
  Lemma deactivate_others : forall s i, i < n -> Inv s ->
    let (s1, ok) := dloop (set_inactive1 kinds) (Some i) (seq 0 n) s in
    if ok then others_off s1 i /\ length (act s1) = n
    else s1 = s /\ exists j, by_ s = S j /\ j <> i /\ failing s j = true.
  Proof.
    intros s i Hi HI. pose proof HI as (Hl & _). destruct (by_ s) as [|j0] eqn:Eb.
    - rewrite dloop_inactive by (intros k _ _; now apply inv_idle). split; [|exact Hl]. intros k _. now apply inv_idle.
    - destruct (inv_single s j0 HI Eb) as (Hj & Ho & Hon). destruct (Nat.eq_dec j0 i) as [->|Hne].
      + rewrite dloop_inactive by (intros k _ Hs; apply Ho; congruence). auto.
      + pose proof (set_inactive1_single s j0 Hj Ho Hon ltac:(lia)) as H1.
        assert (Hin : In j0 (seq 0 n)) by (apply in_seq; lia).
        assert (Hoff : snd (set_inactive1 kinds j0 s) = true -> all_off (fst (set_inactive1 kinds j0 s)))
          by (destruct (set_inactive1 kinds j0 s) as (s1, [|]); [intros _; apply H1 | discriminate]).
        rewrite (dloop_single _ (Some i) _ j0 _ Hin Ho Hon ltac:(congruence) Hoff).
        destruct (set_inactive1 kinds j0 s) as (s1, [|]); destruct H1 as (E & H1).
        * destruct H1 as (Ha & Hl1). split; [intros k _; apply Ha | congruence].
        * split; [exact H1|]. exists j0. destruct (failing s j0); [auto | discriminate].
  Qed.

  (* ... second part: the new controller is marked and named *)
  Lemma activate_inv : forall s1 i v, i < n -> length (act s1) = n -> others_off s1 i ->
    Inv {| by_ := S i; act := set_nth i true (act s1); otarget := otarget s1; ctarget := set_nth i v (ctarget s1);
           cfail := cfail s1;
           evs := (11 + 2 * i, [v]) :: (10 + 2 * i, [1%Z]) :: (0, [Z.of_nat (S i)]) :: evs s1 |}.
  Proof.
    intros s1 i v Hi Hl Ho. unfold Inv, on; simpl. rewrite LemmasSt.set_nth_length. split; auto. split; [lia|].
    intros j. rewrite nth_set_true by lia. destruct (Nat.eqb_spec j i) as [->|E]; simpl; [tauto|].
    fold (on s1 j). rewrite (Ho j E). split; [discriminate|congruence].
  Qed.

  (* taking over in a consistent state: either the switch-off of the controlling module raised and NOTHING changed
     (refused take-over), or the new controller is the only one marked and the output names it *)
  Lemma write_target_spec : forall s i v, i < n -> Inv s ->
    let '(s', r) := step kinds s (WriteT i v) in
    Inv s' /\
    match r with
    | ROk _ => by_ s' = S i
    | RErr _ => s' = s /\ exists j, by_ s = S j /\ j <> i /\ failing s j = true
    end.
  Proof.
    intros s i v Hi HI. simpl. fold n. pose proof (deactivate_others s i Hi HI) as H.
    destruct (dloop (set_inactive1 kinds) (Some i) (seq 0 n) s) as (s1, [|]).
    - destruct H as (Ho & Hl). split; [exact (activate_inv s1 i v Hi Hl Ho) | reflexivity].
    - destruct H as (-> & H). auto.
  Qed.

  (* the output's own write fails exactly in the finding class, and then the output already names self while the
     controller is still marked *)
  Lemma write_output_spec : forall s v, Inv s ->
    let (s1, ok) := out_write kinds v s in
    ok = negb (self_controlled_fails s (WriteO v)) /\ if ok then Inv s1 else s1 = name_self s.
  Proof.
    intros s v HI. simpl. destruct (by_ s) as [|j0] eqn:Eb.
    - unfold out_write. rewrite Eb. split; [reflexivity | exact HI].
    - destruct (inv_single s j0 HI Eb) as (Hj & Ho & Hon).
      pose proof (out_write_single v s j0 Hj Ho Hon ltac:(lia)) as H1.
      destruct (out_write kinds v s) as (s1, [|]); destruct H1 as (E & H1); (split; [exact E|]); [|exact H1].
      destruct HI as (Hl & _). destruct H1 as (Ha & Hb & Hl1). apply idle_inv; congruence.
  Qed.

  Lemma write_output_fails : forall s v j, Inv s -> by_ s = S j -> failing s j = true ->
    step kinds s (WriteO v) = (name_self s, RErr 3).
  Proof.
    intros s v j HI Eb Hf. pose proof (write_output_spec s v HI) as H. simpl in *. rewrite Eb, Hf in H.
    destruct (out_write kinds v s) as (s1, ok). destruct H as (-> & ->). reflexivity.
  Qed.

  Lemma step_inv : forall s o, op_wf o -> self_controlled_fails s o = false -> Inv s -> Inv (fst (step kinds s o)).
  Proof.
    intros s o Hw Hg HI. destruct o as [i v | v | i v | fl]; [| |exact HI|exact HI].
    - pose proof (write_target_spec s i v Hw HI) as H. destruct (step kinds s (WriteT i v)). apply H.
    - pose proof (write_output_spec s v HI) as H. rewrite Hg in H. simpl.
      destruct (out_write kinds v s) as (s1, ok). destruct H as (-> & H). exact H.
  Qed.

  Fixpoint run_ok (s : state) (ops : list op) : Prop :=
    match ops with
    | [] => True
    | o :: r => op_wf o /\ self_controlled_fails s o = false /\ run_ok (fst (step kinds s o)) r
    end.

  Lemma fold_inv : forall ops s, run_ok s ops -> Inv s -> Inv (fold_left (fun s o => fst (step kinds s o)) ops s).
  Proof.
    induction ops as [|o ops IH]; intros s Hr HI; simpl; auto.
    destruct Hr as (Hw & Hg & Hr). apply IH; auto. now apply step_inv.
  Qed.

  Lemma run_inv : forall ops, run_ok (init kinds) ops -> Inv (run kinds ops).
  Proof. intros ops Hr. exact (fold_inv ops (init kinds) Hr init_inv). Qed.

  Lemma run_ok_firstn : forall m ops s, run_ok s ops -> run_ok s (firstn m ops).
  Proof.
    induction m as [|m IH]; intros [|o ops] s H; simpl; auto.
    destruct H as (H1 & H2 & H3). auto.
  Qed.

  Lemma single_controller : forall s, Inv s ->
    (forall j k, nth j (act s) false = true -> nth k (act s) false = true -> j = k) /\
    (forall j, nth j (act s) false = true <-> by_ s = S j) /\
    (by_ s = 0 <-> forall j, nth j (act s) false = false) /\
    by_ s <= n /\ length (act s) = n.
  Proof.
    intros s (Hl & Hb & Hi). unfold on in Hi. repeat split; auto; try apply Hi.
    - intros j k Hj Hk. apply Hi in Hj, Hk. congruence.
    - intros H0 j. destruct (nth j (act s) false) eqn:E; auto. apply Hi in E. congruence.
    - intros Hall. destruct (by_ s) as [|j] eqn:E; auto. pose proof (proj2 (Hi j) eq_refl) as H. rewrite Hall in H. discriminate.
  Qed.
End Kinds.

(* a node with several output modules; inside this section state, step, init, run are those of Mo *)
Section Outputs.
Import Mo.

(* one step: the addressed component makes the Co step, every other component is untouched *)
Lemma step_frame : forall Ls s k o k', k' <> k -> nth k' (outs (fst (step Ls s (k, o)))) co0 = nth k' (outs s) co0.
Proof.
  intros Ls s k o k' H. unfold step. destruct (k <? length (outs s)); [|reflexivity].
  destruct (Co.step (nth k Ls []) (nth k (outs s) co0) o) as (c', r). simpl. apply LemmasSt.nth_set_nth_neq. auto.
Qed.

Lemma step_own : forall Ls s k o, k < length (outs s) ->
  nth k (outs (fst (step Ls s (k, o)))) co0 = fst (Co.step (nth k Ls []) (nth k (outs s) co0) o).
Proof.
  intros Ls s k o H. unfold step. apply Nat.ltb_lt in H as H'. rewrite H'.
  destruct (Co.step (nth k Ls []) (nth k (outs s) co0) o) as (c', r). simpl. now apply LemmasSt.nth_set_nth_eq.
Qed.

Lemma step_length : forall Ls s ko, length (outs (fst (step Ls s ko))) = length (outs s).
Proof.
  intros Ls s (k, o). unfold step. destruct (k <? length (outs s)); [|reflexivity].
  destruct (Co.step (nth k Ls []) (nth k (outs s) co0) o) as (c', r). simpl. apply LemmasSt.set_nth_length.
Qed.

(* every history: component k of the node = the single output model run on the operations addressed to k *)
Lemma fold_proj : forall Ls ops s k, k < length (outs s) ->
  nth k (outs (fold_left (fun s o => fst (step Ls s o)) ops s)) co0 =
  fold_left (fun c o => fst (Co.step (nth k Ls []) c o)) (ops_for k ops) (nth k (outs s) co0).
Proof.
  induction ops as [|(k', o) ops IH]; intros s k H; [reflexivity|].
  cbn [fold_left ops_for].
  rewrite IH by (rewrite step_length; exact H).
  destruct (Nat.eqb k' k) eqn:E.
  - apply Nat.eqb_eq in E. subst k'. cbn [fold_left]. now rewrite step_own.
  - apply Nat.eqb_neq in E. rewrite step_frame by auto. reflexivity.
Qed.

Lemma run_proj : forall Ls ops k, k < length Ls ->
  nth k (outs (run Ls ops)) co0 = Co.run (nth k Ls []) (ops_for k ops).
Proof.
  intros Ls ops k H. unfold run, Co.run. rewrite fold_proj by (simpl; now rewrite map_length).
  f_equal. simpl. change co0 with (Co.init []). now rewrite map_nth.
Qed.

(* a history that contains nothing for output k leaves it in its initial state; more generally two histories with
   the same operations for k agree on k whatever they do to the other outputs *)
Lemma run_independent : forall Ls ops ops' k, k < length Ls -> ops_for k ops = ops_for k ops' ->
  nth k (outs (run Ls ops)) co0 = nth k (outs (run Ls ops')) co0.
Proof. intros. rewrite !run_proj by auto. congruence. Qed.
End Outputs.
