(* C18 - float parameter bound to an enumerated index: the cached value is the value of the index; a write selects
   the closest table entry *)
From Coq Require Import List Arith ZArith Bool Lia.
Import ListNotations.
Require Import FV.C18.Model.
Import Fe.
Local Open Scope Z_scope.

(* the value clients are given (cache, update stream) is the value of the current index *)
Definition consistent (L : layout) (s : state) : Prop := cf s = shown L s.

Definition is_setf (o : op) : bool := match o with SetF _ => true | _ => false end.

(* the scripted write_<idx> of the fake driver accepts the request (takes it over or coerces it) *)
Definition drv_ok (L : layout) (s : state) (k : Z) : bool :=
  match drv_write L k s with Some _ => true | None => false end.

(* operations after which the cache is right whatever it was before *)
Definition establishes (L : layout) (s : state) (o : op) : bool :=
  match o with
  | SetI _ => true
  | WriteI k => drv_ok L s k
  | ReadI => f_ri L
  | WriteF v => negb ((v <? vmin (vdict L)) || (vmax (vdict L) <? v)) && drv_ok L s (closest v (vdict L))
  | _ => false
  end.

Lemma ann_idx_consistent : forall L k s, consistent L (ann_idx L k s).
Proof. reflexivity. Qed.

Lemma ann_float_shown_consistent : forall L s, consistent L (ann_float (shown L s) s).
Proof. reflexivity. Qed.

(* wrapped write_<idx>: either the user method raised and NOTHING changed, or the index it really set (k') was announced:
   index k', cache = table value of k', both updates in the stream *)
Lemma write_idx_spec : forall L k s,
  match write_idx L k s with
  | (s1, None) => s1 = s /\ drv_ok L s k = false
  | (s1, Some k') => drv_ok L s k = true /\ ci s1 = k' /\ consistent L s1 /\
                     evs s1 = (1%nat, [k']) :: (0%nat, [shown L s1]) :: evs s /\ scr s1 = scr s
  end.
Proof.
  intros L k s. unfold write_idx, drv_ok. destruct (drv_write L k s) as [(s0, k')|] eqn:E.
  - split; [reflexivity|]. split; [reflexivity|]. split; [apply ann_idx_consistent|].
    assert (Hs : evs s0 = evs s /\ scr s0 = scr s).
    { unfold drv_write in E. destruct (f_wi L) as [|[|[|n]]]; try (injection E as <- _; auto).
      destruct (slookup k (scr s)) as [[k2|]|]; try discriminate; injection E as <- _; auto. }
    destruct Hs as (He & Hc). unfold ann_idx, shown. simpl. rewrite He. split; [reflexivity | exact Hc].
  - split; reflexivity.
Qed.

(* a driver that takes the request over (no write_<idx>, the plain kinds, or no script entry for k) sets exactly k *)
Definition takes_over (L : layout) (s : state) (k : Z) : bool :=
  match f_wi L with
  | 0%nat | 1%nat | 2%nat => true
  | _ => match slookup k (scr s) with None => true | Some _ => false end
  end.

Lemma write_idx_takes_over : forall L k s, takes_over L s k = true ->
  exists s1, write_idx L k s = (s1, Some k) /\ ci s1 = k.
Proof.
  intros L k s H. unfold write_idx, drv_write. unfold takes_over in H.
  destruct (f_wi L) as [|[|[|n]]]; try (eexists; split; reflexivity).
  destruct (slookup k (scr s)); [discriminate|]. eexists; split; reflexivity.
Qed.

(* one step: an establishing operation makes the cache right, every other one except SetF keeps it right *)
Lemma step_consistent : forall L s o, establishes L s o = true \/ is_setf o = false /\ consistent L s ->
  consistent L (fst (step L s o)).
Proof.
  intros L s o H. assert (HC : establishes L s o = false -> consistent L s) by (destruct H as [H|H]; [congruence|tauto]).
  destruct o; simpl in *; auto using ann_idx_consistent.
  - destruct ((v <? vmin (vdict L)) || (vmax (vdict L) <? v)); simpl in *; auto.
    pose proof (write_idx_spec L (closest v (vdict L)) s) as W.
    destruct (write_idx L (closest v (vdict L)) s) as (s1, [k'|]); [apply ann_float_shown_consistent|].
    destruct W as (-> & W). auto.
  - pose proof (write_idx_spec L k s) as W. destruct (write_idx L k s) as (s1, [k'|]); [apply W|].
    destruct W as (-> & W). auto.
  - destruct (f_ri L); simpl; auto using ann_idx_consistent.
  - destruct H as [H|(H & _)]; discriminate H.
Qed.

Lemma fold_preserves : forall L ops s, forallb (fun o => negb (is_setf o)) ops = true -> consistent L s ->
  consistent L (fold_left (fun s o => fst (step L s o)) ops s).
Proof.
  induction ops as [|o ops IH]; intros s Hn HC; simpl in *; auto.
  apply andb_prop in Hn. destruct Hn as (H1 & H2). apply negb_true_iff in H1. apply IH; auto. apply step_consistent; auto.
Qed.

(* histories without assignment to the float parameter: consistent from a consistent start *)
Lemma value_from_init : forall L ops, consistent L (init L) -> forallb (fun o => negb (is_setf o)) ops = true ->
  consistent L (run L ops).
Proof. intros. unfold run. now apply fold_preserves. Qed.

(* ... and from any start as soon as the index has been announced once *)
Lemma value_after_index_update : forall L pre o post,
  establishes L (run L pre) o = true -> forallb (fun o => negb (is_setf o)) post = true ->
  consistent L (run L (pre ++ o :: post)).
Proof.
  intros L pre o post He Hn. unfold run. rewrite fold_left_app. simpl.
  apply fold_preserves; auto. apply step_consistent; auto.
Qed.

(* the attribute seen by driver code is the table entry of the index by construction *)
Lemma shown_is_table_entry : forall L s x, vlookup (ci s) (vdict L) = Some x -> shown L s = x.
Proof. intros L s x H. unfold shown. now rewrite H. Qed.

Lemma closest_from_spec : forall d v bk bd,
  let k := closest_from v bk bd d in
  (k = bk /\ Forall (fun p => bd <= Z.abs (snd p - v)) d) \/
  (exists x, In (k, x) d /\ Z.abs (x - v) < bd /\ Forall (fun p => Z.abs (x - v) <= Z.abs (snd p - v)) d).
Proof.
  induction d as [|(k0, x0) d IH]; intros v bk bd; simpl; [now left|].
  destruct (Z.abs (x0 - v) <? bd) eqn:E.
  - apply Z.ltb_lt in E. right. destruct (IH v k0 (Z.abs (x0 - v))) as [(-> & Hall) | (x & Hin & Hlt & Hall)].
    + exists x0. split; [now left|]. split; [exact E|]. constructor; [reflexivity | exact Hall].
    + exists x. split; [now right|]. split; [lia|]. constructor; [simpl; lia | exact Hall].
  - apply Z.ltb_ge in E. destruct (IH v bk bd) as [(Hk & Hall) | (x & Hin & Hlt & Hall)].
    + left. split; [exact Hk|]. constructor; [exact E | exact Hall].
    + right. exists x. split; [now right|]. split; [exact Hlt|]. constructor; [simpl; lia | exact Hall].
Qed.

Lemma closest_spec : forall d v, d <> [] ->
  exists x, In (closest v d, x) d /\ forall j y, In (j, y) d -> Z.abs (x - v) <= Z.abs (y - v).
Proof.
  intros [|(k0, x0) d] v Hne; [congruence|]. simpl.
  destruct (closest_from_spec d v k0 (Z.abs (x0 - v))) as [(-> & Hall) | (x & Hin & Hlt & Hall)];
    [exists x0; split; [now left|] | exists x; split; [now right|]];
    rewrite Forall_forall in Hall; (intros j y [[= _ <-] | Hy]; [lia | exact (Hall _ Hy)]).
Qed.

(* a client (or driver) write of the float parameter, from ANY state and with ANY write_<idx> script:
   - outside the table range: refused (RangeError), nothing changed;
   - the index REQUESTED from write_<idx> is closest v: its table value has minimal distance to v;
   - write_<idx> raised: HardwareError, nothing changed at all (so value and index still belong together if they did);
   - otherwise: the index is the one write_<idx> really set (k', equal to the requested one when the driver takes the
     request over), the cached value, the reply and the last update of the float parameter are the table value of THAT
     index, and the update stream got float, index, float - all three for k' *)
Lemma write_float_spec : forall L s v,
  let d := vdict L in
  let '(s', r) := step L s (WriteF v) in
  if (v <? vmin d) || (vmax d <? v)
  then s' = s /\ r = RErr 1
  else if drv_ok L s (closest v d)
       then r = ROk [shown L s'] /\ consistent L s' /\
            evs s' = (0%nat, [shown L s']) :: (1%nat, [ci s']) :: (0%nat, [shown L s']) :: evs s /\
            (takes_over L s (closest v d) = true -> ci s' = closest v d)
       else s' = s /\ r = RErr 3.
Proof.
  intros L s v. simpl. destruct ((v <? vmin (vdict L)) || (vmax (vdict L) <? v)); [split; reflexivity|].
  pose proof (write_idx_spec L (closest v (vdict L)) s) as W.
  pose proof (write_idx_takes_over L (closest v (vdict L)) s) as T.
  destruct (write_idx L (closest v (vdict L)) s) as (s1, [k'|]).
  - destruct W as (W0 & W1 & W2 & W3 & W4). rewrite W0. simpl. rewrite W3, W1.
    repeat split. intros Ht. destruct (T Ht) as (s2 & [= _ <-] & _). reflexivity.
  - destruct W as (-> & W). rewrite W. split; reflexivity.
Qed.

Lemma fold_bound : forall (op : Z -> Z -> Z) (R : Z -> Z -> Prop),
  (forall a, R a a) -> (forall a b c, R a b -> R b c -> R a c) -> (forall a x, R (op a x) a /\ R (op a x) x) ->
  forall (r : list (Z * Z)) a, let m := fold_left (fun a p => op a (snd p)) r a in R m a /\ Forall (fun p => R m (snd p)) r.
Proof.
  intros op R Hrefl Htrans Hop. induction r as [|(k, x) r IH]; intros a; simpl; [auto|].
  destruct (IH (op a x)) as (H1 & H2). destruct (Hop a x) as (Ha & Hx). split; [eauto|]. constructor; [simpl; eauto | exact H2].
Qed.

(* every table value lies inside [vmin, vmax]: exactly the table range is writable *)
Lemma table_in_range : forall d j y, In (j, y) d -> vmin d <= y <= vmax d.
Proof.
  intros [|(k, x) r] j y H; [destruct H|]. simpl.
  destruct (fold_bound Z.min Z.le Z.le_refl Z.le_trans (fun a x => conj (Z.le_min_l a x) (Z.le_min_r a x)) r x)
    as (A1 & A2).
  destruct (fold_bound Z.max (fun a b => b <= a) Z.le_refl (fun a b c H1 H2 => Z.le_trans c b a H2 H1)
              (fun a x => conj (Z.le_max_l a x) (Z.le_max_r a x)) r x) as (B1 & B2).
  rewrite Forall_forall in A2, B2. destruct H as [[= _ <-] | H]; [auto|].
  split; [exact (A2 _ H) | exact (B2 _ H)].
Qed.
