(* C15 — correspondence driver: a case carries the configuration, the effective schedule, the pop order of the
   python set and everything the implementation did; check_case re-runs the model and compares. *)
From Coq Require Import List Arith Bool.
Import ListNotations.
Require Import FV.Base.Util FV.Gen.C15 FV.C15.Model.

Definition depth_limit : nat := 40.
(* step budget of every get_module call of the model: the bound proved sufficient for EVERY configuration
   (LemmasTerm.enough_fuel, theorem C15_get_module_never_loops), written out here because this file does not depend
   on lemma files; LemmasTerm.step_fuel_is_enough proves that it is that bound, C15_correspondence_never_stuck that
   the flag stuck of the model is never set in a correspondence run.  About 25000 for the generated sizes. *)
Definition step_fuel (c : cfg) : nat :=
  let C := S (S (fold_right Nat.max 9 (map (fun bd => 4 * length (d_atts (snd bd)) + 9) (c_static c ++ c_dyn c)))) in
  let U := 2 * length (c_static c) + 2 * S (length (c_static c) + length (c_dyn c)) in
  C * ((S depth_limit + 1) * U + S depth_limit + 1).

Definition event_eqb (a b : event) : bool :=
  match a, b with
  | EEarly m, EEarly n | EInit m, EInit n | EStart m, EStart n | EIReads m, EIReads n
  | EStarted m, EStarted n | EStop m, EStop n | EShutdown m, EShutdown n
  | ECWait m, ECWait n | EDoPoll m, EDoPoll n => Nat.eqb m n
  | ESee u i t ok, ESee u' i' t' ok' => Nat.eqb u u' && Nat.eqb i i' && opt_eqb Nat.eqb t t' && Bool.eqb ok ok'
  | EWrite m k, EWrite n j | ERead m k, ERead n j => Nat.eqb m n && Nat.eqb k j
  | EReady a, EReady b => Bool.eqb a b
  | EExit, EExit => true
  | _, _ => false
  end.

Definition err_eqb (a b : err) : bool :=
  match a, b with
  | ErrCreate m, ErrCreate n | ErrInit m, ErrInit n => Nat.eqb m n
  | _, _ => false
  end.

Record case := {
  c_cfg : cfg;
  c_sched : list sitem;
  c_order : list name;
  c_recursion : bool;        (* the implementation reported a RecursionError *)
  c_log : list event;        (* chronological *)
  c_errors : list err;       (* chronological *)
  c_modules : list name;
  c_export : list name;
  c_outcome : nat;           (* 0 ready, 1 ready after time-out, 2 exit with errors, 3 anything else *)
}.

Definition outcome_of (s : sys) : nat :=
  match s_pc s with
  | MRun => match trace (s_node s) with EReady false :: _ => 1 | _ => 0 end
  | MExited => 2
  | _ => 3
  end.

Definition model_run (c : case) : sys := started depth_limit (step_fuel (c_cfg c)) (c_cfg c) (c_sched c).
Definition model_final (c : case) : node := shutdown (model_run c) (c_order c).

Definition check_case (c : case) : bool :=
  let s := model_run c in
  let st := model_final c in
  negb (stuck st) && Bool.eqb (overflow st) (c_recursion c) &&
  Nat.eqb (outcome_of s) (c_outcome c) &&
  if overflow st
  then negb (match errors st with [] => true | _ => false end) && negb (match c_errors c with [] => true | _ => false end)
  else list_eqb event_eqb (rev (trace st)) (c_log c) &&
       list_eqb err_eqb (rev (errors st)) (c_errors c) &&
       list_eqb Nat.eqb (map fst (modules st)) (c_modules c) &&
       list_eqb Nat.eqb (export st) (c_export c).

(* for diagnosis in replay files *)
Definition model_result (c : case) :=
  let st := model_final c in
  (rev (trace st), rev (errors st), map fst (modules st), export st, (overflow st, stuck st, outcome_of (model_run c))).
