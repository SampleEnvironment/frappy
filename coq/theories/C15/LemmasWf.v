(* C15 — well-formedness of every reachable node (module names are distinct, every cached attachment
   points to a module of the node) and the theorems about the shutdown order of _getSortedModules on such a node. *)
From Coq Require Import List Arith Bool Lia Permutation.
Import ListNotations.
Require Import FV.C15.Model FV.C15.Lemmas FV.C15.LemmasInit FV.C15.LemmasSort.

Lemma keys_upd {A} k (f : A -> A) : forall l, map fst (upd k f l) = map fst l.
Proof.
  induction l as [|[k0 v] r IH]; simpl; auto. destruct (Nat.eqb k k0); simpl; [reflexivity|rewrite IH; reflexivity].
Qed.

Lemma keys_set_assoc {A} k (v : A) : forall l,
  map fst (set_assoc k v l) = if has_key k l then map fst l else map fst l ++ [k].
Proof.
  unfold has_key. induction l as [|[k0 v0] r IH]; simpl; auto.
  destruct (Nat.eqb k k0) eqn:E; simpl.
  - apply Nat.eqb_eq in E. subst. reflexivity.
  - rewrite IH. destruct (find k r); reflexivity.
Qed.

Lemma has_key_false_notin {A} k : forall (l : list (nat * A)), has_key k l = false -> ~ In k (map fst l).
Proof.
  unfold has_key. induction l as [|[k0 v0] r IH]; simpl; [auto|].
  destruct (Nat.eqb k k0) eqn:E; [discriminate|]. intros H [X|X]; [subst; rewrite Nat.eqb_refl in E; discriminate|].
  exact (IH H X).
Qed.

Lemma In_has_key {A} k : forall (l : list (nat * A)), In k (map fst l) -> has_key k l = true.
Proof.
  intros l I. destruct (has_key k l) eqn:H; auto. exfalso. exact (has_key_false_notin k l H I).
Qed.

Lemma nodup_snoc {A} (x : A) : forall l, NoDup l -> ~ In x l -> NoDup (l ++ [x]).
Proof.
  induction l as [|y r IH]; simpl; intros N I; [constructor; auto; constructor|].
  inversion N; subst. constructor.
  - rewrite in_app_iff. intros [H|[H|[]]]; [contradiction|]. subst. apply I. left; reflexivity.
  - apply IH; auto.
Qed.

Lemma nodup_set_assoc {A} k (v : A) l : NoDup (map fst l) -> NoDup (map fst (set_assoc k v l)).
Proof.
  intros N. rewrite keys_set_assoc. destruct (has_key k l) eqn:H; auto.
  apply nodup_snoc; auto. apply has_key_false_notin. exact H.
Qed.

Definition att_ok (mods : list (name * inst)) : Prop :=
  forall u iu i b, find u mods = Some iu -> In (i, b) (i_attached iu) -> has_key b mods = true.
Definition ret_ok (mods : list (name * inst)) (stk : list frame) : Prop :=
  forall fr idx a b, In fr stk -> In (ORet idx a b) (f_ops fr) -> has_key b mods = true.

Record Wf (st : node) : Prop := {
  wf_nodup : NoDup (map fst (modules st));
  wf_att : att_ok (modules st);
  wf_ret : ret_ok (modules st) (stack st);
}.

Lemma Wf_same st st' : Wf st -> modules st' = modules st -> stack st' = stack st -> Wf st'.
Proof. intros [A B C] M S. constructor; rewrite ?M, ?S; auto. Qed.

(* an update of one instance that keeps its cached attachments (or adds one that points to a module) *)
Lemma att_ok_upd mods k f :
  att_ok mods ->
  (forall i x b, In (x, b) (i_attached (f i)) -> In (x, b) (i_attached i) \/ has_key b mods = true) ->
  att_ok (upd k f mods).
Proof.
  intros A F u iu i b Fu I. rewrite has_key_upd. rewrite find_upd in Fu.
  destruct (Nat.eqb u k).
  - destruct (find u mods) as [i0|] eqn:E; simpl in Fu; [|discriminate]. inversion Fu; subst.
    destruct (F _ _ _ I) as [H|H]; auto. eapply A; eauto.
  - eapply A; eauto.
Qed.

Lemma Wf_upd st st' k f :
  modules st' = upd k f (modules st) -> stack st' = stack st ->
  (forall i x b, In (x, b) (i_attached (f i)) -> In (x, b) (i_attached i) \/ has_key b (modules st) = true) ->
  Wf st -> Wf st'.
Proof.
  intros M S F [A B C]. constructor; rewrite ?M, ?S.
  - rewrite keys_upd. exact A.
  - apply att_ok_upd; auto.
  - intros fr idx a b I O. rewrite has_key_upd. eapply C; eauto.
Qed.

Lemma Wf_add_module n d io st : Wf st -> Wf (add_module n (new_inst d io) st).
Proof.
  intros [A B C].
  pose proof (modules_add_module n (new_inst d io) st) as M.
  assert (S : stack (add_module n (new_inst d io) st) = stack st).
  { unfold add_module. destruct (d_export _); reflexivity. }
  constructor; rewrite ?M, ?S.
  - apply nodup_set_assoc. exact A.
  - intros u iu i b Fu I. apply has_key_set_assoc. rewrite find_set_assoc in Fu.
    destruct (Nat.eqb u n).
    + inversion Fu; subst. simpl in I. contradiction.
    + eapply B; eauto.
  - intros fr idx a b I O. apply has_key_set_assoc. eapply C; eauto.
Qed.

Lemma Wf_create st b d : Wf st -> Wf (fst (create st b d)).
Proof.
  intros W. unfold create. destruct (negb (creatable d)); simpl; [apply (Wf_same st _ W); reflexivity|].
  destruct (d_kind d) as [|[|u|m]|]; simpl; try (apply Wf_add_module; exact W).
  destruct (find u (iodict st)); simpl; [apply Wf_add_module; exact W|].
  apply Wf_add_module. apply (Wf_same _ _ (Wf_add_module (io_name b) io_decl None st W)); reflexivity.
Qed.

Lemma Wf_get_instance st b : Wf st -> Wf (fst (get_instance st b)).
Proof.
  intros W. unfold get_instance. destruct (has_key b (modules st)); auto.
  destruct (find b (avail st)); auto. apply Wf_create. exact W.
Qed.

Lemma ret_ok_tail mods u o ops rest :
  ret_ok mods ({| f_mod := u; f_ops := o :: ops |} :: rest) -> ret_ok mods ({| f_mod := u; f_ops := ops |} :: rest).
Proof.
  intros C fr idx a b [E|I] O; [subst fr; simpl in O|]; eapply C; try (right; exact I); try (left; reflexivity); eauto.
  simpl. right. exact O.
Qed.

Lemma ret_ok_rest mods fr rest : ret_ok mods (fr :: rest) -> ret_ok mods rest.
Proof. intros C f idx a b I O. eapply C; eauto. right; exact I. Qed.

Lemma frame_ops_no_ret d io idx a b : ~ In (ORet idx a b) (frame_ops d io).
Proof. exact (frame_ops_In d io (ORet idx a b)). Qed.

Lemma Wf_push b st : Wf st -> Wf (push b st).
Proof.
  intros [A B C]. unfold push. constructor; simpl; auto.
  intros f i0 a0 b0 [E|I] O; [subst f; simpl in O; exfalso; exact (frame_ops_no_ret _ _ _ _ _ O)|]. eapply C; eauto.
Qed.

Lemma Wf_step limit st : Wf st -> Wf (step limit st).
Proof.
  intros W. unfold step. destruct (stack st) as [|fr rest] eqn:Hs; [exact W|].
  pose proof W as [A B C]. rewrite Hs in C.
  (* leaving the top frame, normally or by an exception, in a node that has at least the modules of st *)
  assert (LEAVE : forall s, Wf s -> keys_mono st s -> Wf (set_stack (mark_init (f_mod fr) s) rest)).
  { intros s [A0 B0 _] KM. constructor; simpl.
    - rewrite keys_upd. exact A0.
    - apply att_ok_upd; auto.
    - intros f idx a b I O. rewrite has_key_upd. apply KM. exact (ret_ok_rest _ _ _ C f idx a b I O). }
  assert (RAISE : forall s, Wf s -> keys_mono st s -> Wf (raise_top s (f_mod fr) rest)).
  { intros s Ws KM. apply (LEAVE (add_error (ErrInit (f_mod fr)) s)); [apply (Wf_same s _ Ws); reflexivity|exact KM]. }
  destruct (f_ops fr) as [|o ops] eqn:Ho.
  - apply LEAVE; auto using km_refl.
  - assert (FR : fr = {| f_mod := f_mod fr; f_ops := o :: ops |}) by (destruct fr; simpl in *; subst; reflexivity).
    assert (CT : ret_ok (modules st) ({| f_mod := f_mod fr; f_ops := ops |} :: rest)).
    { apply (ret_ok_tail _ _ o). rewrite <- FR. exact C. }
    assert (CONT : forall st0, modules st0 = modules st -> Wf st0 ->
              Wf (set_stack st0 ({| f_mod := f_mod fr; f_ops := ops |} :: rest))).
    { intros st0 M [A0 B0 C0]. constructor; simpl; auto. rewrite M. exact CT. }
    destruct o.
    + apply CONT; auto. apply (Wf_same st _ W); reflexivity.
    + apply CONT; auto. apply (Wf_same st _ W); reflexivity.
    + (* OAccess *)
      destruct (find idx (attached_of st (f_mod fr))); [apply CONT; auto; apply (Wf_same st _ W); reflexivity|].
      destruct (a_target a) as [b|]; [|apply CONT; auto; apply (Wf_same st _ W); reflexivity].
      pose proof (Wf_get_instance st b W) as W1. pose proof (get_instance_keys st b) as KM.
      pose proof (get_instance_ok_key st b) as OK.
      destruct (get_instance st b) as [st1 r]; simpl in *.
      destruct r; try (apply RAISE; assumption).
      assert (W2 : Wf (set_stack st1 ({| f_mod := f_mod fr; f_ops := ORet idx a b :: ops |} :: rest))).
      { destruct W1 as [A1 B1 C1]. constructor; simpl; auto.
        intros f i0 a0 b0 [E|I] O; [|apply KM; exact (ret_ok_rest _ _ _ C f i0 a0 b0 I O)].
        subst f. simpl in O. destruct O as [O|O]; [inversion O; subst; exact (OK eq_refl)|].
        apply KM. eapply CT; [left; reflexivity|exact O]. }
      destruct (isinit _ b); [exact W2|].
      destruct (Nat.leb _ _); [|apply Wf_push; exact W2].
      apply RAISE; [apply (Wf_same _ _ W2); reflexivity|exact KM].
    + (* ORet *)
      destruct (want_ok _ _); [|apply RAISE; auto using km_refl].
      assert (KB : has_key b (modules st) = true).
      { eapply C; [left; reflexivity|]. rewrite Ho. left; reflexivity. }
      constructor; simpl.
      * rewrite keys_upd. exact A.
      * apply att_ok_upd; auto. intros i x b0 I. simpl in I. apply In_set_assoc in I. destruct I as [E|I]; auto.
        inversion E; subst. right. exact KB.
      * intros f i0 a0 b0 I O. rewrite has_key_upd. eapply CT; eauto.
    + apply RAISE; auto using km_refl.
    + (* ORegister *)
      unfold register. destruct (_ || _); [|apply CONT; auto].
      constructor; simpl.
      * rewrite keys_upd. exact A.
      * apply att_ok_upd; auto.
      * intros f i0 a0 b0 I O. rewrite has_key_upd. eapply CT; eauto.
Qed.

Lemma Wf_run_gm limit fuel : forall st, Wf st -> Wf (run_gm limit fuel st).
Proof.
  induction fuel as [|fuel IH]; intros st W; simpl; destruct (stack st) eqn:S; auto.
  - apply (Wf_same st _ W); reflexivity.
  - apply IH. apply Wf_step. exact W.
Qed.

Lemma Wf_gm_top limit fuel st b : Wf st -> Wf (gm_top limit fuel st b).
Proof.
  intros W. unfold gm_top. pose proof (Wf_get_instance st b W) as W1.
  destruct (get_instance st b) as [st1 r]; simpl in *. destruct r; auto.
  destruct (isinit st1 b); auto. apply Wf_run_gm. apply Wf_push. exact W1.
Qed.

Lemma Wf_runs limit fuel pool st st' : runs limit fuel pool st st' -> Wf st -> Wf st'.
Proof.
  induction 1 as [|st b st' R IH|st b st' R IH|st b d st' I R IH]; intros W; auto; apply IH;
    [apply Wf_gm_top|apply Wf_get_instance|apply (Wf_same st)]; auto.
Qed.

Lemma Wf_initialised limit fuel c : Wf (initialised limit fuel c).
Proof.
  apply (Wf_runs _ _ _ _ _ (initialised_runs limit fuel c)).
  constructor; simpl; [constructor|intros u iu i b F; discriminate|intros fr idx a b []].
Qed.

Definition att_graph (st : node) (n : name) : list name := map snd (attached_of st n).
Definition mod_names (st : node) : list name := map fst (modules st).

Lemma att_graph_closed st : att_ok (modules st) ->
  forall u b, In u (mod_names st) -> In b (att_graph st u) -> In b (mod_names st).
Proof.
  intros A u b _ I. unfold att_graph, attached_of in I. destruct (find u (modules st)) as [iu|] eqn:F; [|contradiction].
  apply in_map_iff in I. destruct I as [[i b'] [E I]]. simpl in E. subst b'.
  apply has_key_In. eapply A; eauto.
Qed.

Lemma sorted_modules_eq st order :
  sorted_modules st order =
  sort_loop (S (length (mod_names st))) (S (length (mod_names st))) (att_graph st) order
            {| g_done := []; g_visited := []; g_unmarked := mod_names st; g_l := [] |}.
Proof. reflexivity. Qed.

(* every graph of cached attachments, every pop order: a permutation of the modules *)
Theorem sorted_modules_perm st order : NoDup (mod_names st) -> att_ok (modules st) ->
  Permutation (sorted_modules st order) (mod_names st).
Proof.
  intros N A. rewrite sorted_modules_eq.
  apply (sort_loop_perm (mod_names st) (att_graph st) N (att_graph_closed st A)).
  - split; simpl; auto.
  - reflexivity.
Qed.

Definition before (l : list name) (u b : name) : Prop := exists l1 l2, l = l1 ++ u :: l2 /\ In b l2.

(* every acyclic graph of cached attachments, every pop order that enumerates the modules: users first *)
Theorem sorted_modules_users_first st order (rank : name -> nat) : NoDup (mod_names st) -> att_ok (modules st) ->
  (forall x, In x (mod_names st) -> In x order) ->
  (forall u b, In u (mod_names st) -> In b (att_graph st u) -> rank b < rank u) ->
  forall u b, In u (mod_names st) -> In b (att_graph st u) -> before (sorted_modules st order) u b.
Proof.
  intros N A COV R u b U B.
  pose proof (sorted_modules_perm st order N A) as P.
  assert (O : Ord (att_graph st) (sorted_modules st order)).
  { rewrite sorted_modules_eq.
    apply (sort_loop_topo (mod_names st) (att_graph st) N (att_graph_closed st A) rank R _ order COV); simpl; auto.
    - split; simpl; auto.
    - intros l1 x l2 E. destruct l1; discriminate. }
  assert (I : In u (sorted_modules st order)) by (apply (Permutation_in _ (Permutation_sym P)); exact U).
  apply in_split in I. destruct I as [l1 [l2 E]]. exists l1, l2. split; [exact E|]. eapply O; eauto.
Qed.

(* the node at any point of the start phase (every configuration, every schedule) *)
Lemma started_wf limit fuel c sched :
  let st := s_node (started limit fuel c sched) in NoDup (mod_names st) /\ att_ok (modules st).
Proof.
  simpl. unfold mod_names. rewrite started_modules. destruct (Wf_initialised limit fuel c) as [A B _]. auto.
Qed.

