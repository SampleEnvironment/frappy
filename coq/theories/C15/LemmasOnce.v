(* C15 — exactly once, in order, on EVERY graph (Pinata initialisations during create_modules,
   automatically created communicators and lazily created modules included): as long as no error is recorded the
   number of earlyInit events of a module is the number of its frames that are past earlyInit plus one if it is marked
   (same for initModule), and an initModule event is always preceded by the earlyInit event of the same module.
   With the invariant of LemmasGlobal.v (a finished frame is the only frame of its module, every module is marked at the
   end): when no error is recorded every module of the node got exactly one earlyInit and exactly one initModule, in
   this order, and nothing else got any.  Start phase: startModule is called for a prefix of the modules of the node,
   once each, in order, after the whole initialisation. *)
From Coq Require Import List Arith Bool Lia.
Import ListNotations.
Require Import FV.C15.Model FV.C15.Lemmas FV.C15.LemmasInit FV.C15.LemmasGlobal.

Definition b2n (b : bool) : nat := if b then 1 else 0.
Definition sum_e (m : name) (stk : list frame) : nat :=
  list_sum (map (fun fr => if Nat.eqb (f_mod fr) m then exp_e (f_ops fr) else 0) stk).
Definition sum_i (m : name) (stk : list frame) : nat :=
  list_sum (map (fun fr => if Nat.eqb (f_mod fr) m then exp_i (f_ops fr) else 0) stk).

Definition early_first (tr : list event) : Prop :=
  forall l1 m l2, tr = l1 ++ EInit m :: l2 -> In (EEarly m) l2.

Record CI (mods : list (name * inst)) (tr : list event) (stk : list frame) : Prop := {
  ci_shape : Forall (fun fr => shape (f_ops fr)) stk;
  ci_e : forall m, ce m tr = sum_e m stk + b2n (isinit_m mods m);
  ci_i : forall m, ci m tr = sum_i m stk + b2n (isinit_m mods m);
  ci_ord : early_first tr;
}.
Definition CInv (st : node) : Prop := CI (modules st) (trace st) (stack st).

Lemma sum_e_cons m fr rest : sum_e m (fr :: rest) = (if Nat.eqb (f_mod fr) m then exp_e (f_ops fr) else 0) + sum_e m rest.
Proof. reflexivity. Qed.
Lemma sum_i_cons m fr rest : sum_i m (fr :: rest) = (if Nat.eqb (f_mod fr) m then exp_i (f_ops fr) else 0) + sum_i m rest.
Proof. reflexivity. Qed.

Lemma early_first_other e tr : (forall m, e <> EInit m) -> early_first tr -> early_first (e :: tr).
Proof.
  intros N O l1 m l2 E. destruct l1 as [|x l1]; simpl in E; inversion E; subst; [exfalso; eapply N; eauto|].
  eapply O; eauto.
Qed.

(* the table changes, the flags do not *)
Lemma CI_flags mods mods' tr stk : (forall m, isinit_m mods' m = isinit_m mods m) -> CI mods tr stk -> CI mods' tr stk.
Proof. intros H [A B C D]. constructor; auto; intros m; rewrite H; auto. Qed.

(* going on in the top frame behind an operation that is not an event of its own, with operations that contain the
   same events as the rest *)
Lemma CI_cont mods tr tr' fr rest o ops ops' :
  CI mods tr (fr :: rest) -> f_ops fr = o :: ops -> is_ev o = false -> evs_of ops' = evs_of ops ->
  (forall m, ce m tr' = ce m tr /\ ci m tr' = ci m tr) -> early_first tr' ->
  CI mods tr' ({| f_mod := f_mod fr; f_ops := ops' |} :: rest).
Proof.
  intros [A B C D] Ho EV EO T O. inversion A as [|? ? SH A']; subst. rewrite Ho in SH.
  destruct (shape_tail o ops EV SH) as [LT [L XI]].
  assert (L' : late ops') by (unfold late; rewrite EO; exact L).
  constructor; auto.
  - constructor; auto. right. exact L'.
  - intros m. destruct (T m) as [T1 _]. rewrite T1, B, !sum_e_cons, Ho. simpl f_mod. simpl f_ops.
    rewrite (late_exp_e _ L'), (late_exp_e _ LT). reflexivity.
  - intros m. destruct (T m) as [_ T2]. rewrite T2, C, !sum_i_cons, Ho. simpl f_mod. simpl f_ops. rewrite <- XI.
    unfold exp_i. rewrite EO. reflexivity.
Qed.

Lemma CI_push mods tr stk b : CI mods tr stk -> CI mods tr ({| f_mod := b; f_ops := ops_m mods b |} :: stk).
Proof.
  intros [A CE CN OR]. destruct (ops_m_shape mods b) as [r0 [OPS ER0]]. constructor; auto.
  - constructor; auto. simpl. rewrite OPS. left. exists r0. auto.
  - intros m. rewrite CE, (sum_e_cons m _ stk). simpl f_mod. simpl f_ops. rewrite OPS. simpl exp_e.
    destruct (Nat.eqb b m); reflexivity.
  - intros m. rewrite CN, (sum_i_cons m _ stk). simpl f_mod. simpl f_ops. rewrite OPS. unfold exp_i at 1. simpl evs_of.
    fold (evs_of r0). rewrite ER0. destruct (Nat.eqb b m); reflexivity.
Qed.

Lemma step_CI limit st : GInv st -> CInv st -> errors (step limit st) = [] -> CInv (step limit st).
Proof.
  intros [G SA] CIV. unfold CInv in CIV. destruct (stack st) as [|fr rest] eqn:Hs.
  { intros _. unfold step. rewrite Hs. unfold CInv. simpl. rewrite Hs. exact CIV. }
  pose proof G as [SM B _ _ _ _]. destruct (Forall_inv B) as [K0 [I0 _]].
  pose proof CIV as [A CE CN OR]. pose proof (Forall_inv A) as SH. pose proof (Forall_inv_tail A) as A'. simpl in SH.
  unfold step. rewrite Hs. cbv beta iota zeta. destruct (f_ops fr) as [|o ops] eqn:Ho.
  - (* the frame is finished *)
    intros _. unfold CInv. simpl. fold (mark (f_mod fr) (modules st)). constructor; auto.
    + intros m. rewrite CE, sum_e_cons, Ho, mark_isinit. destruct (Nat.eqb (f_mod fr) m) eqn:E.
      * apply Nat.eqb_eq in E. subst m. rewrite Nat.eqb_refl, K0, I0. simpl. lia.
      * rewrite Nat.eqb_sym, E. reflexivity.
    + intros m. rewrite CN, sum_i_cons, Ho, mark_isinit. destruct (Nat.eqb (f_mod fr) m) eqn:E.
      * apply Nat.eqb_eq in E. subst m. rewrite Nat.eqb_refl, K0, I0. simpl. lia.
      * rewrite Nat.eqb_sym, E. reflexivity.
  - assert (CONT : is_ev o = false -> forall mods' tr' ops',
              (forall m, isinit_m mods' m = isinit_m (modules st) m) -> evs_of ops' = evs_of ops ->
              (forall m, ce m tr' = ce m (trace st) /\ ci m tr' = ci m (trace st)) -> early_first tr' ->
              CI mods' tr' ({| f_mod := f_mod fr; f_ops := ops' |} :: rest)).
    { intros EV mods' tr' ops' FL EO T O. apply (CI_flags (modules st)); auto.
      apply (CI_cont _ (trace st) _ fr rest o ops ops' CIV Ho EV EO T O). }
    assert (SEE : forall idx0 t ok, early_first (ESee (f_mod fr) idx0 t ok :: trace st)).
    { intros. apply early_first_other; auto. intros m; discriminate. }
    destruct o; unfold CInv; simpl.
    + (* OEarlyEv *)
      intros _. destruct SH as [[r [Hr Er]]|[L|L]]; [|discriminate L..].
      inversion Hr; subst r. assert (L : late ops) by (left; exact Er).
      constructor.
      * constructor; auto. right; exact L.
      * intros m. rewrite ce_cons, CE, !sum_e_cons, Ho. simpl f_mod. simpl f_ops. simpl is_early.
        rewrite (late_exp_e _ L). rewrite (Nat.eqb_sym (f_mod fr) m). destruct (Nat.eqb m (f_mod fr)); simpl; lia.
      * intros m. rewrite ci_cons, CN, !sum_i_cons, Ho. simpl f_mod. simpl f_ops. simpl is_initev.
        unfold exp_i. simpl evs_of. fold (evs_of ops). rewrite Er. reflexivity.
      * apply early_first_other; auto. intros m; discriminate.
    + (* OInitEv *)
      intros _.
      assert (Er : evs_of ops = []) by (destruct SH as [[r [Hr _]]|[L|L]]; [discriminate|inversion L; auto|discriminate L]).
      assert (L : late ops) by (right; exact Er).
      assert (LT : late (OInitEv :: ops)) by (left; unfold evs_of; simpl; fold (evs_of ops); rewrite Er; reflexivity).
      constructor.
      * constructor; auto. right; exact L.
      * intros m. rewrite ce_cons, CE, !sum_e_cons, Ho. simpl f_mod. simpl f_ops. simpl is_early.
        rewrite (late_exp_e _ L), (late_exp_e _ LT). reflexivity.
      * intros m. rewrite ci_cons, CN, !sum_i_cons, Ho. simpl f_mod. simpl f_ops. simpl is_initev.
        unfold exp_i. simpl evs_of. fold (evs_of ops). rewrite Er.
        rewrite (Nat.eqb_sym (f_mod fr) m). destruct (Nat.eqb m (f_mod fr)); simpl; lia.
      * intros l1 m l2 E. destruct l1 as [|x l1]; simpl in E; inversion E; subst; [|eapply OR; eauto].
        apply ce_In. rewrite CE, sum_e_cons, Ho, Nat.eqb_refl, (late_exp_e _ LT). lia.
    + (* OAccess *)
      destruct (find idx (attached_of st (f_mod fr))); [intros _; simpl; apply CONT; auto|].
      destruct (a_target a) as [b|] eqn:TA; [|intros _; simpl; apply CONT; auto].
      pose proof (get_instance_ok st b SM SA) as OKI. destruct (get_instance_frame st b) as [TR1 _].
      destruct (get_instance st b) as [st1 r]; simpl in *.
      destruct r; try (intros NE; discriminate NE).
      destruct (OKI eq_refl) as [EX _].
      set (fr2 := {| f_mod := f_mod fr; f_ops := ORet idx a b :: ops |}).
      assert (C2 : CI (modules st1) (trace st1) (fr2 :: rest)).
      { rewrite TR1. apply CONT; auto. apply extends_flags. exact EX. }
      change (isinit (set_stack st1 (fr2 :: rest)) b) with (isinit_m (modules st1) b).
      destruct (isinit_m (modules st1) b); [intros _; exact C2|].
      simpl length. destruct (Nat.leb limit (S (length rest))); [intros NE; discriminate NE|].
      intros _. rewrite push_ops. apply CI_push. exact C2.
    + (* ORet *)
      destruct (want_ok _ _); [|intros NE; discriminate NE]. intros _. simpl.
      apply CONT; auto. intros m. apply isinit_m_upd_keep. intros i; reflexivity.
    + intros NE. discriminate NE.
    + (* ORegister *)
      unfold register. destruct (_ || _); intros _; simpl; apply CONT; auto.
      intros m. apply isinit_m_upd_keep. intros i; reflexivity.
Qed.

Lemma run_gm_CI limit fuel : forall st, GInv st -> CInv st -> errors (run_gm limit fuel st) = [] ->
  CInv (run_gm limit fuel st).
Proof.
  induction fuel as [|fuel IH]; intros st G C NE; simpl in *; destruct (stack st) as [|fr rest] eqn:Hs; auto.
  assert (NE1 : errors (step limit st) = []) by (eapply errs_back; [apply run_gm_ext|exact NE]).
  apply IH; auto; [apply step_GI|apply step_CI]; auto.
Qed.

(* between two calls of get_module from outside *)
Definition GC (st : node) : Prop := II anyname st /\ CInv st.

(* get_module_instance from outside of any initialisation *)
Lemma get_instance_GC st b : GC st -> errors (fst (get_instance st b)) = [] -> GC (fst (get_instance st b)).
Proof.
  intros [H C] NE. split; [apply get_instance_II; assumption|]. destruct H as [[G SA] _]. pose proof G as [SM _ _ _ _ _].
  pose proof (get_instance_spec st b SM SA) as SP. destruct (get_instance_frame st b) as [TR [ST1 _]].
  destruct (get_instance st b) as [st1 r]; simpl in *.
  destruct r; try (destruct SP as [E|E]; [subst st1; exact C|contradiction]).
  destruct SP as [[K E]|[K [E1 _]]]; [subst st1; exact C|].
  unfold CInv in *. rewrite TR, ST1. apply (CI_flags (modules st)); auto. apply extends_flags. exact E1.
Qed.

Lemma gm_top_GC limit fuel st b : GC st ->
  errors (gm_top limit fuel st b) = [] -> stuck (gm_top limit fuel st b) = false -> GC (gm_top limit fuel st b).
Proof.
  intros H NE NS. split.
  { eapply II_weaken; [|apply (gm_top_II anyname limit fuel st b); auto; apply H]. intros m _. exact I. }
  unfold gm_top in *. pose proof (get_instance_GC st b H) as H1. pose proof (get_instance_ok_key st b) as K1.
  destruct (get_instance st b) as [st1 r]; simpl in *.
  assert (NE1 : errors st1 = []).
  { destruct r; auto; destruct (isinit st1 b); auto.
    eapply errs_back; [|exact NE]. eapply ext_trans; [|apply run_gm_ext]. apply ext_same; reflexivity. }
  destruct (H1 NE1) as [[G1 [S1 _]] C1].
  destruct r; auto. change (isinit st1 b) with (isinit_m (modules st1) b) in *.
  destruct (isinit_m (modules st1) b) eqn:IB; auto.
  apply run_gm_CI; auto.
  - destruct G1 as [G1 SA1]. unfold GInv. rewrite push_ops. simpl. rewrite S1. split; [|exact SA1].
    rewrite S1 in G1. apply GI_push; auto.
  - unfold CInv in *. rewrite push_ops. simpl. rewrite S1 in *. apply CI_push. exact C1.
Qed.

Lemma runs_GC limit fuel pool st st' : small_av pool -> runs limit fuel pool st st' -> GC st ->
  errors st' = [] -> stuck st' = false -> GC st'.
Proof.
  intros SP R H NE NS. apply (runs_inv limit fuel pool (fun s => errors s = [] -> GC s)) with (st := st); auto.
  - intros s b Q NS1 NE1. apply gm_top_GC; auto. apply Q. eapply errs_back; [apply gm_top_ext|exact NE1].
  - intros s b Q NE1. apply get_instance_GC; auto. apply Q. eapply errs_back; [apply get_instance_ext|exact NE1].
  - intros s b d IN Q NE1. destruct (Q NE1) as [H1 C1]. split; [apply II_avail; auto|exact C1].
Qed.

Lemma node0_GC av : small_av av -> GC (node0 av).
Proof.
  intros SA. split; [apply node0_II; exact SA|]. unfold CInv. simpl. constructor; auto.
  intros l1 m l2 E. destruct l1; discriminate.
Qed.

(* no recorded error: every module of the node got exactly one earlyInit and exactly one initModule, earlyInit
   first; what is not a module of the node got none *)
Theorem initialised_once limit fuel c : cfg_small c ->
  errors (initialised limit fuel c) = [] -> stuck (initialised limit fuel c) = false ->
  let st := initialised limit fuel c in
  (forall m, has_key m (modules st) = true -> ce m (trace st) = 1 /\ ci m (trace st) = 1) /\
  (forall m, has_key m (modules st) = false -> ce m (trace st) = 0 /\ ci m (trace st) = 0) /\
  early_first (trace st).
Proof.
  intros CS NE NS st. destruct (initialised_II limit fuel c CS NE NS) as [_ [HS ALL]].
  destruct (runs_GC _ _ _ _ _ (cfg_small_pool c CS) (initialised_runs limit fuel c) (node0_GC _ (proj1 CS)) NE NS)
    as [_ [A CE CN OR]].
  fold st in HS, ALL, CE, CN, OR. rewrite HS in CE, CN. split; [|split; [|exact OR]].
  - intros m K. specialize (ALL m K). rewrite isinit_eq in ALL. rewrite CE, CN, ALL. auto.
  - intros m K. assert (IF : isinit_m (modules st) m = false).
    { unfold isinit_m, has_key in *. destruct (find m _); [discriminate|reflexivity]. }
    rewrite CE, CN, IF. auto.
Qed.

(* startModule: once per module, after the initialisation *)
Definition is_start (e : event) : bool := match e with EStart _ => true | _ => false end.
Definition starts (tr : list event) : list event := filter is_start tr.

Lemma starts_init_ev tr : Forall init_ev tr -> starts tr = [].
Proof.
  induction tr as [|e r IH]; intros F; simpl; auto. inversion F; subst. destruct e; simpl in *; try contradiction; auto.
Qed.

Lemma threads_step_starts t ths st : starts (trace (fst (threads_step st t ths))) = starts (trace st).
Proof.
  destruct (threads_step_emits t ths st) as [Q|[e [Q P]]]; rewrite Q; auto. destruct e; try contradiction; reflexivity.
Qed.

(* names: the modules of the node in the order of secnode.modules; the calls of startModule made so far are those
   of a prefix of it, in this order *)
Definition start_inv (names : list name) (s : sys) : Prop :=
  match s_pc s with
  | MStart rest => exists done, names = done ++ rest /\ rest <> [] /\ starts (trace (s_node s)) = rev (map EStart done)
  | _ => starts (trace (s_node s)) = rev (map EStart names)
  end.

Lemma pc_after_start_inv names st done rest :
  names = done ++ rest -> starts (trace st) = rev (map EStart done) ->
  start_inv names {| s_node := fst (pc_after st rest); s_threads := []; s_pc := snd (pc_after st rest) |}.
Proof.
  intros E S. unfold pc_after, finish_start, start_inv. destruct rest as [|m r]; simpl.
  - rewrite app_nil_r in E. subst done. destruct (errors st); simpl; exact S.
  - exists done. split; [exact E|split; [discriminate|exact S]].
Qed.

Lemma cstep_start_inv names s it : start_inv names s -> start_inv names (cstep s it).
Proof.
  intros H. destruct s as [st ths pc]. unfold start_inv in *. simpl in *.
  destruct it; simpl.
  - destruct pc as [[|m rest]| | |]; simpl; auto.
    + destruct H as [done [E [_ S]]].
      assert (S1 : starts (trace (emit (EStart m) st)) = rev (map EStart (done ++ [m]))).
      { simpl. rewrite S, map_app, rev_app_distr. reflexivity. }
      assert (E1 : names = (done ++ [m]) ++ rest) by (rewrite <- app_assoc; exact E).
      pose proof (pc_after_start_inv names (emit (EStart m) st) (done ++ [m]) rest E1 S1) as Q.
      unfold start_inv in Q. destruct (pc_after (emit (EStart m) st) rest) as [st2 pc2]. exact Q.
    + destruct (all_done ths); simpl; exact H.
  - destruct pc as [rest| | |]; simpl; auto;
      (pose proof (threads_step_starts t ths st) as Q; destruct (threads_step st t ths); simpl in *; rewrite Q; exact H).
  - destruct pc as [rest| | |]; simpl; try exact H. destruct (all_done ths); simpl; exact H.
Qed.

(* the start phase adds no initialisation events; startModule is called for a prefix of the modules, in order *)
Lemma started_start_inv limit fuel c sched :
  start_inv (map fst (modules (initialised limit fuel c))) (started limit fuel c sched).
Proof.
  set (st := initialised limit fuel c). set (names := map fst (modules st)).
  assert (H0 : start_inv names (sys0 st)).
  { pose proof (pc_after_start_inv names st [] names eq_refl (starts_init_ev _ (initialised_trace limit fuel c))) as Q.
    unfold sys0. fold names. unfold start_inv in *. destruct (pc_after st names). exact Q. }
  unfold started, run_sched. fold st. generalize (sys0 st) H0.
  induction sched as [|it r IH]; intros s H; simpl; auto. apply IH. apply cstep_start_inv. exact H.
Qed.

(* every call of startModule comes after the whole initialisation: the trace at any point of the start phase
   is the trace of the initialisation phase with later events in front *)
Lemma started_later limit fuel c sched :
  exists evs, trace (s_node (started limit fuel c sched)) = evs ++ trace (initialised limit fuel c) /\
              Forall later_ev evs.
Proof.
  destruct (started_emits limit fuel c sched) as [evs [E F]]. exists evs. rewrite E. split; [apply emits_frame|exact F].
Qed.

Theorem started_trace_ext limit fuel c sched :
  exists evs, trace (s_node (started limit fuel c sched)) = evs ++ trace (initialised limit fuel c).
Proof. destruct (started_later limit fuel c sched) as [evs [E _]]. exists evs. exact E. Qed.

Lemma later_counts evs tr m : Forall later_ev evs -> ce m (evs ++ tr) = ce m tr /\ ci m (evs ++ tr) = ci m tr.
Proof.
  induction evs as [|e r IH]; intros F; simpl; auto. destruct (IH (Forall_inv_tail F)) as [A B]. pose proof (Forall_inv F) as LE.
  rewrite ce_cons, ci_cons, A, B. destruct e; simpl in *; try contradiction; auto.
Qed.

Lemma later_early_first evs tr : Forall later_ev evs -> early_first tr -> early_first (evs ++ tr).
Proof.
  induction evs as [|e r IH]; intros F O; simpl; auto. pose proof (Forall_inv F) as LE.
  apply early_first_other; [|apply IH; auto; exact (Forall_inv_tail F)]. intros m E. subst e. contradiction.
Qed.

