(* C15 — the initialisation machine (get_module / Attached.__get__) on an acyclic attachment graph:
   no module is re-entered, earlyInit and initModule run at most once per module and exactly once (earlyInit) for
   every module that is marked as initialised.  Acyclicity is given by a rank function that decreases along every
   attachment.  The step lemma holds under lazy creation (the module table may be extended by ranked instances); for
   the end of the initialisation phase the node is closed: every configured module that can be created has been
   created (this is the state after create_modules when no Pinata is involved). *)
From Coq Require Import List Arith Bool Lia Sorted.
Import ListNotations.
Require Import FV.C15.Model FV.C15.Lemmas.

Lemma find_upd {A} k k' (f : A -> A) : forall l,
  find k' (upd k f l) = if Nat.eqb k' k then option_map f (find k' l) else find k' l.
Proof.
  induction l as [|[k0 v] r IH]; simpl.
  - destruct (Nat.eqb k' k); reflexivity.
  - destruct (Nat.eqb k k0) eqn:E1; simpl.
    + apply Nat.eqb_eq in E1. subst k0. destruct (Nat.eqb k' k) eqn:E2; simpl; auto.
    + destruct (Nat.eqb k' k0) eqn:E2; simpl; [|exact IH].
      apply Nat.eqb_eq in E2. subst k0. rewrite Nat.eqb_sym in E1. rewrite E1. reflexivity.
Qed.

Lemma has_key_upd {A} k k' (f : A -> A) l : has_key k' (upd k f l) = has_key k' l.
Proof. unfold has_key. rewrite find_upd. destruct (Nat.eqb k' k); auto. destruct (find k' l); reflexivity. Qed.

Lemma find_set_assoc {A} k k' (v : A) : forall l,
  find k' (set_assoc k v l) = if Nat.eqb k' k then Some v else find k' l.
Proof.
  induction l as [|[k0 v0] r IH]; simpl.
  - destruct (Nat.eqb k' k); reflexivity.
  - destruct (Nat.eqb k k0) eqn:E; simpl.
    + apply Nat.eqb_eq in E. subst. destruct (Nat.eqb k' k0); reflexivity.
    + rewrite IH. destruct (Nat.eqb k' k0) eqn:E2; auto.
      apply Nat.eqb_eq in E2. subst. rewrite Nat.eqb_sym in E. rewrite E. reflexivity.
Qed.

Lemma has_key_set_assoc_iff {A} k k' (v : A) l :
  has_key k' (set_assoc k v l) = (Nat.eqb k' k || has_key k' l).
Proof. unfold has_key. rewrite find_set_assoc. destruct (Nat.eqb k' k); reflexivity. Qed.

Lemma has_key_set_assoc {A} k k' (v : A) l : has_key k' l = true -> has_key k' (set_assoc k v l) = true.
Proof. intros H. rewrite has_key_set_assoc_iff, H. apply orb_true_r. Qed.

Lemma In_set_assoc {A} k (v : A) x : forall l, In x (set_assoc k v l) -> x = (k, v) \/ In x l.
Proof.
  induction l as [|[k0 v0] r IH]; simpl.
  - intros [H|[]]; auto.
  - destruct (Nat.eqb k k0); simpl; intros [H|H]; auto. destruct (IH H); auto.
Qed.

Lemma has_key_In {A} k : forall (l : list (nat * A)), has_key k l = true -> In k (map fst l).
Proof.
  unfold has_key. induction l as [|[k0 v0] r IH]; simpl; [discriminate|].
  destruct (Nat.eqb k k0) eqn:E; [apply Nat.eqb_eq in E; auto|auto].
Qed.

(* the part of the state the invariant talks about *)
Definition isinit_m (mods : list (name * inst)) (b : name) : bool :=
  match find b mods with Some i => i_isinit i | None => false end.
Definition ops_m (mods : list (name * inst)) (b : name) : list op :=
  match find b mods with Some i => frame_ops (i_decl i) (i_io i) | None => frame_ops io_decl None end.

Lemma isinit_eq st b : isinit st b = isinit_m (modules st) b. Proof. reflexivity. Qed.
Lemma push_ops st b : stack (push b st) = {| f_mod := b; f_ops := ops_m (modules st) b |} :: stack st.
Proof. unfold push, ops_m, decl_of, io_of. simpl. destruct (find b (modules st)); reflexivity. Qed.

Lemma isinit_m_key mods b : isinit_m mods b = true -> has_key b mods = true.
Proof. unfold isinit_m, has_key. destruct (find b mods); auto. Qed.

(* updates that keep declaration and io of every instance *)
Definition keeps (f : inst -> inst) : Prop := forall i, i_decl (f i) = i_decl i /\ i_io (f i) = i_io i.

Lemma ops_m_upd k f mods b : keeps f -> ops_m (upd k f mods) b = ops_m mods b.
Proof.
  intros K. unfold ops_m. rewrite find_upd. destruct (Nat.eqb b k); auto.
  destruct (find b mods); simpl; auto. destruct (K i) as [D I]. rewrite D, I. reflexivity.
Qed.

Lemma isinit_m_upd_keep k f mods b : (forall i, i_isinit (f i) = i_isinit i) -> isinit_m (upd k f mods) b = isinit_m mods b.
Proof.
  intros K. unfold isinit_m. rewrite find_upd. destruct (Nat.eqb b k); auto. destruct (find b mods); simpl; auto.
Qed.

Lemma keeps_same f mods : keeps f -> (forall i, i_isinit (f i) = i_isinit i) -> forall k m,
  has_key m (upd k f mods) = has_key m mods /\ isinit_m (upd k f mods) m = isinit_m mods m /\
  ops_m (upd k f mods) m = ops_m mods m.
Proof. intros K I k m. rewrite has_key_upd, isinit_m_upd_keep, ops_m_upd; auto. Qed.

(* the top frame is finished: its module is marked *)
Definition mark (u : name) (m : list (name * inst)) : list (name * inst) :=
  upd u (fun i => {| i_decl := i_decl i; i_io := i_io i; i_isinit := true;
                     i_attached := i_attached i; i_polled := i_polled i |}) m.

Lemma mark_ops u m k : ops_m (mark u m) k = ops_m m k.
Proof. apply ops_m_upd. intros i; simpl; auto. Qed.
Lemma mark_key u m k : has_key k (mark u m) = has_key k m.
Proof. apply has_key_upd. Qed.
Lemma mark_isinit u m k : isinit_m (mark u m) k = if Nat.eqb k u then has_key k m else isinit_m m k.
Proof.
  unfold isinit_m, has_key, mark. rewrite find_upd. destruct (Nat.eqb k u); auto. destruct (find k m); reflexivity.
Qed.

(* lazy creation: the new table keeps every instance of the old one; what is new is not initialised and has no cached
   attachment *)
Definition extends (m m' : list (name * inst)) : Prop :=
  (forall k, has_key k m = true -> find k m' = find k m) /\
  (forall k i, has_key k m = false -> find k m' = Some i -> i_isinit i = false /\ i_attached i = []).

Lemma extends_refl m : extends m m.
Proof. split; auto. intros k i H F. unfold has_key in H. rewrite F in H. discriminate. Qed.

Lemma extends_key m m' k : extends m m' -> has_key k m = true -> has_key k m' = true.
Proof. intros [E _] H. unfold has_key in *. rewrite (E k H). exact H. Qed.

Lemma extends_trans a b c : extends a b -> extends b c -> extends a c.
Proof.
  intros E1 E2. split.
  - intros k H. destruct E1 as [A1 _]. destruct E2 as [A2 _]. rewrite A2, A1; auto.
    unfold has_key in *. rewrite A1; auto.
  - intros k i H F. destruct (has_key k b) eqn:HB.
    + destruct E2 as [A2 _]. rewrite (A2 k HB) in F. destruct E1 as [_ B1]. eapply B1; eauto.
    + destruct E2 as [_ B2]. eapply B2; eauto.
Qed.

Lemma extends_isinit m m' k : extends m m' -> has_key k m = true -> isinit_m m' k = isinit_m m k.
Proof. intros [E _] H. unfold isinit_m. rewrite (E k H). reflexivity. Qed.
Lemma extends_ops m m' k : extends m m' -> has_key k m = true -> ops_m m' k = ops_m m k.
Proof. intros [E _] H. unfold ops_m. rewrite (E k H). reflexivity. Qed.
Lemma extends_new_isinit m m' k : extends m m' -> has_key k m = false -> isinit_m m' k = false.
Proof.
  intros [_ E] H. unfold isinit_m. destruct (find k m') as [i|] eqn:F; auto. destruct (E k i H F) as [A _]. exact A.
Qed.

(* the table changes, the flags do not *)
Lemma extends_flags m m' : extends m m' -> forall k, isinit_m m' k = isinit_m m k.
Proof.
  intros E k. destruct (has_key k m) eqn:K; [apply extends_isinit; auto|].
  rewrite (extends_new_isinit m m' k E K). unfold isinit_m, has_key in *. destruct (find k m); [discriminate|reflexivity].
Qed.

Lemma extends_set_assoc m n d io : has_key n m = false -> extends m (set_assoc n (new_inst d io) m).
Proof.
  intros H. split.
  - intros k K. rewrite find_set_assoc. destruct (Nat.eqb k n) eqn:E; auto.
    apply Nat.eqb_eq in E. subst. rewrite K in H. discriminate.
  - intros k i K F. rewrite find_set_assoc in F. destruct (Nat.eqb k n).
    + inversion F; subst. simpl. auto.
    + unfold has_key in K. rewrite F in K. discriminate.
Qed.

(* modules are never removed *)
Definition keys_mono (st st' : node) : Prop :=
  forall b, has_key b (modules st) = true -> has_key b (modules st') = true.

Lemma km_refl st : keys_mono st st. Proof. intros b H; exact H. Qed.
Lemma km_trans a b c : keys_mono a b -> keys_mono b c -> keys_mono a c.
Proof. intros H1 H2 k K. auto. Qed.
Lemma km_same st st' : modules st' = modules st -> keys_mono st st'.
Proof. intros E b H. rewrite E. exact H. Qed.
Lemma km_upd st st' k f : modules st' = upd k f (modules st) -> keys_mono st st'.
Proof. intros E b H. rewrite E, has_key_upd. exact H. Qed.

Lemma add_module_keys n i st : keys_mono st (add_module n i st).
Proof. intros b H. rewrite modules_add_module. apply has_key_set_assoc. exact H. Qed.

Lemma create_keys st b d : keys_mono st (fst (create st b d)).
Proof.
  unfold create. destruct (negb (creatable d)); simpl; [apply km_same; reflexivity|].
  destruct (d_kind d) as [|[|u|m]|]; simpl; try apply add_module_keys.
  destruct (find u (iodict st)); simpl; [apply add_module_keys|].
  eapply km_trans; [|apply add_module_keys]. eapply km_trans; [apply (add_module_keys (io_name b) (new_inst io_decl None))|].
  apply km_same. reflexivity.
Qed.

Lemma get_instance_keys st b : keys_mono st (fst (get_instance st b)).
Proof.
  unfold get_instance. destruct (has_key b (modules st)); simpl; [apply km_refl|].
  destruct (find b (avail st)); simpl; [apply create_keys|apply km_refl].
Qed.

Lemma get_instance_ok_key st b : snd (get_instance st b) = IOk -> has_key b (modules (fst (get_instance st b))) = true.
Proof.
  unfold get_instance. destruct (has_key b (modules st)) eqn:K; simpl; auto.
  destruct (find b (avail st)) as [d|]; simpl; [|discriminate].
  unfold create. destruct (negb (creatable d)); simpl; [discriminate|]. intros _.
  assert (H : forall i s, has_key b (modules (add_module b i s)) = true).
  { intros i s. rewrite modules_add_module, has_key_set_assoc_iff, Nat.eqb_refl. reflexivity. }
  destruct (d_kind d) as [|[|u|m]|]; simpl; try apply H. destruct (find u (iodict st)); simpl; apply H.
Qed.

Lemma step_keys limit st : keys_mono st (step limit st).
Proof.
  unfold step. destruct (stack st) as [|fr rest]; [apply km_refl|].
  destruct (f_ops fr) as [|o ops]; [eapply km_upd; reflexivity|].
  destruct o; try (apply km_same; reflexivity).
  - destruct (find idx (attached_of st (f_mod fr))); [apply km_same; reflexivity|].
    destruct (a_target a) as [b|]; [|apply km_same; reflexivity].
    pose proof (get_instance_keys st b) as G. destruct (get_instance st b) as [st1 r]; simpl in G.
    eapply km_trans; [exact G|]. destruct r; try (eapply km_upd; reflexivity).
    destruct (isinit _ b); [apply km_same; reflexivity|].
    destruct (Nat.leb _ _); [eapply km_upd|apply km_same]; reflexivity.
  - destruct (want_ok _ _); eapply km_upd; reflexivity.
  - eapply km_upd; reflexivity.
  - unfold register. destruct (_ || _); [eapply km_upd; reflexivity|apply km_same; reflexivity].
Qed.

Lemma run_gm_keys limit fuel : forall st, keys_mono st (run_gm limit fuel st).
Proof.
  induction fuel as [|fuel IH]; intros st; simpl; destruct (stack st); try apply km_refl.
  - apply km_same; reflexivity.
  - eapply km_trans; [apply step_keys|apply IH].
Qed.

Lemma gm_top_keys limit fuel st b : keys_mono st (gm_top limit fuel st b).
Proof.
  unfold gm_top. pose proof (get_instance_keys st b) as G. destruct (get_instance st b) as [st1 r]; simpl in G.
  destruct r; auto. destruct (isinit st1 b); auto.
  eapply km_trans; [exact G|]. eapply km_trans; [|apply run_gm_keys]. apply km_same; reflexivity.
Qed.

Lemma runs_keys limit fuel pool st st' : runs limit fuel pool st st' -> keys_mono st st'.
Proof.
  induction 1; [apply km_refl| | |]; (eapply km_trans; [|eassumption]);
    [apply gm_top_keys|apply get_instance_keys|apply km_same; reflexivity].
Qed.

(* when get_module returns, nothing is active *)
Lemma run_gm_stack limit fuel : forall st, stuck (run_gm limit fuel st) = false -> stack (run_gm limit fuel st) = [].
Proof.
  induction fuel as [|fuel IH]; intros st; simpl; destruct (stack st) eqn:Hs; auto; try discriminate.
Qed.

Lemma gm_top_stack limit fuel st b : stack st = [] -> stuck (gm_top limit fuel st b) = false ->
  stack (gm_top limit fuel st b) = [].
Proof.
  intros Hs. unfold gm_top. destruct (get_instance_frame st b) as [_ [G _]].
  destruct (get_instance st b) as [st1 r]; simpl in G. rewrite Hs in G.
  destruct r; auto. destruct (isinit st1 b); auto. apply run_gm_stack.
Qed.

Definition is_early (m : name) (e : event) : bool := match e with EEarly n => Nat.eqb n m | _ => false end.
Definition is_initev (m : name) (e : event) : bool := match e with EInit n => Nat.eqb n m | _ => false end.
Definition ce (m : name) (tr : list event) : nat := length (filter (is_early m) tr).
Definition ci (m : name) (tr : list event) : nat := length (filter (is_initev m) tr).

Lemma ce_cons m e tr : ce m (e :: tr) = (if is_early m e then 1 else 0) + ce m tr.
Proof. unfold ce. simpl. destruct (is_early m e); reflexivity. Qed.
Lemma ci_cons m e tr : ci m (e :: tr) = (if is_initev m e then 1 else 0) + ci m tr.
Proof. unfold ci. simpl. destruct (is_initev m e); reflexivity. Qed.

Lemma ce_other m u tr : m <> u -> ce m (EEarly u :: tr) = ce m tr /\ ci m (EEarly u :: tr) = ci m tr.
Proof. intros Q. rewrite ce_cons, ci_cons. simpl. apply Nat.eqb_neq in Q. rewrite Nat.eqb_sym in Q. rewrite Q. auto. Qed.
Lemma ci_other m u tr : m <> u -> ce m (EInit u :: tr) = ce m tr /\ ci m (EInit u :: tr) = ci m tr.
Proof. intros Q. rewrite ce_cons, ci_cons. simpl. apply Nat.eqb_neq in Q. rewrite Nat.eqb_sym in Q. rewrite Q. auto. Qed.
Lemma see_counts u idx t ok tr m : ce m (ESee u idx t ok :: tr) = ce m tr /\ ci m (ESee u idx t ok :: tr) = ci m tr.
Proof. rewrite ce_cons, ci_cons. simpl. auto. Qed.

Lemma In_ce b : forall tr, In (EEarly b) tr -> 1 <= ce b tr.
Proof.
  induction tr as [|e r IH]; simpl; [contradiction|]. intros [E|I]; rewrite ce_cons.
  - subst e. simpl. rewrite Nat.eqb_refl. lia.
  - specialize (IH I). lia.
Qed.

Lemma ce_In b : forall tr, 1 <= ce b tr -> In (EEarly b) tr.
Proof.
  induction tr as [|e r IH]; [unfold ce; simpl; lia|]. rewrite ce_cons. destruct (is_early b e) eqn:E.
  - intros _. left. destruct e; try discriminate. simpl in E. apply Nat.eqb_eq in E. subst; reflexivity.
  - intros H. right. apply IH. lia.
Qed.

Definition is_ev (o : op) : bool := match o with OEarlyEv | OInitEv => true | _ => false end.
Definition evs_of (ops : list op) : list op := filter is_ev ops.
Definition late (ops : list op) : Prop := evs_of ops = [OInitEv] \/ evs_of ops = [].
Definition shape (ops : list op) : Prop := (exists r, ops = OEarlyEv :: r /\ evs_of r = [OInitEv]) \/ late ops.
Definition exp_e (ops : list op) : nat := match ops with OEarlyEv :: _ => 0 | _ => 1 end.
Definition exp_i (ops : list op) : nat := match evs_of ops with [] => 1 | _ => 0 end.

Lemma late_exp_e ops : late ops -> exp_e ops = 1.
Proof. intros [H|H]; destruct ops as [|[] r]; simpl in *; auto; discriminate. Qed.

Lemma evs_accesses p d : evs_of (accesses p d) = [].
Proof. unfold accesses, evs_of. induction (filter _ (indexed_atts d)); simpl; auto. Qed.

Lemma evs_app a b : evs_of (a ++ b) = evs_of a ++ evs_of b.
Proof. apply filter_app. Qed.

Lemma frame_ops_shape d io : exists r, frame_ops d io = OEarlyEv :: r /\ evs_of r = [OInitEv].
Proof.
  unfold frame_ops. eexists. split; [reflexivity|].
  rewrite !evs_app, !evs_accesses.
  destruct (d_fail_early d), (is_hasio d), (d_fail_init d), (is_some io); reflexivity.
Qed.

Lemma ops_m_shape mods b : exists r, ops_m mods b = OEarlyEv :: r /\ evs_of r = [OInitEv].
Proof. unfold ops_m. destruct (find b mods); apply frame_ops_shape. Qed.

(* what the operations of a frame are: no return operation; an access reads a declared attachment or the io *)
Definition op_of (d : decl) (io : option name) (o : op) : Prop :=
  match o with
  | ORet _ _ _ => False
  | OAccess i a => nth_error (d_atts d) i = Some a \/ (i = io_idx /\ a = io_att io /\ is_hasio d = true)
  | _ => True
  end.

Lemma combine_seq_nth {A} (l : list A) : forall s i a, In (i, a) (combine (seq s (length l)) l) ->
  s <= i /\ nth_error l (i - s) = Some a.
Proof.
  induction l as [|x r IH]; simpl; intros s i a I; [contradiction|]. destruct I as [E|I].
  - inversion E; subst. rewrite Nat.sub_diag. auto.
  - destruct (IH _ _ _ I) as [L N]. split; [lia|]. replace (i - s) with (S (i - S s)) by lia. exact N.
Qed.

Lemma frame_ops_In d io o : In o (frame_ops d io) -> op_of d io o.
Proof.
  assert (A : forall p, In o (accesses p d) -> op_of d io o).
  { unfold accesses, indexed_atts. intros p I. apply in_map_iff in I. destruct I as [[i a] [E I]]. subst o. left.
    apply filter_In in I. destruct I as [I _]. destruct (combine_seq_nth _ _ _ _ I) as [_ N].
    rewrite Nat.sub_0_r in N. exact N. }
  assert (R : forall c : bool, In o (if c then [ORaise] else []) -> op_of d io o).
  { intros c H. destruct c; [destruct H as [H|[]]; subst o; exact I|contradiction]. }
  intros H. unfold frame_ops in H. repeat (apply in_app_or in H; destruct H as [H|H]); eauto;
    try (destruct H as [H|[]]; subst o; exact I).
  destruct (is_hasio d) eqn:HI; [|contradiction]. destruct H as [H|[]]. subst o. right. auto.
Qed.

(* behind an operation that is no event of its own the frame is past earlyInit *)
Lemma shape_tail o r : is_ev o = false -> shape (o :: r) -> late (o :: r) /\ late r /\ exp_i r = exp_i (o :: r).
Proof.
  intros E [[r' [H _]]|L].
  - inversion H; subst. discriminate.
  - unfold late, exp_i, evs_of in *. simpl in *. rewrite E in *. auto.
Qed.

Section Ranked.
Variable rank : name -> nat.

Definition op_ranked (u : name) (o : op) : Prop :=
  match o with
  | OAccess _ a => forall t, a_target a = Some t -> rank t < rank u
  | ORet _ _ b => rank b < rank u
  | _ => True
  end.
Definition frame_ranked (fr : frame) : Prop := Forall (op_ranked (f_mod fr)) (f_ops fr).

Definition closed_m (mods : list (name * inst)) (av : list (name * decl)) : Prop :=
  forall b d, find b av = Some d -> has_key b mods = false -> creatable d = false.

Definition frame_ok (mods : list (name * inst)) (tr : list event) (fr : frame) : Prop :=
  has_key (f_mod fr) mods = true /\ isinit_m mods (f_mod fr) = false /\ shape (f_ops fr) /\
  ce (f_mod fr) tr = exp_e (f_ops fr) /\ ci (f_mod fr) tr = exp_i (f_ops fr) /\ frame_ranked fr.

Definition rank_lt (f g : frame) : Prop := rank (f_mod f) < rank (f_mod g).

Record LI (mods : list (name * inst)) (tr : list event) (stk : list frame) (av : list (name * decl)) : Prop := {
  li_sorted : StronglySorted rank_lt stk;
  li_frames : Forall (frame_ok mods tr) stk;
  li_insts : forall b, has_key b mods = true -> frame_ranked {| f_mod := b; f_ops := ops_m mods b |};
  li_rest : forall m, ~ In m (map f_mod stk) ->
            (isinit_m mods m = false -> ce m tr = 0 /\ ci m tr = 0) /\
            (isinit_m mods m = true -> ce m tr = 1 /\ ci m tr <= 1);
  li_closed : closed_m mods av;
}.

Definition LInv (st : node) : Prop := LI (modules st) (trace st) (stack st) (avail st).

Definition insts_ranked (mods : list (name * inst)) : Prop :=
  forall b, has_key b mods = true -> frame_ranked {| f_mod := b; f_ops := ops_m mods b |}.

(* under a closed configuration get_module_instance creates nothing *)
Lemma get_instance_closed st b : closed_m (modules st) (avail st) ->
  modules (fst (get_instance st b)) = modules st /\
  (snd (get_instance st b) = IOk -> has_key b (modules st) = true).
Proof.
  intros C. unfold get_instance. destruct (has_key b (modules st)) eqn:K; simpl; auto.
  destruct (find b (avail st)) as [d|] eqn:F; simpl.
  - unfold create. rewrite (C b d F K). simpl. split; auto. discriminate.
  - split; auto. discriminate.
Qed.

Lemma sorted_above u fr rest : StronglySorted rank_lt (fr :: rest) -> rank u <= rank (f_mod fr) ->
  Forall (fun g => rank u < rank (f_mod g)) rest.
Proof.
  intros S L. inversion S as [|? ? _ F]; subst. eapply Forall_impl; [|exact F]. unfold rank_lt. intros g G. lia.
Qed.

Lemma above_notin u (stk : list frame) : Forall (fun g => rank u < rank (f_mod g)) stk -> ~ In u (map f_mod stk).
Proof.
  intros F I. rewrite Forall_forall in F. apply in_map_iff in I. destruct I as [g [G I]]. apply F in I. rewrite G in I. lia.
Qed.

Lemma sorted_notin fr rest : StronglySorted rank_lt (fr :: rest) -> ~ In (f_mod fr) (map f_mod rest).
Proof. intros S. eapply above_notin, sorted_above; eauto. Qed.

(* frames below the top are not affected by a step that only concerns the module u of the top frame *)
Lemma frames_keep mods mods' tr tr' u rest :
  ~ In u (map f_mod rest) ->
  (forall m, m <> u -> has_key m mods' = has_key m mods /\ isinit_m mods' m = isinit_m mods m) ->
  (forall m, m <> u -> ce m tr' = ce m tr /\ ci m tr' = ci m tr) ->
  Forall (frame_ok mods tr) rest -> Forall (frame_ok mods' tr') rest.
Proof.
  intros N HM HT F. rewrite Forall_forall in *. intros fr I.
  assert (Q : f_mod fr <> u) by (intros E; apply N; apply in_map_iff; eauto).
  destruct (F fr I) as [K [II [Sh [E1 [E2 R]]]]]. destruct (HM _ Q) as [K' I']. destruct (HT _ Q) as [C1 C2].
  unfold frame_ok. rewrite K', I', C1, C2. repeat split; auto.
Qed.

(* the top frame is finished, normally or by an exception: its module is marked, the frame is removed *)
Lemma pop_marked mods tr fr rest av :
  LI mods tr (fr :: rest) av -> late (f_ops fr) -> LI (mark (f_mod fr) mods) tr rest av.
Proof.
  intros [S F I R C] L. set (u := f_mod fr).
  assert (N : ~ In u (map f_mod rest)) by (apply sorted_notin; exact S).
  inversion F as [|? ? [K [II [Sh [E1 [E2 FR]]]]] F']; subst.
  assert (HM : forall m, m <> u -> has_key m (mark u mods) = has_key m mods /\ isinit_m (mark u mods) m = isinit_m mods m).
  { intros m Q. rewrite mark_key, mark_isinit. apply Nat.eqb_neq in Q. rewrite Q. auto. }
  constructor.
  - inversion S; auto.
  - eapply frames_keep; eauto.
  - intros b Kb. rewrite mark_key in Kb. rewrite mark_ops. auto.
  - intros m Nm. destruct (Nat.eq_dec m u) as [E|Q].
    + subst m. rewrite mark_isinit, Nat.eqb_refl. fold u in K. rewrite K.
      split; [discriminate|]. intros _. fold u in E1, E2. rewrite E1, E2, (late_exp_e _ L). split; auto.
      unfold exp_i. destruct (evs_of (f_ops fr)); auto.
    + destruct (HM m Q) as [_ IM]. rewrite IM. apply R. simpl. intros [X|X]; [apply Q; symmetry; exact X|contradiction].
  - intros b d Fb Kb. rewrite mark_key in Kb. eauto.
Qed.

(* the top frame goes on with the operations ops' (its module, the instances and the trace counts as given) *)
Lemma continue_top mods mods' tr tr' fr rest av ops' :
  LI mods tr (fr :: rest) av ->
  (forall m, has_key m mods' = has_key m mods /\ isinit_m mods' m = isinit_m mods m /\ ops_m mods' m = ops_m mods m) ->
  (forall m, m <> f_mod fr -> ce m tr' = ce m tr /\ ci m tr' = ci m tr) ->
  shape ops' -> ce (f_mod fr) tr' = exp_e ops' -> ci (f_mod fr) tr' = exp_i ops' ->
  Forall (op_ranked (f_mod fr)) ops' ->
  LI mods' tr' ({| f_mod := f_mod fr; f_ops := ops' |} :: rest) av.
Proof.
  intros [S F I R C] HM HT Sh E1 E2 FR. set (u := f_mod fr).
  assert (N : ~ In u (map f_mod rest)) by (apply sorted_notin; exact S).
  inversion F as [|? ? [K [II _]] F']; subst.
  constructor.
  - inversion S as [|? ? S' FS]; subst. constructor; auto.
  - constructor.
    + unfold frame_ok; simpl. destruct (HM u) as [K' [I' _]]. fold u in K, II. rewrite K', I'. repeat split; auto.
    + apply (frames_keep mods mods' tr tr' u rest); auto. intros m _. destruct (HM m) as [A [B _]]. auto.
  - intros b Kb. destruct (HM b) as [K' [_ O']]. rewrite K' in Kb. rewrite O'. auto.
  - intros m Nm. assert (Q : m <> u) by (intros E; subst; apply Nm; left; reflexivity).
    destruct (HM m) as [_ [B _]]. destruct (HT m Q) as [C1 C2]. rewrite B, C1, C2. apply R. exact Nm.
  - intros b d Fb Kb. destruct (HM b) as [K' _]. rewrite K' in Kb. eauto.
Qed.

(* ... behind an operation o that is no event of its own, with operations that contain the same events as the rest,
   after a step that leaves the counts of earlyInit / initModule events alone *)
Lemma continue_late mods mods' tr tr' fr rest av o ops ops' :
  LI mods tr (fr :: rest) av -> f_ops fr = o :: ops -> is_ev o = false ->
  (forall m, has_key m mods' = has_key m mods /\ isinit_m mods' m = isinit_m mods m /\ ops_m mods' m = ops_m mods m) ->
  (forall m, ce m tr' = ce m tr /\ ci m tr' = ci m tr) ->
  evs_of ops' = evs_of ops -> Forall (op_ranked (f_mod fr)) ops' ->
  LI mods' tr' ({| f_mod := f_mod fr; f_ops := ops' |} :: rest) av.
Proof.
  intros H Ho EV HM HT EO FR. pose proof (li_frames _ _ _ _ H) as F.
  inversion F as [|? ? [_ [_ [Sh [E1 [E2 _]]]]] _]; subst. rewrite Ho in Sh, E1, E2.
  destruct (shape_tail o ops EV Sh) as [LT [L XI]].
  assert (L' : late ops') by (unfold late; rewrite EO; exact L).
  destruct (HT (f_mod fr)) as [T1 T2].
  apply (continue_top mods mods' tr tr' fr rest av ops' H HM); auto.
  - right. exact L'.
  - rewrite T1, E1, (late_exp_e _ LT), (late_exp_e _ L'). reflexivity.
  - rewrite T2, E2, <- XI. unfold exp_i. rewrite EO. reflexivity.
Qed.

(* a new frame, for a module below every active one that is not yet marked *)
Lemma LI_push mods tr stk av b :
  LI mods tr stk av -> has_key b mods = true -> isinit_m mods b = false ->
  Forall (fun g => rank b < rank (f_mod g)) stk ->
  LI mods tr ({| f_mod := b; f_ops := ops_m mods b |} :: stk) av.
Proof.
  intros [S F I R C] K IB AB. destruct (R b (above_notin b stk AB)) as [R0 _]. destruct (R0 IB) as [CE CI].
  destruct (ops_m_shape mods b) as [r0 [OPS ER0]].
  constructor; auto.
  - constructor; auto.
  - constructor; auto. unfold frame_ok; simpl. pose proof (I b K) as IR. rewrite OPS in *.
    repeat split; auto. left. exists r0; auto.
  - intros m Nm. apply R. intros X. apply Nm. right. exact X.
Qed.

Lemma ext_LI mods mods1 tr stk av : LI mods tr stk av -> extends mods mods1 -> insts_ranked mods1 ->
  LI mods1 tr stk av.
Proof.
  intros [S F I R C] E IR. constructor; auto.
  - rewrite Forall_forall in *. intros fr X. destruct (F fr X) as [K [II [Sh [E1 [E2 FR]]]]].
    unfold frame_ok. rewrite (extends_key _ _ _ E K), (extends_isinit _ _ _ E K). repeat split; auto.
  - intros m N. rewrite (extends_flags _ _ E m). apply R. exact N.
  - intros b d Fb Kb. apply (C b d Fb). destruct (has_key b mods) eqn:K0; auto.
    rewrite (extends_key _ _ _ E K0) in Kb. discriminate.
Qed.

(* one step of the machine keeps the invariant, also when get_module_instance creates the target of an attachment
   on the way - as long as what it creates is ranked *)
Lemma step_LI limit st av : LI (modules st) (trace st) (stack st) av ->
  (forall b, extends (modules st) (modules (fst (get_instance st b))) /\
             insts_ranked (modules (fst (get_instance st b)))) ->
  LI (modules (step limit st)) (trace (step limit st)) (stack (step limit st)) av.
Proof.
  intros H HG. destruct (stack st) as [|fr rest] eqn:Hs; [unfold step; rewrite Hs; simpl; rewrite Hs; exact H|].
  pose proof H as [S F I R C]. destruct (Forall_inv F) as [K [II [Sh [E1 [E2 FR]]]]].
  unfold step. rewrite Hs. cbv beta iota zeta. destruct (f_ops fr) as [|o ops] eqn:Ho.
  - apply pop_marked; auto. rewrite Ho. right; reflexivity.
  - assert (RAISE : is_ev o = false -> forall mods', LI mods' (trace st) (fr :: rest) av ->
              LI (mark (f_mod fr) mods') (trace st) rest av).
    { intros EV mods' H'. apply pop_marked; auto. rewrite Ho. apply (shape_tail o ops EV Sh). }
    assert (CONT : is_ev o = false -> forall mods' tr' ops',
              (forall m, has_key m mods' = has_key m (modules st) /\ isinit_m mods' m = isinit_m (modules st) m /\
                         ops_m mods' m = ops_m (modules st) m) ->
              (forall m, ce m tr' = ce m (trace st) /\ ci m tr' = ci m (trace st)) ->
              evs_of ops' = evs_of ops -> Forall (op_ranked (f_mod fr)) ops' ->
              LI mods' tr' ({| f_mod := f_mod fr; f_ops := ops' |} :: rest) av).
    { intros EV mods' tr' ops'. apply (continue_late _ _ _ _ fr rest av o ops ops' H Ho EV). }
    unfold frame_ranked in FR. rewrite Ho in FR. inversion FR as [|? ? RO RT]; subst.
    destruct o.
    + (* OEarlyEv *)
      destruct Sh as [[r [Hr Er]]|[L|L]]; [|discriminate L..].
      inversion Hr; subst r. simpl.
      apply (continue_top (modules st) (modules st) (trace st) (EEarly (f_mod fr) :: trace st) fr rest); auto.
      * intros m Q. apply ce_other; auto.
      * right. left. exact Er.
      * rewrite ce_cons. simpl. rewrite Nat.eqb_refl, E1. simpl. symmetry. apply late_exp_e. left; exact Er.
      * rewrite ci_cons. simpl. rewrite E2. unfold exp_i. simpl. rewrite Er. reflexivity.
    + (* OInitEv *)
      assert (Er : evs_of ops = []) by (destruct Sh as [[r [Hr _]]|[L|L]]; [discriminate|inversion L; auto|discriminate L]).
      simpl.
      apply (continue_top (modules st) (modules st) (trace st) (EInit (f_mod fr) :: trace st) fr rest); auto.
      * intros m Q. apply ci_other; auto.
      * right. right. exact Er.
      * rewrite ce_cons. simpl. rewrite E1. simpl. symmetry. apply late_exp_e. right; exact Er.
      * rewrite ci_cons. simpl. rewrite Nat.eqb_refl, E2. unfold exp_i. simpl. rewrite Er. reflexivity.
    + (* OAccess: the target may be created on the way *)
      assert (SEE : forall t ok, LI (modules st) (ESee (f_mod fr) idx t ok :: trace st)
                                    ({| f_mod := f_mod fr; f_ops := ops |} :: rest) av).
      { intros t ok. apply CONT; auto. }
      destruct (find idx (attached_of st (f_mod fr))); [apply SEE|].
      destruct (a_target a) as [b|] eqn:TA; [|apply SEE].
      destruct (HG b) as [EX IR1]. destruct (get_instance_frame st b) as [GT _].
      pose proof (get_instance_ok_key st b) as GK.
      destruct (get_instance st b) as [st1 r]; simpl in *.
      assert (H1 : LI (modules st1) (trace st) (fr :: rest) av) by (apply (ext_LI (modules st)); auto).
      destruct r; try (simpl; rewrite GT; apply RAISE; auto).
      assert (RB : rank b < rank (f_mod fr)) by (apply RO; exact TA).
      assert (ST2 : LI (modules st1) (trace st) ({| f_mod := f_mod fr; f_ops := ORet idx a b :: ops |} :: rest) av).
      { apply (continue_late _ _ _ _ fr rest av _ ops _ H1 Ho); auto. }
      change (isinit (set_stack st1 ({| f_mod := f_mod fr; f_ops := ORet idx a b :: ops |} :: rest)) b)
        with (isinit_m (modules st1) b).
      destruct (isinit_m (modules st1) b) eqn:IB; [simpl; rewrite GT; exact ST2|].
      destruct (Nat.leb _ _); [simpl; rewrite GT; apply RAISE; auto|].
      rewrite push_ops. simpl. rewrite GT. apply LI_push; auto.
      constructor; [exact RB|]. apply (sorted_above b fr rest S). lia.
    + (* ORet *)
      destruct (want_ok _ _); [|apply RAISE; auto]. simpl.
      apply CONT; auto. intros m. apply keeps_same; intros i; simpl; auto.
    + (* ORaise *)
      apply RAISE; auto.
    + (* ORegister *)
      unfold register. destruct (_ || _); simpl; apply CONT; auto.
      intros m. apply keeps_same; intros i; simpl; auto.
Qed.

Lemma LI_same_stack mods tr stk stk' av : stk = stk' -> LI mods tr stk av -> LI mods tr stk' av.
Proof. intros; subst; auto. Qed.

(* on a closed node *)
Lemma step_LInv limit st : LInv st -> LInv (step limit st).
Proof.
  unfold LInv. intros H. rewrite (proj1 (step_frame limit st)). apply step_LI; auto.
  intros b. destruct (get_instance_closed st b (li_closed _ _ _ _ H)) as [M _]. rewrite M.
  split; [apply extends_refl|exact (li_insts _ _ _ _ H)].
Qed.

Lemma run_gm_LInv limit fuel : forall st, LInv st -> LInv (run_gm limit fuel st).
Proof.
  induction fuel as [|fuel IH]; intros st H; simpl; destruct (stack st) eqn:Hs; auto.
  apply IH. apply step_LInv. exact H.
Qed.

Lemma get_instance_LInv st b : LInv st -> LInv (fst (get_instance st b)).
Proof.
  intros H. destruct (get_instance_closed st b (li_closed _ _ _ _ H)) as [GM _].
  destruct (get_instance_frame st b) as [GT [GS [GA _]]]. unfold LInv. rewrite GM, GT, GS, GA. exact H.
Qed.

Lemma gm_top_LInv limit fuel st b : LInv st -> stack st = [] -> LInv (gm_top limit fuel st b).
Proof.
  intros H Hs. unfold gm_top. pose proof (get_instance_LInv st b H) as H1.
  destruct (get_instance_frame st b) as [_ [GS _]]. pose proof (get_instance_ok_key st b) as GK.
  destruct (get_instance st b) as [st1 r]; simpl in *. destruct r; auto.
  change (isinit st1 b) with (isinit_m (modules st1) b). destruct (isinit_m (modules st1) b) eqn:IB; auto.
  apply run_gm_LInv. unfold LInv in *. rewrite push_ops. simpl. apply LI_push; auto. rewrite GS, Hs. constructor.
Qed.

(* what the invariant says once no initialisation is in progress *)
Theorem init_once_when_idle st : LInv st -> stack st = [] -> forall m,
  (isinit st m = false -> ce m (trace st) = 0 /\ ci m (trace st) = 0) /\
  (isinit st m = true -> ce m (trace st) = 1 /\ ci m (trace st) <= 1).
Proof. intros [_ _ _ R _] Hs m. rewrite Hs in R. apply R. intros []. Qed.

(* every sequence of calls on a closed node *)
Lemma runs_LInv limit fuel st st' : runs limit fuel [] st st' -> LInv st -> stack st = [] -> stuck st' = false ->
  LInv st' /\ stack st' = [].
Proof.
  intros R L Hs. apply (runs_inv limit fuel [] (fun s => LInv s /\ stack s = []) ) with (st := st); auto.
  - intros s b [L1 S1] NS. split; [apply gm_top_LInv|apply gm_top_stack]; auto.
  - intros s b [L1 S1]. split; [apply get_instance_LInv; exact L1|].
    destruct (get_instance_frame s b) as [_ [GS _]]. rewrite GS. exact S1.
  - intros s b d [].
Qed.

(* a node in which nothing was initialised yet *)
Definition fresh (st : node) : Prop :=
  stack st = [] /\ trace st = [] /\ (forall m, isinit st m = false) /\
  closed_m (modules st) (avail st) /\
  (forall b, has_key b (modules st) = true -> frame_ranked {| f_mod := b; f_ops := ops_m (modules st) b |}).

Lemma fresh_LInv st : fresh st -> LInv st.
Proof.
  intros [Hs [T [I [C R]]]]. unfold LInv. rewrite Hs, T. constructor; auto.
  - constructor.
  - intros m _. split; [intros _; auto|]. intros Q. rewrite <- isinit_eq, I in Q. discriminate.
Qed.

Theorem init_all_once limit fuel st : fresh st -> stuck (init_all limit fuel st) = false ->
  forall m, let st' := init_all limit fuel st in
  (isinit st' m = false -> ce m (trace st') = 0 /\ ci m (trace st') = 0) /\
  (isinit st' m = true -> ce m (trace st') = 1 /\ ci m (trace st') <= 1).
Proof.
  intros F NS m st'. pose proof F as [Hs _].
  destruct (runs_LInv limit fuel st st' (init_loop_runs _ _ _ _ _ _) (fresh_LInv st F) Hs NS) as [L E].
  apply init_once_when_idle; auto.
Qed.

(* get_module of an existing module: afterwards its earlyInit has run (now or earlier) *)
Lemma gm_top_early limit fuel st b : has_key b (modules st) = true -> stuck (gm_top limit fuel st b) = false ->
  isinit st b = true \/ In (EEarly b) (trace (gm_top limit fuel st b)).
Proof.
  intros K. unfold gm_top, get_instance. rewrite K. simpl. destruct (isinit st b) eqn:I; auto. intros NS. right.
  destruct (frame_ops_shape (decl_of st b) (io_of st b)) as [r0 [HR _]].
  assert (P : push b st = set_stack st ({| f_mod := b; f_ops := OEarlyEv :: r0 |} :: stack st))
    by (unfold push; rewrite HR; reflexivity).
  rewrite P in *. destruct fuel; simpl in *; [discriminate|].
  match goal with |- In _ (trace (run_gm limit fuel ?s)) => set (st2 := s) in * end.
  assert (T2 : trace st2 = EEarly b :: trace st) by reflexivity.
  apply (ext_In st2); [apply run_gm_ext|]. rewrite T2. left; reflexivity.
Qed.

(* Server._processCfg fetches every module with get_module after get_descriptive_data: the earlyInit of each of them
   has run afterwards *)
Lemma fold_all limit fuel : forall names st, LInv st -> stack st = [] ->
  stuck (fold_left (fun acc b => gm_top limit fuel acc b) names st) = false ->
  forall b, In b names -> has_key b (modules st) = true ->
    In (EEarly b) (trace (fold_left (fun acc b => gm_top limit fuel acc b) names st)).
Proof.
  induction names as [|b r IH]; intros st L Hs NS x X K; simpl in *; [contradiction|].
  pose proof (fold_runs limit fuel [] r (gm_top limit fuel st b)) as RR.
  pose proof (runs_sticky _ _ _ _ _ RR NS) as NS1.
  destruct X as [X|X].
  - subst x. apply (ext_In (gm_top limit fuel st b)); [eapply runs_ext; exact RR|].
    destruct (gm_top_early limit fuel st b K NS1) as [I|I]; auto.
    apply (ext_In st); [apply gm_top_ext|]. apply ce_In.
    destruct (init_once_when_idle st L Hs b) as [_ R]. destruct (R I) as [C _]. lia.
  - apply IH; auto using gm_top_LInv, gm_top_stack. apply (gm_top_keys limit fuel st b). exact K.
Qed.

End Ranked.
