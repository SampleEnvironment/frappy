(* C15 — SecNode._getSortedModules (the depth first search go, the loop over unmarked.pop()).
   For EVERY graph the result is a permutation of the module names; for every acyclic graph (a rank function that
   decreases along every edge) the search never fails and every module stands BEFORE all the modules it is attached
   to (reversed post-order), so that shutdown_modules shuts users down before the modules they use. *)
From Coq Require Import List Arith Bool Lia Permutation.
Import ListNotations.
Require Import FV.C15.Model.

(* the inner loop of go as a function of its own *)
Definition gl_of (go' : dfs -> name -> bool * dfs) : dfs -> list name -> bool * dfs :=
  fix gl (s : dfs) (ns : list name) {struct ns} : bool * dfs :=
    match ns with
    | [] => (true, s)
    | x :: r => let '(ok, s') := go' s x in if ok then gl s' r else (false, s')
    end.

Definition enter (n : name) (s : dfs) : dfs :=
  {| g_done := g_done s; g_visited := n :: g_visited s; g_unmarked := remove_nat n (g_unmarked s); g_l := g_l s |}.
Definition leave (n : name) (s : dfs) : dfs :=
  {| g_done := n :: g_done s; g_visited := remove_nat n (g_visited s); g_unmarked := g_unmarked s; g_l := n :: g_l s |}.

Lemma go_S f g s n : go (S f) g s n =
  if mem n (g_done s) then (true, s)
  else if mem n (g_visited s) then (false, s)
  else let '(ok, s2) := gl_of (go f g) (enter n s) (g n) in
       if ok then (true, leave n s2) else (false, s2).
Proof. reflexivity. Qed.

Lemma go_0 g s n : go 0 g s n = (false, s).
Proof. reflexivity. Qed.

Lemma sort_loop_S fuel k g order s : sort_loop fuel (S k) g order s =
  match pop_next order (g_unmarked s) with
  | None => match g_unmarked s with [] => g_l s | x :: _ => g_l s ++ g_visited s ++ g_unmarked s end
  | Some n =>
      let s0 := {| g_done := g_done s; g_visited := g_visited s; g_unmarked := remove_nat n (g_unmarked s);
                   g_l := g_l s |} in
      let '(ok, s1) := go fuel g s0 n in
      if ok then sort_loop fuel k g order s1 else g_l s1 ++ g_visited s1 ++ g_unmarked s1
  end.
Proof. reflexivity. Qed.

Local Arguments go : simpl never.
Ltac nlia := unfold name in *; lia.

Lemma mem_In k l : mem k l = true <-> In k l.
Proof.
  unfold mem. rewrite existsb_exists. split.
  - intros [x [I E]]. apply Nat.eqb_eq in E. subst. exact I.
  - intros I. exists k. split; [exact I|apply Nat.eqb_refl].
Qed.

Lemma mem_false k l : mem k l = false <-> ~ In k l.
Proof. rewrite <- mem_In. destruct (mem k l); split; intros; try discriminate; auto. exfalso; auto. Qed.

Lemma remove_nat_In n x l : In x (remove_nat n l) <-> In x l /\ x <> n.
Proof.
  unfold remove_nat. rewrite filter_In. split; intros [A B]; split; auto.
  - intros E. subst. rewrite Nat.eqb_refl in B. discriminate.
  - apply Nat.eqb_neq in B. rewrite B. reflexivity.
Qed.

Lemma remove_nat_notin n l : ~ In n l -> remove_nat n l = l.
Proof.
  induction l as [|x r IH]; simpl; auto. intros N.
  destruct (Nat.eqb x n) eqn:E; simpl.
  - apply Nat.eqb_eq in E. subst. exfalso. apply N. left; reflexivity.
  - rewrite IH; auto.
Qed.

Lemma remove_nat_idem n l : remove_nat n (remove_nat n l) = remove_nat n l.
Proof. apply remove_nat_notin. rewrite remove_nat_In. intros [_ H]. apply H. reflexivity. Qed.

Lemma remove_nat_perm n : forall l, NoDup l -> In n l -> Permutation l (n :: remove_nat n l).
Proof.
  induction l as [|x r IH]; simpl; [contradiction|]. intros ND [E|I].
  - subst x. rewrite Nat.eqb_refl. simpl. inversion ND; subst. rewrite remove_nat_notin; auto.
  - inversion ND; subst. destruct (Nat.eqb x n) eqn:E; simpl.
    + apply Nat.eqb_eq in E. subst. contradiction.
    + eapply perm_trans; [apply perm_skip; apply IH; auto|apply perm_swap].
Qed.

Lemma remove_nat_length n l : length (remove_nat n l) <= length l.
Proof. induction l as [|x r IH]; simpl; auto. destruct (negb (Nat.eqb x n)); simpl; lia. Qed.

Lemma remove_nat_length_lt n l : In n l -> length (remove_nat n l) < length l.
Proof.
  induction l as [|x r IH]; simpl; [contradiction|]. intros [E|I].
  - subst. rewrite Nat.eqb_refl. simpl. pose proof (remove_nat_length n r). lia.
  - destruct (Nat.eqb x n); simpl; specialize (IH I); pose proof (remove_nat_length n r); lia.
Qed.

(* the search keeps a partition of the names *)
Section Sort.
Variable names : list name.
Variable g : name -> list name.
Hypothesis names_nodup : NoDup names.
Hypothesis g_closed : forall u b, In u names -> In b (g u) -> In b names.

(* done and l hold the same names; l, visited and unmarked partition the module names *)
Definition PInv (s : dfs) : Prop :=
  g_done s = g_l s /\ Permutation (g_l s ++ g_visited s ++ g_unmarked s) names.

Lemma PInv_nodup s : PInv s -> NoDup (g_l s ++ g_visited s ++ g_unmarked s).
Proof. intros [_ P]. eapply Permutation_NoDup; [apply Permutation_sym; exact P|exact names_nodup]. Qed.

Lemma PInv_in s x : PInv s -> (In x names <-> In x (g_l s) \/ In x (g_visited s) \/ In x (g_unmarked s)).
Proof.
  intros [_ P]. split.
  - intros I. apply (Permutation_in _ (Permutation_sym P)) in I. rewrite !in_app_iff in I. exact I.
  - intros I. apply (Permutation_in _ P). rewrite !in_app_iff. exact I.
Qed.

Lemma nodup_app_disj {A} (a b : list A) x : NoDup (a ++ b) -> In x a -> In x b -> False.
Proof.
  induction a as [|y r IH]; simpl; [contradiction|]. intros ND [E|I] B.
  - subst. apply NoDup_cons_iff in ND. apply (proj1 ND). apply in_or_app. right; exact B.
  - inversion ND; subst. eauto.
Qed.

Lemma nodup_app_r {A} (a b : list A) : NoDup (a ++ b) -> NoDup b.
Proof. induction a; simpl; auto. intros H. inversion H; auto. Qed.

Lemma nodup_app_l {A} (a b : list A) : NoDup (a ++ b) -> NoDup a.
Proof.
  induction a as [|y r IH]; simpl; [constructor|]. intros H. apply NoDup_cons_iff in H. destruct H as [N H].
  constructor; auto. intros I. apply N. apply in_or_app. left; exact I.
Qed.

(* a name that is neither finished nor on the path is still unmarked *)
Lemma PInv_unmarked s n : PInv s -> In n names -> mem n (g_done s) = false -> mem n (g_visited s) = false ->
  In n (g_unmarked s).
Proof.
  intros P I D V. pose proof P as [E _]. rewrite E in D. apply mem_false in D. apply mem_false in V.
  apply (PInv_in s n P) in I. destruct I as [I|[I|I]]; [contradiction|contradiction|exact I].
Qed.

Lemma PInv_enter s n : PInv s -> In n (g_unmarked s) -> PInv (enter n s).
Proof.
  intros P I. pose proof (PInv_nodup s P) as ND. destruct P as [E P]. split; [exact E|]. simpl.
  assert (NU : NoDup (g_unmarked s)) by (apply nodup_app_r in ND; apply nodup_app_r in ND; exact ND).
  eapply perm_trans; [|exact P]. apply Permutation_app_head.
  eapply perm_trans; [apply (Permutation_middle (g_visited s) (remove_nat n (g_unmarked s)) n)|].
  apply Permutation_app_head. apply Permutation_sym. apply remove_nat_perm; auto.
Qed.

Lemma PInv_leave s n : PInv s -> In n (g_visited s) -> PInv (leave n s).
Proof.
  intros P I. pose proof (PInv_nodup s P) as ND. destruct P as [E P]. split; [simpl; rewrite E; reflexivity|]. simpl.
  assert (NV : NoDup (g_visited s)) by (apply nodup_app_r in ND; apply nodup_app_l in ND; exact ND).
  eapply perm_trans; [|exact P].
  eapply perm_trans; [apply (Permutation_middle (g_l s) (remove_nat n (g_visited s) ++ g_unmarked s) n)|].
  apply Permutation_app_head.
  change (n :: remove_nat n (g_visited s) ++ g_unmarked s) with ((n :: remove_nat n (g_visited s)) ++ g_unmarked s).
  apply Permutation_app_tail. apply Permutation_sym. apply remove_nat_perm; auto.
Qed.

(* what one call of go guarantees for every graph *)
Definition go_ok1 (s : dfs) (r : bool * dfs) : Prop :=
  PInv (snd r) /\ (fst r = true -> g_visited (snd r) = g_visited s).

Lemma gl_ok1 (go' : dfs -> name -> bool * dfs) :
  (forall s n, PInv s -> In n names -> go_ok1 s (go' s n)) ->
  forall ns s, PInv s -> (forall x, In x ns -> In x names) -> go_ok1 s (gl_of go' s ns).
Proof.
  intros H. induction ns as [|x r IH]; intros s P C; simpl.
  - split; auto.
  - destruct (H s x P (C x (or_introl eq_refl))) as [P1 V1].
    destruct (go' s x) as [ok s1]; simpl in *. destruct ok.
    + destruct (IH s1 P1 (fun y Y => C y (or_intror Y))) as [P2 V2]. split; auto.
      intros T. rewrite (V2 T). apply V1. reflexivity.
    + split; auto; try discriminate.
Qed.

Lemma go_ok1_all : forall f s n, PInv s -> In n names -> go_ok1 s (go f g s n).
Proof.
  induction f as [|f IH]; intros s n P I.
  - rewrite go_0. split; auto; try discriminate.
  - rewrite go_S. destruct (mem n (g_done s)) eqn:D; [split; auto|].
    destruct (mem n (g_visited s)) eqn:V; [split; auto; try discriminate|].
    pose proof (PInv_unmarked s n P I D V) as U.
    pose proof (gl_ok1 (go f g) IH (g n) (enter n s) (PInv_enter s n P U) (fun x X => g_closed n x I X)) as [P2 V2].
    destruct (gl_of (go f g) (enter n s) (g n)) as [ok s2]; simpl in *. destruct ok; [|split; auto; try discriminate].
    specialize (V2 eq_refl). split; simpl.
    + apply PInv_leave; auto. rewrite V2. left; reflexivity.
    + intros _. rewrite V2. simpl. rewrite Nat.eqb_refl. simpl. apply remove_nat_notin. apply mem_false. exact V.
Qed.

(* unmarked.pop() before go(name): go removes the name from unmarked anyway *)
Lemma go_pop f s n : mem n (g_done s) = false -> mem n (g_visited s) = false ->
  go (S f) g {| g_done := g_done s; g_visited := g_visited s; g_unmarked := remove_nat n (g_unmarked s); g_l := g_l s |} n =
  go (S f) g s n.
Proof.
  intros D V. rewrite !go_S. simpl. rewrite D, V. unfold enter. simpl. rewrite remove_nat_idem. reflexivity.
Qed.

Lemma pop_next_some order u n : pop_next order u = Some n -> In n u.
Proof. unfold pop_next. intros H. apply find_some in H. destruct H as [_ H]. apply mem_In. exact H. Qed.

Lemma pop_next_none order u x : pop_next order u = None -> In x u -> In x order -> False.
Proof.
  unfold pop_next. intros H U O. pose proof (find_none _ _ H x O) as Q. simpl in Q.
  apply mem_false in Q. contradiction.
Qed.

(* the name popped from unmarked is a module name that is neither finished nor on the path, so go may as well start
   from the state before the pop *)
Lemma pop_go f order s n : PInv s -> g_visited s = [] -> pop_next order (g_unmarked s) = Some n ->
  In n (g_unmarked s) /\ In n names /\
  go (S f) g {| g_done := g_done s; g_visited := g_visited s; g_unmarked := remove_nat n (g_unmarked s); g_l := g_l s |} n =
  go (S f) g s n.
Proof.
  intros P V PN. pose proof (pop_next_some _ _ _ PN) as U. pose proof (PInv_nodup s P) as ND.
  split; [exact U|]. split; [apply (PInv_in s n P); auto|]. apply go_pop; [|rewrite V; reflexivity].
  apply mem_false. destruct P as [E _]. rewrite E. intros X. eapply (nodup_app_disj (g_l s)); eauto.
  apply in_or_app. right; exact U.
Qed.

(* every graph: the result is a permutation of the names *)
Lemma sort_loop_perm f order : forall k s, PInv s -> g_visited s = [] ->
  Permutation (sort_loop (S f) k g order s) names.
Proof.
  induction k as [|k IH]; intros s P V.
  - simpl. destruct P as [_ P]. exact P.
  - rewrite sort_loop_S. destruct (pop_next order (g_unmarked s)) as [n|] eqn:PN.
    + destruct (pop_go f order s n P V PN) as [U [IN GP]]. cbv zeta. rewrite GP.
      pose proof (go_ok1_all (S f) s n P IN) as [P1 V1].
      destruct (go (S f) g s n) as [ok s1]; simpl in *. destruct ok.
      * apply IH; auto. rewrite V1; auto.
      * destruct P1 as [_ P1]. exact P1.
    + destruct (g_unmarked s) eqn:U; destruct P as [_ P]; rewrite U in P; [|exact P].
      rewrite V in P. simpl in P. rewrite app_nil_r in P. exact P.
Qed.

(* acyclic graphs: the search succeeds, every name stands before everything it is attached to *)
Variable rank : name -> nat.
Hypothesis ranked : forall u b, In u names -> In b (g u) -> rank b < rank u.

(* in l (newest first) everything a name is attached to stands behind it *)
Definition Ord (l : list name) : Prop :=
  forall l1 u l2, l = l1 ++ u :: l2 -> forall b, In b (g u) -> In b l2.

Definition res2 (s : dfs) (r : bool * dfs) (bound : nat) : Prop :=
  fst r = true /\ PInv (snd r) /\ g_visited (snd r) = g_visited s /\ Ord (g_l (snd r)) /\
  (exists new, g_l (snd r) = new ++ g_l s) /\ length (g_unmarked (snd r)) <= bound.

Definition pre2 (f : nat) (s : dfs) (n : name) : Prop :=
  PInv s /\ In n names /\ (forall v, In v (g_visited s) -> rank n < rank v) /\ Ord (g_l s) /\
  length (g_unmarked s) < f.

Lemma gl_ok2 (go' : dfs -> name -> bool * dfs) f :
  (forall s n, pre2 f s n ->
     res2 s (go' s n) (length (remove_nat n (g_unmarked s))) /\ In n (g_l (snd (go' s n)))) ->
  forall ns s, (forall x, In x ns -> pre2 f s x) -> PInv s -> Ord (g_l s) ->
  res2 s (gl_of go' s ns) (length (g_unmarked s)) /\ (forall x, In x ns -> In x (g_l (snd (gl_of go' s ns)))).
Proof.
  intros H. induction ns as [|x r IH]; intros s C P O; simpl.
  - split; [|intros x []]. unfold res2; simpl.
    split; [reflexivity|]. split; [exact P|]. split; [reflexivity|]. split; [exact O|].
    split; [exists []; reflexivity|nlia].
  - destruct (H s x (C x (or_introl eq_refl))) as [[T1 [P1 [V1 [O1 [[new1 L1] U1]]]]] I1].
    pose proof (remove_nat_length x (g_unmarked s)) as RL.
    destruct (go' s x) as [ok s1]; simpl in *. subst ok.
    assert (C1 : forall y, In y r -> pre2 f s1 y).
    { intros y Y. destruct (C y (or_intror Y)) as [_ [IN [RK [_ LT]]]].
      unfold pre2. rewrite V1. split; [exact P1|]. split; [exact IN|]. split; [exact RK|]. split; [exact O1|]. nlia. }
    destruct (IH s1 C1 P1 O1) as [[T2 [P2 [V2 [O2 [[new2 L2] U2]]]]] I2].
    split.
    + unfold res2. split; [exact T2|]. split; [exact P2|]. split; [congruence|]. split; [exact O2|].
      split; [|nlia]. exists (new2 ++ new1). rewrite L2, L1, app_assoc. reflexivity.
    + intros y [E|Y]; [subst y|apply I2; exact Y]. rewrite L2. apply in_or_app. right. exact I1.
Qed.

Lemma go_ok2_all : forall f s n, pre2 f s n ->
  res2 s (go f g s n) (length (remove_nat n (g_unmarked s))) /\ In n (g_l (snd (go f g s n))).
Proof.
  induction f as [|f IH]; intros s n [P [I [RK [O LT]]]]; [nlia|].
  rewrite go_S. destruct (mem n (g_done s)) eqn:D.
  - simpl. assert (IL : In n (g_l s)) by (destruct P as [E _]; rewrite <- E; apply mem_In; exact D).
    split; [|exact IL].
    unfold res2; simpl.
    split; [reflexivity|]. split; [exact P|]. split; [reflexivity|]. split; [exact O|].
    split; [exists []; reflexivity|].
    rewrite remove_nat_notin; auto. intros X. pose proof (PInv_nodup s P) as ND.
    eapply (nodup_app_disj (g_l s)); eauto. apply in_or_app. right; exact X.
  - destruct (mem n (g_visited s)) eqn:V.
    { apply mem_In in V. apply RK in V. nlia. }
    pose proof (PInv_unmarked s n P I D V) as U.
    pose proof (PInv_enter s n P U) as PE.
    assert (LE : length (g_unmarked (enter n s)) < f).
    { simpl. pose proof (remove_nat_length_lt n (g_unmarked s) U). nlia. }
    assert (C : forall x, In x (g n) -> pre2 f (enter n s) x).
    { intros x X. unfold pre2. split; [exact PE|]. split; [eapply g_closed; eauto|]. split; [|split; [exact O|exact LE]].
      simpl. intros v [E|W]; [subst v; apply ranked; auto|]. specialize (RK v W). specialize (ranked n x I X). nlia. }
    destruct (gl_ok2 (go f g) f IH (g n) (enter n s) C PE O) as [[T2 [P2 [V2 [O2 [[new2 L2] U2]]]]] I2].
    destruct (gl_of (go f g) (enter n s) (g n)) as [ok s2]; simpl in *. subst ok. simpl. split; [|left; reflexivity].
    unfold res2; simpl. split; [reflexivity|]. split; [|split; [|split; [|split]]].
    + apply PInv_leave; auto. rewrite V2. left; reflexivity.
    + rewrite V2. simpl. rewrite Nat.eqb_refl. simpl. apply remove_nat_notin. apply mem_false. exact V.
    + intros l1 u l2 E b B. destruct l1 as [|y l1]; simpl in E; inversion E; subst.
      * apply I2. exact B.
      * eapply O2; eauto.
    + exists (n :: new2). rewrite L2. reflexivity.
    + exact U2.
Qed.

Lemma sort_loop_topo f order : (forall x, In x names -> In x order) ->
  forall k s, PInv s -> g_visited s = [] -> Ord (g_l s) -> length (g_unmarked s) < k -> length (g_unmarked s) < S f ->
  Ord (sort_loop (S f) k g order s).
Proof.
  intros COV. induction k as [|k IH]; intros s P V O LK LF; [nlia|]. rewrite sort_loop_S.
  destruct (pop_next order (g_unmarked s)) as [n|] eqn:PN.
  - destruct (pop_go f order s n P V PN) as [U [IN GP]]. cbv zeta. rewrite GP.
    assert (PRE : pre2 (S f) s n).
    { unfold pre2. split; [exact P|]. split; [exact IN|]. split; [rewrite V; intros v []|]. split; [exact O|exact LF]. }
    destruct (go_ok2_all (S f) s n PRE) as [[T1 [P1 [V1 [O1 [_ U1]]]]] I1].
    pose proof (remove_nat_length_lt n (g_unmarked s) U) as LT.
    destruct (go (S f) g s n) as [ok s1]; simpl in *. subst ok.
    apply IH; auto; try nlia. rewrite V1; auto.
  - destruct (g_unmarked s) as [|x r] eqn:U; [exact O|].
    exfalso. apply (pop_next_none order (g_unmarked s) x); [rewrite U; exact PN|rewrite U; left; reflexivity|].
    apply COV. apply (PInv_in s x P). right. right. rewrite U. left; reflexivity.
Qed.

End Sort.
