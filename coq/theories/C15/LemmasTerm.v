(* C15 — the get_module / Attached.__get__ machine never loops: for EVERY configuration (cyclic
   ones included) a measure built from the number of modules that are not yet marked, the room left under the depth
   limit, the number of frames whose module is already marked and the operations left in the frames decreases with
   every step.  So a step budget that is linear in (depth limit x number of configured modules) is never exhausted:
   the flag stuck of the model stays false, the recursion always comes back (at the latest through the depth limit,
   which is recorded as an error). *)
From Coq Require Import List Arith Bool Lia.
Import ListNotations.
Require Import FV.C15.Model FV.C15.Run FV.C15.Lemmas FV.C15.LemmasInit.

Definition uninit_e (e : name * inst) : bool := negb (i_isinit (snd e)).
Definition unk (mods : list (name * inst)) (m : name) : bool :=
  match find m mods with Some i => negb (i_isinit i) | None => false end.
Definition notkey (mods : list (name * inst)) (bd : name * decl) : bool := negb (has_key (fst bd) mods).
Definition nU (mods : list (name * inst)) (av : list (name * decl)) : nat :=
  length (filter uninit_e mods) + 2 * length (filter (notkey mods) av).
Definition zomb (mods : list (name * inst)) (fr : frame) : bool := negb (unk mods (f_mod fr)).
Definition nZ (mods : list (name * inst)) (stk : list frame) : nat := length (filter (zomb mods) stk).
Definition wop (o : op) : nat := match o with OAccess _ _ => 2 | _ => 1 end.
Definition wops (ops : list op) : nat := list_sum (map wop ops).
Definition nW (stk : list frame) : nat := list_sum (map (fun fr => 1 + wops (f_ops fr)) stk).
Definition nB (L : nat) (mods : list (name * inst)) (av : list (name * decl)) (stk : list frame) : nat :=
  (L + 1) * nU mods av + (L - length stk) + nZ mods stk.
Definition measure (C L : nat) (st : node) : nat :=
  C * nB L (modules st) (avail st) (stack st) + nW (stack st).
(* nU: the modules that are not yet marked, plus 2 for every configured name without a module (creating it may add the
   module and its communicator).  nZ: the frames whose module is already marked (zomb: a module entered again on a
   cycle).  nW: the operations left in the frames; an access weighs 2 because its ORet follows it.  nB is what a push
   pays with: room under the depth limit L, or a module gets marked; marking a module may turn up to L frames into
   zombies, hence (L + 1) * nU.  A push lets nW grow by less than C (the bound DB on the size of a frame), so nB
   weighs C in the measure. *)

Lemma filter_len_mono {A} (p q : A -> bool) : forall l,
  (forall x, In x l -> p x = true -> q x = true) -> length (filter p l) <= length (filter q l).
Proof.
  induction l as [|x r IH]; simpl; intros H; auto.
  assert (IH' : length (filter p r) <= length (filter q r)) by (apply IH; intros y Y; apply H; right; exact Y).
  destruct (p x) eqn:P.
  - rewrite (H x (or_introl eq_refl) P). simpl. lia.
  - destruct (q x); simpl; lia.
Qed.

Lemma filter_len_strict {A} (p q : A -> bool) : forall l,
  (forall x, In x l -> p x = true -> q x = true) -> (exists x, In x l /\ p x = false /\ q x = true) ->
  length (filter p l) < length (filter q l).
Proof.
  induction l as [|x r IH]; simpl; intros H [y [Y [P Q]]]; [contradiction|].
  assert (M : length (filter p r) <= length (filter q r)) by (apply filter_len_mono; intros z Z; apply H; right; exact Z).
  destruct Y as [E|Y].
  - subst y. rewrite P, Q. simpl. lia.
  - assert (S : length (filter p r) < length (filter q r)).
    { apply IH; [intros z Z; apply H; right; exact Z|exists y; auto]. }
    destruct (p x) eqn:PX.
    + rewrite (H x (or_introl eq_refl) PX). simpl. lia.
    + destruct (q x); simpl; lia.
Qed.

Lemma filter_len_le {A} (p : A -> bool) l : length (filter p l) <= length l.
Proof. induction l as [|x r IH]; simpl; auto. destruct (p x); simpl; lia. Qed.

Lemma uninit_cons k i r :
  length (filter uninit_e ((k, i) :: r)) = (if i_isinit i then 0 else 1) + length (filter uninit_e r).
Proof. simpl. unfold uninit_e at 1. simpl. destruct (i_isinit i); reflexivity. Qed.

Lemma uninit_upd_keep k f : (forall i, i_isinit (f i) = i_isinit i) -> forall mods,
  length (filter uninit_e (upd k f mods)) = length (filter uninit_e mods).
Proof.
  intros H. induction mods as [|[k0 i0] r IH]; [reflexivity|]. cbn [upd].
  destruct (Nat.eqb k k0); rewrite !uninit_cons; [rewrite H; reflexivity|rewrite IH; reflexivity].
Qed.

Lemma unk_upd_keep k f mods m : (forall i, i_isinit (f i) = i_isinit i) -> unk (upd k f mods) m = unk mods m.
Proof.
  intros H. unfold unk. rewrite find_upd. destruct (Nat.eqb m k); auto. destruct (find m mods); simpl; auto.
  rewrite H. reflexivity.
Qed.

Lemma notkey_upd k (f : inst -> inst) mods bd : notkey (upd k f mods) bd = notkey mods bd.
Proof. unfold notkey. rewrite has_key_upd. reflexivity. Qed.

Lemma nU_upd_keep k f mods av : (forall i, i_isinit (f i) = i_isinit i) -> nU (upd k f mods) av = nU mods av.
Proof.
  intros H. unfold nU. rewrite (uninit_upd_keep k f H).
  rewrite (filter_ext (notkey (upd k f mods)) (notkey mods)); [reflexivity|]. intros bd. apply notkey_upd.
Qed.

Lemma nZ_upd_keep k f mods stk : (forall i, i_isinit (f i) = i_isinit i) -> nZ (upd k f mods) stk = nZ mods stk.
Proof.
  intros H. unfold nZ. rewrite (filter_ext (zomb (upd k f mods)) (zomb mods)); [reflexivity|].
  intros fr. unfold zomb. rewrite unk_upd_keep; auto.
Qed.

Lemma uninit_mark u : forall mods,
  length (filter uninit_e (mark u mods)) + (if unk mods u then 1 else 0) = length (filter uninit_e mods).
Proof.
  unfold mark, unk. induction mods as [|[k0 i0] r IH]; [reflexivity|]. cbn [upd find].
  destruct (Nat.eqb u k0) eqn:E; rewrite !uninit_cons; cbn [i_isinit].
  - destruct (i_isinit i0); simpl; lia.
  - lia.
Qed.

Lemma unk_mark u mods m : unk (mark u mods) m = if Nat.eqb m u then false else unk mods m.
Proof.
  unfold unk, mark. rewrite find_upd. destruct (Nat.eqb m u); auto. destruct (find m mods); reflexivity.
Qed.

Lemma nU_mark u mods av : nU (mark u mods) av + (if unk mods u then 1 else 0) = nU mods av.
Proof.
  unfold nU. pose proof (uninit_mark u mods) as H.
  rewrite (filter_ext (notkey (mark u mods)) (notkey mods)); [lia|]. intros bd. apply notkey_upd.
Qed.

Lemma nZ_mark_same u mods stk : unk mods u = false -> nZ (mark u mods) stk = nZ mods stk.
Proof.
  intros H. unfold nZ. rewrite (filter_ext (zomb (mark u mods)) (zomb mods)); [reflexivity|].
  intros fr. unfold zomb. rewrite unk_mark. destruct (Nat.eqb (f_mod fr) u) eqn:E; auto.
  apply Nat.eqb_eq in E. rewrite E, H. reflexivity.
Qed.

Lemma nZ_cons mods fr rest : nZ mods (fr :: rest) = (if unk mods (f_mod fr) then 0 else 1) + nZ mods rest.
Proof. unfold nZ. simpl. unfold zomb at 1. destruct (unk mods (f_mod fr)); reflexivity. Qed.

Lemma nB_pop L mods av fr rest : S (length rest) <= L ->
  nB L (mark (f_mod fr) mods) av rest <= nB L mods av (fr :: rest).
Proof.
  intros D. unfold nB. pose proof (nU_mark (f_mod fr) mods av) as HU. simpl length.
  destruct (unk mods (f_mod fr)) eqn:K.
  - assert (Z1 : nZ (mark (f_mod fr) mods) rest <= length rest) by apply filter_len_le.
    assert (U1 : nU mods av = S (nU (mark (f_mod fr) mods) av)) by lia. rewrite U1. nia.
  - rewrite (nZ_mark_same _ _ rest K). rewrite nZ_cons, K.
    assert (U1 : nU mods av = nU (mark (f_mod fr) mods) av) by lia. rewrite U1. lia.
Qed.

Lemma uninit_set_assoc n d io : forall mods,
  length (filter uninit_e (set_assoc n (new_inst d io) mods)) <= S (length (filter uninit_e mods)).
Proof.
  induction mods as [|[k0 i0] r IH]; [simpl; lia|]. cbn [set_assoc].
  destruct (Nat.eqb n k0); rewrite !uninit_cons; cbn [new_inst i_isinit].
  - destruct (i_isinit i0); simpl; lia.
  - lia.
Qed.

Lemma unk_set_assoc n d io mods m :
  unk (set_assoc n (new_inst d io) mods) m = if Nat.eqb m n then true else unk mods m.
Proof. unfold unk. rewrite find_set_assoc. destruct (Nat.eqb m n); reflexivity. Qed.

Lemma nZ_set_assoc n d io mods stk : nZ (set_assoc n (new_inst d io) mods) stk <= nZ mods stk.
Proof.
  unfold nZ. apply filter_len_mono. intros fr _. unfold zomb. rewrite unk_set_assoc.
  destruct (Nat.eqb (f_mod fr) n); [discriminate|auto].
Qed.

Lemma notkey_set_assoc_mono n (v : inst) mods av :
  length (filter (notkey (set_assoc n v mods)) av) <= length (filter (notkey mods) av).
Proof.
  apply filter_len_mono. intros bd _. unfold notkey. rewrite has_key_set_assoc_iff.
  destruct (Nat.eqb (fst bd) n); simpl; [discriminate|auto].
Qed.

Lemma notkey_set_assoc_strict n (v : inst) mods av d :
  In (n, d) av -> has_key n mods = false ->
  length (filter (notkey (set_assoc n v mods)) av) < length (filter (notkey mods) av).
Proof.
  intros I K. apply filter_len_strict.
  - intros bd _. unfold notkey. rewrite has_key_set_assoc_iff. destruct (Nat.eqb (fst bd) n); simpl; [discriminate|auto].
  - exists (n, d). split; [exact I|]. unfold notkey. simpl. rewrite has_key_set_assoc_iff, Nat.eqb_refl, K. auto.
Qed.

Definition DB (C : nat) (st : node) : Prop :=
  (forall k i, find k (modules st) = Some i -> wops (frame_ops (i_decl i) (i_io i)) + 2 <= C) /\
  (forall b d io, In (b, d) (avail st) -> wops (frame_ops d io) + 2 <= C) /\
  wops (frame_ops io_decl None) + 2 <= C.

Lemma DB_ops C st b : DB C st -> wops (frame_ops (decl_of st b) (io_of st b)) + 2 <= C.
Proof.
  intros [A [_ B]]. unfold decl_of, io_of. destruct (find b (modules st)) as [i|] eqn:F; [eapply A; eauto|exact B].
Qed.

Lemma DB_upd C st st' k f : keeps f -> modules st' = upd k f (modules st) -> avail st' = avail st -> DB C st -> DB C st'.
Proof.
  intros KF M AV [A [B D]]. split; [|split; [rewrite AV; exact B|exact D]]. intros x i F. rewrite M, find_upd in F.
  destruct (Nat.eqb x k); [|eauto]. destruct (find x (modules st)) as [i0|] eqn:E; simpl in F; [|discriminate].
  inversion F; subst. destruct (KF i0) as [H1 H2]. rewrite H1, H2. eauto.
Qed.

Lemma DB_same C st st' : modules st' = modules st -> avail st' = avail st -> DB C st -> DB C st'.
Proof. intros M AV [A [B D]]. split; [rewrite M; exact A|split; [rewrite AV; exact B|exact D]]. Qed.

(* what get_module_instance does to the counters *)
Record gi_eff (C : nat) (st st' : node) : Prop := {
  ge_U : nU (modules st') (avail st') <= nU (modules st) (avail st);
  ge_Z : forall stk, nZ (modules st') stk <= nZ (modules st) stk;
  ge_av : avail st' = avail st;
  ge_stack : stack st' = stack st;
  ge_DB : DB C st';
}.

Lemma gi_eff_refl C st : DB C st -> gi_eff C st st.
Proof. intros D. constructor; auto. Qed.

Lemma add_module_eff n d io st :
  modules (add_module n (new_inst d io) st) = set_assoc n (new_inst d io) (modules st) /\
  avail (add_module n (new_inst d io) st) = avail st /\ stack (add_module n (new_inst d io) st) = stack st.
Proof. unfold add_module. destruct (d_export _); simpl; auto. Qed.

Lemma create_eff C st b d : DB C st -> find b (avail st) = Some d -> has_key b (modules st) = false ->
  gi_eff C st (fst (create st b d)).
Proof.
  intros DBS F K. pose proof (find_In _ _ _ F) as IN. unfold create.
  destruct (negb (creatable d)); simpl; [constructor; auto|].
  destruct DBS as [DA [DV DI]].
  (* adding the module itself *)
  assert (ONE : forall io s, avail s = avail st -> stack s = stack st -> has_key b (modules s) = false ->
            nU (modules s) (avail st) <= S (nU (modules st) (avail st)) ->
            (forall stk, nZ (modules s) stk <= nZ (modules st) stk) -> DB C s ->
            gi_eff C st (add_module b (new_inst d io) s)).
  { intros io s AV SK KS US ZS DS. destruct (add_module_eff b d io s) as [M [A S0]].
    constructor; rewrite ?M, ?A, ?S0; auto.
    - rewrite AV. unfold nU in *. pose proof (uninit_set_assoc b d io (modules s)).
      pose proof (notkey_set_assoc_strict b (new_inst d io) (modules s) (avail st) d IN KS). lia.
    - intros stk. eapply Nat.le_trans; [apply nZ_set_assoc|apply ZS].
    - destruct DS as [A1 [B1 D1]]. split; [|split; [rewrite A, AV; exact DV|exact DI]].
      intros k i FK. rewrite M, find_set_assoc in FK. destruct (Nat.eqb k b); [|eauto].
      inversion FK; subst. simpl. eapply DV; eauto. }
  assert (SELF : forall io, gi_eff C st (add_module b (new_inst d io) st)).
  { intros io. apply ONE; auto. split; [exact DA|split; [exact DV|exact DI]]. }
  destruct (d_kind d) as [|[|u|m]|]; simpl; try apply SELF.
  destruct (find u (iodict st)); simpl; [apply SELF|].
  (* a new communicator first *)
  set (n := io_name b). destruct (add_module_eff n io_decl None st) as [M1 [A1 S1]].
  assert (NB : Nat.eqb b n = false) by (apply Nat.eqb_neq; unfold n, io_name; lia).
  apply ONE.
  - simpl. reflexivity || exact A1.
  - simpl. reflexivity || exact S1.
  - simpl. rewrite ?M1, has_key_set_assoc_iff, NB, K. reflexivity.
  - simpl. rewrite ?M1. unfold nU. pose proof (uninit_set_assoc n io_decl None (modules st)).
    pose proof (notkey_set_assoc_mono n (new_inst io_decl None) (modules st) (avail st)). lia.
  - intros stk. simpl. rewrite ?M1. apply nZ_set_assoc.
  - split; [|split; [simpl; rewrite ?A1; exact DV|exact DI]]. intros k i FK. simpl in FK. rewrite ?M1, find_set_assoc in FK.
    destruct (Nat.eqb k n); [inversion FK; subst; simpl; exact DI|eauto].
Qed.

Lemma get_instance_eff C st b : DB C st -> gi_eff C st (fst (get_instance st b)).
Proof.
  intros D. unfold get_instance. destruct (has_key b (modules st)) eqn:K; simpl; [apply gi_eff_refl; exact D|].
  destruct (find b (avail st)) as [d|] eqn:F; simpl; [apply create_eff; auto|apply gi_eff_refl; exact D].
Qed.

(* every step decreases the measure: an ordinary step takes an operation off nW and leaves nB alone or lowers it; a push
   lowers nB and adds less than C to nW *)
Definition decr (C L : nat) (st st' : node) : Prop :=
  (nB L (modules st') (avail st') (stack st') <= nB L (modules st) (avail st) (stack st) /\ nW (stack st') < nW (stack st)) \/
  (nB L (modules st') (avail st') (stack st') < nB L (modules st) (avail st) (stack st) /\ nW (stack st') < nW (stack st) + C).

Lemma decr_measure C L st st' : decr C L st st' -> measure C L st' < measure C L st.
Proof. unfold measure. intros [[A B]|[A B]]; nia. Qed.

Lemma nW_cons fr rest : nW (fr :: rest) = 1 + wops (f_ops fr) + nW rest.
Proof. reflexivity. Qed.

Lemma wops_cons o ops : wops (o :: ops) = wop o + wops ops.
Proof. reflexivity. Qed.

Lemma wop_pos o : 1 <= wop o. Proof. destruct o; simpl; lia. Qed.

Lemma nZ_same_mod mods fr fr' rest : f_mod fr' = f_mod fr -> nZ mods (fr' :: rest) = nZ mods (fr :: rest).
Proof. intros E. rewrite !nZ_cons, E. reflexivity. Qed.

(* what a step keeps besides: the bound on the frames, the depth, the number of modules not yet marked *)
Definition good (C L : nat) (st st' : node) : Prop :=
  decr C L st st' /\ DB C st' /\ length (stack st') <= L /\
  nU (modules st') (avail st') <= nU (modules st) (avail st).

Lemma step_decr C limit st : DB C st -> stack st <> [] -> length (stack st) <= S limit ->
  good C (S limit) st (step limit st).
Proof.
  intros DBS NE LEN. unfold step. destruct (stack st) as [|fr rest] eqn:Hs; [contradiction|]. clear NE.
  set (L := S limit) in *. simpl in LEN.
  (* leaving the top frame from a state with the same stack and possibly more modules *)
  assert (POP : forall st0 st', gi_eff C st st0 -> modules st' = mark (f_mod fr) (modules st0) ->
            avail st' = avail st0 -> stack st' = rest -> good C L st st').
  { intros st0 st' [GU GZ GA GS GD] M AV SK. split; [|split; [|split]].
    - left. rewrite M, AV, SK, Hs. split.
      + eapply Nat.le_trans; [apply (nB_pop L (modules st0) (avail st0) fr rest LEN)|].
        unfold nB. specialize (GZ (fr :: rest)). nia.
      + rewrite nW_cons. lia.
    - eapply (DB_upd C st0 st'); eauto. intros i; simpl; auto.
    - rewrite SK. lia.
    - rewrite M, AV. pose proof (nU_mark (f_mod fr) (modules st0) (avail st0)). lia. }
  destruct (f_ops fr) as [|o ops] eqn:Ho.
  - apply (POP st); auto using gi_eff_refl.
  - assert (RAISE : forall st0 s, gi_eff C st st0 -> modules s = modules st0 -> avail s = avail st0 ->
              good C L st (raise_top s (f_mod fr) rest)).
    { intros st0 s G M AV. apply (POP st0); auto. simpl. unfold mark. rewrite M. reflexivity. }
    (* going on in the top frame behind o; the modules keep their flags *)
    assert (CONT : forall s, (nU (modules s) (avail s) = nU (modules st) (avail st)) ->
              (forall stk, nZ (modules s) stk = nZ (modules st) stk) -> DB C s ->
              good C L st (set_stack s ({| f_mod := f_mod fr; f_ops := ops |} :: rest))).
    { intros s HU HZ HD. split; [|split; [eapply DB_same; eauto; reflexivity|split; [simpl; lia|simpl; lia]]].
      left. simpl. rewrite Hs. split.
      - unfold nB. rewrite HU, HZ. simpl length.
        rewrite (nZ_same_mod (modules st) fr {| f_mod := f_mod fr; f_ops := ops |} rest eq_refl). lia.
      - rewrite !nW_cons, Ho, wops_cons. simpl f_ops. pose proof (wop_pos o). lia. }
    (* ... after an update of one instance that keeps declaration, io and flag *)
    assert (UPD : forall k f, keeps f -> (forall i, i_isinit (f i) = i_isinit i) ->
              good C L st (set_stack (set_modules st (upd k f (modules st))) ({| f_mod := f_mod fr; f_ops := ops |} :: rest))).
    { intros k f KF IF. apply CONT.
      - simpl. apply nU_upd_keep. exact IF.
      - intros stk. simpl. apply nZ_upd_keep. exact IF.
      - eapply (DB_upd C st); eauto; reflexivity. }
    destruct o.
    + apply CONT; auto.
    + apply CONT; auto.
    + (* OAccess *)
      destruct (find idx (attached_of st (f_mod fr))); [apply CONT; auto|].
      destruct (a_target a) as [b|]; [|apply CONT; auto].
      pose proof (get_instance_eff C st b DBS) as G1. pose proof (get_instance_ok_key st b) as OK.
      destruct (get_instance st b) as [st1 r]; simpl in *.
      destruct r; try (apply (RAISE st1 st1); auto).
      specialize (OK eq_refl). pose proof G1 as [GU GZ GA GS GD].
      set (fr2 := {| f_mod := f_mod fr; f_ops := ORet idx a b :: ops |}).
      assert (WAIT : nB L (modules st1) (avail st1) (fr2 :: rest) <= nB L (modules st) (avail st) (fr :: rest) /\
                     nW (fr2 :: rest) < nW (fr :: rest)).
      { split.
        - unfold nB. simpl length. specialize (GZ (fr :: rest)).
          rewrite (nZ_same_mod (modules st1) fr fr2 rest eq_refl). nia.
        - rewrite !nW_cons, Ho. unfold fr2. simpl f_ops. rewrite !wops_cons. simpl. lia. }
      change (isinit (set_stack st1 (fr2 :: rest)) b) with (isinit_m (modules st1) b).
      destruct (isinit_m (modules st1) b) eqn:IB.
      { split; [left; simpl; rewrite Hs; exact WAIT|split; [eapply DB_same; eauto; reflexivity|split; [simpl; lia|simpl; exact GU]]]. }
      simpl length. destruct (Nat.leb limit (S (length rest))) eqn:LIM.
      { apply (RAISE st1 (set_overflow (set_stack st1 (fr2 :: rest)))); auto. }
      apply Nat.leb_gt in LIM.
      split; [|split; [eapply DB_same; eauto; reflexivity|split; [simpl; lia|simpl; exact GU]]].
      right. rewrite Hs. destruct WAIT as [WB WW]. unfold push. cbn [modules avail stack set_stack].
      set (bf := {| f_mod := b; f_ops := frame_ops (decl_of (set_stack st1 (fr2 :: rest)) b) (io_of (set_stack st1 (fr2 :: rest)) b) |}).
      assert (UB : unk (modules st1) b = true).
      { unfold unk, isinit_m, has_key in *. destruct (find b (modules st1)); [rewrite IB; reflexivity|discriminate]. }
      split.
      * unfold nB in *. simpl length in *. rewrite (nZ_cons (modules st1) bf). unfold bf at 1. simpl f_mod. rewrite UB.
        unfold L in *. lia.
      * rewrite (nW_cons bf). unfold bf. simpl f_ops.
        pose proof (DB_ops C (set_stack st1 (fr2 :: rest)) b (DB_same C st1 _ eq_refl eq_refl GD)). lia.
    + (* ORet *)
      destruct (want_ok _ _); [|apply (RAISE st st); auto using gi_eff_refl].
      apply UPD; intros i; simpl; auto.
    + apply (RAISE st st); auto using gi_eff_refl.
    + (* ORegister *)
      unfold register. destruct (_ || _); [|apply CONT; auto].
      apply UPD; intros i; simpl; auto.
Qed.

Lemma nW_pos fr rest : 1 <= nW (fr :: rest).
Proof. rewrite nW_cons. lia. Qed.

Lemma run_gm_terminates C limit : forall fuel st, DB C st -> length (stack st) <= S limit ->
  measure C (S limit) st <= fuel ->
  stuck (run_gm limit fuel st) = stuck st /\ DB C (run_gm limit fuel st) /\
  nU (modules (run_gm limit fuel st)) (avail (run_gm limit fuel st)) <= nU (modules st) (avail st).
Proof.
  induction fuel as [|fuel IH]; intros st D LEN M; simpl; destruct (stack st) as [|fr rest] eqn:Hs; auto.
  - exfalso. unfold measure in M. rewrite Hs in M. pose proof (nW_pos fr rest). lia.
  - assert (NE : stack st <> []) by (rewrite Hs; discriminate). rewrite <- Hs in LEN.
    destruct (step_decr C limit st D NE LEN) as [DE [D1 [L1 U1]]]. apply decr_measure in DE.
    destruct (IH (step limit st) D1 L1) as [S2 [D2 U2]]; [lia|].
    rewrite S2, (proj2 (step_frame limit st)). split; [reflexivity|]. split; [exact D2|lia].
Qed.

(* an idle node: bound on the frames, bound U on the modules that are not yet marked *)
Definition TI (C U : nat) (st : node) : Prop :=
  DB C st /\ stack st = [] /\ nU (modules st) (avail st) <= U.

Definition fuel_for (C limit U : nat) : nat := C * ((S limit + 1) * U + S limit + 1).

Lemma measure_push C L st b : stack st = [] ->
  measure C L (push b st) =
  C * ((L + 1) * nU (modules st) (avail st) + (L - 1) + (if unk (modules st) b then 0 else 1)) +
  (1 + wops (frame_ops (decl_of st b) (io_of st b))).
Proof.
  intros Hs. unfold measure, push. cbn [modules avail stack set_stack]. rewrite Hs. unfold nB.
  rewrite nZ_cons, nW_cons. cbn [f_mod f_ops length].
  change (nZ (modules st) []) with 0. change (nW []) with 0. rewrite !Nat.add_0_r. reflexivity.
Qed.

Lemma gm_top_terminates C U limit fuel st b : TI C U st -> fuel_for C limit U <= fuel ->
  stuck (gm_top limit fuel st b) = stuck st /\ (stuck st = false -> TI C U (gm_top limit fuel st b)).
Proof.
  intros [D [Hs UB]] F. unfold gm_top.
  pose proof (get_instance_eff C st b D) as [GU GZ GA GS GD]. destruct (get_instance_frame st b) as [_ [_ [_ [STK _]]]].
  destruct (get_instance st b) as [st1 r]; simpl in *.
  assert (T1 : TI C U st1) by (split; [exact GD|split; [rewrite GS; exact Hs|lia]]).
  destruct r; try (split; [exact STK|intros _; exact T1]).
  destruct (isinit st1 b); [split; [exact STK|intros _; exact T1]|].
  assert (DP : DB C (push b st1)) by (eapply DB_same; eauto; reflexivity).
  assert (LP : length (stack (push b st1)) <= S limit) by (unfold push; simpl; rewrite GS, Hs; simpl; lia).
  assert (MP : measure C (S limit) (push b st1) <= fuel).
  { rewrite measure_push by (rewrite GS; exact Hs).
    pose proof (DB_ops C st1 b GD) as HW. unfold fuel_for in F.
    assert (UU : nU (modules st1) (avail st1) <= U) by lia.
    remember (nU (modules st1) (avail st1)) as u1. remember (wops (frame_ops (decl_of st1 b) (io_of st1 b))) as w.
    assert (Z1 : (if unk (modules st1) b then 0 else 1) <= 1) by (destruct (unk _ _); lia).
    remember (if unk (modules st1) b then 0 else 1) as z.
    assert (E1 : C * ((S limit + 1) * u1 + (S limit - 1) + z) <= C * ((S limit + 1) * U + S limit)).
    { apply Nat.mul_le_mono_l. assert ((S limit + 1) * u1 <= (S limit + 1) * U) by (apply Nat.mul_le_mono_l; exact UU). lia. }
    assert (E2 : C * ((S limit + 1) * U + S limit + 1) = C * ((S limit + 1) * U + S limit) + C) by lia.
    lia. }
  destruct (run_gm_terminates C limit fuel (push b st1) DP LP MP) as [S2 [D2 U2]].
  split; [rewrite S2; exact STK|]. intros NS. split; [exact D2|]. split.
  - apply run_gm_stack. rewrite S2. simpl. rewrite STK. exact NS.
  - simpl in U2. lia.
Qed.

(* every sequence of get_module and get_module_instance calls from outside (nothing is added to module_cfg) *)
Lemma runs_terminates C U limit fuel st st' : fuel_for C limit U <= fuel -> runs limit fuel [] st st' ->
  TI C U st -> stuck st = false -> stuck st' = false /\ TI C U st'.
Proof.
  intros F R. induction R as [|st b st' R IH|st b st' R IH|st b d st' []]; intros T NS; auto; apply IH.
  - apply (gm_top_terminates C U limit fuel st b T F). exact NS.
  - rewrite (proj1 (gm_top_terminates C U limit fuel st b T F)). exact NS.
  - destruct T as [D [Hs UB]]. destruct (get_instance_eff C st b D) as [GU _ _ GS GD].
    split; [exact GD|split; [rewrite GS; exact Hs|lia]].
  - destruct (get_instance_frame st b) as [_ [_ [_ [K _]]]]. rewrite K. exact NS.
Qed.

(* create_modules: every pass of the loop may make one more name available *)
Definition wsmall (C : nat) (l : list (name * decl)) : Prop := forall b d io, In (b, d) l -> wops (frame_ops d io) + 2 <= C.

Lemma notkey_avail_set_assoc mods b d : forall av,
  length (filter (notkey mods) (set_assoc b d av)) <= S (length (filter (notkey mods) av)).
Proof.
  induction av as [|[b0 d0] r IH]; simpl.
  - destruct (notkey mods (b, d)); simpl; lia.
  - destruct (Nat.eqb b b0) eqn:E; simpl.
    + apply Nat.eqb_eq in E. subst b0. change (notkey mods (b, d)) with (negb (has_key b mods)).
      change (notkey mods (b, d0)) with (negb (has_key b mods)). destruct (negb (has_key b mods)); simpl; lia.
    + destruct (notkey mods (b0, d0)); simpl; lia.
Qed.

Lemma create_loop_terminates C limit fuel dyn U0 : wsmall C dyn ->
  forall n todos st U, wsmall C todos -> TI C U st -> U + 2 * n <= U0 -> fuel_for C limit U0 <= fuel -> stuck st = false ->
  stuck (create_loop limit fuel n dyn todos st) = false /\ TI C U0 (create_loop limit fuel n dyn todos st).
Proof.
  intros WD. induction n as [|n IH]; intros todos st U WT T LE F NS; simpl.
  { split; [exact NS|]. destruct T as [D [Hs UB]]. split; [exact D|split; [exact Hs|lia]]. }
  assert (WEAK : TI C U0 st) by (destruct T as [D [Hs UB]]; split; [exact D|split; [exact Hs|lia]]).
  destruct todos as [|[b d] rest]; [auto|].
  assert (WR : wsmall C rest) by (intros x y io X; eapply WT; right; exact X).
  destruct (has_key b (modules st)); [apply (IH rest st U); auto; lia|].
  destruct T as [D [Hs UB]].
  set (st0 := set_avail st (set_assoc b d (avail st))).
  assert (D0 : DB C st0).
  { destruct D as [A [B I0]]. split; [exact A|split; [|exact I0]]. intros x y io X. simpl in X.
    apply In_set_assoc in X. destruct X as [E|X]; [inversion E; subst; eapply WT; left; reflexivity|exact (B x y io X)]. }
  assert (U0' : nU (modules st0) (avail st0) <= U + 2).
  { unfold nU in *. simpl. pose proof (notkey_avail_set_assoc (modules st) b d (avail st)). lia. }
  pose proof (get_instance_eff C st0 b D0) as [GU GZ GA GS GD]. destruct (get_instance_frame st0 b) as [_ [_ [_ [STK _]]]].
  destruct (get_instance st0 b) as [st1 r]; simpl in *.
  assert (T1 : TI C (U + 2) st1) by (split; [exact GD|split; [rewrite GS; exact Hs|lia]]).
  assert (NS1 : stuck st1 = false) by (rewrite STK; exact NS).
  assert (REST : forall t, wsmall C t -> stuck (create_loop limit fuel n dyn t st1) = false /\
                                         TI C U0 (create_loop limit fuel n dyn t st1)).
  { intros t WT'. apply (IH t st1 (U + 2)); auto. lia. }
  destruct r; try (apply REST; exact WR).
  destruct (d_kind d) eqn:DK; try (apply REST; exact WR).
  assert (FU : fuel_for C limit (U + 2) <= fuel).
  { unfold fuel_for in *. assert (U + 2 <= U0) by lia. nia. }
  destruct (gm_top_terminates C (U + 2) limit fuel st1 b T1 FU) as [S2 T2].
  apply (IH _ _ (U + 2)); auto; try lia.
  - intros x y io X. apply in_app_or in X. destruct X as [X|X]; [eapply WR; eauto|].
    eapply WD. eapply lookup_all_In; eauto.
  - rewrite S2. exact NS1.
Qed.

Definition wbound (d : decl) : nat := 4 * length (d_atts d) + 9.
Definition Cof (c : cfg) : nat :=
  S (S (fold_right Nat.max 9 (map (fun bd => wbound (snd bd)) (c_static c ++ c_dyn c)))).
Definition Uof (c : cfg) : nat := 2 * length (c_static c) + 2 * S (length (c_static c) + length (c_dyn c)).
Definition enough_fuel (limit : nat) (c : cfg) : nat := fuel_for (Cof c) limit (Uof c).

Lemma wops_app a b : wops (a ++ b) = wops a + wops b.
Proof. unfold wops. rewrite map_app, list_sum_app. reflexivity. Qed.

Lemma wops_accesses p d : wops (accesses p d) <= 2 * length (d_atts d).
Proof.
  unfold accesses, indexed_atts.
  assert (H : forall l : list (nat * att), wops (map (fun ia => OAccess (fst ia) (snd ia)) l) = 2 * length l).
  { induction l as [|x r IH]; simpl; auto. unfold wops in *. simpl. rewrite IH. lia. }
  rewrite H. pose proof (filter_len_le (fun ia : nat * att => phase_eqb (a_phase (snd ia)) p)
                                        (combine (seq 0 (length (d_atts d))) (d_atts d))) as Q.
  rewrite combine_length, seq_length, Nat.min_id in Q. lia.
Qed.

Lemma wops_frame_ops d io : wops (frame_ops d io) <= wbound d.
Proof.
  assert (R : forall (c : bool) o, wops (if c then [o] else []) <= wop o) by (intros [|] o; unfold wops; simpl; lia).
  unfold frame_ops, wbound. rewrite !wops_app.
  pose proof (wops_accesses PEarly d). pose proof (wops_accesses PInit d).
  pose proof (R (d_fail_early d) ORaise). pose proof (R (d_fail_init d) ORaise).
  pose proof (R (is_hasio d) (OAccess io_idx (io_att io))). pose proof (R (is_hasio d && negb (is_some io)) ORaise).
  unfold wops in *. simpl in *. lia.
Qed.

Lemma fold_max_ge (l : list nat) k x : In x l -> x <= fold_right Nat.max k l.
Proof. induction l as [|y r IH]; simpl; [contradiction|]. intros [E|I]; [subst; lia|specialize (IH I); lia]. Qed.

Lemma fold_max_base (l : list nat) k : k <= fold_right Nat.max k l.
Proof. induction l as [|y r IH]; simpl; lia. Qed.

Lemma Cof_wsmall c l : (forall x, In x l -> In x (c_static c ++ c_dyn c)) -> wsmall (Cof c) l.
Proof.
  intros SUB b d io I. unfold Cof. pose proof (wops_frame_ops d io).
  assert (wbound d <= fold_right Nat.max 9 (map (fun bd => wbound (snd bd)) (c_static c ++ c_dyn c))).
  { apply fold_max_ge. apply in_map_iff. exists (b, d). split; auto. }
  lia.
Qed.

(* for EVERY configuration and every depth limit: with the step budget enough_fuel the model never gets stuck, i.e.
   every get_module call returns - get_module cannot loop, also not on cyclic attachments *)
Theorem initialised_terminates limit fuel c : enough_fuel limit c <= fuel -> stuck (initialised limit fuel c) = false.
Proof.
  intros F. unfold initialised, create_all.
  set (C := Cof c) in *. set (U := Uof c) in *.
  assert (W1 : wsmall C (c_static c)) by (apply Cof_wsmall; intros x X; apply in_or_app; left; exact X).
  assert (W2 : wsmall C (c_dyn c)) by (apply Cof_wsmall; intros x X; apply in_or_app; right; exact X).
  assert (T0 : TI C (2 * length (c_static c)) (node0 (c_static c))).
  { split; [|split; [reflexivity|]].
    - split; [intros k i H; discriminate|split; [exact W1|]]. unfold C, Cof.
      pose proof (wops_frame_ops io_decl None). unfold wbound in H. simpl in H.
      pose proof (fold_max_base (map (fun bd => wbound (snd bd)) (c_static c ++ c_dyn c)) 9). lia.
    - unfold nU. simpl. pose proof (filter_len_le (notkey []) (c_static c)). lia. }
  assert (LE : 2 * length (c_static c) + 2 * S (length (c_static c) + length (c_dyn c)) <= U) by (unfold U, Uof; lia).
  destruct (create_loop_terminates C limit fuel (c_dyn c) U W2 (S (length (c_static c) + length (c_dyn c)))
              (c_static c) (node0 (c_static c)) (2 * length (c_static c)) W1 T0 LE F eq_refl) as [S1 T1].
  apply (runs_terminates C U limit fuel _ _ F (init_phase_runs limit fuel [] _) T1 S1).
Qed.

(* the step budget of the correspondence driver (Run.step_fuel) is the proved bound *)
Theorem step_fuel_is_enough c : enough_fuel depth_limit c <= step_fuel c.
Proof. apply Nat.eq_le_incl. reflexivity. Qed.

