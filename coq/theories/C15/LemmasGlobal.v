(* C15 — global statements about EVERY configuration (cyclic ones included), proved with an
   invariant of the get_module / Attached.__get__ machine that holds as long as no error has been recorded:
     - every frame of the stack belongs to a module that is not yet marked, the targets of the accesses it has
       already executed are marked (so: no module is entered twice, nothing is re-initialised),
     - the modules that are marked can be listed in the order in which they were completed, and everything a module
       refers to (attachments, io) stands earlier in that list: the graph followed by get_module is acyclic,
     - every module of the node is marked, or is on its way (on the stack, target of a module on the stack, or in
       the list of names that the initialisation loop has not yet reached).
   Consequences: no recorded error implies a rank function (no_error_rank; so a cycle reachable by get_module always
   ends in a recorded error), and after the initialisation every module of the node is marked (initialised_II).
   Names: configured names are below 100 (the names 100+b are those of automatically created communicators) and a
   module has at most 99 attachments (index 99 is the io attribute) - the hypothesis cfg_small. *)
From Coq Require Import List Arith Bool Lia.
Import ListNotations.
Require Import FV.C15.Model FV.C15.Lemmas FV.C15.LemmasInit FV.C15.LemmasSort FV.C15.LemmasWf.

Definition cached_in (mods : list (name * inst)) (u idx : nat) (b : name) : Prop :=
  match find u mods with Some i => In (idx, b) (i_attached i) | None => False end.

Lemma extends_cached m m' k idx b : extends m m' -> has_key k m = true -> cached_in m' k idx b = cached_in m k idx b.
Proof. intros [E _] H. unfold cached_in. rewrite (E k H). reflexivity. Qed.
Lemma extends_new_cached m m' k idx b : extends m m' -> has_key k m = false -> cached_in m' k idx b -> False.
Proof.
  intros [_ E] H. unfold cached_in. destruct (find k m') as [i|] eqn:F; auto. destruct (E k i H F) as [_ A].
  rewrite A. simpl. auto.
Qed.
Lemma extends_isinit_true m m' k : extends m m' -> isinit_m m k = true -> isinit_m m' k = true.
Proof. intros E H. rewrite (extends_flags m m' E). exact H. Qed.

Definition small_decl (d : decl) : Prop := length (d_atts d) <= 99.
Definition small_av (av : list (name * decl)) : Prop := forall b d, In (b, d) av -> b < 100 /\ small_decl d.
Definition small_m (mods : list (name * inst)) : Prop :=
  (forall k, has_key k mods = true -> k < 100 \/ exists b, k = io_name b /\ has_key b mods = true) /\
  (forall k i, find k mods = Some i -> small_decl (i_decl i)).

Lemma small_io_fresh mods b : small_m mods -> b < 100 -> has_key b mods = false -> has_key (io_name b) mods = false.
Proof.
  intros [S _] L H. destruct (has_key (io_name b) mods) eqn:K; auto.
  destruct (S _ K) as [X|[b' [E K']]]; unfold io_name in *; [lia|].
  assert (b = b') by lia. subst. rewrite K' in H. discriminate.
Qed.

Lemma small_m_upd mods k f : keeps f -> small_m mods -> small_m (upd k f mods).
Proof.
  intros KF [A B]. split.
  - intros x H. rewrite has_key_upd in H. destruct (A x H) as [L|[b [E K]]]; auto. right. exists b.
    rewrite has_key_upd. auto.
  - intros x i F. rewrite find_upd in F. destruct (Nat.eqb x k); [|eauto].
    destruct (find x mods) as [i0|] eqn:E; simpl in F; [|discriminate]. inversion F; subst.
    destruct (KF i0) as [D _]. rewrite D. eauto.
Qed.

Definition tgt (o : op) : list name :=
  match o with OAccess _ a => match a_target a with Some t => [t] | None => [] end | _ => [] end.
Definition targets_of (ops : list op) : list name := flat_map tgt ops.
Definition orig (ops : list op) : list op :=
  match ops with ORet idx a b :: r => OAccess idx a :: r | _ => ops end.
Definition no_ret (ops : list op) : Prop := forall idx a b, ~ In (ORet idx a b) ops.

Lemma targets_app a b : targets_of (a ++ b) = targets_of a ++ targets_of b.
Proof. apply flat_map_app. Qed.

Lemma no_ret_orig ops : no_ret ops -> orig ops = ops.
Proof. intros N. destruct ops as [|[] r]; auto. exfalso. eapply N. left; reflexivity. Qed.

Lemma no_ret_app_r a b : no_ret (a ++ b) -> no_ret b.
Proof. intros N idx x y I. eapply N. apply in_or_app. right; exact I. Qed.

Lemma no_ret_cons o r : no_ret (o :: r) -> no_ret r.
Proof. intros N idx x y I. eapply N. right; exact I. Qed.

Lemma ops_m_no_ret mods u : no_ret (ops_m mods u).
Proof. unfold ops_m. destruct (find u mods); intros idx a b; apply frame_ops_no_ret. Qed.

(* indices of the accesses of a frame are distinct *)
Lemma frame_ops_idx_unique d io i a1 a2 : small_decl d ->
  In (OAccess i a1) (frame_ops d io) -> In (OAccess i a2) (frame_ops d io) -> a1 = a2.
Proof.
  intros S I1 I2. apply frame_ops_In in I1. apply frame_ops_In in I2. simpl in I1, I2.
  assert (N : forall a, nth_error (d_atts d) io_idx = Some a -> False).
  { intros a H. assert (Q : nth_error (d_atts d) io_idx <> None) by congruence.
    apply nth_error_Some in Q. unfold small_decl, io_idx in *. lia. }
  destruct I1 as [H1|[E1 [A1 _]]], I2 as [H2|[E2 [A2 _]]]; subst; try congruence; exfalso; eauto.
Qed.

Lemma tgt_in_targets o ops t : In o ops -> In t (tgt o) -> In t (targets_of ops).
Proof. intros I T. unfold targets_of. apply in_flat_map. exists o. auto. Qed.

Lemma frame_ops_io_target d n : is_hasio d = true -> In n (targets_of (frame_ops d (Some n))).
Proof.
  intros H. apply (tgt_in_targets (OAccess io_idx (io_att (Some n)))); [|left; reflexivity].
  unfold frame_ops. rewrite H. simpl. right. apply in_or_app. right. apply in_or_app. right. right. left. reflexivity.
Qed.

Lemma small_m_add mods b d io :
  small_m mods -> b < 100 -> small_decl d -> small_m (set_assoc b (new_inst d io) mods).
Proof.
  intros [A B] L S. split.
  - intros k H. rewrite has_key_set_assoc_iff in H. destruct (Nat.eqb k b) eqn:E.
    + apply Nat.eqb_eq in E. subst. left; exact L.
    + simpl in H. destruct (A k H) as [X|[b' [E' K]]]; auto. right. exists b'. split; auto.
      rewrite has_key_set_assoc_iff, K. apply orb_true_r.
  - intros k i F. rewrite find_set_assoc in F. destruct (Nat.eqb k b); [inversion F; subst; exact S|eauto].
Qed.

Lemma find_new b d io mods : find b (set_assoc b (new_inst d io) mods) = Some (new_inst d io).
Proof. rewrite find_set_assoc, Nat.eqb_refl. reflexivity. Qed.

Definition create_ok (st st' : node) (b : name) : Prop :=
  extends (modules st) (modules st') /\ has_key b (modules st') = true /\ small_m (modules st') /\
  isinit_m (modules st') b = false /\
  (forall k, has_key k (modules st') = true ->
     has_key k (modules st) = true \/ k = b \/ In k (targets_of (ops_m (modules st') b))) /\
  errors st' = errors st.

Lemma create_spec st b d :
  small_m (modules st) -> b < 100 -> small_decl d -> has_key b (modules st) = false ->
  match snd (create st b d) with
  | IOk => create_ok st (fst (create st b d)) b
  | _ => modules (fst (create st b d)) = modules st /\ errors (fst (create st b d)) <> []
  end.
Proof.
  intros SM L SD K. unfold create. destruct (negb (creatable d)); simpl.
  { split; [reflexivity|discriminate]. }
  assert (ONE : forall io, create_ok st (add_module b (new_inst d io) st) b).
  { intros io. unfold create_ok. rewrite modules_add_module, errors_add_module.
    split; [apply extends_set_assoc; exact K|].
    split; [rewrite has_key_set_assoc_iff, Nat.eqb_refl; reflexivity|].
    split; [apply small_m_add; auto|].
    split; [unfold isinit_m; rewrite find_new; reflexivity|].
    split; [|reflexivity].
    intros k H. rewrite has_key_set_assoc_iff in H. destruct (Nat.eqb k b) eqn:E.
    - apply Nat.eqb_eq in E. auto.
    - simpl in H. auto. }
  destruct (d_kind d) as [|[|u|m]|] eqn:DK; simpl; try apply ONE.
  destruct (find u (iodict st)) as [n|]; simpl; [apply ONE|].
  (* a new communicator io_name b is registered first *)
  set (n := io_name b).
  assert (KN : has_key n (modules st) = false) by (apply small_io_fresh; auto).
  assert (NB : Nat.eqb b n = false) by (apply Nat.eqb_neq; unfold n, io_name; lia).
  assert (NB' : Nat.eqb n b = false) by (rewrite Nat.eqb_sym; exact NB).
  unfold create_ok. rewrite !modules_add_module, !errors_add_module. simpl.
  rewrite ?modules_add_module.
  set (m1 := set_assoc n (new_inst io_decl None) (modules st)).
  assert (K1 : has_key b m1 = false).
  { unfold m1. rewrite has_key_set_assoc_iff, NB, K. reflexivity. }
  assert (HI : is_hasio d = true) by (unfold is_hasio; rewrite DK; reflexivity).
  split; [eapply extends_trans; [apply extends_set_assoc; exact KN|apply extends_set_assoc; exact K1]|].
  split; [rewrite has_key_set_assoc_iff, Nat.eqb_refl; reflexivity|].
  split.
  { destruct SM as [A B]. split.
    - intros k H. rewrite has_key_set_assoc_iff in H. unfold m1 in H. rewrite has_key_set_assoc_iff in H.
      destruct (Nat.eqb k b) eqn:E1; [apply Nat.eqb_eq in E1; subst; left; exact L|].
      destruct (Nat.eqb k n) eqn:E2.
      + apply Nat.eqb_eq in E2. subst k. right. exists b. split; [reflexivity|].
        rewrite has_key_set_assoc_iff, Nat.eqb_refl. reflexivity.
      + simpl in H. destruct (A k H) as [X|[b' [E' K']]]; auto. right. exists b'. split; auto.
        rewrite has_key_set_assoc_iff. unfold m1. rewrite has_key_set_assoc_iff, K'. rewrite !orb_true_r. reflexivity.
    - intros k i F. rewrite find_set_assoc in F. destruct (Nat.eqb k b); [inversion F; subst; exact SD|].
      unfold m1 in F. rewrite find_set_assoc in F. destruct (Nat.eqb k n); [inversion F; subst; unfold small_decl; simpl; lia|eauto]. }
  split; [unfold isinit_m; rewrite find_new; reflexivity|].
  split; [|reflexivity].
  intros k H. rewrite has_key_set_assoc_iff in H. unfold m1 in H. rewrite has_key_set_assoc_iff in H.
  destruct (Nat.eqb k b) eqn:E1; [apply Nat.eqb_eq in E1; auto|].
  destruct (Nat.eqb k n) eqn:E2; [|simpl in H; auto].
  apply Nat.eqb_eq in E2. subst k. right. right. unfold ops_m. rewrite find_new. simpl.
  apply frame_ops_io_target. exact HI.
Qed.

Lemma get_instance_spec st b :
  small_m (modules st) -> small_av (avail st) ->
  match snd (get_instance st b) with
  | IOk => (has_key b (modules st) = true /\ fst (get_instance st b) = st) \/
           (has_key b (modules st) = false /\ create_ok st (fst (get_instance st b)) b)
  | _ => fst (get_instance st b) = st \/ errors (fst (get_instance st b)) <> []
  end.
Proof.
  intros SM SA. unfold get_instance. destruct (has_key b (modules st)) eqn:K; simpl; [auto|].
  destruct (find b (avail st)) as [d|] eqn:F; simpl; [|auto].
  destruct (SA b d (find_In _ _ _ F)) as [L SD].
  pose proof (create_spec st b d SM L SD K) as H.
  destruct (snd (create st b d)); auto; right; apply H.
Qed.

Lemma get_instance_ok st b : small_m (modules st) -> small_av (avail st) -> snd (get_instance st b) = IOk ->
  extends (modules st) (modules (fst (get_instance st b))) /\ small_m (modules (fst (get_instance st b))) /\
  has_key b (modules (fst (get_instance st b))) = true.
Proof.
  intros SM SA R. pose proof (get_instance_spec st b SM SA) as SP. rewrite R in SP.
  destruct SP as [[K E]|[K [E1 [E2 [E3 _]]]]]; [rewrite E; auto using extends_refl|auto].
Qed.

Definition frame_inv (mods : list (name * inst)) (fr : frame) : Prop :=
  has_key (f_mod fr) mods = true /\ isinit_m mods (f_mod fr) = false /\
  exists pre, ops_m mods (f_mod fr) = pre ++ orig (f_ops fr) /\
              (forall t, In t (targets_of pre) -> isinit_m mods t = true) /\
              (forall idx a b r, f_ops fr = ORet idx a b :: r -> a_target a = Some b).

(* a frame below the top waits for the module of the frame above it *)
Fixpoint chain (stk : list frame) : Prop :=
  match stk with
  | f0 :: r => match r with
               | f1 :: _ => (exists idx a ops, f_ops f1 = ORet idx a (f_mod f0) :: ops) /\ chain r
               | [] => True
               end
  | [] => True
  end.

Definition top_ok (mods : list (name * inst)) (stk : list frame) : Prop :=
  match stk with
  | f0 :: _ => forall idx a b r, f_ops f0 = ORet idx a b :: r -> isinit_m mods b = true
  | [] => True
  end.

Definition cache_ok (mods : list (name * inst)) : Prop :=
  forall u idx b, cached_in mods u idx b ->
    isinit_m mods b = true /\ (forall a, In (OAccess idx a) (ops_m mods u) -> a_target a = Some b) /\
    In b (targets_of (ops_m mods u)).

(* ord: the marked modules, the one completed last first *)
Definition ord_ok (mods : list (name * inst)) (ord : list name) : Prop :=
  NoDup ord /\ (forall m, In m ord <-> isinit_m mods m = true) /\
  (forall l1 m l2, ord = l1 ++ m :: l2 -> forall t, In t (targets_of (ops_m mods m)) -> In t l2).

Record GI (mods : list (name * inst)) (stk : list frame) : Prop := {
  gi_small : small_m mods;
  gi_frames : Forall (frame_inv mods) stk;
  gi_chain : chain stk;
  gi_top : top_ok mods stk;
  gi_cache : cache_ok mods;
  gi_ord : exists ord, ord_ok mods ord;
}.

Definition GInv (st : node) : Prop := GI (modules st) (stack st) /\ small_av (avail st).

Definition agree (m m' : list (name * inst)) : Prop :=
  forall k, has_key k m' = has_key k m /\ isinit_m m' k = isinit_m m k /\ ops_m m' k = ops_m m k.

Lemma agree_refl m : agree m m. Proof. intros k; auto. Qed.

Lemma frame_inv_agree m m' fr : agree m m' -> frame_inv m fr -> frame_inv m' fr.
Proof.
  intros A [K [I [pre [O [T R]]]]]. destruct (A (f_mod fr)) as [A1 [A2 A3]].
  split; [rewrite A1; exact K|]. split; [rewrite A2; exact I|]. exists pre. rewrite A3.
  split; [exact O|]. split; [|exact R]. intros t X. destruct (A t) as [_ [B _]]. rewrite B. auto.
Qed.

Lemma ord_ok_agree m m' ord : agree m m' -> ord_ok m ord -> ord_ok m' ord.
Proof.
  intros A [N [I T]]. split; [exact N|]. split.
  - intros x. destruct (A x) as [_ [B _]]. rewrite B. apply I.
  - intros l1 x l2 E t X. destruct (A x) as [_ [_ B]]. rewrite B in X. eauto.
Qed.

Lemma frame_inv_ext m m' fr : extends m m' -> frame_inv m fr -> frame_inv m' fr.
Proof.
  intros E [K [I [pre [O [T R]]]]].
  split; [eapply extends_key; eauto|]. split; [rewrite (extends_isinit m m' _ E K); exact I|].
  exists pre. rewrite (extends_ops m m' _ E K). split; [exact O|]. split; [|exact R].
  intros t X. eapply extends_isinit_true; eauto.
Qed.

Lemma cache_ok_ext m m' : extends m m' -> cache_ok m -> cache_ok m'.
Proof.
  intros E C u idx b H. destruct (has_key u m) eqn:K.
  - rewrite (extends_cached m m' u idx b E K) in H. destruct (C u idx b H) as [I A]. split.
    + eapply extends_isinit_true; eauto.
    + rewrite (extends_ops m m' u E K). exact A.
  - exfalso. eapply extends_new_cached; eauto.
Qed.

Lemma ord_ok_ext m m' ord : extends m m' -> ord_ok m ord -> ord_ok m' ord.
Proof.
  intros E [N [I T]]. split; [exact N|]. split.
  - intros x. rewrite (extends_flags m m' E). apply I.
  - intros l1 x l2 Q t X. assert (K : has_key x m = true).
    { apply isinit_m_key. apply I. rewrite Q. apply in_or_app. right. left. reflexivity. }
    rewrite (extends_ops m m' x E K) in X. eauto.
Qed.

Lemma top_ok_ext m m' stk : extends m m' -> top_ok m stk -> top_ok m' stk.
Proof.
  intros E T. destruct stk as [|f0 r]; simpl in *; auto. intros idx a b r0 H. eapply extends_isinit_true; eauto.
Qed.

Lemma GI_ext m m' stk : extends m m' -> small_m m' -> GI m stk -> GI m' stk.
Proof.
  intros E S [A B C D F [ord O]]. constructor.
  - exact S.
  - eapply Forall_impl; [|exact B]. intros fr. apply frame_inv_ext. exact E.
  - exact C.
  - eapply top_ok_ext; eauto.
  - eapply cache_ok_ext; eauto.
  - exists ord. eapply ord_ok_ext; eauto.
Qed.

Lemma chain_same_mod fr fr' rest : f_mod fr' = f_mod fr -> chain (fr :: rest) -> chain (fr' :: rest).
Proof. intros E C. destruct rest as [|f1 r]; simpl in *; auto. rewrite E. exact C. Qed.

Lemma chain_tail fr rest : chain (fr :: rest) -> chain rest.
Proof. destruct rest as [|f1 r]; simpl; auto. intros [_ C]. exact C. Qed.

Definition orig1 (o : op) : op := match o with ORet idx a b => OAccess idx a | _ => o end.

Lemma orig_cons o ops : no_ret ops -> orig (o :: ops) = orig1 o :: ops.
Proof. intros _. destruct o; reflexivity. Qed.

(* the top frame goes on behind its first operation *)
Lemma GI_cont m m' fr rest o ops :
  GI m (fr :: rest) -> f_ops fr = o :: ops -> agree m m' -> small_m m' -> cache_ok m' ->
  (forall t, In t (tgt (orig1 o)) -> isinit_m m t = true) ->
  GI m' ({| f_mod := f_mod fr; f_ops := ops |} :: rest).
Proof.
  intros [A B C D F [ord O]] Ho AG S CO TG.
  inversion B as [|? ? [K [I [pre [OP [T R]]]]] B']; subst.
  assert (NR : no_ret ops).
  { pose proof (ops_m_no_ret m (f_mod fr)) as N. rewrite OP, Ho in N. apply no_ret_app_r in N.
    destruct o; simpl in N; eapply no_ret_cons; eauto. }
  constructor.
  - exact S.
  - constructor.
    + apply (frame_inv_agree m m'); auto. split; [exact K|]. split; [exact I|]. simpl.
      exists (pre ++ [orig1 o]). split.
      * rewrite OP, Ho, (orig_cons o ops NR), (no_ret_orig ops NR), <- app_assoc. reflexivity.
      * split.
        -- intros t X. rewrite targets_app in X. apply in_app_or in X. destruct X as [X|X]; auto.
           simpl in X. rewrite app_nil_r in X. auto.
        -- intros idx a b r E. exfalso. eapply NR. rewrite E. left; reflexivity.
    + eapply Forall_impl; [|exact B']. intros f. apply frame_inv_agree. exact AG.
  - exact (chain_same_mod fr {| f_mod := f_mod fr; f_ops := ops |} rest eq_refl C).
  - simpl. intros idx a b r E. exfalso. eapply NR. rewrite E. left; reflexivity.
  - exact CO.
  - exists ord. eapply ord_ok_agree; eauto.
Qed.

Lemma agree_upd m k f : keeps f -> (forall i, i_isinit (f i) = i_isinit i) -> agree m (upd k f m).
Proof. intros K I x. apply keeps_same; auto. Qed.

Lemma cached_upd_other m k f u idx b : (forall i, i_attached (f i) = i_attached i) ->
  cached_in (upd k f m) u idx b = cached_in m u idx b.
Proof.
  intros H. unfold cached_in. rewrite find_upd. destruct (Nat.eqb u k); auto.
  destruct (find u m); simpl; auto. rewrite H. reflexivity.
Qed.

Lemma attached_cached st u idx b : find idx (attached_of st u) = Some b -> cached_in (modules st) u idx b.
Proof. unfold attached_of, cached_in. destruct (find u (modules st)); [apply find_In|discriminate]. Qed.

Lemma cache_ok_agree m m' : agree m m' -> (forall u idx b, cached_in m' u idx b = cached_in m u idx b) ->
  cache_ok m -> cache_ok m'.
Proof.
  intros A E C u idx b H. rewrite E in H. destruct (C u idx b H) as [I Q]. destruct (A b) as [_ [B _]].
  destruct (A u) as [_ [_ O]]. rewrite B, O. auto.
Qed.

Lemma mark_cached u m k idx b : cached_in (mark u m) k idx b = cached_in m k idx b.
Proof. apply cached_upd_other. intros i; reflexivity. Qed.
Lemma mark_mono u m k : isinit_m m k = true -> isinit_m (mark u m) k = true.
Proof.
  intros H. rewrite mark_isinit. destruct (Nat.eqb k u) eqn:E; auto. apply isinit_m_key. exact H.
Qed.

(* every frame below the top waits for a module that is not marked *)
Lemma chain_waits m : forall rest fr, chain (fr :: rest) -> isinit_m m (f_mod fr) = false ->
  Forall (frame_inv m) rest ->
  forall f, In f rest -> exists idx a ops b, f_ops f = ORet idx a b :: ops /\ isinit_m m b = false.
Proof.
  induction rest as [|f1 r IH]; intros fr C I B f IN; [contradiction|].
  simpl in C. destruct C as [[idx [a [ops E]]] C']. destruct IN as [X|X].
  - subst f1. exists idx, a, ops, (f_mod fr). auto.
  - inversion B as [|? ? [_ [I1 _]] B2]; subst. apply (IH f1 C' I1 B2 f X).
Qed.

Lemma GI_pop m fr rest : GI m (fr :: rest) -> f_ops fr = [] -> GI (mark (f_mod fr) m) rest.
Proof.
  intros [A B C D F [ord O]] Ho. set (u := f_mod fr).
  inversion B as [|? ? [K [I [pre [OP [T R]]]]] B']; subst.
  rewrite Ho in OP. simpl in OP. rewrite app_nil_r in OP.
  (* no other frame of the same module: it would wait for a module that is not marked, while every target of
     the finished frame is marked *)
  assert (NODUP : forall f, In f rest -> f_mod f <> u).
  { intros f IN EU.
    destruct (chain_waits m rest fr C I B' f IN) as [idx [a [ops [b [E NI]]]]].
    rewrite Forall_forall in B'. destruct (B' f IN) as [_ [_ [pre' [OP' [_ R']]]]].
    rewrite E in OP'. simpl in OP'. rewrite EU in OP'. fold u in OP. rewrite OP in OP'.
    assert (TB : In b (targets_of pre)).
    { rewrite OP'. rewrite targets_app. apply in_or_app. right. simpl. rewrite (R' _ _ _ _ E). left; reflexivity. }
    rewrite (T b TB) in NI. discriminate. }
  constructor.
  - apply small_m_upd; auto. intros i; simpl; auto.
  - rewrite Forall_forall in *. intros f IN. destruct (B' f IN) as [K' [I' [pre' [OP' [T' R']]]]].
    split; [rewrite mark_key; exact K'|]. split.
    + rewrite mark_isinit. destruct (Nat.eqb (f_mod f) u) eqn:E; [apply Nat.eqb_eq in E; exfalso; eapply NODUP; eauto|exact I'].
    + exists pre'. rewrite mark_ops. split; [exact OP'|]. split; [|exact R']. intros t X. apply mark_mono. auto.
  - exact (chain_tail fr rest C).
  - destruct rest as [|f1 r]; simpl; auto. simpl in C. destruct C as [[idx [a [ops E]]] _].
    intros idx' a' b' r' E'. rewrite E in E'. inversion E'; subst. rewrite mark_isinit, Nat.eqb_refl. exact K.
  - intros x idx b H. rewrite mark_cached in H. destruct (F x idx b H) as [IB Q]. split; [apply mark_mono; exact IB|].
    rewrite mark_ops. exact Q.
  - exists (u :: ord). destruct O as [N [IO TO]]. split; [|split].
    + constructor; auto. intros X. apply IO in X. fold u in I. rewrite X in I. discriminate.
    + intros x. rewrite mark_isinit. simpl. destruct (Nat.eqb x u) eqn:E.
      * apply Nat.eqb_eq in E. subst x. split; auto.
      * rewrite <- IO. apply Nat.eqb_neq in E. split; [intros [X|X]; [congruence|exact X]|auto].
    + intros l1 x l2 Q t X. rewrite mark_ops in X. destruct l1 as [|y l1]; simpl in Q; inversion Q; subst.
      * apply IO. apply T. exact X.
      * eapply TO; eauto.
Qed.

Lemma frame_inv_access m fr idx a ops :
  frame_inv m fr -> f_ops fr = OAccess idx a :: ops -> In (OAccess idx a) (ops_m m (f_mod fr)).
Proof.
  intros [_ [_ [pre [OP _]]]] Ho. rewrite OP, Ho. simpl. apply in_or_app. right. left. reflexivity.
Qed.

Lemma frame_inv_ret m fr idx a b ops :
  frame_inv m fr -> f_ops fr = ORet idx a b :: ops ->
  In (OAccess idx a) (ops_m m (f_mod fr)) /\ a_target a = Some b.
Proof.
  intros [_ [_ [pre [OP [_ R]]]]] Ho. split; [|eapply R; eauto]. rewrite OP, Ho. simpl. apply in_or_app. right. left. reflexivity.
Qed.

(* the top frame starts to wait for module b *)
Lemma frames_wait m fr rest idx a b ops :
  Forall (frame_inv m) (fr :: rest) -> chain (fr :: rest) -> f_ops fr = OAccess idx a :: ops -> a_target a = Some b ->
  Forall (frame_inv m) ({| f_mod := f_mod fr; f_ops := ORet idx a b :: ops |} :: rest) /\
  chain ({| f_mod := f_mod fr; f_ops := ORet idx a b :: ops |} :: rest).
Proof.
  intros B C Ho TA. inversion B as [|? ? [K [I [pre [OP [T R]]]]] B']; subst. split.
  - constructor; auto. split; [exact K|]. split; [exact I|]. exists pre. simpl. rewrite Ho in OP. simpl in OP.
    split; [exact OP|]. split; [exact T|]. intros i0 a0 b0 r E. inversion E; subst. exact TA.
  - exact (chain_same_mod fr _ rest eq_refl C).
Qed.

Lemma frame_inv_new m b : has_key b m = true -> isinit_m m b = false ->
  frame_inv m {| f_mod := b; f_ops := ops_m m b |}.
Proof.
  intros K I. split; [exact K|]. split; [exact I|]. exists []. simpl.
  pose proof (ops_m_no_ret m b) as N. split; [symmetry; apply no_ret_orig; exact N|].
  split; [intros t []|]. intros idx a b0 r E. exfalso. eapply N. rewrite E. left; reflexivity.
Qed.

Lemma ops_m_small m u : small_m m -> has_key u m = true ->
  exists d io, ops_m m u = frame_ops d io /\ small_decl d.
Proof.
  intros [_ S] K. unfold ops_m, has_key in *. destruct (find u m) as [i|] eqn:F; [|discriminate].
  exists (i_decl i), (i_io i). split; auto. eapply S; eauto.
Qed.

Lemma step_GI limit st : GInv st -> errors (step limit st) = [] -> GInv (step limit st).
Proof.
  intros [G SA]. destruct (stack st) as [|fr rest] eqn:Hs.
  { intros _. unfold step. rewrite Hs. split; [simpl; rewrite Hs; exact G|exact SA]. }
  pose proof G as [SM B C D F [ord O]]. pose proof (Forall_inv B) as FI0.
  unfold step. rewrite Hs. cbv beta iota zeta. destruct (f_ops fr) as [|o ops] eqn:Ho.
  - intros _. split; [|exact SA]. apply (GI_pop (modules st) fr rest G Ho).
  - assert (CONT : forall st' , modules st' = modules st -> avail st' = avail st ->
              (forall t, In t (tgt (orig1 o)) -> isinit_m (modules st) t = true) ->
              GInv (set_stack st' ({| f_mod := f_mod fr; f_ops := ops |} :: rest))).
    { intros st' M AV TG. unfold GInv. simpl. rewrite M, AV. split; [|exact SA].
      apply (GI_cont (modules st) (modules st) fr rest o ops G Ho (agree_refl _) SM F TG). }
    destruct o.
    + intros _. apply CONT; auto; try (intros t []).
    + intros _. apply CONT; auto; try (intros t []).
    + (* OAccess *)
      pose proof (frame_inv_access _ _ _ _ _ FI0 Ho) as INA.
      destruct (find idx (attached_of st (f_mod fr))) as [b0|] eqn:CA.
      { intros _. apply CONT; auto. simpl. destruct (F _ _ _ (attached_cached _ _ _ _ CA)) as [IB [QA _]]. rewrite (QA a INA). intros t [E|[]]. subst. exact IB. }
      destruct (a_target a) as [b|] eqn:TA.
      2:{ intros _. apply CONT; auto. simpl. rewrite TA. intros t []. }
      pose proof (get_instance_ok st b SM SA) as OKI. destruct (get_instance_frame st b) as [_ [ST1 [AV1 _]]].
      destruct (get_instance st b) as [st1 r]; simpl in *.
      destruct r; try (intros NE; discriminate NE).
      destruct (OKI eq_refl) as [EX [SM1 KB]].
      pose proof (GI_ext _ _ _ EX SM1 G) as [_ B1 C1 _ F1 [ord1 O1]].
      destruct (frames_wait _ _ _ _ _ _ _ B1 C1 Ho TA) as [B2 C2].
      set (fr2 := {| f_mod := f_mod fr; f_ops := ORet idx a b :: ops |}) in *.
      change (isinit (set_stack st1 (fr2 :: rest)) b) with (isinit_m (modules st1) b).
      destruct (isinit_m (modules st1) b) eqn:IB.
      { intros _. unfold GInv. simpl. rewrite AV1. split; [|exact SA]. constructor; auto.
        - simpl. intros i0 a0 b1 r0 E. inversion E; subst. exact IB.
        - exists ord1. exact O1. }
      simpl length. destruct (Nat.leb limit (S (length rest))); [intros NE; discriminate NE|].
      intros _. unfold GInv. rewrite push_ops. simpl. rewrite AV1. split; [|exact SA]. constructor; auto.
      * constructor; [apply frame_inv_new; auto|exact B2].
      * simpl. split; [|exact C2]. exists idx, a, ops. reflexivity.
      * simpl. intros i0 a0 b1 r0 E. exfalso. eapply (ops_m_no_ret (modules st1) b). rewrite E. left; reflexivity.
      * exists ord1. exact O1.
    + (* ORet *)
      destruct (frame_inv_ret _ _ _ _ _ _ FI0 Ho) as [INA TA].
      assert (IB : isinit_m (modules st) b = true) by (simpl in D; eapply D; eauto).
      destruct (want_ok _ _); [|intros NE; discriminate NE].
      intros _. split; [|exact SA]. simpl.
      set (f := fun i => {| i_decl := i_decl i; i_io := i_io i; i_isinit := i_isinit i;
                            i_attached := set_assoc idx b (i_attached i); i_polled := i_polled i |}).
      assert (AG : agree (modules st) (upd (f_mod fr) f (modules st))).
      { apply agree_upd; intros i; simpl; auto. }
      apply (GI_cont (modules st) _ fr rest (ORet idx a b) ops G Ho AG).
      * apply small_m_upd; auto. intros i; simpl; auto.
      * intros u i0 b0 H. destruct (AG b0) as [_ [AB _]]. destruct (AG u) as [_ [_ AO]]. rewrite AB, AO.
        unfold cached_in in H. rewrite find_upd in H. destruct (Nat.eqb u (f_mod fr)) eqn:EU.
        -- apply Nat.eqb_eq in EU. subst u. destruct (find (f_mod fr) (modules st)) as [iu|] eqn:FU; simpl in H; [|contradiction].
           apply In_set_assoc in H. destruct H as [H|H].
           ++ inversion H; subst i0 b0. split; [exact IB|].
              split; [|apply (tgt_in_targets (OAccess idx a)); [exact INA|simpl; rewrite TA; left; reflexivity]].
              intros a' IA'. destruct FI0 as [K0 _].
              destruct (ops_m_small _ _ SM K0) as [d [io [OPS SD]]]. rewrite OPS in *.
              rewrite (frame_ops_idx_unique d io idx a' a SD IA' INA). exact TA.
           ++ apply (F (f_mod fr) i0 b0). unfold cached_in. rewrite FU. exact H.
        -- apply (F u i0 b0). exact H.
      * simpl. rewrite TA. intros t [E|[]]. subst. exact IB.
    + intros NE. discriminate NE.
    + (* ORegister *)
      unfold register. destruct (_ || _); intros _.
      * split; [|exact SA]. simpl.
        match goal with |- GI (upd ?k ?f _) _ => set (owner := k); set (g := f) end.
        assert (AG : agree (modules st) (upd owner g (modules st))).
        { apply agree_upd; intros i; simpl; auto. }
        apply (GI_cont (modules st) _ fr rest ORegister ops G Ho AG).
        -- apply small_m_upd; auto. intros i; simpl; auto.
        -- apply (cache_ok_agree _ _ AG); auto. intros u i0 b0. apply cached_upd_other. intros i; reflexivity.
        -- intros t [].
      * apply CONT; auto; try (intros t []).
Qed.

(* every module is marked or on its way *)
Definition cover (base : name -> Prop) (mods : list (name * inst)) (act : list name) : Prop :=
  forall m, has_key m mods = true ->
    base m \/ isinit_m mods m = true \/ In m act \/
    exists u, In u act /\ In m (targets_of (ops_m mods u)).

Lemma cover_agree base m m' act : agree m m' -> cover base m act -> cover base m' act.
Proof.
  intros A C x K. destruct (A x) as [A1 [A2 _]]. rewrite A1 in K. rewrite A2.
  destruct (C x K) as [H|[H|[H|[u [U H]]]]]; auto. right. right. right. exists u. destruct (A u) as [_ [_ A3]].
  rewrite A3. auto.
Qed.

Lemma act_keys m stk : Forall (frame_inv m) stk -> forall u, In u (map f_mod stk) -> has_key u m = true.
Proof.
  intros B u I. apply in_map_iff in I. destruct I as [fr [E I]]. rewrite Forall_forall in B.
  destruct (B fr I) as [K _]. subst. exact K.
Qed.

(* an old module stays covered when the table is extended and the active modules stay *)
Lemma cover_old base m m' act act' x : extends m m' -> (forall u, In u act -> has_key u m = true) ->
  (forall u, In u act -> In u act') -> cover base m act -> has_key x m = true ->
  base x \/ isinit_m m' x = true \/ In x act' \/ exists u, In u act' /\ In x (targets_of (ops_m m' u)).
Proof.
  intros E AK SUB C K. destruct (C x K) as [H|[H|[H|[u [U H]]]]]; auto.
  - right. left. eapply extends_isinit_true; eauto.
  - right. right. right. exists u. split; auto. rewrite (extends_ops m m' u E (AK u U)). exact H.
Qed.

Lemma step_cover base limit st : GInv st -> errors (step limit st) = [] ->
  cover base (modules st) (map f_mod (stack st)) ->
  cover base (modules (step limit st)) (map f_mod (stack (step limit st))).
Proof.
  intros [G SA] NE CV. revert NE. destruct (stack st) as [|fr rest] eqn:Hs.
  { intros _. unfold step. rewrite Hs. simpl. rewrite Hs. exact CV. }
  pose proof G as [SM B C D F [ord O]]. pose proof (Forall_inv B) as FI0.
  unfold step. rewrite Hs. cbv beta iota zeta. destruct (f_ops fr) as [|o ops] eqn:Ho.
  - (* the frame is finished *)
    intros _. simpl. fold (mark (f_mod fr) (modules st)). intros x K. rewrite mark_key in K.
    destruct FI0 as [K0 [I0 [pre [OP [T _]]]]]. rewrite Ho in OP. simpl in OP. rewrite app_nil_r in OP.
    destruct (CV x K) as [H|[H|[H|[u [U H]]]]]; auto.
    + right. left. apply mark_mono. exact H.
    + simpl in H. destruct H as [H|H]; [|auto]. subst x. right. left. rewrite mark_isinit, Nat.eqb_refl. exact K.
    + simpl in U. destruct U as [U|U].
      * subst u. right. left. apply mark_mono. apply T. rewrite <- OP. exact H.
      * right. right. right. exists u. rewrite mark_ops. auto.
  - assert (CONT : forall m', agree (modules st) m' -> cover base m' (f_mod fr :: map f_mod rest)).
    { intros m' A. eapply cover_agree; eauto. }
    destruct o; simpl.
    + intros _. apply CONT, agree_refl.
    + intros _. apply CONT, agree_refl.
    + (* OAccess *)
      destruct (find idx (attached_of st (f_mod fr))); [intros _; apply CONT, agree_refl|].
      destruct (a_target a) as [b|] eqn:TA; [|intros _; apply CONT, agree_refl].
      pose proof (get_instance_spec st b SM SA) as SP. destruct (get_instance_frame st b) as [_ [ST1 [AV1 _]]].
      destruct (get_instance st b) as [st1 r]; simpl in *.
      destruct r; try (intros NE; discriminate NE).
      set (fr2 := {| f_mod := f_mod fr; f_ops := ORet idx a b :: ops |}).
      change (isinit (set_stack st1 (fr2 :: rest)) b) with (isinit_m (modules st1) b).
      assert (AK : forall u, In u (f_mod fr :: map f_mod rest) -> has_key u (modules st) = true).
      { intros u U. apply (act_keys (modules st) (fr :: rest) B u). exact U. }
      destruct SP as [[K E]|[K [E1 [E2 [E3 [E4 [E5 E6]]]]]]].
      * subst st1. destruct (isinit_m (modules st) b).
        -- intros _. exact CV.
        -- simpl length. destruct (Nat.leb limit (S (length rest))); [intros NE; discriminate NE|].
           intros _. rewrite push_ops. simpl. intros x KX.
           destruct (CV x KX) as [H|[H|[H|[u [U H]]]]]; auto.
           ++ right. right. left. right. exact H.
           ++ right. right. right. exists u. split; auto. right. exact U.
      * rewrite E4. simpl length. destruct (Nat.leb limit (S (length rest))); [intros NE; discriminate NE|].
        intros _. rewrite push_ops. simpl. intros x KX. destruct (has_key x (modules st)) eqn:KO.
        -- apply (cover_old base (modules st) (modules st1) (f_mod fr :: map f_mod rest)); auto.
           intros u U. right. exact U.
        -- destruct (E5 x KX) as [H|[H|H]]; [congruence| |].
           ++ subst x. right. right. left. left. reflexivity.
           ++ right. right. right. exists b. split; [left; reflexivity|exact H].
    + (* ORet *)
      destruct (want_ok _ _); [|intros NE; discriminate NE]. intros _. simpl.
      apply CONT. apply agree_upd; intros i; simpl; auto.
    + intros NE. discriminate NE.
    + unfold register. destruct (_ || _); intros _; simpl; [|apply CONT, agree_refl].
      apply CONT. apply agree_upd; intros i; simpl; auto.
Qed.

Lemma run_gm_GI base limit fuel : forall st, GInv st -> cover base (modules st) (map f_mod (stack st)) ->
  errors (run_gm limit fuel st) = [] ->
  GInv (run_gm limit fuel st) /\
  cover base (modules (run_gm limit fuel st)) (map f_mod (stack (run_gm limit fuel st))).
Proof.
  induction fuel as [|fuel IH]; intros st G CV NE; simpl in *; destruct (stack st) as [|fr rest] eqn:Hs.
  - rewrite Hs. auto.
  - split; [exact G|]. simpl. rewrite Hs. exact CV.
  - rewrite Hs. auto.
  - assert (NE1 : errors (step limit st) = []) by (eapply errs_back; [apply run_gm_ext|exact NE]).
    apply IH; auto.
    + apply step_GI; auto.
    + apply step_cover; auto. rewrite Hs. exact CV.
Qed.

(* between two calls of get_module from outside: nothing is active *)
Definition II (P : name -> Prop) (st : node) : Prop :=
  GInv st /\ stack st = [] /\ cover P (modules st) [].

Lemma II_weaken (P Q : name -> Prop) st : (forall m, P m -> Q m) -> II P st -> II Q st.
Proof.
  intros H [G [S C]]. split; [exact G|]. split; [exact S|]. intros m K.
  destruct (C m K) as [X|[X|[X|X]]]; auto.
Qed.

Lemma cover_idle P mods m : cover P mods [] -> has_key m mods = true -> P m \/ isinit_m mods m = true.
Proof. intros C K. destruct (C m K) as [X|[X|[[]|[u [[] _]]]]]; auto. Qed.

Lemma GI_push m b : GI m [] -> has_key b m = true -> isinit_m m b = false ->
  GI m [{| f_mod := b; f_ops := ops_m m b |}].
Proof.
  intros [A _ _ _ F O] K I. constructor; auto.
  - constructor; [apply frame_inv_new; auto|constructor].
  - simpl. auto.
  - simpl. intros idx a b0 r E. exfalso. eapply (ops_m_no_ret m b). rewrite E. left; reflexivity.
Qed.

Lemma gm_top_II P limit fuel st b : II P st ->
  errors (gm_top limit fuel st b) = [] -> stuck (gm_top limit fuel st b) = false ->
  II (fun m => P m /\ m <> b) (gm_top limit fuel st b).
Proof.
  intros [[G SA] [Hs CV]] NE NS. pose proof G as [SM _ _ _ _ _].
  pose proof (gm_top_stack limit fuel st b Hs NS) as HS'.
  assert (G0 : GI (modules st) []) by (rewrite <- Hs; exact G).
  unfold gm_top in *.
  pose proof (get_instance_spec st b SM SA) as SP. destruct (get_instance_frame st b) as [_ [ST1 [AV1 _]]].
  destruct (get_instance st b) as [st1 r] eqn:GE; simpl in *.
  assert (SAME : st1 = st -> has_key b (modules st) = false -> II (fun m => P m /\ m <> b) st).
  { intros _ KB. split; [split; assumption|]. split; [exact Hs|]. intros m K.
    destruct (cover_idle P _ m CV K) as [X|X]; auto. left. split; auto. intros E. subst. congruence. }
  assert (KB' : r <> IOk -> has_key b (modules st) = false).
  { intros R. unfold get_instance in GE. destruct (has_key b (modules st)); auto. inversion GE; subst. congruence. }
  destruct r.
  2:{ destruct SP as [E|E]; [subst st1; apply SAME; auto; apply KB'; discriminate|contradiction]. }
  2:{ destruct SP as [E|E]; [subst st1; apply SAME; auto; apply KB'; discriminate|contradiction]. }
  change (isinit st1 b) with (isinit_m (modules st1) b) in *.
  assert (RUN : forall st2, modules st2 = modules st1 -> avail st2 = avail st -> stack st2 = [] ->
            GI (modules st1) [] -> has_key b (modules st1) = true -> isinit_m (modules st1) b = false ->
            cover (fun m => P m /\ m <> b) (modules st1) [b] ->
            errors (run_gm limit fuel (push b st2)) = [] -> stack (run_gm limit fuel (push b st2)) = [] ->
            II (fun m => P m /\ m <> b) (run_gm limit fuel (push b st2))).
  { intros st2 M AV S2 G1 K1 I1 C1 NE2 HS2.
    assert (GP : GInv (push b st2)).
    { unfold GInv. rewrite push_ops. simpl. rewrite M, AV, S2. split; [apply GI_push; auto|exact SA]. }
    assert (CP : cover (fun m => P m /\ m <> b) (modules (push b st2)) (map f_mod (stack (push b st2)))).
    { rewrite push_ops. simpl. rewrite M, S2. exact C1. }
    destruct (run_gm_GI _ limit fuel _ GP CP NE2) as [G3 C3]. split; [exact G3|]. split; [exact HS2|].
    rewrite HS2 in C3. exact C3. }
  destruct SP as [[K E]|[K [E1 [E2 [E3 [E4 [E5 E6]]]]]]].
  - subst st1. destruct (isinit_m (modules st) b) eqn:IB.
    + split; [split; assumption|]. split; [exact Hs|]. intros m KM.
      destruct (cover_idle P _ m CV KM) as [X|X]; auto.
      destruct (Nat.eq_dec m b) as [Q|Q]; [subst; auto|]. left. auto.
    + apply RUN; auto.
      intros m KM. destruct (cover_idle P _ m CV KM) as [X|X]; auto.
        destruct (Nat.eq_dec m b) as [Q|Q]; [subst; right; right; left; left; reflexivity|]. left. auto.
  - rewrite E4 in *.
    apply RUN; [reflexivity|exact AV1|rewrite ST1; exact Hs|eapply GI_ext; eauto|exact E2|reflexivity| |exact NE|exact HS'].
    intros m KM. destruct (has_key m (modules st)) eqn:KO.
    + destruct (cover_idle P _ m CV KO) as [X|X].
      * left. split; auto. intros Q. subst. congruence.
      * right. left. eapply extends_isinit_true; eauto.
    + destruct (E5 m KM) as [H|[H|H]]; [congruence| |].
      * subst. right. right. left. left. reflexivity.
      * right. right. right. exists b. split; [left; reflexivity|exact H].
Qed.

Lemma fold_II limit fuel : forall names P st, II P st ->
  errors (fold_left (fun acc b => gm_top limit fuel acc b) names st) = [] ->
  stuck (fold_left (fun acc b => gm_top limit fuel acc b) names st) = false ->
  II (fun m => P m /\ ~ In m names) (fold_left (fun acc b => gm_top limit fuel acc b) names st).
Proof.
  induction names as [|b r IH]; intros P st H NE NS; simpl in *.
  - eapply II_weaken; [|exact H]. intros m X. auto.
  - pose proof (fold_runs limit fuel [] r (gm_top limit fuel st b)) as R.
    pose proof (errs_back _ _ (runs_ext _ _ _ _ _ R) NE) as NE1. pose proof (runs_sticky _ _ _ _ _ R NS) as NS1.
    pose proof (IH _ _ (gm_top_II P limit fuel st b H NE1 NS1) NE NS) as H2.
    eapply II_weaken; [|exact H2]. simpl. intros m [[X Y] Z]. split; auto. intros [Q|Q]; auto.
Qed.

Definition anyname (m : name) : Prop := True.

Lemma II_any st : GInv st -> stack st = [] -> II anyname st.
Proof. intros G Hs. split; [exact G|split; [exact Hs|intros m K; left; exact I]]. Qed.

(* get_module_instance from outside of any initialisation *)
Lemma get_instance_II st b : II anyname st -> errors (fst (get_instance st b)) = [] ->
  II anyname (fst (get_instance st b)).
Proof.
  intros [[G SA] [Hs _]] NE. pose proof G as [SM _ _ _ _ _]. pose proof (get_instance_spec st b SM SA) as SP.
  destruct (get_instance_frame st b) as [_ [ST1 [AV1 _]]].
  destruct (get_instance st b) as [st1 r]; simpl in *.
  assert (SAME : st1 = st -> II anyname st1) by (intros E; subst st1; apply II_any; [split|]; assumption).
  destruct r; try (destruct SP as [E|E]; [auto|contradiction]).
  destruct SP as [[K E]|[K [E1 [E2 [E3 _]]]]]; [auto|].
  apply II_any; [split; [|rewrite AV1; exact SA]|rewrite ST1; exact Hs]. rewrite ST1, Hs. eapply GI_ext; eauto.
  rewrite <- Hs. exact G.
Qed.

(* a name with a small declaration is added to module_cfg *)
Lemma II_avail st b d : b < 100 /\ small_decl d -> II anyname st -> II anyname (set_avail st (set_assoc b d (avail st))).
Proof.
  intros SB [[G SA] [Hs _]]. apply II_any; [split; [exact G|]|exact Hs].
  intros x y X. simpl in X. apply In_set_assoc in X. destruct X as [E|X]; [inversion E; subst; exact SB|auto].
Qed.

Definition cfg_small (c : cfg) : Prop := small_av (c_static c) /\ small_av (c_dyn c).

(* for concrete configurations *)
Definition small_avb (av : list (name * decl)) : bool :=
  forallb (fun bd => Nat.ltb (fst bd) 100 && Nat.leb (length (d_atts (snd bd))) 99) av.

Lemma small_avb_ok av : small_avb av = true -> small_av av.
Proof.
  unfold small_avb. rewrite forallb_forall. intros H b d I. specialize (H _ I). simpl in H.
  apply andb_true_iff in H. destruct H as [H1 H2]. split; [apply Nat.ltb_lt; exact H1|apply Nat.leb_le; exact H2].
Qed.

Lemma cfg_small_pool c : cfg_small c -> small_av (c_static c ++ c_dyn c).
Proof. intros [S1 S2] b d I. apply in_app_or in I. destruct I; auto. Qed.

(* every sequence of calls that ends without recorded error and with the step budget not exhausted *)
Lemma runs_II limit fuel pool st st' : small_av pool -> runs limit fuel pool st st' -> II anyname st ->
  errors st' = [] -> stuck st' = false -> II anyname st'.
Proof.
  intros SP R H NE NS. apply (runs_inv limit fuel pool (fun s => errors s = [] -> II anyname s)) with (st := st); auto.
  - intros s b Q NS1 NE1. eapply II_weaken; [|apply (gm_top_II anyname limit fuel s b); auto].
    + intros m _. exact I.
    + apply Q. eapply errs_back; [apply gm_top_ext|exact NE1].
  - intros s b Q NE1. apply get_instance_II; auto. apply Q. eapply errs_back; [apply get_instance_ext|exact NE1].
  - intros s b d IN Q NE1. apply II_avail; auto.
Qed.

Lemma node0_II av : small_av av -> II anyname (node0 av).
Proof.
  intros SA. apply II_any; [split; [|exact SA]|reflexivity]. simpl. constructor.
  - split; [intros k H; discriminate|intros k i H; discriminate].
  - constructor.
  - exact I.
  - exact I.
  - intros u idx b H. contradiction.
  - exists []. split; [constructor|]. split.
    + intros m. split; [intros []|intros H; discriminate].
    + intros l1 m l2 E. destruct l1; discriminate.
Qed.

(* the node after create_modules, get_descriptive_data and the loop of _processCfg over all modules *)
Theorem initialised_II limit fuel c : cfg_small c ->
  errors (initialised limit fuel c) = [] -> stuck (initialised limit fuel c) = false ->
  let st := initialised limit fuel c in
  GInv st /\ stack st = [] /\ forall m, has_key m (modules st) = true -> isinit st m = true.
Proof.
  intros CS NE NS. unfold initialised, init_phase, init_rest in *.
  set (st1 := init_all limit fuel (create_all limit fuel c)) in *. set (names := map fst (modules st1)) in *.
  pose proof (fold_runs limit fuel [] names st1) as R2.
  destruct (runs_II _ _ _ _ _ (cfg_small_pool c CS) (created_runs limit fuel c) (node0_II _ (proj1 CS))
              (errs_back _ _ (runs_ext _ _ _ _ _ R2) NE) (runs_sticky _ _ _ _ _ R2 NS)) as [G [Hs _]].
  assert (H1 : II (fun m => In m names) st1).
  { split; [exact G|split; [exact Hs|]]. intros m K. left. apply has_key_In. exact K. }
  destruct (fold_II limit fuel names _ st1 H1 NE NS) as [G2 [Hs2 CV]].
  split; [exact G2|split; [exact Hs2|]]. intros m K.
  destruct (cover_idle _ _ m CV K) as [[X Y]|X]; [contradiction|exact X].
Qed.

(* no error recorded: a rank function exists *)
Fixpoint after (x : nat) (l : list nat) : nat :=
  match l with [] => 0 | y :: r => if Nat.eqb y x then S (length r) else after x r end.

Lemma after_le x l : after x l <= length l.
Proof. induction l as [|y r IH]; simpl; auto. destruct (Nat.eqb y x); lia. Qed.

Lemma after_app_notin x l1 l2 : ~ In x l1 -> after x (l1 ++ l2) = after x l2.
Proof.
  induction l1 as [|y r IH]; simpl; auto. intros N. destruct (Nat.eqb y x) eqn:E.
  - apply Nat.eqb_eq in E. subst. exfalso. apply N. left; reflexivity.
  - apply IH. intros X. apply N. right; exact X.
Qed.

Lemma nodup_mid_notin {A} (l1 : list A) x l2 : NoDup (l1 ++ x :: l2) -> ~ In x l1 /\ ~ In x l2.
Proof.
  intros N. apply NoDup_remove_2 in N. split; intros H; apply N; apply in_or_app; auto.
Qed.

Theorem no_error_rank limit fuel c : cfg_small c ->
  errors (initialised limit fuel c) = [] -> stuck (initialised limit fuel c) = false ->
  let st := initialised limit fuel c in
  exists rank : name -> nat, forall u t, has_key u (modules st) = true ->
    In t (targets_of (ops_m (modules st) u)) -> rank t < rank u.
Proof.
  intros CS NE NS st. destruct (initialised_II limit fuel c CS NE NS) as [[G _] [_ ALL]]. fold st in G, ALL.
  destruct G as [_ _ _ _ _ [ord [N [IO TO]]]]. exists (fun x => after x ord). intros u t K T.
  assert (IU : In u ord) by (apply IO; apply ALL; exact K).
  apply in_split in IU. destruct IU as [l1 [l2 E]]. pose proof (TO l1 u l2 E t T) as TL.
  rewrite E in N. destruct (nodup_mid_notin l1 u l2 N) as [N1 N2].
  assert (NT : ~ In t (l1 ++ [u])).
  { intros X. apply in_app_or in X. destruct X as [X|[X|[]]].
    - apply (nodup_app_disj l1 (u :: l2) t N X). right. exact TL.
    - subst. contradiction. }
  assert (AU : after u ord = S (length l2)).
  { rewrite E. rewrite (after_app_notin u l1 (u :: l2) N1). simpl. rewrite Nat.eqb_refl. reflexivity. }
  assert (AT : after t ord = after t l2).
  { rewrite E. replace (l1 ++ u :: l2) with ((l1 ++ [u]) ++ l2) by (rewrite <- app_assoc; reflexivity).
    apply (after_app_notin t _ l2 NT). }
  rewrite AU, AT. pose proof (after_le t l2). lia.
Qed.

(* u refers to t: t is the target of an attachment that earlyInit / initModule of u reads, or the io of u *)
Definition refers (st : node) (u t : name) : Prop :=
  has_key u (modules st) = true /\ In t (targets_of (ops_m (modules st) u)).

Inductive reaches (st : node) : name -> name -> Prop :=
| reach_one u t : refers st u t -> reaches st u t
| reach_more u t v : refers st u t -> reaches st t v -> reaches st u v.

Lemma reaches_rank st (rank : name -> nat) :
  (forall u t, has_key u (modules st) = true -> In t (targets_of (ops_m (modules st) u)) -> rank t < rank u) ->
  forall u v, reaches st u v -> rank v < rank u.
Proof.
  intros R u v H. induction H as [u t [K T]|u t v [K T] _ IH].
  - apply R; auto.
  - specialize (R u t K T). lia.
Qed.

