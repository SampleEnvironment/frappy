(* C15 — the program of a poll thread (its start-up sequence, cut at the first communication failure),
   and: a poll thread emits its program in order.  For every configuration and EVERY schedule, at
   every point of the start phase: what a poll thread has emitted so far is a prefix of its program (thread_prog), and
   these events stand in the trace of the node in program order (as a subsequence: events of the main thread and of
   other poll threads lie in between).  So when the started callback of a thread is in the trace, its whole first
   round - the executed part of the start-up sequence, all of it when no communication failure occurred - stands
   before it; and the node reports ready only after every poll thread is done or after the time-out (ready_inv). *)
From Coq Require Import List Arith Bool Lia.
Import ListNotations.
Require Import FV.C15.Model FV.C15.Lemmas.

Definition writes_ireads (st : node) (m : name) : list event :=
  map (EWrite m) (d_writes (decl_of st m)) ++ [EIReads m].

Lemma startup_prog_eq st t :
  startup_prog st t = flat_map (writes_ireads st) (polled_of st t) ++
                      flat_map (fun m => [ERead m 0; ERead m 1]) (polled_on st t).
Proof. reflexivity. Qed.

(* the sequence without communication failure: shape of the first round *)
Lemma startup_prog_shape st t : exists A B,
  startup_prog st t = A ++ B /\
  (forall e, In e A -> exists m k, e = EWrite m k \/ e = EIReads m) /\
  (forall e, In e B -> exists m k, e = ERead m k) /\
  (forall m k, In (EWrite m k) A -> In m (polled_of st t) /\ In k (d_writes (decl_of st m))) /\
  (forall m, In m (polled_of st t) -> forall k, In k (d_writes (decl_of st m)) -> In (EWrite m k) A).
Proof.
  rewrite startup_prog_eq. eexists. eexists. split; [reflexivity|]. split; [|split; [|split]].
  - intros e H. apply in_flat_map in H. destruct H as [x [_ H]]. apply in_app_or in H.
    destruct H as [H|[H|[]]].
    + apply in_map_iff in H. destruct H as [y [H _]]. subst e. exists x, y. left; reflexivity.
    + subst e. exists x, 0. right; reflexivity.
  - intros e H. apply in_flat_map in H. destruct H as [x [_ H]]. simpl in H.
    destruct H as [H|[H|[]]]; subst; eauto.
  - intros m k H. apply in_flat_map in H. destruct H as [x [X H]]. apply in_app_or in H.
    destruct H as [H|[H|[]]]; [|discriminate]. apply in_map_iff in H. destruct H as [y [H Y]].
    inversion H; subst. auto.
  - intros m M k K. apply in_flat_map. exists m. split; auto. apply in_or_app. left. apply in_map. exact K.
Qed.

Lemma cut_at_none f : forall l, (forall e, In e l -> f e = false) -> cut_at f l = (l, false).
Proof.
  induction l as [|e r IH]; intros H; simpl; auto.
  rewrite (H e (or_introl eq_refl)). rewrite IH; auto. intros x X. apply H. right; exact X.
Qed.

Lemma cut_at_app f : forall X Y, (forall e, In e X -> f e = false) ->
  cut_at f (X ++ Y) = (X ++ fst (cut_at f Y), snd (cut_at f Y)).
Proof.
  induction X as [|e r IH]; intros Y H; simpl.
  - destruct (cut_at f Y); reflexivity.
  - rewrite (H e (or_introl eq_refl)). rewrite IH; [reflexivity|]. intros x X. apply H. right; exact X.
Qed.

(* what was executed is a prefix of the whole sequence; it was abandoned exactly when its last event raised *)
Lemma cut_at_spec f : forall l,
  exists suf, l = fst (cut_at f l) ++ suf /\
    (snd (cut_at f l) = false -> suf = [] /\ forall e, In e l -> f e = false) /\
    (snd (cut_at f l) = true -> exists p e, fst (cut_at f l) = p ++ [e] /\ f e = true /\ forall x, In x p -> f x = false).
Proof.
  induction l as [|e r IH]; simpl.
  - exists []. repeat split; auto; try discriminate. intros x [].
  - destruct (f e) eqn:F; simpl.
    + exists r. repeat split; try discriminate. intros _. exists [], e. repeat split; auto. intros x [].
    + destruct IH as [suf [E [N A]]]. destruct (cut_at f r) as [p b]; simpl in *. exists suf.
      split; [rewrite E at 1; reflexivity|]. split.
      * intros B. destruct (N B) as [S Q]. split; auto. intros x [X|X]; [subst; auto|auto].
      * intros B. destruct (A B) as [p0 [e0 [P [FE Q]]]]. exists (e :: p0), e0. rewrite P. repeat split; auto.
        intros x [X|X]; [subst; auto|auto].
Qed.

Lemma no_fault_fails st t : (forall m, In m (polled_of st t) -> d_cfail (decl_of st m) = CFNone) ->
  forall e, In e (startup_prog st t) -> fails_at st e = false.
Proof.
  intros NF e I. rewrite startup_prog_eq in I. apply in_app_or in I. destruct I as [I|I].
  - apply in_flat_map in I. destruct I as [x [X I]]. apply in_app_or in I. destruct I as [I|[I|[]]].
    + apply in_map_iff in I. destruct I as [y [I _]]. subst e. reflexivity.
    + subst e. simpl. rewrite (NF x X). reflexivity.
  - apply in_flat_map in I. destruct I as [x [X I]]. unfold polled_on in X. apply filter_In in X. destruct X as [X _].
    simpl in I. destruct I as [I|[I|[]]]; subst e; simpl; rewrite (NF x X); reflexivity.
Qed.

Inductive Sub {A : Type} : list A -> list A -> Prop :=
| sub_nil l : Sub [] l
| sub_cons x l1 l2 : Sub l1 l2 -> Sub (x :: l1) (x :: l2)
| sub_skip x l1 l2 : Sub l1 l2 -> Sub l1 (x :: l2).

Lemma Sub_app_l {A} (evs : list A) : forall l tr, Sub l tr -> Sub l (evs ++ tr).
Proof. induction evs; intros l tr H; simpl; auto. apply sub_skip. auto. Qed.

Lemma Sub_In {A} (l tr : list A) : Sub l tr -> forall x, In x l -> In x tr.
Proof.
  induction 1; intros y I; simpl in *; [contradiction| |right; auto].
  destruct I as [I|I]; [left; exact I|right; auto].
Qed.

(* l1 ++ x :: l2 as a subsequence: x is found, what stood before x in the list stands after... (lists are newest first) *)
Lemma Sub_split {A} (x : A) : forall l1 l2 tr, Sub (l1 ++ x :: l2) tr ->
  exists t1 t2, tr = t1 ++ x :: t2 /\ Sub l2 t2.
Proof.
  intros l1 l2 tr H. remember (l1 ++ x :: l2) as l eqn:E. revert l1 E.
  induction H as [tr|y a b H IH|y a b H IH]; intros l1 E.
  - destruct l1; discriminate.
  - destruct l1 as [|z l1]; simpl in E; inversion E; subst.
    + exists [], b. split; [reflexivity|exact H].
    + destruct (IH l1 eq_refl) as [t1 [t2 [E1 S]]]. exists (z :: t1), t2. split; [rewrite E1; reflexivity|exact S].
  - destruct (IH l1 E) as [t1 [t2 [E1 S]]]. exists (y :: t1), t2. split; [rewrite E1; reflexivity|exact S].
Qed.

Lemma cut_at_sub f : forall l e, In e (fst (cut_at f l)) -> In e l.
Proof.
  induction l as [|a r IH]; simpl; intros e I; [contradiction|].
  destruct (f a); simpl in I.
  - destruct I as [I|[]]. left; exact I.
  - destruct (cut_at f r) as [p b]; simpl in *. destruct I as [I|I]; [left; exact I|right; apply IH; exact I].
Qed.

Lemma startup_prog_events st t e : In e (startup_prog st t) ->
  (exists m k, e = EWrite m k) \/ (exists m, e = EIReads m) \/ (exists m k, e = ERead m k).
Proof.
  intros I. destruct (startup_prog_shape st t) as [A [B [E [HA [HB _]]]]]. rewrite E in I.
  apply in_app_or in I. destruct I as [I|I].
  - destruct (HA _ I) as [m [k [Q|Q]]]; [left; eauto|right; left; eauto].
  - destruct (HB _ I) as [m [k Q]]. right; right; eauto.
Qed.

(* the program of thread t: only poll thread events, and its only started callback is the one of t *)
Lemma thread_prog_events st t e : In e (thread_prog st t) -> poll_ev e /\ (forall x, e = EStarted x -> x = t).
Proof.
  unfold thread_prog. intros HI.
  assert (P : forall x, In x (fst (cut_at (fails_at st) (startup_prog st t))) -> poll_ev x /\ forall y, x <> EStarted y).
  { intros x X. apply cut_at_sub in X. destruct (startup_prog_events st t x X) as [[m [k Q]]|[[m Q]|[m [k Q]]]]; subst x;
      (split; [exact I|intros; discriminate]). }
  destruct (cut_at (fails_at st) (startup_prog st t)) as [pre ab]; simpl in *.
  apply in_app_or in HI. destruct HI as [HI|HI].
  - destruct (P e HI) as [Q N]. split; [exact Q|]. intros x E. exfalso. eapply N; eauto.
  - unfold after_startup in HI. simpl in HI. destruct HI as [HI|HI].
    + subst e. split; [exact I|]. intros x E. inversion E; reflexivity.
    + apply in_app_or in HI. destruct HI as [HI|HI].
      * destruct ab; simpl in HI; [destruct HI as [HI|[]]; subst e; split; [exact I|intros; discriminate]|contradiction].
      * apply in_map_iff in HI. destruct HI as [m [E _]]. subst e. split; [exact I|intros; discriminate].
Qed.

Lemma thread_prog_modules st st' t : modules st' = modules st -> thread_prog st' t = thread_prog st t.
Proof.
  intros M. unfold thread_prog, startup_prog, after_startup, fails_at, polled_of, decl_of. rewrite M. reflexivity.
Qed.

Definition th_ok (st : node) (th : thread) : Prop :=
  exists emitted, thread_prog st (t_id th) = emitted ++ t_prog th /\ Sub (rev emitted) (trace st) /\
                  (t_done th = true -> In (EStarted (t_id th)) emitted).

Lemma th_ok_mono st st' th : modules st' = modules st -> (exists evs, trace st' = evs ++ trace st) ->
  th_ok st th -> th_ok st' th.
Proof.
  intros M [evs T] [em [E [S D]]]. exists em. rewrite (thread_prog_modules st st' _ M), T.
  split; [exact E|split; [apply Sub_app_l; exact S|exact D]].
Qed.

Lemma all_mono st st' ths : modules st' = modules st -> (exists evs, trace st' = evs ++ trace st) ->
  Forall (th_ok st) ths -> Forall (th_ok st') ths.
Proof. intros M T F. rewrite Forall_forall in *. intros x X. apply (th_ok_mono st); auto. Qed.

Lemma thread_step_ok st th : th_ok st th ->
  th_ok (fst (thread_step st th)) (snd (thread_step st th)).
Proof.
  intros [em [E [S D]]]. unfold thread_step. destruct (t_hung th); simpl; [exists em; auto|].
  destruct (t_prog th) as [|e rest] eqn:P; simpl; [exists em; rewrite P; auto|].
  assert (IE : In e (thread_prog st (t_id th))) by (rewrite E; apply in_or_app; right; left; reflexivity).
  destruct (thread_prog_events st (t_id th) e IE) as [PE ST].
  assert (EMIT : forall d, (d = true -> e = EStarted (t_id th) \/ t_done th = true) ->
            th_ok (emit e st) {| t_id := t_id th; t_prog := rest; t_hung := false; t_done := d |}).
  { intros d HD. exists (em ++ [e]). simpl.
    rewrite (thread_prog_modules st (emit e st) _ eq_refl). rewrite E, <- app_assoc. simpl.
    split; [reflexivity|]. split; [rewrite rev_app_distr; simpl; apply sub_cons; exact S|].
    intros Q. apply in_or_app. destruct (HD Q) as [X|X]; [right; left; exact X|left; auto]. }
  destruct e; simpl in PE; try contradiction.
  - apply EMIT. intros Q. right; exact Q.
  - destruct (d_hang _); simpl; [exists em; simpl; auto|]. apply EMIT. intros Q. right; exact Q.
  - apply EMIT. intros Q. right; exact Q.
  - pose proof (ST t eq_refl) as Q. subst t. apply EMIT. intros _. left. reflexivity.
  - apply EMIT. intros Q. right; exact Q.
  - apply EMIT. intros Q. right; exact Q.
Qed.

Lemma threads_step_ok t : forall ths st, Forall (th_ok st) ths ->
  Forall (th_ok (fst (threads_step st t ths))) (snd (threads_step st t ths)).
Proof.
  induction ths as [|th r IH]; intros st F; simpl; [constructor|].
  inversion F as [|? ? H F']; subst.
  destruct (Nat.eqb (t_id th) t).
  - pose proof (thread_step_ok st th H) as H1. pose proof (thread_step_emits st th) as TR.
    destruct (thread_step st th) as [st1 th1]; simpl in *. constructor; [exact H1|].
    apply (all_mono st); auto; destruct TR as [TR|[e [TR _]]]; subst st1; auto; [exists []|exists [e]]; reflexivity.
  - pose proof (IH st F') as H1. pose proof (threads_step_emits t r st) as TR.
    destruct (threads_step st t r) as [st1 r1]; simpl in *. constructor; [|exact H1].
    apply (th_ok_mono st); auto; destruct TR as [TR|[e [TR _]]]; subst st1; auto; [exists []|exists [e]]; reflexivity.
Qed.

Definition threads_ok (s : sys) : Prop := Forall (th_ok (s_node s)) (s_threads s).

Lemma cstep_threads_ok s it : threads_ok s -> threads_ok (cstep s it).
Proof.
  unfold threads_ok. destruct s as [st ths pc]. simpl. intros F. destruct it; simpl.
  - destruct pc as [[|m rest]| | |]; simpl; auto.
    + set (st1 := emit (EStart m) st).
      assert (F1 : Forall (th_ok st1) (match polled_of st1 m with
                     | [] => ths
                     | _ :: _ => ths ++ [{| t_id := m; t_prog := thread_prog st1 m; t_hung := false; t_done := false |}]
                     end)).
      { assert (F0 : Forall (th_ok st1) ths) by (apply (all_mono st); auto; exists [EStart m]; reflexivity).
        destruct (polled_of st1 m); [exact F0|]. apply Forall_app. split; [exact F0|]. constructor; [|constructor].
        exists []. simpl. split; [reflexivity|split; [constructor|discriminate]]. }
      unfold pc_after, finish_start. destruct rest; simpl; [|exact F1].
      destruct (errors st); simpl; [exact F1|].
      apply (all_mono st1); auto. exists [EExit]. reflexivity.
    + destruct (all_done ths); simpl; [|exact F]. apply (all_mono st); auto. exists [EReady true]. reflexivity.
  - destruct pc; simpl; auto;
      (pose proof (threads_step_ok t ths st F) as Q; destruct (threads_step st t ths); simpl in *; exact Q).
  - destruct pc; simpl; auto. destruct (all_done ths); simpl; [exact F|].
    apply (all_mono st); auto. exists [EReady false]. reflexivity.
Qed.

Lemma run_sched_threads_ok sched : forall s, threads_ok s -> threads_ok (run_sched s sched).
Proof. unfold run_sched. induction sched as [|it r IH]; intros s H; simpl; auto. apply IH. apply cstep_threads_ok. exact H. Qed.

Lemma sys0_threads_ok st : threads_ok (sys0 st).
Proof. unfold threads_ok, sys0. destruct (pc_after st (map fst (modules st))); simpl. constructor. Qed.

(* ready only after every poll thread finished its first round, or after the time-out with an unfinished thread *)
Lemma th_ok_started st th : th_ok st th -> t_done th = true -> In (EStarted (t_id th)) (trace st).
Proof. intros [em [_ [S D]]] T. apply (Sub_In _ _ S). apply -> in_rev. auto. Qed.

Definition ready_inv (s : sys) : Prop :=
  match s_pc s with
  | MStart _ | MWait => no_ready (trace (s_node s))
  | MRun => exists b pre, trace (s_node s) = EReady b :: pre /\ no_ready pre /\
            (b = true -> forall th, In th (s_threads s) -> In (EStarted (t_id th)) pre) /\
            (b = false -> exists th, In th (s_threads s) /\ t_done th = false)
  | MExited => True
  end.

Lemma cstep_ready_inv s it : threads_ok s -> ready_inv s -> ready_inv (cstep s it).
Proof.
  unfold threads_ok, ready_inv. destruct s as [st ths pc]; simpl. intros TK P.
  assert (TS : forall t, no_ready (trace st) -> no_ready (trace (fst (threads_step st t ths)))).
  { intros t Q. destruct (threads_step_emits t ths st) as [TR|[e [TR R]]]; rewrite TR; auto.
    apply no_ready_cons; auto. destruct e; auto; contradiction. }
  destruct it; simpl.
  - destruct pc as [[|m rest]| | |]; simpl; auto.
    + unfold pc_after, finish_start. destruct rest; simpl; [destruct (errors st); simpl|]; auto using no_ready_cons.
    + destruct (all_done ths) eqn:AD; simpl; auto.
      exists true, (trace st). repeat split; auto; [|discriminate].
      intros _ th I. rewrite Forall_forall in TK. apply th_ok_started; auto. eapply all_done_spec; eauto.
  - destruct pc; simpl; auto; (specialize (TS t P); destruct (threads_step st t ths); exact TS).
  - destruct pc; simpl; auto. destruct (all_done ths) eqn:AD; simpl; auto.
    exists false, (trace st). repeat split; auto; [discriminate|]. intros _. apply not_all_done_spec; exact AD.
Qed.

Lemma run_sched_ready_inv sched : forall s, threads_ok s -> ready_inv s -> ready_inv (run_sched s sched).
Proof.
  unfold run_sched. induction sched as [|it r IH]; intros s T R; simpl; auto.
  apply IH; [apply cstep_threads_ok|apply cstep_ready_inv]; auto.
Qed.

(* a prefix X of P = pre ++ e :: post that contains e, where e is not in pre, contains pre ++ [e] *)
Lemma prefix_with {A} (e : A) : forall pre X Y post, X ++ Y = pre ++ e :: post -> In e X -> ~ In e pre ->
  exists X', X = pre ++ e :: X'.
Proof.
  induction pre as [|p pre IH]; intros X Y post E I N; simpl in *.
  - destruct X as [|x X]; [contradiction|]. simpl in E. inversion E; subst. exists X. reflexivity.
  - destruct X as [|x X]; [contradiction|]. simpl in E. inversion E as [[EX E1]]; subst.
    destruct I as [I|I]; [exfalso; apply N; left; exact I|].
    destruct (IH X Y post E1 I) as [X' Q]; [intros Q; apply N; right; exact Q|]. exists X'. rewrite Q. reflexivity.
Qed.

(* the first occurrence of e splits a list in one way only *)
Lemma split_unique {A} (e : A) : forall l1 l2 r1 r2, l1 ++ e :: r1 = l2 ++ e :: r2 -> ~ In e l1 -> ~ In e l2 -> l1 = l2.
Proof.
  induction l1 as [|a l1 IH]; intros l2 r1 r2 E N1 N2; destruct l2 as [|b l2]; simpl in *; auto.
  - inversion E; subst. exfalso. apply N2. left; reflexivity.
  - inversion E; subst. exfalso. apply N1. left; reflexivity.
  - inversion E; subst. f_equal. eapply IH; eauto.
Qed.

(* once the node has reported ready without time-out, every poll thread is done *)
Definition ready_done (s : sys) : Prop :=
  match s_pc s with
  | MRun => forall pre, trace (s_node s) = EReady true :: pre -> all_done (s_threads s) = true
  | _ => True
  end.

Lemma cstep_ready_done s it : ready_done s -> ready_done (cstep s it).
Proof.
  unfold ready_done. destruct s as [st ths pc]. simpl. intros H. destruct it; simpl.
  - destruct pc as [[|m rest]| | |]; simpl; auto.
    + unfold pc_after, finish_start. destruct rest; simpl; auto. destruct (errors st); simpl; auto.
    + destruct (all_done ths) eqn:AD; simpl; auto.
  - destruct pc; simpl; auto; destruct (threads_step st t ths); simpl; auto.
  - destruct pc; simpl; auto. destruct (all_done ths); simpl; auto. intros pre E. discriminate.
Qed.

Lemma started_ready_done limit fuel c sched : ready_done (started limit fuel c sched).
Proof.
  unfold started, run_sched.
  assert (H : forall sch s, ready_done s -> ready_done (fold_left cstep sch s)).
  { induction sch as [|it r IH]; intros s Q; simpl; auto. apply IH. apply cstep_ready_done. exact Q. }
  apply H. generalize (initialised limit fuel c). intros st. unfold ready_done, sys0, pc_after, finish_start.
  destruct (map fst (modules st)); simpl; auto. destruct (errors st); simpl; auto.
Qed.

Lemma no_fault_prog st t : (forall m, In m (polled_of st t) -> d_cfail (decl_of st m) = CFNone) ->
  thread_prog st t = startup_prog st t ++ EStarted t :: map EDoPoll (polled_on st t).
Proof. intros NF. unfold thread_prog. rewrite cut_at_none; [reflexivity|apply no_fault_fails; exact NF]. Qed.

