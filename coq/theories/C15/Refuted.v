(* C15 — witnesses of genuine defects of the tree, reproduced by the faithful model.
   (The witness for unexported, unattached modules is gone: repaired by 68acea7, see C15_init_once_acyclic.) *)
From Coq Require Import List Arith Bool.
Import ListNotations.
Require Import FV.C15.Model.

Definition plain (export : bool) (atts : list att) (writes : list nat) : decl :=
  {| d_kind := KPlain; d_tag := 0; d_export := export; d_atts := atts; d_poll := true; d_writes := writes;
     d_fail_early := false; d_fail_init := false; d_hang := false; d_cfail := CFNone |}.
Definition pinata (atts : list att) (scan : list name) : decl :=
  {| d_kind := KPinata scan; d_tag := 0; d_export := false; d_atts := atts; d_poll := true; d_writes := [];
     d_fail_early := false; d_fail_init := false; d_hang := false; d_cfail := CFNone |}.
Definition to (t : name) : att := {| a_target := Some t; a_mand := true; a_want := None; a_phase := PInit |}.

(* finding C15/pinata-created-through-attachment-not-scanned: the same two Pinata modules in both declaration
   orders; module 5 found by Pinata 1 exists only if Pinata 1 is declared before Pinata 0 that attaches it *)
Definition cfg_pinata (first_user : bool) : cfg :=
  let p0 := (0, pinata [to 1] []) in
  let p1 := (1, pinata [] [5]) in
  {| c_static := if first_user then [p0; p1] else [p1; p0]; c_dyn := [(5, plain true [] [])] |}.

Theorem C15_refuted_pinata_order_dependent :
  exists c1 c2,
    (forall x, In x (c_static c1) <-> In x (c_static c2)) /\ c_dyn c1 = c_dyn c2 /\
    errors (initialised 40 2000 c1) = [] /\ errors (initialised 40 2000 c2) = [] /\
    has_key 5 (modules (initialised 40 2000 c1)) = false /\
    has_key 5 (modules (initialised 40 2000 c2)) = true.
Proof.
  (* the witnesses in one step: every tactic on this goal pays for the unary numerals 2000 in it *)
  refine (ex_intro _ (cfg_pinata true) (ex_intro _ (cfg_pinata false) (conj _ _))).
  - intros x; simpl; tauto.
  - vm_compute. repeat split; reflexivity.
Qed.

(* finding C15/later-modules-skipped-after-comm-failure: modules 0 and 1 share the communicator 100 (uri 0), so the
   poll thread of 100 serves [100; 0; 1]; initialReads of module 0 raises CommunicationFailedError.  Module 1 has the
   configured value x0.  Under the schedule below the node reports ready, the trace contains doPoll of module 1
   and never a write of module 1 - and the program of the thread does not contain that write at all. *)
Definition hasio (u : nat) (writes : list nat) (f : cfault) : decl :=
  {| d_kind := KHasIO (IoUri u); d_tag := 0; d_export := true; d_atts := []; d_poll := true; d_writes := writes;
     d_fail_early := false; d_fail_init := false; d_hang := false; d_cfail := f |}.
Definition cfg_comm : cfg :=
  {| c_static := [(0, hasio 0 [] CFIReads); (1, hasio 0 [0] CFNone)]; c_dyn := [] |}.
Definition sched_comm : list sitem :=
  [SMain; SMain; SMain; SThread 100; SThread 100; SThread 100; SThread 100; SThread 100; SThread 100; SThread 100;
   SMain].

Theorem C15_refuted_writes_before_first_poll_after_comm_failure :
  exists c sched t m k,
    let st := initialised 40 2000 c in
    let s := started 40 2000 c sched in
    errors st = [] /\ In m (polled_of st t) /\ In k (d_writes (decl_of st m)) /\
    In (EDoPoll m) (thread_prog st t) /\ ~ In (EWrite m k) (thread_prog st t) /\
    s_pc s = MRun /\ In (EReady true) (trace (s_node s)) /\
    In (EDoPoll m) (trace (s_node s)) /\ ~ In (EWrite m k) (trace (s_node s)).
Proof.
  refine (ex_intro _ cfg_comm (ex_intro _ sched_comm (ex_intro _ 100 (ex_intro _ 1 (ex_intro _ 0 _))))). vm_compute.
  repeat split; try reflexivity;
    try (intros H; repeat (destruct H as [H|H]; [discriminate|]); exact H);
    repeat (first [left; reflexivity|right]).
Qed.
