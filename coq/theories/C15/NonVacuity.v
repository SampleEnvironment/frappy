(* C15 - vacuity audit: the property theorems with premises are applied at one concrete configuration that reports
   ready (a user attached to a HasIO module, two HasIO modules sharing an automatically created communicator, one of
   them with a scripted communication failure in a first read, configured start values, an unexported module) and at
   concrete states of the get_module machine (missing / wrongly typed / too deep attachment). *)
From Coq Require Import List Arith Bool Lia Permutation.
Import ListNotations.
Require Import FV.Gen.C15 FV.C15.Model FV.C15.Lemmas FV.C15.LemmasInit FV.C15.LemmasSort FV.C15.LemmasWf
  FV.C15.LemmasGlobal FV.C15.LemmasTerm FV.C15.LemmasOnce FV.C15.Refuted FV.C15.Run FV.C15.LemmasErr
  FV.C15.LemmasThread FV.C15.Properties.

Definition nv_cfg : cfg :=
  {| c_static := [(0, plain true [to 2] [0; 1]); (1, hasio 0 [3] CFNone); (2, hasio 0 [0] (CFRead 0));
                  (3, plain false [] [])];
     c_dyn := [] |}.
Definition nv_sched : list sitem :=
  repeat SMain 6 ++ repeat (SThread 0) 12 ++ repeat (SThread 101) 20 ++ repeat (SThread 3) 8 ++ [SMain; SMain].
Notation nv_s := (started 40 12000 nv_cfg nv_sched).
Notation nv_st := (s_node (started 40 12000 nv_cfg nv_sched)).

Lemma nv_small : cfg_small nv_cfg.
Proof. split; apply small_avb_ok; reflexivity. Qed.
Lemma nv_fuel : enough_fuel 40 nv_cfg <= 12000.
Proof. apply Nat.leb_le. vm_compute. reflexivity. Qed.
(* the state of the node under this schedule is computed once; the examples below read it off *)
Definition nv_val : sys := Eval vm_compute in nv_s.
Lemma nv_s_val : nv_s = nv_val.
Proof. vm_compute. reflexivity. Qed.

Lemma nv_run : s_pc nv_s = MRun.
Proof. rewrite nv_s_val. vm_compute. reflexivity. Qed.

Example C15_nonvacuous_ready_state :
  map (fun m => (fst m, i_attached (snd m), i_polled (snd m))) (modules nv_st) =
    [(0, [(0, 2)], [0]); (101, [], [101; 2; 1]); (1, [(99, 101)], []); (2, [(99, 101)], []); (3, [], [3])] /\
  map (fun th => (t_id th, t_done th)) (s_threads nv_s) = [(0, true); (101, true); (3, true)] /\
  errors nv_st = [].
Proof. rewrite nv_s_val. vm_compute. repeat split; reflexivity. Qed.

Definition C15_ready_all_initialised_applies :
  forall m, has_key m (modules nv_st) = true -> isinit nv_st m = true :=
  C15_ready_all_initialised 40 12000 nv_cfg nv_sched nv_small nv_fuel nv_run.

Example C15_ready_lifecycle_applies :
  (forall m, has_key m (modules nv_st) = true -> ce m (trace nv_st) = 1 /\ ci m (trace nv_st) = 1) /\
  starts (trace nv_st) = rev (map EStart (map fst (modules nv_st))).
Proof.
  destruct (C15_ready_lifecycle_exactly_once 40 12000 nv_cfg nv_sched nv_small nv_fuel nv_run) as (A & _ & _ & D & _).
  split; [exact A|exact D].
Qed.

Example C15_shutdown_users_when_ready_applies :
  exists l1 l2, sorted_modules nv_st [3; 2; 1; 0; 101] = l1 ++ 0 :: l2 /\ In 2 l2.
Proof.
  apply (C15_shutdown_users_before_attached_when_ready 40 12000 nv_cfg nv_sched [3; 2; 1; 0; 101]
           nv_small nv_fuel nv_run) with (i := 0).
  - assert (M : map fst (modules nv_st) = [0; 101; 1; 2; 3]) by (rewrite nv_s_val; vm_compute; reflexivity).
    rewrite M. simpl. tauto.
  - rewrite nv_s_val. vm_compute. left; reflexivity.
Qed.

Example C15_shutdown_every_module_once_applies :
  Permutation (sorted_modules nv_st [3; 2; 1; 0; 101]) (map fst (modules nv_st)) /\
  sorted_modules nv_st [3; 2; 1; 0; 101] = [0; 1; 2; 101; 3].
Proof.
  split; [apply (C15_shutdown_every_module_once 40 12000 nv_cfg nv_sched [3; 2; 1; 0; 101])|rewrite nv_s_val; vm_compute; reflexivity].
Qed.

Example C15_ready_after_first_round_applies :
  exists b pre, trace nv_st = EReady b :: pre /\ no_ready pre /\
    (b = true -> forall th, In th (s_threads nv_s) -> In (EStarted (t_id th)) pre).
Proof.
  destruct (C15_ready_after_first_round 40 12000 nv_cfg nv_sched nv_run) as (b & pre & A & B & C & _).
  exists b, pre. exact (conj A (conj B C)).
Qed.

Definition nv_th0 : thread := {| t_id := 0; t_prog := []; t_hung := false; t_done := true |}.
Definition nv_th101 : thread := {| t_id := 101; t_prog := []; t_hung := false; t_done := true |}.
Lemma nv_th0_in : In nv_th0 (s_threads nv_s).
Proof. rewrite nv_s_val. vm_compute. left; reflexivity. Qed.
Lemma nv_th101_in : In nv_th101 (s_threads nv_s).
Proof. rewrite nv_s_val. vm_compute. right; left; reflexivity. Qed.

(* ready (no time-out): the configured values 0 and 1 of module 0 were written before its started callback *)
Example C15_ready_values_written_applies :
  exists l1 l2, tl (trace nv_st) = l1 ++ EStarted 0 :: l2 /\ In (EWrite 0 0) l2 /\ In (EWrite 0 1) l2.
Proof.
  destruct (C15_ready_values_written 40 12000 nv_cfg nv_sched (tl (trace nv_st)) nv_run) with (th := nv_th0)
    as (l1 & l2 & A & _ & C).
  - rewrite nv_s_val. vm_compute. reflexivity.
  - exact nv_th0_in.
  - assert (P : polled_of nv_st 0 = [0]) by (rewrite nv_s_val; vm_compute; reflexivity).
    simpl t_id. rewrite P. intros m [<-|[]]. rewrite nv_s_val. vm_compute. reflexivity.
  - exists l1, l2. split; [exact A|]. split; apply C; rewrite nv_s_val; vm_compute; tauto.
Qed.

(* the thread of the communicator abandoned its start-up at the failing first read of module 2 *)
Example C15_started_callback_applies :
  exists pre suf aborted l1 l2,
    startup_prog nv_st 101 = pre ++ suf /\ (aborted = false -> suf = []) /\
    trace nv_st = l1 ++ EStarted 101 :: l2 /\ Sub (rev pre) l2 /\ ~ In (EStarted 101) pre.
Proof.
  destruct (C15_started_callback_after_whole_round 40 12000 nv_cfg nv_sched nv_th101 nv_th101_in eq_refl)
    as (pre & suf & ab & l1 & l2 & A & B & _ & D & E & _ & _ & H).
  exists pre, suf, ab, l1, l2. exact (conj A (conj B (conj D (conj E H)))).
Qed.

Example C15_writes_before_first_poll_applies :
  d_writes (decl_of nv_st 0) = [0; 1] /\
  exists A B, thread_prog nv_st 0 = A ++ B ++ [EStarted 0] ++ map EDoPoll (polled_on nv_st 0) /\
    (forall m k, ~ In (ERead m k) A) /\ In (EWrite 0 0) A /\ In (EWrite 0 1) A.
Proof.
  split; [rewrite nv_s_val; vm_compute; reflexivity|].
  assert (P : polled_of nv_st 0 = [0]) by (rewrite nv_s_val; vm_compute; reflexivity).
  destruct (C15_writes_before_first_poll nv_st 0) as (A & B & E & R & _ & _ & _ & W).
  - rewrite P. intros m [<-|[]]. rewrite nv_s_val. vm_compute. reflexivity.
  - exists A, B. split; [exact E|]. split; [exact R|]. split; apply W; rewrite nv_s_val; vm_compute; tauto.
Qed.

(* with a communication failure in the thread (first read of module 2), module 1 served after module 2 *)
Example C15_writes_with_comm_failure_applies :
  fails_at nv_st (ERead 2 0) = true /\ In (ERead 2 0) (thread_prog nv_st 101) /\
  exists P1 P2, thread_prog nv_st 101 = P1 ++ EWrite 1 3 :: P2 /\
    (forall e, In e P1 -> exists x j, e = EWrite x j \/ e = EIReads x).
Proof.
  split; [rewrite nv_s_val; vm_compute; reflexivity|]. split; [rewrite nv_s_val; vm_compute; tauto|].
  apply (C15_writes_before_first_poll_with_comm_failure_partial nv_st 101 [101; 2] 1 [] 3).
  - rewrite nv_s_val. vm_compute. reflexivity.
  - intros x [<-|[<-|[]]]; rewrite nv_s_val; vm_compute; discriminate.
  - rewrite nv_s_val. vm_compute. left; reflexivity.
Qed.

Example C15_shutdown_stops_pollers_first_applies :
  trace (shutdown nv_s [3; 2; 1; 0; 101]) =
    rev (map EShutdown [0; 1; 2; 101; 3]) ++ rev (map EStop ([0; 101; 3] ++ [0; 101; 3])) ++ trace nv_st.
Proof.
  rewrite (proj1 (C15_shutdown_stops_pollers_first nv_s [3; 2; 1; 0; 101]) nv_run). rewrite nv_s_val. vm_compute. reflexivity.
Qed.

(* (1) missing module: err_cfg, get_module(0) after earlyInit and the initModule event *)
Definition nv_e0 : node := Nat.iter 2 (step 40) (push 0 (create_all 40 7000 err_cfg)).
Example C15_missing_attachment_applies :
  errors (step 40 nv_e0) = ErrInit 0 :: errors nv_e0 /\ stack (step 40 nv_e0) = [].
Proof.
  refine (proj1 C15_bad_attachment_recorded 40 nv_e0 {| f_mod := 0; f_ops := [OAccess 0 (to 99); ORegister] |} []
            0 (to 99) [ORegister] 99 _ _ _ _ _ _); vm_compute; reflexivity.
Qed.
(* (2) wrongly typed module: module 0 wants tag 5, module 1 has tag 0; the state after get_module(1) returned *)
Definition wt_cfg : cfg :=
  {| c_static := [(0, plain true [{| a_target := Some 1; a_mand := true; a_want := Some 5; a_phase := PInit |}] []);
                  (1, plain true [] [])]; c_dyn := [] |}.
Definition wt_att : att := {| a_target := Some 1; a_mand := true; a_want := Some 5; a_phase := PInit |}.
Definition nv_w0 : node := Nat.iter 7 (step 40) (push 0 (create_all 40 7000 wt_cfg)).
Example C15_wrong_type_applies :
  errors (step 40 nv_w0) = ErrInit 0 :: errors nv_w0 /\ stack (step 40 nv_w0) = [].
Proof.
  refine (proj1 (proj2 C15_bad_attachment_recorded) 40 nv_w0 {| f_mod := 0; f_ops := [ORet 0 wt_att 1; ORegister] |} []
            0 wt_att [ORegister] 1 _ _ _); vm_compute; reflexivity.
Qed.
(* (3) depth limit 1: the access of module 0 to the not yet initialised module 1 *)
Definition nv_d0 : node := Nat.iter 2 (step 1) (push 0 (create_all 1 7000 demo_cfg)).
Example C15_depth_limit_applies :
  errors (step 1 nv_d0) = ErrInit 0 :: errors nv_d0 /\ overflow (step 1 nv_d0) = true.
Proof.
  refine (proj1 (proj2 (proj2 C15_bad_attachment_recorded)) 1 nv_d0
            {| f_mod := 0; f_ops := [OAccess 0 (to 1); ORegister] |} [] 0 (to 1) [ORegister] 1 _ _ _ _ _ _ _);
    vm_compute; try reflexivity; lia.
Qed.

(* errors: never ready *)
Example C15_errors_never_ready_applies :
  let s := started 40 7000 err_cfg [SMain; SMain; SThread 0; SMain; STimeout; SMain] in
  no_ready (trace (s_node s)) /\ s_pc s = MExited.
Proof.
  intro s. destruct (C15_errors_never_ready 40 7000 err_cfg [SMain; SMain; SThread 0; SMain; STimeout; SMain])
    as (A & _).
  - vm_compute. discriminate.
  - split; [exact A|vm_compute; reflexivity].
Qed.
