(* C15 — the property theorems, each closed by a lemma of the Lemmas*.v files or by a short proof over them, and concrete
   examples for their hypotheses.
   c ranges over every configuration (declared and dynamically scanned modules, kinds, attachments, flags) in every
   declaration order, sched over every interleaving of startModule calls, poll thread steps and the time-out,
   limit over every depth bound of the interpreter, fuel over every step budget of the model. *)
From Coq Require Import List Arith Bool Lia Permutation.
Import ListNotations.
Require Import FV.Gen.C15 FV.C15.Model FV.C15.Lemmas FV.C15.LemmasInit FV.C15.LemmasSort FV.C15.LemmasWf
  FV.C15.LemmasGlobal FV.C15.LemmasTerm FV.C15.LemmasOnce FV.C15.Refuted FV.C15.Run FV.C15.LemmasErr FV.C15.LemmasThread.

(* obligations on the facts regenerated from /repo (Gen/C15.v) *)
Theorem C15_source_facts :
  get_module_early_then_init_then_flag = true /\ processcfg_order = true /\
  processcfg_initialises_every_module = true /\
  descriptive_data_initialises_exported = true /\ shutdown_stops_pollers_first = true /\
  sorted_modules_reversed_postorder = true /\ pollthread_writes_then_reads_then_started = true /\
  writeinitparams_absorbs_write_errors = true /\ pollthread_comm_failure_abandons_startup = true /\
  callpollfunc_reraises_only_comm_failure = true /\ regular_loop_first_pass_polls_every_module = true /\
  startmodule_starts_thread_iff_polled = true /\ initmodule_registers_at_io = true /\
  attached_get_checks = true /\ hasio_creates_io_once_per_uri = true /\
  multievent_set_only_when_all_triggered = true /\ 0 < start_timeout.
Proof. repeat apply conj; try reflexivity. apply Nat.ltb_lt; reflexivity. Qed.

(* every module of the node is early-initialised exactly once and initialised at most once (exactly once unless
   its earlyInit raised), and is marked as initialised: for every acyclic attachment graph (rank decreases along
   every attachment and io reference) on a node whose creatable modules have all been created and nothing is
   initialised yet (fresh: the state after create_modules without Pinata), every depth limit, every step budget.
   Whatever is not a module of the node gets nothing.  (Since fix 68acea7 this holds without the former exception
   for modules that are neither exported nor attached.) *)
Theorem C15_init_once_acyclic :
  forall (rank : name -> nat) limit fuel st,
    fresh rank st -> stuck (init_phase limit fuel st) = false ->
    forall m, let st' := init_phase limit fuel st in
      (has_key m (modules st) = true ->
         isinit st' m = true /\ ce m (trace st') = 1 /\ ci m (trace st') <= 1) /\
      (isinit st' m = false -> ce m (trace st') = 0 /\ ci m (trace st') = 0).
Proof.
  intros rank limit fuel st F NS m st'. pose proof F as [Hs _]. unfold init_phase, init_rest in *.
  set (st1 := init_all limit fuel st) in *.
  pose proof (fold_runs limit fuel [] (map fst (modules st1)) st1) as R2.
  pose proof (init_loop_runs limit fuel [] (S (length (export st) + 2 * length (avail st))) 0 st) as R1.
  destruct (runs_LInv rank _ _ _ _ R1 (fresh_LInv rank st F) Hs (runs_sticky _ _ _ _ _ R2 NS)) as [L1 Hs1]. fold st1 in L1, Hs1.
  destruct (runs_LInv rank _ _ _ _ R2 L1 Hs1 NS) as [L2 Hs2].
  destruct (init_once_when_idle rank _ L2 Hs2 m) as [R0 R1']. split; [|exact R0].
  intros K. assert (K1 : has_key m (modules st1) = true) by (apply (runs_keys _ _ _ _ _ R1); exact K).
  pose proof (fold_all rank limit fuel _ st1 L1 Hs1 NS m (has_key_In m _ K1) K1) as I. apply In_ce in I.
  unfold st' in *. clear st'.
  match goal with |- isinit ?s m = true /\ _ => destruct (isinit s m) eqn:Q end.
  - split; auto.
  - destruct (R0 eq_refl) as [C _]. rewrite C in I. lia.
Qed.

(* the same as an invariant of every single step of the get_module / Attached.__get__ machine: no module is
   re-entered (the stack of active initialisations is strictly ordered by rank), counts as above *)
Theorem C15_no_reentry_acyclic :
  forall (rank : name -> nat) limit st, LInv rank st -> LInv rank (step limit st).
Proof. intros; apply step_LInv; assumption. Qed.

(* a missing attached module, a wrongly typed one and an attachment chain deeper than the interpreter allows
   (what a cyclic attachment runs into) are each recorded as an error of the module being initialised, which is
   then left; errors are never removed by a later step *)
Theorem C15_bad_attachment_recorded :
  (forall limit st fr rest idx a ops b,
     stack st = fr :: rest -> f_ops fr = OAccess idx a :: ops ->
     find idx (attached_of st (f_mod fr)) = None -> a_target a = Some b ->
     has_key b (modules st) = false -> find b (avail st) = None ->
     errors (step limit st) = ErrInit (f_mod fr) :: errors st /\ stack (step limit st) = rest) /\
  (forall limit st fr rest idx a ops b,
     stack st = fr :: rest -> f_ops fr = ORet idx a b :: ops ->
     want_ok (a_want a) (d_tag (decl_of st b)) = false ->
     errors (step limit st) = ErrInit (f_mod fr) :: errors st /\ stack (step limit st) = rest) /\
  (forall limit st fr rest idx a ops b,
     stack st = fr :: rest -> f_ops fr = OAccess idx a :: ops ->
     find idx (attached_of st (f_mod fr)) = None -> a_target a = Some b ->
     has_key b (modules st) = true -> isinit st b = false -> limit <= length (stack st) ->
     errors (step limit st) = ErrInit (f_mod fr) :: errors st /\ overflow (step limit st) = true) /\
  (forall limit st, exists errs, errors (step limit st) = errs ++ errors st).
Proof.
  split; [|split; [|split]].
  - intros limit st fr rest idx a ops b S O A T K V. unfold step. rewrite S, O, A, T. unfold get_instance.
    rewrite K, V. simpl. auto.
  - intros limit st fr rest idx a ops b S O W. unfold step. rewrite S, O, W. simpl. auto.
  - intros limit st fr rest idx a ops b Hs O A T K I L. unfold step. rewrite Hs, O, A, T. unfold get_instance. rewrite K.
    assert (I2 : isinit (set_stack st ({| f_mod := f_mod fr; f_ops := ORet idx a b :: ops |} :: rest)) b = false) by exact I.
    rewrite I2. simpl length. rewrite Hs in L. simpl in L.
    destruct (Nat.leb limit (Datatypes.S (length rest))) eqn:Q; [simpl; auto|]. apply Nat.leb_gt in Q. lia.
  - intros limit st. exact (proj2 (step_ext limit st)).
Qed.

(* a reported error is a configuration error instead of a half-started node: under every schedule the node never
   reports ready, never waits for the start events, and is either still calling startModule or has exited *)
Theorem C15_errors_never_ready :
  forall limit fuel c sched,
    errors (initialised limit fuel c) <> [] ->
    let s := started limit fuel c sched in
    no_ready (trace (s_node s)) /\ s_pc s <> MRun /\ s_pc s <> MWait /\
    (s_pc s = MExited \/ exists m rest, s_pc s = MStart (m :: rest)).
Proof. intros; apply errors_never_ready; assumption. Qed.

(* the node reports ready only after every poll thread called its started callback (ready = true), or after the
   time-out while some poll thread had not finished its first round (ready = false); nothing is reported twice *)
Theorem C15_ready_after_first_round :
  forall limit fuel c sched,
    let s := started limit fuel c sched in
    s_pc s = MRun ->
    exists b pre, trace (s_node s) = EReady b :: pre /\ no_ready pre /\
      (b = true -> forall th, In th (s_threads s) -> In (EStarted (t_id th)) pre) /\
      (b = false -> exists th, In th (s_threads s) /\ t_done th = false).
Proof.
  intros limit fuel c sched s PC. assert (R : ready_inv s).
  { apply run_sched_ready_inv; [apply sys0_threads_ok|].
    pose proof (init_ev_no_ready _ (initialised_trace limit fuel c)) as N. revert N.
    generalize (initialised limit fuel c). intros st N. unfold ready_inv, sys0, pc_after, finish_start.
    destruct (map fst (modules st)); simpl; auto. destruct (errors st); simpl; auto. }
  unfold ready_inv in R. rewrite PC in R. exact R.
Qed.

(* the first round of a poll thread without communication failure (no CommunicationFailedError scripted for
   initialReads or a first read of a module it serves; failing writes and every other exception are absorbed and are
   covered): every configured start value of every module it serves is written (and initialReads called) before the
   first read of any of them, then the started callback, then the first pass of the regular loop (doPoll) *)
Theorem C15_writes_before_first_poll :
  forall st t,
    (forall m, In m (polled_of st t) -> d_cfail (decl_of st m) = CFNone) ->
    exists A B,
    thread_prog st t = A ++ B ++ [EStarted t] ++ map EDoPoll (polled_on st t) /\
    (forall m k, ~ In (ERead m k) A) /\ (forall m, ~ In (EDoPoll m) A) /\
    (forall e, In e B -> exists m k, e = ERead m k) /\
    (forall m k, In (EWrite m k) A -> In m (polled_of st t) /\ In k (d_writes (decl_of st m))) /\
    (forall m, In m (polled_of st t) -> forall k, In k (d_writes (decl_of st m)) -> In (EWrite m k) A).
Proof.
  intros st t NF. destruct (startup_prog_shape st t) as [A [B [E [HA [HB [W1 W2]]]]]].
  exists A, B. unfold thread_prog. rewrite cut_at_none.
  - unfold after_startup. simpl. rewrite E. rewrite <- app_assoc. split; [reflexivity|].
    split; [|split; [|split; [exact HB|split; [exact W1|exact W2]]]].
    + intros m k I. destruct (HA _ I) as [x [j [Q|Q]]]; discriminate.
    + intros m I. destruct (HA _ I) as [x [j [Q|Q]]]; discriminate.
  - apply no_fault_fails. exact NF.
Qed.

(* histories WITH communication failures.  Full statement (does NOT hold, see
   C15_refuted_writes_before_first_poll_after_comm_failure, finding C15/later-modules-skipped-after-comm-failure):
     forall st t m k, In m (polled_of st t) -> In k (d_writes (decl_of st m)) ->
       exists P1 P2, thread_prog st t = P1 ++ EWrite m k :: P2 /\ no read, doPoll or started callback in P1.
   Proved under the exact guard the code supports: initialReads of no module served EARLIER by the same thread raises
   CommunicationFailedError (a failure in initialReads of m itself or of a later module, in any first read, in any
   write is allowed).  Then every configured value of m is written, and everything the thread did before is a write
   or an initialReads call - no read function, no doPoll, no started callback. *)
Theorem C15_writes_before_first_poll_with_comm_failure_partial :
  forall st t L1 m L2 k,
    polled_of st t = L1 ++ m :: L2 ->
    (forall x, In x L1 -> d_cfail (decl_of st x) <> CFIReads) ->
    In k (d_writes (decl_of st m)) ->
    exists P1 P2, thread_prog st t = P1 ++ EWrite m k :: P2 /\
      (forall e, In e P1 -> exists x j, e = EWrite x j \/ e = EIReads x).
Proof.
  intros st t L1 m L2 k EL G K. apply in_split in K. destruct K as [w1 [w2 K]].
  set (X := flat_map (writes_ireads st) L1 ++ map (EWrite m) w1).
  assert (EX : exists Y, startup_prog st t = X ++ EWrite m k :: Y).
  { rewrite startup_prog_eq, EL. rewrite flat_map_app. simpl. unfold writes_ireads at 2. rewrite K.
    rewrite map_app. simpl. eexists. unfold X. repeat rewrite <- app_assoc. simpl. reflexivity. }
  destruct EX as [Y EY].
  assert (HX : forall e, In e X -> (exists x j, e = EWrite x j \/ e = EIReads x) /\ fails_at st e = false).
  { intros e I. unfold X in I. apply in_app_or in I. destruct I as [I|I].
    - apply in_flat_map in I. destruct I as [x [XI I]]. apply in_app_or in I. destruct I as [I|[I|[]]].
      + apply in_map_iff in I. destruct I as [y [I _]]. subst e. split; [exists x, y; left; reflexivity|reflexivity].
      + subst e. split; [exists x, 0; right; reflexivity|]. simpl. specialize (G x XI).
        destruct (d_cfail (decl_of st x)); auto. contradiction.
    - apply in_map_iff in I. destruct I as [y [I _]]. subst e. split; [exists m, y; left; reflexivity|reflexivity]. }
  unfold thread_prog. rewrite EY. rewrite cut_at_app; [|intros e I; apply HX; exact I].
  simpl. destruct (cut_at (fails_at st) Y) as [p b]; simpl.
  exists X, (p ++ after_startup st t b). split.
  - rewrite <- app_assoc. reflexivity.
  - intros e I. apply HX; exact I.
Qed.

(* every history: what a poll thread does is a prefix of the start-up sequence (writes and initialReads of every served
   module, then the first reads) - all of it unless the last event of the prefix raised CommunicationFailedError -,
   then the started callback (once, so with C15_ready_after_first_round: ready only after every thread finished or
   abandoned its first round, or timed out), after a failure the short wait, then the first pass of the regular loop *)
Theorem C15_first_round_with_comm_failure :
  forall st t, exists (pre suf : list event) (aborted : bool),
    startup_prog st t = pre ++ suf /\
    thread_prog st t = pre ++ [EStarted t] ++ (if aborted then [ECWait t] else []) ++ map EDoPoll (polled_on st t) /\
    (aborted = false -> suf = []) /\
    (aborted = true -> exists p e, pre = p ++ [e] /\ fails_at st e = true) /\
    (forall e, In e (removelast pre) -> fails_at st e = false).
Proof.
  intros st t. unfold thread_prog. destruct (cut_at_spec (fails_at st) (startup_prog st t)) as [suf [E [N A]]].
  destruct (cut_at (fails_at st) (startup_prog st t)) as [pre ab]; simpl in *.
  exists pre, suf, ab. split; [exact E|]. split; [reflexivity|]. split; [|split].
  - intros B. apply N; exact B.
  - intros B. destruct (A B) as [p [e [P [F _]]]]. eauto.
  - destruct ab.
    + destruct (A eq_refl) as [p [e [P [F Q]]]]. subst pre. rewrite removelast_last. exact Q.
    + destruct (N eq_refl) as [S Q]. subst suf. rewrite app_nil_r in E. subst pre.
      intros e I. apply Q. clear - I. induction (startup_prog st t) as [|a l IH]; simpl in *; [contradiction|].
      destruct l; [contradiction|]. destruct I as [I|I]; auto.
Qed.

(* a poll thread emits its program in order: every configuration, EVERY schedule,
   every point of the start phase, every poll thread whose started callback was called: the trace of the node is
   l1 ++ EStarted t :: l2 (newest first) and the whole executed part [pre] of the start-up sequence of the thread - all of
   it unless its last event raised CommunicationFailedError - is a subsequence of l2 in program order (events of the main
   thread and of other poll threads lie in between) *)
Theorem C15_started_callback_after_whole_round :
  forall limit fuel c sched,
    let s := started limit fuel c sched in
    forall th, In th (s_threads s) -> t_done th = true ->
    exists pre suf aborted l1 l2,
      startup_prog (s_node s) (t_id th) = pre ++ suf /\ (aborted = false -> suf = []) /\
      (aborted = true -> exists p e, pre = p ++ [e] /\ fails_at (s_node s) e = true) /\
      trace (s_node s) = l1 ++ EStarted (t_id th) :: l2 /\ Sub (rev pre) l2 /\ (forall e, In e pre -> In e l2) /\
      (exists post, thread_prog (s_node s) (t_id th) = pre ++ EStarted (t_id th) :: post) /\
      ~ In (EStarted (t_id th)) pre.
Proof.
  intros limit fuel c sched s th I D.
  assert (TK : threads_ok s) by (apply run_sched_threads_ok; apply sys0_threads_ok).
  unfold threads_ok in TK. rewrite Forall_forall in TK. destruct (TK th I) as [em [E [S DD]]].
  specialize (DD D).
  destruct (C15_first_round_with_comm_failure (s_node s) (t_id th)) as [pre [suf [ab [E1 [E2 [A1 [A2 _]]]]]]].
  assert (NP : ~ In (EStarted (t_id th)) pre).
  { intros Q. assert (Q1 : In (EStarted (t_id th)) (startup_prog (s_node s) (t_id th))) by (rewrite E1; apply in_or_app; left; exact Q).
    destruct (startup_prog_events _ _ _ Q1) as [[m [k X]]|[[m X]|[m [k X]]]]; discriminate. }
  rewrite E2 in E. simpl in E.
  destruct (prefix_with (EStarted (t_id th)) pre em (t_prog th) _ (eq_sym E) DD NP) as [X' EX].
  rewrite EX in S. rewrite rev_app_distr in S. simpl in S. rewrite <- app_assoc in S. simpl in S.
  destruct (Sub_split (EStarted (t_id th)) (rev X') (rev pre) _ S) as [l1 [l2 [T S2]]].
  exists pre, suf, ab, l1, l2. split; [exact E1|]. split; [exact A1|]. split; [exact A2|]. split; [exact T|].
  split; [exact S2|]. split; [|split; [|exact NP]].
  - intros e Q. apply (Sub_In _ _ S2). apply in_rev in Q. exact Q.
  - rewrite E2. simpl. eexists. reflexivity.
Qed.

(* the clause "configured start values are written before the first poll and the node reports ready only after
   every poll thread finished its first round" on the TRACE of the node: every configuration, every schedule; when the
   node reports ready (no time-out), for every poll thread without scripted communication failure the trace reads
   (newest first) EReady true :: l1 ++ EStarted t :: l2, where the whole start-up sequence of the thread is a
   subsequence of l2 in program order; in particular l2 contains the write of every configured value of every module
   the thread serves (failing writes included: the attempt is the event) *)
Theorem C15_ready_values_written :
  forall limit fuel c sched,
    let s := started limit fuel c sched in
    forall pre0, s_pc s = MRun -> trace (s_node s) = EReady true :: pre0 ->
    forall th, In th (s_threads s) ->
      (forall m, In m (polled_of (s_node s) (t_id th)) -> d_cfail (decl_of (s_node s) m) = CFNone) ->
      exists l1 l2, pre0 = l1 ++ EStarted (t_id th) :: l2 /\ Sub (rev (startup_prog (s_node s) (t_id th))) l2 /\
        (forall m k, In m (polled_of (s_node s) (t_id th)) -> In k (d_writes (decl_of (s_node s) m)) ->
           In (EWrite m k) l2).
Proof.
  intros limit fuel c sched s pre0 PC T th I NF.
  pose proof (started_ready_done limit fuel c sched) as RD. unfold ready_done in RD. fold s in RD. rewrite PC in RD.
  pose proof (all_done_spec _ (RD pre0 T) th I) as D.
  destruct (C15_started_callback_after_whole_round limit fuel c sched th I D)
    as [pre [suf [ab [l1 [l2 [E1 [A1 [A2 [TR [S2 [IN [[post TP] NP]]]]]]]]]]]].
  fold s in E1, A2, TR, TP.
  assert (NS : ~ In (EStarted (t_id th)) (startup_prog (s_node s) (t_id th))).
  { intros Q. destruct (startup_prog_events _ _ _ Q) as [[m [k X]]|[[m X]|[m [k X]]]]; discriminate. }
  assert (EQ : pre = startup_prog (s_node s) (t_id th)).
  { apply (split_unique (EStarted (t_id th)) _ _ post (map EDoPoll (polled_on (s_node s) (t_id th)))); auto.
    rewrite <- TP. apply no_fault_prog. exact NF. }
  subst pre.
  destruct l1 as [|x l1]; simpl in TR; rewrite T in TR; inversion TR; subst.
  exists l1, l2. split; [reflexivity|]. split; [exact S2|].
  intros m k M K. apply IN. destruct (startup_prog_shape (s_node s) (t_id th)) as [A [B [E [_ [_ [_ W2]]]]]].
  rewrite E. apply in_or_app. left. apply W2; auto.
Qed.

(* shutdown: every poll thread is asked to stop (twice: stopPollThread, joinPollThread) before the first
   shutdownModule, all of it after ready; a node that never became ready is not shut down by this path *)
Theorem C15_shutdown_stops_pollers_first :
  forall s order,
    (s_pc s = MRun ->
     trace (shutdown s order) =
       rev (map EShutdown (sorted_modules (s_node s) order)) ++
       rev (map EStop (stops_of s ++ stops_of s)) ++ trace (s_node s)) /\
    (s_pc s <> MRun -> shutdown s order = s_node s).
Proof.
  intros s order. split.
  - intros PC. unfold shutdown. rewrite PC, !fold_emit.
    rewrite (proj1 (emits_frame _ _)), (proj1 (emits_frame _ _)). reflexivity.
  - unfold shutdown. destruct (s_pc s); auto. contradiction.
Qed.


(* shutdown order (SecNode._getSortedModules), every configuration, every schedule, every pop order of the set:
   the order is a permutation of the modules of the node - with C15_shutdown_stops_pollers_first: every module is
   shut down exactly once.  This holds for EVERY graph of cached attachments (also for a cyclic one, where the
   function gives up and appends the visited and the unmarked names). *)
Theorem C15_shutdown_every_module_once :
  forall limit fuel c sched order,
    let st := s_node (started limit fuel c sched) in
    Permutation (sorted_modules st order) (map fst (modules st)) /\ NoDup (sorted_modules st order).
Proof.
  intros limit fuel c sched order st. destruct (started_wf limit fuel c sched) as [N A]. fold st in N, A.
  pose proof (sorted_modules_perm st order N A) as P. split; [exact P|].
  eapply Permutation_NoDup; [apply Permutation_sym; exact P|exact N].
Qed.

(* acyclic graph of cached attachments (rank decreases along every attachment that was resolved), pop order that
   enumerates the modules: every module stands BEFORE every module it is attached to - users are shut down first *)
Theorem C15_shutdown_users_before_attached :
  forall limit fuel c sched order (rank : name -> nat),
    let st := s_node (started limit fuel c sched) in
    (forall x, In x (map fst (modules st)) -> In x order) ->
    (forall u i b, In (i, b) (attached_of st u) -> rank b < rank u) ->
    forall u i b, In (i, b) (attached_of st u) ->
      exists l1 l2, sorted_modules st order = l1 ++ u :: l2 /\ In b l2.
Proof.
  intros limit fuel c sched order rank st COV R u i b I. destruct (started_wf limit fuel c sched) as [N A]. fold st in N, A.
  assert (U : In u (mod_names st)).
  { unfold attached_of in I. destruct (find u (modules st)) eqn:F; [|contradiction].
    apply has_key_In. unfold has_key. rewrite F. reflexivity. }
  assert (R' : forall x y, In x (mod_names st) -> In y (att_graph st x) -> rank y < rank x).
  { intros x y _ Y. unfold att_graph in Y. apply in_map_iff in Y. destruct Y as [[j y'] [E Y]]. simpl in E. subst y'.
    eapply R; eauto. }
  apply (sorted_modules_users_first st order rank N A COV R' u b U).
  unfold att_graph. apply in_map_iff. exists (i, b). auto.
Qed.

(* ... and the rank exists whenever the node reports ready (small names, see cfg_small): no hypothesis on the graph *)
Theorem C15_shutdown_users_before_attached_when_ready :
  forall limit fuel c sched order,
    cfg_small c -> enough_fuel limit c <= fuel -> s_pc (started limit fuel c sched) = MRun ->
    let st := s_node (started limit fuel c sched) in
    (forall x, In x (map fst (modules st)) -> In x order) ->
    forall u i b, In (i, b) (attached_of st u) ->
      exists l1 l2, sorted_modules st order = l1 ++ u :: l2 /\ In b l2.
Proof.
  intros limit fuel c sched order CS EF. pose proof (initialised_terminates limit fuel c EF) as NS.
  intros PC st COV u i b I. pose proof (running_no_errors limit fuel c sched PC) as NE.
  destruct (no_error_rank limit fuel c CS NE NS) as [rank R].
  destruct (initialised_II limit fuel c CS NE NS) as [[G _] _].
  destruct G as [_ _ _ _ F _].
  apply (fun R' => C15_shutdown_users_before_attached limit fuel c sched order rank COV R' u i b I).
  intros x j y J. fold st in J. unfold attached_of in J. subst st. rewrite started_modules in J.
  destruct (find x (modules (initialised limit fuel c))) as [ix|] eqn:FX; [|contradiction].
  assert (CA : cached_in (modules (initialised limit fuel c)) x j y) by (unfold cached_in; rewrite FX; exact J).
  destruct (F x j y CA) as [_ [_ TG]].
  apply R; auto. unfold has_key. rewrite FX. reflexivity.
Qed.

(* global: a cycle that get_module can follow (attachments read in earlyInit / initModule, io) among the
   modules of the node ALWAYS ends with a recorded error (so, by C15_errors_never_ready, the node never reports
   ready) - for every configuration with small names, every declaration order, every depth limit *)
Theorem C15_cyclic_attachment_is_an_error :
  forall limit fuel c u,
    cfg_small c -> enough_fuel limit c <= fuel ->
    reaches (initialised limit fuel c) u u -> errors (initialised limit fuel c) <> [].
Proof.
  intros limit fuel c u CS EF. pose proof (initialised_terminates limit fuel c EF) as NS.
  intros CY NE. destruct (no_error_rank limit fuel c CS NE NS) as [rank R].
  pose proof (reaches_rank _ rank R u u CY). lia.
Qed.

(* the same, positively: no recorded error => the graph followed by get_module has a rank function *)
Theorem C15_no_error_acyclic :
  forall limit fuel c,
    cfg_small c -> errors (initialised limit fuel c) = [] -> enough_fuel limit c <= fuel ->
    let st := initialised limit fuel c in
    exists rank : name -> nat, forall u t, has_key u (modules st) = true ->
      In t (targets_of (ops_m (modules st) u)) -> rank t < rank u.
Proof. intros; apply no_error_rank; auto using initialised_terminates. Qed.

(* liveness of the initialisation: when the node reports ready, EVERY module of the node (declared, created
   through an attachment, automatically created communicator, dynamically scanned) is marked as initialised *)
Theorem C15_ready_all_initialised :
  forall limit fuel c sched,
    cfg_small c -> enough_fuel limit c <= fuel -> s_pc (started limit fuel c sched) = MRun ->
    forall m, has_key m (modules (s_node (started limit fuel c sched))) = true ->
      isinit (s_node (started limit fuel c sched)) m = true.
Proof.
  intros limit fuel c sched CS EF. pose proof (initialised_terminates limit fuel c EF) as NS.
  intros PC m K. pose proof (running_no_errors limit fuel c sched PC) as NE.
  destruct (initialised_II limit fuel c CS NE NS) as [_ [_ ALL]].
  unfold isinit in *. rewrite started_modules in *. apply ALL. exact K.
Qed.

(* get_module never loops: for EVERY configuration (cyclic ones included, no hypothesis on names), every
   declaration order and every depth limit, the step budget enough_fuel limit c (linear in the depth limit times the
   number of configured modules, see LemmasTerm.v) is never exhausted - every get_module call of create_modules,
   get_descriptive_data and _processCfg returns, at the latest through the depth limit (recorded as an error).
   With it the model-side hypothesis [stuck = false] disappears from the theorems above. *)
Theorem C15_get_module_never_loops :
  forall limit fuel c, enough_fuel limit c <= fuel -> stuck (initialised limit fuel c) = false.
Proof. intros; apply initialised_terminates; assumption. Qed.

(* the correspondence driver uses exactly that budget (Run.step_fuel c = enough_fuel depth_limit c): for EVERY case -
   configuration, schedule, pop order, and whatever the implementation is said to have done - the model run behind
   check_case never exhausts its step budget; the conjunct [negb (stuck st)] of check_case is implied *)
Theorem C15_correspondence_never_stuck :
  forall c : case, enough_fuel depth_limit (c_cfg c) <= step_fuel (c_cfg c) /\
                   stuck (model_final c) = false /\ stuck (s_node (model_run c)) = false.
Proof.
  intros c. split; [apply step_fuel_is_enough|].
  assert (H : stuck (s_node (model_run c)) = false).
  { unfold model_run. destruct (started_emits depth_limit (step_fuel (c_cfg c)) (c_cfg c) (c_sched c)) as [evs [E _]].
    rewrite E, (proj2 (proj2 (proj2 (emits_frame _ _)))). apply initialised_terminates. apply step_fuel_is_enough. }
  split; [|exact H]. unfold model_final, shutdown. destruct (s_pc (model_run c)); auto.
  rewrite !fold_emit, !(proj2 (proj2 (proj2 (emits_frame _ _)))). exact H.
Qed.

(* one step of the machine strictly decreases the measure behind it *)
Theorem C15_step_measure_decreases :
  forall C limit st, DB C st -> stack st <> [] -> length (stack st) <= S limit ->
    measure C (S limit) (step limit st) < measure C (S limit) st.
Proof. intros C limit st D N L. apply decr_measure. apply (proj1 (step_decr C limit st D N L)). Qed.

(* the first clause of the property at the ready point, on EVERY graph (Pinata initialisations during
   create_modules, lazily created modules and automatically created communicators included): every module of the node
   got exactly one earlyInit (ce), exactly one initModule (ci) and exactly one startModule, earlyInit before
   initModule (early_first), every startModule after the whole initialisation (the trace is the initialisation trace
   with later events in front, and the initialisation trace contains no startModule), in the order of secnode.modules;
   what is not a module of the node got nothing *)
Theorem C15_ready_lifecycle_exactly_once :
  forall limit fuel c sched,
    cfg_small c -> enough_fuel limit c <= fuel -> s_pc (started limit fuel c sched) = MRun ->
    let st := s_node (started limit fuel c sched) in
    (forall m, has_key m (modules st) = true -> ce m (trace st) = 1 /\ ci m (trace st) = 1) /\
    (forall m, has_key m (modules st) = false -> ce m (trace st) = 0 /\ ci m (trace st) = 0) /\
    early_first (trace st) /\
    starts (trace st) = rev (map EStart (map fst (modules st))) /\
    (exists evs, trace st = evs ++ trace (initialised limit fuel c) /\ starts (trace (initialised limit fuel c)) = []).
Proof.
  intros limit fuel c sched CS EF. pose proof (initialised_terminates limit fuel c EF) as NS.
  intros PC st. pose proof (running_no_errors limit fuel c sched PC) as NE.
  destruct (initialised_once limit fuel c CS NE NS) as [A [B O]].
  destruct (started_later limit fuel c sched) as [evs [E F]].
  subst st. rewrite started_modules. rewrite E.
  split; [|split; [|split; [|split]]].
  - intros m K. destruct (later_counts evs (trace (initialised limit fuel c)) m F) as [X Y]. rewrite X, Y. auto.
  - intros m K. destruct (later_counts evs (trace (initialised limit fuel c)) m F) as [X Y]. rewrite X, Y. auto.
  - apply later_early_first; auto.
  - rewrite <- E. pose proof (started_start_inv limit fuel c sched) as SI. unfold start_inv in SI. rewrite PC in SI. exact SI.
  - exists evs. split; [reflexivity|]. apply starts_init_ev. apply initialised_trace.
Qed.

(* nodes that end WITH an error (or are still starting, or report ready): at most once each, in order.
   For every configuration with small names whose references decrease along a rank function (cfg_ranked: every
   configured attachment target, every io module, every automatically created communicator has a smaller rank than
   its user - an acyclic configuration; missing, wrongly typed, unconfigured mandatory attachments, failing
   earlyInit / initModule, HasIO without uri and io, the depth limit are all allowed), every declaration order, every
   depth limit, every schedule, at EVERY point of the start phase (so also at sys.exit): every module got at most one
   earlyInit and no more initModule than earlyInit calls (hence at most one), initModule only after earlyInit of the
   same module, a module that is not marked as initialised got none; startModule was called for a prefix of
   secnode.modules, once each, in that order, after the whole initialisation.
   (The rank hypothesis is necessary: on a cyclic configuration the code repeats earlyInit / initModule until the
   RecursionError, about 250 times - observed, DESIGN.md section 7; exactly once at the ready point needs no rank:
   C15_ready_lifecycle_exactly_once.) *)
Theorem C15_lifecycle_at_most_once_with_errors :
  forall (rank : name -> nat) limit fuel c sched,
    cfg_small c -> cfg_ranked rank c -> enough_fuel limit c <= fuel ->
    let st := s_node (started limit fuel c sched) in
    (forall m, ce m (trace st) <= 1 /\ ci m (trace st) <= ce m (trace st)) /\
    (forall m, isinit st m = false -> ce m (trace st) = 0 /\ ci m (trace st) = 0) /\
    early_first (trace st) /\
    (exists done rest, map fst (modules st) = done ++ rest /\ starts (trace st) = rev (map EStart done)) /\
    (exists evs, trace st = evs ++ trace (initialised limit fuel c) /\ starts (trace (initialised limit fuel c)) = []).
Proof.
  intros rank limit fuel c sched CS CR EF. pose proof (initialised_terminates limit fuel c EF) as NS.
  intros st.
  assert (AP : av_ranked rank (c_static c ++ c_dyn c)).
  { intros b d I. apply in_app_or in I. destruct I; [apply (proj1 CR)|apply (proj2 CR)]; assumption. }
  destruct (runs_RI rank limit fuel _ _ _ (cfg_small_pool c CS) AP (initialised_runs limit fuel c)
              (node0_RI rank _ (proj1 CS) (proj1 CR)) eq_refl NS) as [[[_ _ _ RR _] _ O] Hs].
  assert (R := fun m => RR m). rewrite Hs in R. specialize (fun m => R m (fun x => x)).
  destruct (started_later limit fuel c sched) as [evs [E F]].
  assert (M : modules st = modules (initialised limit fuel c)) by (apply started_modules).
  assert (CNT : forall m, ce m (trace st) = ce m (trace (initialised limit fuel c)) /\
                          ci m (trace st) = ci m (trace (initialised limit fuel c))).
  { intros m. unfold st. rewrite E. apply later_counts; exact F. }
  split; [|split; [|split; [|split]]].
  - intros m. destruct (CNT m) as [X Y]. rewrite X, Y. destruct (R m) as [R0 R1].
    destruct (isinit_m (modules (initialised limit fuel c)) m); [destruct (R1 eq_refl); lia|destruct (R0 eq_refl); lia].
  - intros m I. destruct (CNT m) as [X Y]. rewrite X, Y. apply R. unfold isinit in *. rewrite <- M. exact I.
  - unfold st. rewrite E. apply later_early_first; auto.
  - pose proof (started_start_inv limit fuel c sched) as SI. unfold start_inv in SI. fold st in SI. rewrite M.
    destruct (s_pc (started limit fuel c sched)) as [rest| | |];
      [destruct SI as [done [EQ [_ S]]]; exists done, rest; auto|..];
      exists (map fst (modules (initialised limit fuel c))), []; rewrite app_nil_r; auto.
  - exists evs. split; [exact E|]. apply starts_init_ev. apply initialised_trace.
Qed.

(* the invariant behind it is kept by every step of the get_module machine, with lazy creation and with errors *)
Theorem C15_at_most_once_step :
  forall (rank : name -> nat) limit st, RI rank st -> RI rank (step limit st).
Proof. intros; apply step_RI; assumption. Qed.

(* the counting invariant behind it, one step: earlyInit events of a module = its frames past earlyInit + 1 if marked *)
Theorem C15_counts_while_no_error :
  forall limit st, GInv st -> CInv st -> errors (step limit st) = [] -> CInv (step limit st).
Proof. intros; apply step_CI; assumption. Qed.

(* the invariant behind the three theorems above, as long as no error is recorded: every active get_module call
   belongs to a module that is not yet marked (no re-entry, also on cyclic graphs before the error), the targets of
   the accesses it has already executed are marked *)
Theorem C15_no_reentry_while_no_error :
  forall limit st, GInv st -> errors (step limit st) = [] -> GInv (step limit st).
Proof. intros; apply step_GI; assumption. Qed.

(* non-vacuity: user declared before the module it attaches; shared poll-free run to completion *)
Definition demo_cfg : cfg :=
  {| c_static := [(0, plain true [to 1] [0; 1]); (1, plain true [] [])]; c_dyn := [] |}.
Example C15_demo :
  rev (trace (lifecycle 40 2000 demo_cfg
                [SMain; SThread 0; SThread 0; SMain; SThread 0; SThread 0; SThread 0; SThread 0;
                 SThread 1; SThread 1; SThread 1; SThread 1; SMain] [0; 1])) =
  [EEarly 0; EInit 0; EEarly 1; EInit 1; ESee 0 0 (Some 1) true; EStart 0; EWrite 0 0; EWrite 0 1; EStart 1;
   EIReads 0; ERead 0 0; ERead 0 1; EStarted 0; EIReads 1; ERead 1 0; ERead 1 1; EStarted 1; EReady true;
   EStop 0; EStop 1; EStop 0; EStop 1; EShutdown 0; EShutdown 1].
Proof. vm_compute. reflexivity. Qed.

(* non-vacuity of the hypotheses of C15_init_once_acyclic *)
Definition demo_rank (n : name) : nat := match n with 0 => 1 | _ => 0 end.
Definition demo_created : node := Eval vm_compute in create_all 40 2000 demo_cfg.
Example C15_fresh_demo : fresh demo_rank (create_all 40 2000 demo_cfg) /\
  stuck (init_phase 40 2000 (create_all 40 2000 demo_cfg)) = false /\
  isinit (init_phase 40 2000 (create_all 40 2000 demo_cfg)) 0 = true.
Proof.
  (* the node after create_modules is computed once *)
  assert (CA : create_all 40 2000 demo_cfg = demo_created) by (vm_compute; reflexivity). rewrite CA; clear CA.
  split; [|split; vm_compute; reflexivity].
  unfold fresh. split; [reflexivity|]. split; [reflexivity|]. split; [|split].
  - intros [|[|m]]; reflexivity.
  - intros [|[|b]] d; vm_compute; intros F K; try discriminate.
  - intros [|[|b]]; vm_compute; intros K; try discriminate;
    repeat (apply Forall_cons; [first [exact I | intros t E; inversion E; subst; vm_compute; lia]|]); apply Forall_nil.
Qed.

(* non-vacuity of the global theorems: demo_cfg has small names and reports ready (so its hypotheses hold); the
   two-module cycle 0 <-> 1 is reachable by get_module and is reported *)
Example C15_small_demo : cfg_small demo_cfg /\ enough_fuel 40 demo_cfg <= (7 * 1000) /\
  errors (initialised 40 (7 * 1000) demo_cfg) = [] /\
  sorted_modules (initialised 40 (7 * 1000) demo_cfg) [1; 0] = [0; 1].
Proof.
  split; [split; apply small_avb_ok; reflexivity|].
  split; [apply Nat.leb_le; vm_compute; reflexivity|vm_compute; auto].
Qed.

Definition cyc_cfg : cfg :=
  {| c_static := [(0, plain true [to 1] []); (1, plain true [to 0] [])]; c_dyn := [] |}.
Definition cyc_node : node := Eval vm_compute in initialised 40 (7 * 1000) cyc_cfg.
Example C15_cycle_demo : cfg_small cyc_cfg /\ enough_fuel 40 cyc_cfg <= (7 * 1000) /\
  reaches (initialised 40 (7 * 1000) cyc_cfg) 0 0 /\ errors (initialised 40 (7 * 1000) cyc_cfg) <> [].
Proof.
  split; [split; apply small_avb_ok; reflexivity|].
  split; [apply Nat.leb_le; vm_compute; reflexivity|].
  (* the node is computed once *)
  assert (E : initialised 40 (7 * 1000) cyc_cfg = cyc_node) by (vm_compute; reflexivity). rewrite E.
  split; [|discriminate].
  apply (reach_more _ 0 1 0); [|apply reach_one]; split; vm_compute; auto.
Qed.

(* non-vacuity of C15_lifecycle_at_most_once_with_errors: module 0 attaches the missing module 99; the configuration
   is small and ranked, the initialisation ends with a recorded error, the node exits *)
Definition err_cfg : cfg :=
  {| c_static := [(0, plain true [to 99] [0]); (1, plain true [to 0] [])]; c_dyn := [] |}.
Definition err_rank (n : name) : nat := match n with 0 => 1 | 1 => 2 | _ => 0 end.
Example C15_error_demo : cfg_small err_cfg /\ cfg_ranked err_rank err_cfg /\ enough_fuel 40 err_cfg <= (7 * 1000) /\
  errors (initialised 40 (7 * 1000) err_cfg) <> [] /\
  s_pc (started 40 (7 * 1000) err_cfg [SMain; SMain]) = MExited.
Proof.
  split; [split; apply small_avb_ok; reflexivity|].
  split; [|split; [apply Nat.leb_le; vm_compute; reflexivity|split; [vm_compute; discriminate|vm_compute; reflexivity]]].
  - split; intros b d I; simpl in I;
      repeat (destruct I as [I|I]; [inversion I; subst; split; [|split]; simpl;
                                     [intros a t [A|[]] T; subst a; inversion T; subst; vm_compute; lia
                                     |intros; discriminate|intros; discriminate]|]);
      contradiction.
Qed.

(* the communication failure path (finding C15/later-modules-skipped-after-comm-failure), whole lifecycle: modules 0 and 1
   share the communicator 100; initialReads of module 0 raises CommunicationFailedError: early started callback, the
   short wait, then doPoll of module 1 whose configured value x0 was never written; the node reports ready *)
Example C15_comm_failure_demo :
  rev (trace (lifecycle 40 2000 cfg_comm sched_comm [0; 1; 100])) =
  [EEarly 100; EInit 100; EEarly 0; EInit 0; ESee 0 99 (Some 100) true; EEarly 1; EInit 1; ESee 1 99 (Some 100) true;
   EStart 100; EStart 0; EStart 1; EIReads 100; EIReads 0; EStarted 100; ECWait 100; EDoPoll 100; EDoPoll 0; EDoPoll 1;
   EReady true; EStop 100; EStop 100; EShutdown 1; EShutdown 0; EShutdown 100].
Proof. vm_compute. reflexivity. Qed.

(* the former finding: module 0 has export = False, nobody attaches it, it has a configured start value; it is now
   initialised, its value is written in the first round of its poll thread, before the node reports ready *)
Definition cfg_unexported : cfg :=
  {| c_static := [(0, plain false [] [0]); (1, plain true [] [])]; c_dyn := [] |}.
Example C15_unexported_module_initialised :
  rev (trace (lifecycle 40 2000 cfg_unexported
                [SMain; SMain; SThread 0; SThread 0; SThread 0; SThread 0; SThread 0;
                 SThread 1; SThread 1; SThread 1; SThread 1; SMain] [0; 1])) =
  [EEarly 1; EInit 1; EEarly 0; EInit 0; EStart 0; EStart 1;
   EWrite 0 0; EIReads 0; ERead 0 0; ERead 0 1; EStarted 0; EIReads 1; ERead 1 0; ERead 1 1; EStarted 1;
   EReady true; EStop 0; EStop 1; EStop 0; EStop 1; EShutdown 1; EShutdown 0].
Proof. vm_compute. reflexivity. Qed.

Print Assumptions C15_source_facts.
Print Assumptions C15_init_once_acyclic.
Print Assumptions C15_no_reentry_acyclic.
Print Assumptions C15_bad_attachment_recorded.
Print Assumptions C15_errors_never_ready.
Print Assumptions C15_ready_after_first_round.
Print Assumptions C15_writes_before_first_poll.
Print Assumptions C15_writes_before_first_poll_with_comm_failure_partial.
Print Assumptions C15_first_round_with_comm_failure.
Print Assumptions C15_started_callback_after_whole_round.
Print Assumptions C15_ready_values_written.
Print Assumptions C15_shutdown_stops_pollers_first.
Print Assumptions C15_shutdown_every_module_once.
Print Assumptions C15_shutdown_users_before_attached.
Print Assumptions C15_shutdown_users_before_attached_when_ready.
Print Assumptions C15_cyclic_attachment_is_an_error.
Print Assumptions C15_no_error_acyclic.
Print Assumptions C15_ready_all_initialised.
Print Assumptions C15_no_reentry_while_no_error.
Print Assumptions C15_ready_lifecycle_exactly_once.
Print Assumptions C15_counts_while_no_error.
Print Assumptions C15_lifecycle_at_most_once_with_errors.
Print Assumptions C15_at_most_once_step.
Print Assumptions C15_get_module_never_loops.
Print Assumptions C15_step_measure_decreases.
Print Assumptions C15_correspondence_never_stuck.
Print Assumptions C15_refuted_pinata_order_dependent.
Print Assumptions C15_refuted_writes_before_first_poll_after_comm_failure.
