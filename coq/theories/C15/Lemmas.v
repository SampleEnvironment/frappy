(* C15 — frame lemmas, monotonicity of the error list, the initialisation phase as a sequence of
   get_module / get_module_instance calls (runs: every invariant of the phase is lifted by one induction over it), the
   start/ready phase under every schedule and the shutdown (they only emit events) *)
From Coq Require Import List Arith Bool Lia.
Import ListNotations.
Require Import FV.C15.Model.

Lemma trace_set_modules st v : trace (set_modules st v) = trace st. Proof. reflexivity. Qed.
Lemma trace_set_export st v : trace (set_export st v) = trace st. Proof. reflexivity. Qed.
Lemma trace_set_avail st v : trace (set_avail st v) = trace st. Proof. reflexivity. Qed.
Lemma trace_set_iodict st v : trace (set_iodict st v) = trace st. Proof. reflexivity. Qed.
Lemma trace_add_error st e : trace (add_error e st) = trace st. Proof. reflexivity. Qed.
Lemma trace_set_stack st v : trace (set_stack st v) = trace st. Proof. reflexivity. Qed.
Lemma trace_set_overflow st : trace (set_overflow st) = trace st. Proof. reflexivity. Qed.
Lemma trace_set_stuck st : trace (set_stuck st) = trace st. Proof. reflexivity. Qed.
Lemma trace_emit st e : trace (emit e st) = e :: trace st. Proof. reflexivity. Qed.
Lemma errors_set_modules st v : errors (set_modules st v) = errors st. Proof. reflexivity. Qed.
Lemma errors_set_export st v : errors (set_export st v) = errors st. Proof. reflexivity. Qed.
Lemma errors_set_avail st v : errors (set_avail st v) = errors st. Proof. reflexivity. Qed.
Lemma errors_set_iodict st v : errors (set_iodict st v) = errors st. Proof. reflexivity. Qed.
Lemma errors_add_error st e : errors (add_error e st) = e :: errors st. Proof. reflexivity. Qed.
Lemma errors_set_stack st v : errors (set_stack st v) = errors st. Proof. reflexivity. Qed.
Lemma errors_set_overflow st : errors (set_overflow st) = errors st. Proof. reflexivity. Qed.
Lemma errors_set_stuck st : errors (set_stuck st) = errors st. Proof. reflexivity. Qed.
Lemma errors_emit st e : errors (emit e st) = errors st. Proof. reflexivity. Qed.
Lemma modules_emit st e : modules (emit e st) = modules st. Proof. reflexivity. Qed.
Lemma trace_mark_init u st : trace (mark_init u st) = trace st. Proof. reflexivity. Qed.
Lemma trace_attach u i b st : trace (attach u i b st) = trace st. Proof. reflexivity. Qed.
Lemma trace_add_polled o u st : trace (add_polled o u st) = trace st. Proof. reflexivity. Qed.
Lemma errors_mark_init u st : errors (mark_init u st) = errors st. Proof. reflexivity. Qed.
Lemma errors_attach u i b st : errors (attach u i b st) = errors st. Proof. reflexivity. Qed.
Lemma errors_add_polled o u st : errors (add_polled o u st) = errors st. Proof. reflexivity. Qed.

Lemma trace_add_module n i st : trace (add_module n i st) = trace st.
Proof. unfold add_module. destruct (d_export (i_decl i)); reflexivity. Qed.
Lemma errors_add_module n i st : errors (add_module n i st) = errors st.
Proof. unfold add_module. destruct (d_export (i_decl i)); reflexivity. Qed.
Lemma modules_add_module n i st : modules (add_module n i st) = set_assoc n i (modules st).
Proof. unfold add_module. destruct (d_export _); reflexivity. Qed.
Lemma avail_add_module n i st : avail (add_module n i st) = avail st.
Proof. unfold add_module. destruct (d_export _); reflexivity. Qed.
Lemma iodict_add_module n i st : iodict (add_module n i st) = iodict st.
Proof. unfold add_module. destruct (d_export _); reflexivity. Qed.
Lemma trace_register u st : trace (register u st) = trace st.
Proof. unfold register. destruct (_ || _); reflexivity. Qed.
Lemma errors_register u st : errors (register u st) = errors st.
Proof. unfold register. destruct (_ || _); reflexivity. Qed.
Lemma trace_push b st : trace (push b st) = trace st. Proof. reflexivity. Qed.
Lemma errors_push b st : errors (push b st) = errors st. Proof. reflexivity. Qed.
Lemma trace_raise_top st u r : trace (raise_top st u r) = trace st. Proof. reflexivity. Qed.
Lemma errors_raise_top st u r : errors (raise_top st u r) = ErrInit u :: errors st. Proof. reflexivity. Qed.

Lemma find_In {A} k (v : A) : forall l, find k l = Some v -> In (k, v) l.
Proof.
  induction l as [|[k0 v0] r IH]; simpl; [discriminate|]. destruct (Nat.eqb k k0) eqn:E.
  - apply Nat.eqb_eq in E. subst. intros H. inversion H. left; reflexivity.
  - intros H. right. auto.
Qed.

(* get_module_instance touches the module table, the export list, ioDict and the error list, nothing else *)
Lemma create_frame st b d :
  trace (fst (create st b d)) = trace st /\ stack (fst (create st b d)) = stack st /\
  avail (fst (create st b d)) = avail st /\ stuck (fst (create st b d)) = stuck st /\
  exists errs, errors (fst (create st b d)) = errs ++ errors st.
Proof.
  unfold create. destruct (negb (creatable d)); simpl.
  - repeat split. exists [ErrCreate b]. reflexivity.
  - destruct (d_kind d) as [|[|u|m]|]; simpl; try destruct (find u (iodict st)); simpl;
      unfold add_module; simpl; repeat (destruct (d_export _); simpl); repeat split; exists []; reflexivity.
Qed.

Lemma get_instance_frame st b :
  trace (fst (get_instance st b)) = trace st /\ stack (fst (get_instance st b)) = stack st /\
  avail (fst (get_instance st b)) = avail st /\ stuck (fst (get_instance st b)) = stuck st /\
  exists errs, errors (fst (get_instance st b)) = errs ++ errors st.
Proof.
  unfold get_instance. destruct (has_key b (modules st)); [repeat split; exists []; reflexivity|].
  destruct (find b (avail st)); [apply create_frame|repeat split; exists []; reflexivity].
Qed.

(* extension: the trace grows by initialisation events only, the error list only grows *)
Definition init_ev (e : event) : Prop :=
  match e with EEarly _ | EInit _ | ESee _ _ _ _ => True | _ => False end.

Definition ext (st st' : node) : Prop :=
  (exists evs, trace st' = evs ++ trace st /\ Forall init_ev evs) /\
  (exists errs, errors st' = errs ++ errors st).

Lemma ext_refl st : ext st st.
Proof. split; [exists []|exists []]; simpl; auto. Qed.

Lemma ext_trans a b c : ext a b -> ext b c -> ext a c.
Proof.
  intros [[e1 [H1 F1]] [r1 R1]] [[e2 [H2 F2]] [r2 R2]]. split.
  - exists (e2 ++ e1). rewrite H2, H1, app_assoc. split; auto. apply Forall_app; auto.
  - exists (r2 ++ r1). rewrite R2, R1, app_assoc. reflexivity.
Qed.

Lemma ext_same st st' : trace st' = trace st -> errors st' = errors st -> ext st st'.
Proof. intros H1 H2. split; [exists []|exists []]; simpl; auto. Qed.

Lemma ext_emit st e : init_ev e -> ext st (emit e st).
Proof. intros H. split; [exists [e]|exists []]; simpl; auto. Qed.

Lemma ext_err st st' e : trace st' = trace st -> errors st' = e :: errors st -> ext st st'.
Proof. intros H1 H2. split; [exists []|exists [e]]; simpl; auto. Qed.

Lemma errs_back st st' : ext st st' -> errors st' = [] -> errors st = [].
Proof. intros [_ [errs E]] H. rewrite E in H. apply app_eq_nil in H. tauto. Qed.

Lemma ext_In st st' e : ext st st' -> In e (trace st) -> In e (trace st').
Proof. intros [[evs [T _]] _] I. rewrite T. apply in_or_app. right. exact I. Qed.

Lemma get_instance_ext st b : ext st (fst (get_instance st b)).
Proof. destruct (get_instance_frame st b) as [T [_ [_ [_ E]]]]. split; [exists []; rewrite T; auto|exact E]. Qed.

Lemma step_ext limit st : ext st (step limit st).
Proof.
  unfold step. destruct (stack st) as [|fr rest]; [apply ext_refl|].
  destruct (f_ops fr) as [|o ops]; [apply ext_same; reflexivity|].
  destruct o.
  - apply ext_emit; exact I.
  - apply ext_emit; exact I.
  - destruct (find idx (attached_of st (f_mod fr))); [apply ext_emit; exact I|].
    destruct (a_target a) as [b|]; [|apply ext_emit; exact I].
    pose proof (get_instance_ext st b) as G. destruct (get_instance st b) as [st1 r]; simpl in G.
    eapply ext_trans; [exact G|].
    destruct r; try (apply ext_err with (e := ErrInit (f_mod fr)); reflexivity).
    destruct (isinit _ b); [apply ext_same; reflexivity|].
    destruct (Nat.leb _ _); [apply ext_err with (e := ErrInit (f_mod fr))|apply ext_same]; reflexivity.
  - destruct (want_ok _ _); [apply (ext_emit (attach (f_mod fr) idx b st)); exact I|].
    apply ext_err with (e := ErrInit (f_mod fr)); reflexivity.
  - apply ext_err with (e := ErrInit (f_mod fr)); reflexivity.
  - apply ext_same; simpl; [apply trace_register|apply errors_register].
Qed.

(* a step never touches module_cfg or the flag of the step budget *)
Lemma step_frame limit st : avail (step limit st) = avail st /\ stuck (step limit st) = stuck st.
Proof.
  unfold step. destruct (stack st) as [|fr rest]; auto. destruct (f_ops fr) as [|o ops]; auto.
  destruct o; simpl; auto.
  - destruct (find idx _); auto. destruct (a_target a) as [b|]; auto.
    destruct (get_instance_frame st b) as [_ [_ [A [K _]]]]. destruct (get_instance st b) as [st1 r]; simpl in *.
    destruct r; simpl; auto. destruct (isinit _ b); simpl; auto. destruct (Nat.leb _ _); simpl; auto.
  - destruct (want_ok _ _); auto.
  - unfold register. destruct (_ || _); auto.
Qed.

Lemma run_gm_ext limit fuel : forall st, ext st (run_gm limit fuel st).
Proof.
  induction fuel as [|fuel IH]; intros st; simpl; destruct (stack st) eqn:S; try apply ext_refl.
  - apply ext_same; reflexivity.
  - eapply ext_trans; [apply step_ext|apply IH].
Qed.

Lemma gm_top_ext limit fuel st b : ext st (gm_top limit fuel st b).
Proof.
  unfold gm_top. pose proof (get_instance_ext st b) as G. destruct (get_instance st b) as [st1 r]; simpl in G.
  destruct r; auto. destruct (isinit st1 b); auto.
  eapply ext_trans; [exact G|]. eapply ext_trans; [|apply run_gm_ext]. apply ext_same; reflexivity.
Qed.

(* the flag of the step budget is never reset *)
Lemma run_gm_sticky limit fuel : forall st, stuck st = true -> stuck (run_gm limit fuel st) = true.
Proof.
  induction fuel as [|fuel IH]; intros st H; simpl; destruct (stack st); auto. apply IH.
  rewrite (proj2 (step_frame limit st)). exact H.
Qed.

Lemma gm_top_sticky limit fuel st b : stuck st = true -> stuck (gm_top limit fuel st b) = true.
Proof.
  intros H. unfold gm_top. destruct (get_instance_frame st b) as [_ [_ [_ [G _]]]].
  destruct (get_instance st b) as [st1 r]; simpl in G. rewrite H in G.
  destruct r; auto. destruct (isinit st1 b); auto. apply run_gm_sticky. exact G.
Qed.

Lemma lookup_all_In pool : forall ns b d, In (b, d) (lookup_all ns pool) -> In (b, d) pool.
Proof.
  induction ns as [|n r IH]; simpl; intros b d I; [contradiction|].
  destruct (find n pool) as [d0|] eqn:F; [|auto]. destruct I as [E|I]; [|auto].
  inversion E; subst. apply find_In. exact F.
Qed.

(* the initialisation phase as a sequence of calls:
   get_module from outside of any initialisation, get_module_instance, a name added to module_cfg (from pool) *)
Section Runs.
Variables limit fuel : nat.
Variable pool : list (name * decl).

Inductive runs : node -> node -> Prop :=
| runs_done st : runs st st
| runs_gm st b st' : runs (gm_top limit fuel st b) st' -> runs st st'
| runs_gi st b st' : runs (fst (get_instance st b)) st' -> runs st st'
| runs_avail st b d st' : In (b, d) pool -> runs (set_avail st (set_assoc b d (avail st))) st' -> runs st st'.

Lemma runs_trans a b c : runs a b -> runs b c -> runs a c.
Proof. induction 1; intros H2; auto; [eapply runs_gm|eapply runs_gi|eapply runs_avail]; eauto. Qed.

Lemma create_loop_runs dyn : incl dyn pool -> forall n todos st, incl todos pool ->
  runs st (create_loop limit fuel n dyn todos st).
Proof.
  intros ID. induction n as [|n IH]; intros todos st IT; simpl; [constructor|].
  destruct todos as [|[b d] rest]; [constructor|].
  assert (IR : incl rest pool) by (intros x X; apply IT; right; exact X).
  destruct (has_key b (modules st)); [apply IH; exact IR|].
  apply (runs_avail _ b d); [apply IT; left; reflexivity|]. eapply runs_gi with (b := b).
  destruct (get_instance _ b) as [st1 r]; simpl. destruct r; try (apply IH; exact IR).
  destruct (d_kind d); try (apply IH; exact IR). apply (runs_gm _ b). apply IH.
  intros x X. apply in_app_or in X. destruct X as [X|X]; [auto|]. destruct x. apply ID. eapply lookup_all_In; eauto.
Qed.

Lemma init_loop_runs : forall n i st, runs st (init_loop limit fuel n i st).
Proof.
  induction n as [|n IH]; intros i st; simpl; [constructor|].
  destruct (nth_error (export st) i) as [b|]; [|constructor]. apply (runs_gm _ b). apply IH.
Qed.

Lemma fold_runs : forall names st, runs st (fold_left (fun acc b => gm_top limit fuel acc b) names st).
Proof. induction names as [|b r IH]; intros st; simpl; [constructor|]. apply (runs_gm _ b). apply IH. Qed.

Lemma init_phase_runs st : runs st (init_phase limit fuel st).
Proof. eapply runs_trans; [apply init_loop_runs|apply fold_runs]. Qed.

Lemma runs_ext st st' : runs st st' -> ext st st'.
Proof.
  induction 1; [apply ext_refl| | |]; (eapply ext_trans; [|eassumption]);
    [apply gm_top_ext|apply get_instance_ext|apply ext_same; reflexivity].
Qed.

Lemma runs_sticky st st' : runs st st' -> stuck st' = false -> stuck st = false.
Proof.
  induction 1 as [|st b st' R IH|st b st' R IH|st b d st' I R IH]; intros NS; auto; specialize (IH NS).
  - destruct (stuck st) eqn:Q; auto. rewrite (gm_top_sticky limit fuel st b Q) in IH. discriminate.
  - destruct (get_instance_frame st b) as [_ [_ [_ [G _]]]]. rewrite <- G. exact IH.
Qed.

(* an invariant of the calls is an invariant of the phase; it may rely on the step budget not being exhausted *)
Lemma runs_inv (Q : node -> Prop) :
  (forall st b, Q st -> stuck (gm_top limit fuel st b) = false -> Q (gm_top limit fuel st b)) ->
  (forall st b, Q st -> Q (fst (get_instance st b))) ->
  (forall st b d, In (b, d) pool -> Q st -> Q (set_avail st (set_assoc b d (avail st)))) ->
  forall st st', runs st st' -> Q st -> stuck st' = false -> Q st'.
Proof.
  intros HG HI HA st st' R. induction R as [|st b st' R IH|st b st' R IH|st b d st' I R IH]; intros HQ NS; auto.
  apply IH; auto. apply HG; auto. eapply runs_sticky; eauto.
Qed.

End Runs.

(* create_modules, then get_descriptive_data *)
Lemma created_runs limit fuel c :
  runs limit fuel (c_static c ++ c_dyn c) (node0 (c_static c)) (init_all limit fuel (create_all limit fuel c)).
Proof.
  eapply runs_trans; [|apply init_loop_runs]. apply create_loop_runs; intros x X; apply in_or_app; auto.
Qed.

Lemma initialised_runs limit fuel c :
  runs limit fuel (c_static c ++ c_dyn c) (node0 (c_static c)) (initialised limit fuel c).
Proof. eapply runs_trans; [apply created_runs|apply fold_runs]. Qed.

(* the trace of the initialisation phase consists of initialisation events only *)
Lemma initialised_trace limit fuel c : Forall init_ev (trace (initialised limit fuel c)).
Proof.
  destruct (runs_ext _ _ _ _ _ (initialised_runs limit fuel c)) as [[evs [H F]] _].
  rewrite H. simpl. rewrite app_nil_r. exact F.
Qed.

(* all that the start phase (every schedule) and the shutdown do to the node is to emit events *)
Definition emits (evs : list event) (st : node) : node := fold_right emit st evs.

Lemma emits_frame evs st : trace (emits evs st) = evs ++ trace st /\ errors (emits evs st) = errors st /\
  modules (emits evs st) = modules st /\ stuck (emits evs st) = stuck st.
Proof. induction evs as [|e r [T [E [M S]]]]; simpl; auto. rewrite T. auto. Qed.

Lemma emits_app a b st : emits (a ++ b) st = emits a (emits b st).
Proof. apply fold_right_app. Qed.

Definition poll_ev (e : event) : Prop :=
  match e with EWrite _ _ | EIReads _ | ERead _ _ | EStarted _ | ECWait _ | EDoPoll _ => True | _ => False end.
Definition later_ev (e : event) : Prop :=
  match e with EEarly _ | EInit _ | ESee _ _ _ _ => False | _ => True end.

Lemma poll_later e : poll_ev e -> later_ev e.
Proof. destruct e; simpl; auto. Qed.

Lemma thread_step_emits st th :
  fst (thread_step st th) = st \/ exists e, fst (thread_step st th) = emit e st /\ poll_ev e.
Proof.
  unfold thread_step. destruct (t_hung th); simpl; auto.
  destruct (t_prog th) as [|e r]; simpl; auto.
  destruct e; simpl; auto; try (right; eexists; split; [reflexivity|exact I]).
  destruct (d_hang _); simpl; auto. right; eexists; split; [reflexivity|exact I].
Qed.

Lemma threads_step_emits t : forall ths st,
  fst (threads_step st t ths) = st \/ exists e, fst (threads_step st t ths) = emit e st /\ poll_ev e.
Proof.
  induction ths as [|th r IH]; intros st; simpl; auto.
  destruct (Nat.eqb (t_id th) t).
  - pose proof (thread_step_emits st th) as H. destruct (thread_step st th); exact H.
  - specialize (IH st). destruct (threads_step st t r); exact IH.
Qed.

Lemma cstep_emits s it : exists evs, s_node (cstep s it) = emits evs (s_node s) /\ Forall later_ev evs.
Proof.
  assert (N : exists evs, s_node s = emits evs (s_node s) /\ Forall later_ev evs) by (exists []; split; [reflexivity|constructor]).
  destruct s as [st ths pc]. destruct it; simpl.
  - destruct pc as [[|m rest]| | |]; simpl; auto.
    + unfold pc_after, finish_start. destruct rest; simpl; [destruct (errors st); simpl|];
        [exists [EStart m]|exists [EExit; EStart m]|exists [EStart m]]; split; try reflexivity; repeat constructor.
    + destruct (all_done ths); auto. exists [EReady true]. split; [reflexivity|repeat constructor].
  - destruct pc; simpl; auto;
      (destruct (threads_step_emits t ths st) as [Q|[e [Q P]]]; destruct (threads_step st t ths); simpl in *; subst;
       [exists []|exists [e]]; split; try reflexivity; repeat constructor; apply poll_later; exact P).
  - destruct pc; simpl; auto. destruct (all_done ths); auto. exists [EReady false]. split; [reflexivity|repeat constructor].
Qed.

Lemma run_sched_emits sched : forall s,
  exists evs, s_node (run_sched s sched) = emits evs (s_node s) /\ Forall later_ev evs.
Proof.
  unfold run_sched. induction sched as [|it r IH]; intros s; simpl; [exists []; split; [reflexivity|constructor]|].
  destruct (IH (cstep s it)) as [e1 [E1 F1]]. destruct (cstep_emits s it) as [e2 [E2 F2]].
  exists (e1 ++ e2). rewrite E1, E2, emits_app. split; [reflexivity|apply Forall_app; auto].
Qed.

(* the node at any point of the start phase is the initialised node with later events in front of its trace *)
Lemma started_emits limit fuel c sched :
  exists evs, s_node (started limit fuel c sched) = emits evs (initialised limit fuel c) /\ Forall later_ev evs.
Proof.
  unfold started. generalize (initialised limit fuel c). intros st.
  destruct (run_sched_emits sched (sys0 st)) as [evs [E F]]. rewrite E.
  unfold sys0, pc_after, finish_start. destruct (map fst (modules st)); simpl; eauto.
  destruct (errors st); simpl; eauto.
  exists (evs ++ [EExit]). rewrite emits_app. split; [reflexivity|]. apply Forall_app. split; auto. repeat constructor.
Qed.

Lemma started_modules limit fuel c sched :
  modules (s_node (started limit fuel c sched)) = modules (initialised limit fuel c).
Proof. destruct (started_emits limit fuel c sched) as [evs [E _]]. rewrite E. apply emits_frame. Qed.

Definition is_ready (e : event) : bool := match e with EReady _ => true | _ => false end.
Definition no_ready (tr : list event) : Prop := forall b, ~ In (EReady b) tr.

Lemma init_ev_no_ready tr : Forall init_ev tr -> no_ready tr.
Proof. intros F b H. rewrite Forall_forall in F. apply F in H. exact H. Qed.

(* with a reported error the node never reports ready, under every schedule *)
Definition refusing (s : sys) : Prop :=
  errors (s_node s) <> [] /\ no_ready (trace (s_node s)) /\
  match s_pc s with MStart (_ :: _) => ~ In EExit (trace (s_node s)) | MExited => True | _ => False end.

Lemma no_ready_cons e tr : is_ready e = false -> no_ready tr -> no_ready (e :: tr).
Proof. intros H N b [E|I]; [subst; discriminate|exact (N b I)]. Qed.

Lemma cstep_refusing s it : refusing s -> refusing (cstep s it).
Proof.
  intros [E [N P]]. unfold refusing. destruct (cstep_emits s it) as [evs [EM _]]. rewrite EM at 1.
  rewrite (proj1 (proj2 (emits_frame evs (s_node s)))). split; [exact E|]. clear evs EM.
  destruct s as [st ths pc]; simpl in *.
  destruct pc as [[|m rest]| | |]; try contradiction.
  - destruct it; simpl.
    + unfold pc_after, finish_start. destruct rest; simpl.
      * destruct (errors st) eqn:EE; [contradiction|]. simpl.
        split; [|exact I]. apply no_ready_cons; auto. apply no_ready_cons; auto.
      * split; [apply no_ready_cons; auto|]. intros [H|H]; [discriminate|contradiction].
    + destruct (threads_step_emits t ths st) as [Q|[e [Q PE]]];
        destruct (threads_step st t ths) as [st1 ths1]; simpl in *; subst st1; auto.
      split; [apply no_ready_cons; auto; destruct e; auto; contradiction|].
      intros [Q|Q]; [subst e; contradiction|contradiction].
    + auto.
  - destruct it; simpl; auto.
Qed.

Lemma sys0_refusing st : errors st <> [] -> no_ready (trace st) -> ~ In EExit (trace st) -> refusing (sys0 st).
Proof.
  intros E N X. unfold sys0, pc_after, finish_start. destruct (map fst (modules st)); simpl.
  - destruct (errors st) eqn:EE; [contradiction|]. simpl. unfold refusing; simpl. rewrite EE.
    split; [discriminate|]. split; [apply no_ready_cons; auto|exact I].
  - unfold refusing; simpl. auto.
Qed.

Lemma run_sched_refusing sched : forall s, refusing s -> refusing (run_sched s sched).
Proof. induction sched as [|it r IH]; intros s H; simpl; auto. apply IH. apply cstep_refusing. exact H. Qed.

Lemma init_ev_no_exit tr : Forall init_ev tr -> ~ In EExit tr.
Proof. intros F H. rewrite Forall_forall in F. apply F in H. exact H. Qed.

Theorem errors_never_ready limit fuel c sched :
  errors (initialised limit fuel c) <> [] ->
  let s := started limit fuel c sched in
  no_ready (trace (s_node s)) /\ s_pc s <> MRun /\ s_pc s <> MWait /\
  (s_pc s = MExited \/ exists m rest, s_pc s = MStart (m :: rest)).
Proof.
  intros E s. pose proof (initialised_trace limit fuel c) as F.
  assert (R : refusing s).
  { apply run_sched_refusing. apply sys0_refusing; auto using init_ev_no_ready, init_ev_no_exit. }
  destruct R as [_ [N P]]. split; [exact N|].
  destruct (s_pc s) as [[|m rest]| | |]; try contradiction; repeat split; try discriminate; eauto.
Qed.

Lemma running_no_errors limit fuel c sched :
  s_pc (started limit fuel c sched) = MRun -> errors (initialised limit fuel c) = [].
Proof.
  intros PC. destruct (errors (initialised limit fuel c)) as [|e r] eqn:E; auto.
  assert (NE : errors (initialised limit fuel c) <> []) by (rewrite E; discriminate).
  destruct (errors_never_ready limit fuel c sched NE) as [_ [H _]]. contradiction.
Qed.

Lemma all_done_spec ths : all_done ths = true -> forall th, In th ths -> t_done th = true.
Proof. unfold all_done. rewrite forallb_forall. auto. Qed.

Lemma not_all_done_spec ths : all_done ths = false -> exists th, In th ths /\ t_done th = false.
Proof.
  induction ths as [|th r IH]; simpl; [discriminate|]. destruct (t_done th) eqn:D; simpl.
  - intros H. destruct (IH H) as [x [X DX]]. exists x; auto.
  - intros _. exists th; auto.
Qed.

Lemma fold_emit (f : name -> event) : forall l st,
  fold_left (fun acc m => emit (f m) acc) l st = emits (rev (map f l)) st.
Proof. induction l as [|x r IH]; intros st; simpl; auto. rewrite IH, emits_app. reflexivity. Qed.

Definition stops_of (s : sys) : list name := filter (has_thread (s_threads s)) (map fst (modules (s_node s))).

Definition polled_on (st : node) (t : name) : list name :=
  filter (fun m => d_poll (decl_of st m)) (polled_of st t).
