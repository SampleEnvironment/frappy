(* C15 — nodes that end WITH an error.  For every configuration with small names whose references
   (attachments, io) decrease along a rank function - an acyclic configuration - in every declaration order, with lazy
   creation through attachments, automatically created communicators, Pinata initialisations during create_modules
   and dynamically scanned modules: whatever goes wrong (missing or wrongly typed attachment, mandatory attachment
   without value, failing earlyInit / initModule, HasIO without uri and io, depth limit), every module gets AT MOST one
   earlyInit and at most one initModule, initModule only after earlyInit, and nothing that is not marked as
   initialised got any.  (On a cyclic configuration the code repeats the initialisations until the RecursionError -
   observed, about 250 times - so the rank hypothesis is necessary.)
   The invariant RI is LI of LemmasInit.v with an empty closure list (nothing has to exist in advance) plus the facts
   that make a lazily created module ranked; runs_RI keeps it over every sequence of calls, the theorem itself is
   Properties.C15_lifecycle_at_most_once_with_errors. *)
From Coq Require Import List Arith Bool Lia Sorting.Sorted.
Import ListNotations.
Require Import FV.C15.Model FV.C15.Lemmas FV.C15.LemmasInit FV.C15.LemmasGlobal FV.C15.LemmasOnce.

Section RankedErr.
Variable rank : name -> nat.

Definition decl_ranked (b : name) (d : decl) : Prop :=
  (forall a t, In a (d_atts d) -> a_target a = Some t -> rank t < rank b) /\
  (forall m, d_kind d = KHasIO (IoMod m) -> rank m < rank b) /\
  (forall u n, d_kind d = KHasIO (IoUri u) -> 100 <= n -> rank n < rank b).
Definition av_ranked (av : list (name * decl)) : Prop := forall b d, In (b, d) av -> decl_ranked b d.
Definition iod_ok (iod : list (nat * name)) : Prop := forall u n, find u iod = Some n -> 100 <= n.

Record Side (st : node) : Prop := {
  sd_sm : small_m (modules st);
  sd_sa : small_av (avail st);
  sd_ar : av_ranked (avail st);
  sd_io : iod_ok (iodict st);
}.

Record RI (st : node) : Prop := {
  ri_li : LI rank (modules st) (trace st) (stack st) [];
  ri_side : Side st;
  ri_ord : early_first (trace st);
}.

Lemma frame_ops_ranked b d io : decl_ranked b d -> (forall n, io = Some n -> rank n < rank b) ->
  Forall (op_ranked rank b) (frame_ops d io).
Proof.
  intros [A _] IO. apply Forall_forall. intros o I. apply frame_ops_In in I. destruct o; simpl; auto; [|contradiction].
  intros t T. destruct I as [N|[_ [E _]]]; [eapply A; eauto; eapply nth_error_In; eauto|subst a; auto].
Qed.

Lemma io_decl_ranked b : decl_ranked b io_decl.
Proof. split; [intros a t []|split; intros; discriminate]. Qed.

Lemma insts_set_assoc mods b d io : insts_ranked rank mods -> decl_ranked b d -> (forall n, io = Some n -> rank n < rank b) ->
  insts_ranked rank (set_assoc b (new_inst d io) mods).
Proof.
  intros IR D IO k K. unfold frame_ranked, ops_m. simpl. rewrite find_set_assoc. destruct (Nat.eqb k b) eqn:E.
  - apply Nat.eqb_eq in E. subst k. simpl. apply frame_ops_ranked; auto.
  - rewrite has_key_set_assoc_iff, E in K. simpl in K. apply (IR k K).
Qed.

Lemma stack_add_module n i st : stack (add_module n i st) = stack st.
Proof. unfold add_module. destruct (d_export _); reflexivity. Qed.

Lemma find_app {A} k : forall (l l' : list (nat * A)),
  find k (l ++ l') = match find k l with Some v => Some v | None => find k l' end.
Proof. induction l as [|[k0 v0] r IH]; intros l'; simpl; auto. destruct (Nat.eqb k k0); auto. Qed.

Lemma iod_ok_app iod u n : iod_ok iod -> 100 <= n -> iod_ok (iod ++ [(u, n)]).
Proof.
  intros IO L u0 n0 F. rewrite find_app in F. destruct (find u0 iod) eqn:E.
  - inversion F; subst. eapply IO; eauto.
  - simpl in F. destruct (Nat.eqb u0 u); [inversion F; subst; exact L|discriminate].
Qed.

Lemma create_side st b d : Side st -> insts_ranked rank (modules st) -> b < 100 -> small_decl d -> decl_ranked b d ->
  has_key b (modules st) = false ->
  Side (fst (create st b d)) /\ insts_ranked rank (modules (fst (create st b d))) /\
  extends (modules st) (modules (fst (create st b d))) /\
  (snd (create st b d) = IOk -> has_key b (modules (fst (create st b d))) = true).
Proof.
  intros [SM SA AR IO] IR L SD DR K. pose proof (create_spec st b d SM L SD K) as SP. destruct (create_frame st b d) as [_ [_ [AV _]]].
  assert (X : insts_ranked rank (modules (fst (create st b d))) /\ iod_ok (iodict (fst (create st b d)))).
  { unfold create. destruct (negb (creatable d)); simpl; [split; assumption|].
    pose proof DR as [D1 [D2 D3]].
    destruct (d_kind d) as [|[|u|m]|] eqn:DK; simpl; rewrite ?modules_add_module, ?iodict_add_module.
    - split; [apply insts_set_assoc; auto; intros n Q; discriminate|exact IO].
    - split; [apply insts_set_assoc; auto; intros n Q; discriminate|exact IO].
    - destruct (find u (iodict st)) as [n|] eqn:FU; simpl; rewrite ?modules_add_module, ?iodict_add_module; simpl;
        rewrite ?modules_add_module, ?iodict_add_module.
      + split; [|exact IO]. apply insts_set_assoc; auto.
        intros n0 Q. inversion Q; subst n0. apply (D3 u n eq_refl). eapply IO; eauto.
      + split.
        * apply insts_set_assoc; [apply insts_set_assoc; auto; [apply io_decl_ranked|intros n Q; discriminate]|exact DR|].
          intros n0 Q. inversion Q; subst n0. apply (D3 u _ eq_refl). unfold io_name. lia.
        * apply iod_ok_app; auto. unfold io_name. lia.
    - split; [apply insts_set_assoc; auto; intros n Q; inversion Q; subst; apply D2; reflexivity|exact IO].
    - split; [apply insts_set_assoc; auto; intros n Q; discriminate|exact IO]. }
  destruct X as [X1 X2].
  destruct (snd (create st b d)) eqn:R.
  - destruct SP as [E [KB [SM1 _]]]. split; [constructor; auto; rewrite AV; auto|]. split; [exact X1|]. split; auto.
  - destruct SP as [M _]. split; [constructor; auto; rewrite ?M, ?AV; auto|]. split; [exact X1|]. rewrite M.
    split; [apply extends_refl|discriminate].
  - destruct SP as [M _]. split; [constructor; auto; rewrite ?M, ?AV; auto|]. split; [exact X1|]. rewrite M.
    split; [apply extends_refl|discriminate].
Qed.

Lemma get_instance_side st b : Side st -> insts_ranked rank (modules st) ->
  Side (fst (get_instance st b)) /\ insts_ranked rank (modules (fst (get_instance st b))) /\
  extends (modules st) (modules (fst (get_instance st b))) /\
  (snd (get_instance st b) = IOk -> has_key b (modules (fst (get_instance st b))) = true).
Proof.
  intros SD IR. unfold get_instance. destruct (has_key b (modules st)) eqn:K; simpl.
  - split; [exact SD|split; [exact IR|split; [apply extends_refl|auto]]].
  - destruct (find b (avail st)) as [d|] eqn:F; simpl.
    + pose proof SD as [SM SA AR IO]. apply find_In in F. destruct (SA b d F) as [L SDD].
      apply create_side; auto.
    + split; [exact SD|split; [exact IR|split; [apply extends_refl|discriminate]]].
Qed.

Lemma LI_insts mods tr stk : LI rank mods tr stk [] -> insts_ranked rank mods.
Proof. intros [_ _ I _ _]. exact I. Qed.

Lemma side_upd st st' : Side st -> avail st' = avail st -> iodict st' = iodict st ->
  (modules st' = modules st \/ exists k f, keeps f /\ modules st' = upd k f (modules st)) -> Side st'.
Proof.
  intros [SM SA AR IO] A D M. constructor; rewrite ?A, ?D; auto.
  destruct M as [M|[k [f [KF M]]]]; rewrite M; auto. apply small_m_upd; auto.
Qed.

(* a step leaves module_cfg and ioDict alone and changes the module table only through get_module_instance or by an
   update that keeps declaration and io: side_same st and side_mark st close these two kinds of goal from Side st *)
Ltac side_same st := apply (side_upd st); [assumption|reflexivity|reflexivity|left; reflexivity].
Ltac side_mark st := apply (side_upd st); [assumption|reflexivity|reflexivity|
  right; eexists; eexists; split; [|reflexivity]; intros i; simpl; auto].

Lemma step_side limit st : Side st -> insts_ranked rank (modules st) -> Side (step limit st).
Proof.
  intros SD IR. unfold step. destruct (stack st) as [|fr rest]; [exact SD|].
  destruct (f_ops fr) as [|o ops]; [side_mark st|].
  destruct o.
  - side_same st.
  - side_same st.
  - destruct (find idx (attached_of st (f_mod fr))); [side_same st|].
    destruct (a_target a) as [b|]; [|side_same st].
    pose proof (get_instance_side st b SD IR) as [SD1 _].
    destruct (get_instance st b) as [st1 r]; simpl in *.
    destruct r; try (side_mark st1).
    destruct (isinit _ b); [side_same st1|]. destruct (Nat.leb _ _); [side_mark st1|side_same st1].
  - destruct (want_ok _ _); [side_mark st|side_mark st].
  - side_mark st.
  - unfold register. destruct (_ || _); [side_mark st|side_same st].
Qed.

Lemma step_ord limit st : LI rank (modules st) (trace st) (stack st) [] -> early_first (trace st) ->
  early_first (trace (step limit st)).
Proof.
  intros H O. unfold step. destruct (stack st) as [|fr rest] eqn:Hs; [exact O|].
  destruct H as [_ F _ _ _]. inversion F as [|? ? [_ [_ [Sh [E1 _]]]] _]; subst.
  destruct (f_ops fr) as [|o ops] eqn:Ho; [exact O|].
  assert (OTH : forall e, (forall m, e <> EInit m) -> early_first (e :: trace st)) by (intros; apply early_first_other; auto).
  destruct o; simpl.
  - apply OTH; intros; discriminate.
  - intros l1 m l2 E. destruct l1 as [|x l1]; simpl in E; inversion E; subst.
    + apply ce_In. rewrite E1. simpl. lia.
    + eapply O; eauto.
  - destruct (find idx (attached_of st (f_mod fr))); [apply OTH; intros; discriminate|].
    destruct (a_target a) as [b|]; [|apply OTH; intros; discriminate].
    destruct (get_instance_frame st b) as [GT _]. destruct (get_instance st b) as [st1 r]; simpl in *.
    destruct r; simpl; rewrite ?GT; auto.
    destruct (isinit _ b); simpl; rewrite ?GT; auto. destruct (Nat.leb _ _); simpl; rewrite ?GT; auto.
  - destruct (want_ok _ _); simpl; [apply OTH; intros; discriminate|exact O].
  - exact O.
  - unfold register. destruct (_ || _); exact O.
Qed.

Lemma step_RI limit st : RI st -> RI (step limit st).
Proof.
  intros [L SD O]. constructor.
  - apply step_LI; auto. intros b. destruct (get_instance_side st b SD (LI_insts _ _ _ L)) as [_ [IR [EX _]]]. auto.
  - apply step_side; auto. eapply LI_insts; eauto.
  - apply step_ord; auto.
Qed.

Lemma RI_stuck st : RI st -> RI (set_stuck st).
Proof. intros [L [A B C D] O]. constructor; [exact L|constructor; assumption|exact O]. Qed.

Lemma run_gm_RI limit fuel : forall st, RI st -> RI (run_gm limit fuel st).
Proof.
  induction fuel as [|fuel IH]; intros st H; simpl; destruct (stack st) eqn:Hs; auto using RI_stuck.
  apply IH. apply step_RI. exact H.
Qed.

Lemma get_instance_RI st b : RI st -> RI (fst (get_instance st b)).
Proof.
  intros [L SD O]. pose proof (get_instance_side st b SD (LI_insts _ _ _ L)) as [SD1 [IR1 [EX _]]].
  destruct (get_instance_frame st b) as [GT [GS _]].
  constructor; auto; rewrite ?GT, ?GS; auto. apply (ext_LI rank (modules st)); auto.
Qed.

Lemma gm_top_RI limit fuel st b : RI st -> stack st = [] -> RI (gm_top limit fuel st b).
Proof.
  intros H Hs. unfold gm_top. pose proof (get_instance_RI st b H) as H1.
  destruct (get_instance_frame st b) as [_ [GS _]]. pose proof (get_instance_ok_key st b) as GK.
  destruct (get_instance st b) as [st1 r]; simpl in *. destruct r; auto.
  change (isinit st1 b) with (isinit_m (modules st1) b). destruct (isinit_m (modules st1) b) eqn:IB; auto.
  apply run_gm_RI. destruct H1 as [L1 SD1 O1]. constructor; [|side_same st1|exact O1].
  rewrite push_ops. simpl. apply LI_push; auto. rewrite GS, Hs. constructor.
Qed.

(* every sequence of calls over a pool of small, ranked declarations *)
Lemma runs_RI limit fuel pool st st' : small_av pool -> av_ranked pool -> runs limit fuel pool st st' ->
  RI st -> stack st = [] -> stuck st' = false -> RI st' /\ stack st' = [].
Proof.
  intros SP AP R H Hs. apply (runs_inv limit fuel pool (fun s => RI s /\ stack s = [])) with (st := st); auto.
  - intros s b [H1 S1] NS. split; [apply gm_top_RI|apply gm_top_stack]; auto.
  - intros s b [H1 S1]. split; [apply get_instance_RI; exact H1|].
    destruct (get_instance_frame s b) as [_ [GS _]]. rewrite GS. exact S1.
  - intros s b d IN [[L [SM SA AV IO] O] S1]. split; [|exact S1]. constructor; [exact L| |exact O]. constructor; auto.
    + intros x y X. simpl in X. apply In_set_assoc in X. destruct X as [E|X]; [inversion E; subst; auto|auto].
    + intros x y X. simpl in X. apply In_set_assoc in X. destruct X as [E|X]; [inversion E; subst; auto|auto].
Qed.

Lemma node0_RI av : small_av av -> av_ranked av -> RI (node0 av).
Proof.
  intros SA AR. constructor; simpl.
  - apply Build_LI.
    + apply SSorted_nil.
    + apply Forall_nil.
    + intros x K. discriminate K.
    + intros m _. split; [intros _; auto|intros Q; discriminate Q].
    + intros x d F. discriminate F.
  - apply Build_Side; simpl; auto.
    + split; [intros k H; discriminate H|intros k i H; discriminate H].
    + intros u n F. discriminate F.
  - intros l1 m l2 E. destruct l1; discriminate E.
Qed.

Definition cfg_ranked (c : cfg) : Prop := av_ranked (c_static c) /\ av_ranked (c_dyn c).

End RankedErr.

