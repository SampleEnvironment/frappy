(* C17 - property theorems only; the lemmas are in LemmasSeq.v (one save), Lemmas.v (the module), ConcLemmas.v (threads).
   M ranges over every module description (any parameters over the modelled datatypes), ops over every history of
   operations, f over every fault (crash before / crash after / OSError at every file-system call: makedirs and the
   reading open of start-up, is_dir, open, any write, close, rename, remove),
   n over every chunk count of json.dump, d over every disk.
   The four defects found on the snapshot are repaired in /repo (b610a07, 6518f2a, 66c61e0).  One finding is open:
   C17/adjacent-surrogate-pair-not-restored (Refuted.v has the witnesses); C17_roundtrip_except_adjacent_surrogate_pair
   carries the guard that excludes it, no other theorem carries an exception. *)
From Coq Require Import List Arith ZArith NArith Bool String.
Import ListNotations.
Require Import FV.Base.Util FV.Gen.C17 FV.C17.Model FV.C17.Lemmas FV.C17.LemmasSeq FV.C17.Counter
  FV.C17.ConcModel FV.C17.ConcLemmas FV.C17.ConcCounter.

(* obligations on the facts regenerated from /repo (Gen/C17.v): the code has the shape the model assumes *)
Theorem C17_source_facts :
  change_detection = true /\ pdata_assigned_after_rename = true /\ writes_go_to_tmp = true /\
  only_rename_writes_target = true /\ target_touched_only_by_final_rename = true /\
  save_call_sites = ["persistentdir.is_dir"; "persistentdir.mkdir"; "open"; "json.dump"; "f.write"; "os.rename";
                     "os.remove"]%string /\
  rename_after_closed_with_block = true /\ remove_tmp_in_finally = true /\
  unreadable_file_is_empty = true /\ nonobject_document_is_unreadable = true /\
  entries_imported_individually = true /\ entries_validated_and_exportable = true /\ cfg_precedes_file = true /\
  given_set_for_configured_values = true /\ save_deferred_while_writes_pending = true /\
  init_saves_after_loading = true /\ callback_exceptions_swallowed = true /\
  array_import_checks_kind_and_length = true /\ tuple_import_checks_kind_and_length = true /\
  struct_import_admits_missing_optional = true /\ struct_export_admits_missing_optional = true /\
  scaled_import_integers_only = true /\
  blob_import_strict_base64 = true /\
  callbacks_called_inside_update_lock = true /\ update_lock_is_reentrant_lock = true /\
  (* the text of a document is pure ASCII (json.dump(data, f, indent=2): ensure_ascii is left at its default) and the
     temporary file is a strict utf-8 text file: no write of a save fails for encoding reasons, whatever code points
     (lone surrogates, non-BMP, control characters) the string values hold - writes fail by OSError faults only,
     which is what `exec` of Model.v assumes *)
  dump_text_is_ascii = true /\ tmp_file_is_utf8_text = true.
Proof. repeat split; reflexivity. Qed.

(* one save, any fault at any file-system operation: the stored file afterwards (that is also: at the crash point)
   is the previous one or the complete new document; without error it is the new one and no temporary file is
   left; an OSError leaves the previous file, except the error at the final remove which comes after the rename *)
Theorem C17_crash_atomic_save : forall f data n d,
  let s := save_file f data n d in
  (target (s_disk s) = target d \/ target (s_disk s) = Some (CW data n n)) /\
  (sres_of s = SOk -> s_disk s = {| target := Some (CW data n n); tmp := None |}) /\
  (sres_of s = SErr -> exists o, f = Some (o, KErr) /\
     (target (s_disk s) = target d \/ (o = FRemove /\ target (s_disk s) = Some (CW data n n)))) /\
  (f = None -> sres_of s = SOk).
Proof.
  intros f data n d s. subst s. split; [apply save_file_target|].
  destruct (save_file_outcome f data n d) as [Hok Hdisk _|Hcrash [o [kd [Hf Hkd]]] _|o Herr Hf Htgt].
  - (* no error, no crash *)
    split; [intros _; exact Hdisk|]. split; [congruence|intros _; exact Hok].
  - (* the process died: f is a crash fault *)
    repeat split; congruence.
  - (* OSError at o *)
    split; [congruence|]. split; [|unfold is_err_fault in Hf; congruence].
    intros _. exists o. split; [exact Hf|]. destruct Htgt as [[Ht _]|[Ho [Ht _]]]; auto.
Qed.

(* The save is the sequence save_ops n of file-system operations (is_dir, open of the
   temporary file, the n writes, close, rename, remove - compared call by call with what the implementation is
   recorded to do); a crash point lies before every operation and after the last one.  For every stored file, every
   new document and every crash index k, the first k operations leave the previous stored file or the complete new
   document *)
Theorem C17_crash_atomic_all_points : forall data n d k,
  let d' := fs_run data n (firstn k (save_ops n)) d in
  target d' = target d \/ target d' = Some (CW data n n).
Proof. exact save_all_points. Qed.

(* several threads assigning parameters of ONE module at the same time (ConcModel.v: the callbacks, saveParameters
   among them, run inside updateLock - obligation callbacks_called_inside_update_lock of C17_source_facts).
   For ALL modules, thread programs and schedules, at every point of the run (every prefix of a schedule is a
   schedule): (1) the file-system operations made so far are complete saves one after the other, followed by the
   first j operations of the one save in progress, which exists exactly when the lock is held: the operation
   sequences of different saves never interleave; (2) the disk is a crash point of ONE save applied to a disk whose
   stored file is the initial one or a complete document - the situation of C17_crash_atomic_all_points; hence
   (3) the stored file is the one the threads started with or a complete document *)
Theorem C17_concurrent_saves_serialised : forall M d m progs sch,
  let st := crun true M sch (cinit d m progs) in
  (exists blocks (cur : option (nat * nat * nat)),
     c_ev st = flat_map blk blocks ++
               match cur with Some (i, n, j) => map (pair i) (firstn j (save_ops n)) | None => [] end /\
     (cur = None <-> c_lock st = None)) /\
  (exists data n j dprev,
     c_disk st = fs_run data n (firstn j (save_ops n)) dprev /\
     (target dprev = target d \/ exists data' n', target dprev = Some (CW data' n' n'))) /\
  (target (c_disk st) = target d \/ exists data n, target (c_disk st) = Some (CW data n n)).
Proof.
  intros M d m progs sch cs.
  assert (H : Inv (target d) cs) by (apply inv_run, inv_init).
  split; [|split; [|exact (inv_target _ _ H)]];
    destruct H as [blocks H1 H2 H3 H4 | i data n done rest dprev blocks H1 H2 Hs H3 H4 H5 H6].
  - exists blocks, None. rewrite app_nil_r. split; auto. tauto.
  - (* the save in progress has made the operations done, of save_ops n = done ++ rest *)
    exists blocks, (Some (i, n, List.length done)). rewrite Hs, firstn_app_length. split; auto.
    rewrite H1. split; discriminate.
  - now exists [], 0, 0, (c_disk cs).
  - exists data, n, (List.length done), dprev. now rewrite Hs, firstn_app_length.
Qed.

(* what the lock is needed for (hypothetical: the same system WITHOUT the lock; not a defect of /repo): two threads,
   one shared temporary file name - a schedule after which the stored file is EMPTY (thread 1 truncated the
   temporary file thread 0 then renamed), so that a start-up finds no entry; with the lock the same schedule leaves
   the complete document of thread 0 *)
Theorem C17_unlocked_saves_leave_empty_file :
  (exists old, target (dk w0) = Some (CW old 4 4)) /\
  (exists st data, wfinal false = Some st /\ target (c_disk st) = Some (CW data 0 4) /\
                   parse (CW data 0 4) = PJInvalid /\ load_file wM (c_disk st) = LOk [] []) /\
  (exists st data, wfinal true = Some st /\ target (c_disk st) = Some (CW data 4 4) /\
                   aget 0 data = Some (VInt 5%Z)).
Proof.
  (* the final state is computed first, alone: evaluating the other conjuncts while it is still unknown would
     normalise load_file under a stuck match *)
  split; [|split].
  - eexists. vm_compute. reflexivity.
  - eexists _, _. split; [vm_compute; reflexivity|]. repeat split; reflexivity.
  - eexists _, _. split; [vm_compute; reflexivity|]. repeat split; reflexivity.
Qed.

(* the same for ANY sequence of the modelled operations that passes the check seq_safe (the stored file is touched
   by renames only, and only when the temporary file holds the complete new document): every prefix is safe.
   save_ops passes it for every n and whatever is known about a stale temporary file *)
Theorem C17_crash_atomic_any_sequence : forall data n ops t d k,
  seq_safe n t ops = true -> (forall j, t = Some j -> tmp d = Some (CW data j n)) ->
  let d' := fs_run data n (firstn k ops) d in
  target d' = target d \/ target d' = Some (CW data n n).
Proof.
  intros data n ops t d k Hs Ht. apply (safe_prefixes data n ops t d k (target d)); auto.
  destruct t as [j|]; simpl; auto.
Qed.

Theorem C17_save_ops_safe : forall n t, seq_safe n t (save_ops n) = true.
Proof. exact save_ops_safe. Qed.

(* the two views of a save agree: without fault the control model (exec, used by the fault theorems above and below)
   performs exactly the calls save_ops n, in this order, and its disk after any safe sequence - in particular after
   every prefix-closed part of the save - is the plain file-system run *)
Theorem C17_fault_free_save_is_save_ops : forall data n d,
  save_log None data n d = save_ops n /\
  s_disk (save_file None data n d) = fs_run data n (save_ops n) d.
Proof.
  intros data n d. split.
  { apply (log_nofault data n (save_ops n) None (sv0 d) []);
      [apply save_ops_safe|exact I|reflexivity|apply save_ops_close_ok]. }
  unfold save_file.
  apply (exec_nofault_agrees data n (save_ops n) None (sv0 d)); [apply save_ops_safe|exact I|reflexivity].
Qed.

(* crash faults and crash indices are the same thing: the crash-before (crash-after) fault of the control model at
   the operation of index k of the save leaves the disk of the plain run of the first k (k+1) operations - so
   C17_crash_atomic_save (faults named by operation) and C17_crash_atomic_all_points (crash points by index) speak
   about the same crash states *)
Theorem C17_crash_fault_is_crash_point : forall data n d k o,
  nth_error (save_ops n) k = Some o ->
  s_disk (save_file (Some (o, KCrashBefore)) data n d) = fs_run data n (firstn k (save_ops n)) d /\
  s_disk (save_file (Some (o, KCrashAfter)) data n d) = fs_run data n (firstn (S k) (save_ops n)) d.
Proof.
  intros data n d k o H.
  apply crash_at_index; [apply save_ops_safe|apply save_ops_close_ok|exact H|now apply save_ops_first].
Qed.

(* the obligation behind it: a removal of the stored file before the rename (the portability idiom "os.rename does
   not overwrite everywhere") is rejected by seq_safe and really breaks the property - a crash between the two calls,
   or an OSError raised by the rename (the finally clause then removes the temporary file too), leaves no stored
   file at all although there was one.  Hypothetical sequence, not the code of /repo: the facts
   only_rename_writes_target, target_touched_only_by_final_rename and save_call_sites fail on such a change *)
Theorem C17_remove_before_rename_breaks_atomicity :
  (forall n t, seq_safe n t (save_ops_remove_first n) = false) /\
  exists data n d,
    target d <> None /\
    (exists k, target (fs_run data n (firstn k (save_ops_remove_first n)) d) = None) /\
    (exists f, let s := fold_left (exec f data n) (save_ops_remove_first n) (sv0 d) in
               sres_of s = SErr /\ target (s_disk s) = None /\ tmp (s_disk s) = None).
Proof.
  split; [intros n t; unfold save_ops_remove_first; cbn [seq_safe]; apply counter_writes|].
  exists cx_new, 3, cx_disk. split; [discriminate|]. split.
  - (* crash point 7: after the removal, before the rename *)
    exists 7. reflexivity.
  - (* the finally clause removes the temporary file as well *)
    exists (Some (FRename, KErr)). vm_compute. repeat split; reflexivity.
Qed.

(* every operation of every history, with every fault: the stored file stays, or becomes a complete document *)
Theorem C17_crash_atomic_step : forall M s o, is_corrupt o = false ->
  target (dk (fst (step M s o))) = target (dk s) \/
  exists data, target (dk (fst (step M s o))) = Some (CW data (op_n o) (op_n o)).
Proof. intros M s o H. apply (step_post M s o H). Qed.

(* hence no partially written document is ever the stored file (corruptions by others are whatever they are) *)
Theorem C17_never_partial : forall M ops s,
  Forall op_ok ops -> content_ok (target (dk s)) -> content_ok (target (dk (run M ops s))).
Proof.
  induction ops; intros s Hf Hs; simpl; auto. inversion Hf; subst. apply IHops; auto. now apply step_target_ok.
Qed.

(* persistentData is what the module believes to be on disk: the belief is right after every operation with every
   fault, I/O errors included (this is the repaired b610a07: a failed save is not considered done) *)
Theorem C17_belief_matches_disk : forall M pre cfg f0 n0 ops,
  Forall own_op ops -> sync (run M (pre ++ OInit cfg f0 n0 :: ops) st0).
Proof.
  intros M pre cfg f0 n0 ops Hc. unfold run. rewrite fold_left_app. simpl. apply run_sync; auto. apply do_init_post.
Qed.

(* RETRY: after any
   history since the creation of the module - saves failing with OSError at any operation included - in which nobody
   else replaced the file, a saveParameters() without fault on a module without pending writes leaves a complete
   document equal (python ==) to the current snapshot on disk (holds: the stored file reads as that document, or as
   what the JSON text of that document reads back as - reads_as of Lemmas.v, the two differ only for strings with
   an adjacent surrogate pair) *)
Theorem C17_retry : forall M pre cfg f0 n0 ops n m data,
  Forall own_op ops ->
  let s := run M (pre ++ OInit cfg f0 n0 :: ops) st0 in
  md s = Some m -> wdict m = [] -> snapshot_of M (vals m) = Some data ->
  let '(d', m', o) := save_parameters M None n (dk s) m in
  (data = [] \/ holds d' data) /\ in_sync d' m' /\ (o = SPNothing \/ o = SPWrote SOk).
Proof.
  intros M pre cfg f0 n0 ops n m data Hc s Hm Hw Hd.
  apply save_reaches_disk; auto.
  pose proof (C17_belief_matches_disk M pre cfg f0 n0 ops Hc) as Hsync. fold s in Hsync.
  unfold sync in Hsync. now rewrite Hm in Hsync.
Qed.

(* every value taken from the stored file is the validated import of a stored entry of a persistent parameter and
   can be stored again (repaired 66c61e0: out-of-range and mis-shaped entries are not loaded) *)
Theorem C17_loaded_values_valid : forall M d raw loaded k v,
  load_file M d = LOk raw loaded -> aget k loaded = Some v ->
  exists p j x, nth_error M k = Some p /\ persistent p = true /\
    import (p_dt p) j = Some x /\ validate (p_dt p) x = Some v /\ export (p_dt p) v <> None.
Proof.
  intros M d raw loaded k v. unfold load_file. destruct (target d) as [c|].
  - destruct (parse c); intros H; inversion H; subst; try (intros; discriminate).
    apply loaded_good. intros; discriminate.
  - intros H; inversion H; subst. intros; discriminate.
Qed.

(* entries are treated one by one: a usable entry is restored whatever else the file contains, an entry that is
   unknown, not persistent, not importable, not valid or not storable changes nothing *)
Theorem C17_tolerant_load : forall M raw k,
  (forall j v, NoDup (map fst raw) -> In (k, j) raw -> usable M k j = Some v ->
     aget k (fold_left (load_entry M) raw []) = Some v) /\
  ((forall j, In (k, j) raw -> usable M k j = None) -> aget k (fold_left (load_entry M) raw []) = None).
Proof.
  intros M raw k. split.
  - intros j v Hn Hi Hu. eapply load_restores; eauto.
  - intros H. now rewrite load_other_keys.
Qed.

(* cfg > file > default, for every parameter of every module *)
Theorem C17_precedence : forall M cfg raw loaded i p, nth_error M i = Some p ->
  aget i (vals (init_state M cfg raw loaded)) =
  Some (match aget i cfg with
        | Some v => v
        | None => if persistent p then match aget i loaded with Some v => v | None => p_default p end
                  else p_default p
        end).
Proof.
  intros M cfg raw loaded i p H. unfold init_state. rewrite init_fold_vals. simpl.
  rewrite (base_vals_get M cfg i p H), (has_pers_indexed M i p H). unfold pick, amem.
  destruct (aget i cfg); destruct (persistent p); auto.
Qed.

(* START-UP: whatever the stored file is - missing,
   truncated, garbage, a JSON document that is not an object, entries of any kind, shape or range - the module is
   created, provided the configured values and defaults themselves are storable *)
Theorem C17_startup : forall M cfg n d, base_ok M cfg ->
  snd (do_init M cfg None n d) = ROk /\ md (fst (do_init M cfg None n d)) <> None.
Proof.
  intros M cfg n d Hb. unfold do_init. cbn [pre_ops init_pre fault_at snd].
  destruct (load_file M d) as [raw loaded] eqn:L.
  assert (Hsnap : snapshot_of M (vals (init_state M cfg raw loaded)) <> None).
  { apply snapshot_total. intros i p Hn Hp. rewrite (C17_precedence M cfg raw loaded i p Hn), Hp.
    eexists; split; [reflexivity|]. specialize (Hb i p Hn Hp).
    destruct (aget i cfg) as [vc|]; [exact Hb|].
    destruct (aget i loaded) as [vl|] eqn:G; [|exact Hb].
    destruct (C17_loaded_values_valid M d raw loaded i vl L G) as [p' [j [x [A [_ [_ [_ E]]]]]]]. congruence. }
  unfold save_params. destruct (snapshot_of M (vals (init_state M cfg raw loaded))) as [data|]; [|congruence].
  destruct (differs data (pdata (init_state M cfg raw loaded))).
  - destruct (save_file_nofault None data n d eq_refl) as [E1 _]. rewrite E1. simpl. split; [reflexivity|discriminate].
  - simpl. split; [reflexivity|discriminate].
Qed.

(* a module re-created from the file a save has written gets every persistent parameter that is not configured
   back to the same value, for every datatype whose export and reading of entries invert each other on that value.
   FULL statement (false of the code as it is, open finding C17/adjacent-surrogate-pair-not-restored, witness
   C17_refuted_roundtrip_without_guard in Refuted.v):
     forall M vs data n cfg i p v, codec_ok M vs -> snapshot_of M vs = Some data ->
       nth_error M i = Some p -> persistent p = true -> aget i vs = Some v -> aget i cfg = None ->
       exists raw loaded, load_file M (target := CW data n n) = LOk raw loaded /\
                          aget i (vals (init_state M cfg raw loaded)) = Some v.
   PROVED with the guard jtext data = data: the JSON text of the document reads back as the document, i.e. no string
   in it holds a high surrogate (U+D800..DBFF) directly followed by a low one (U+DC00..DFFF) as two code points -
   jtext changes nothing else (C17_text_unchanged_without_adjacent_pair below, for strings) *)
Theorem C17_roundtrip_except_adjacent_surrogate_pair : forall M vs data n cfg i p v,
  codec_ok M vs -> snapshot_of M vs = Some data -> jtext data = data ->
  nth_error M i = Some p -> persistent p = true -> aget i vs = Some v -> aget i cfg = None ->
  exists raw loaded, load_file M {| target := Some (CW data n n); tmp := None |} = LOk raw loaded /\
    aget i (vals (init_state M cfg raw loaded)) = Some v.
Proof.
  intros M vs data n cfg i p v Hc Hs Hj Hn Hp Hv Hcfg.
  destruct (snapshot_entries M vs data Hs) as [Hd He]. destruct (He i p v Hn Hp Hv) as [j [Hx Hin]].
  exists data, (fold_left (load_entry M) data []). split.
  - unfold load_file. cbn [target]. now rewrite parse_complete, Hj.
  - rewrite (C17_precedence M cfg data _ i p Hn), Hcfg, Hp.
    rewrite (load_restores M data [] i j v Hd Hin); auto.
    unfold usable. rewrite Hn, Hp. eapply Hc; eauto.
Qed.

(* the guard in terms of code points: a string without a high surrogate directly followed by a low surrogate is its own
   JSON text reading *)
Theorem C17_text_unchanged_without_adjacent_pair : forall s, no_adjacent_pair s = true -> jtext_str s = s.
Proof.
  induction s as [|h t IH]; [reflexivity|]. destruct t as [|l r]; [reflexivity|].
  intros H. change (negb (is_high h && is_low l) && no_adjacent_pair (l :: r) = true) in H.
  apply andb_true_iff in H. destruct H as [H1 H2]. apply negb_true_iff in H1.
  change (jtext_str (h :: l :: r)) with (if is_high h && is_low l then join_pair h l :: jtext_str r else h :: jtext_str (l :: r)).
  rewrite H1. now rewrite (IH H2).
Qed.

(* the inversion law holds for the scalar datatypes (int, bool, enum, string, double) on every valid value.  It is about
   export_value / import_value / validate, not about the text: it needs no guard (the value that comes back from the
   text is a different j) *)
Theorem C17_codec_scalar : forall d v j,
  scalar d = true -> validate d v = Some v -> export d v = Some j -> usable_dt d j = Some v.
Proof.
  intros d v j Hs Hv H. unfold usable_dt.
  destruct d; try discriminate; destruct v; simpl in *; try discriminate.
  - (* DInt *) inversion H; subst. simpl. destruct (Z.leb lo z && Z.leb z hi); [reflexivity|discriminate].
  - (* DBool *) inversion H; subst. destruct b; reflexivity.
  - (* DEnum *)
    destruct (existsb (Z.eqb z) (map snd ms)) eqn:E; [|discriminate]. inversion H; subst. simpl. repeat (rewrite E; simpl). reflexivity.
  - (* DStr *)
    inversion H; subst. destruct (str_ok minc maxc utf8 s) eqn:E; [|discriminate]. simpl. repeat (rewrite E; simpl). reflexivity.
  - (* DFloat *) inversion H; subst. reflexivity.
Qed.

(* non-vacuity: a crash after the rename keeps the new snapshot, which is loaded by the next start-up; an I/O error
   at the rename is retried by the next save; a non-object document and an out-of-range entry are ignored *)
Example C17_demo :
  let M := [{| p_dt := DInt (-1000) 1000; p_pers := 2; p_hasw := false; p_default := VInt 1 |};
            {| p_dt := DStr 0 5 false; p_pers := 1; p_hasw := true; p_default := VStr [97%N] |}] in
  let s := run M [OInit [] None 5; OWriteInit None 5; OSet 0 (VInt 7) (Some (FRemove, KCrashBefore)) 5;
                  OInit [(1, VStr [98%N])] None 5] st0 in
  option_map vals (md s) = Some [(0, VInt 7); (1, VStr [98%N])] /\
  target (dk s) = Some (CW [(0, VInt 7); (1, VStr [98%N])] 5 5).
Proof. vm_compute. split; reflexivity. Qed.

Example C17_demo_retry :
  let M := [{| p_dt := DInt (-1000) 1000; p_pers := 2; p_hasw := false; p_default := VInt 1 |}] in
  let s := run M [OInit [] None 3; OSet 0 (VInt 5) (Some (FRename, KErr)) 3] st0 in
  target (dk s) = Some (CW [(0, VInt 1)] 3 3) /\
  target (dk (fst (step M s (OSave None 3)))) = Some (CW [(0, VInt 5)] 3 3).
Proof. vm_compute. split; reflexivity. Qed.

Example C17_demo_ignored :
  let M := [{| p_dt := DInt 0 10; p_pers := 1; p_hasw := false; p_default := VInt 1 |}] in
  option_map vals (md (fst (do_init M [] None 3 {| target := Some (CForeign PJOther); tmp := None |}))) = Some [(0, VInt 1)] /\
  option_map vals (md (fst (do_init M [] None 3 {| target := Some (CForeign (PJObj [(0, VInt 50)])); tmp := None |})))
    = Some [(0, VInt 1)] /\
  option_map vals (md (fst (do_init M [] None 3 {| target := Some (CForeign (PJObj [(0, VInt 5)])); tmp := None |})))
    = Some [(0, VInt 5)].
Proof. vm_compute. repeat split; reflexivity. Qed.

Print Assumptions C17_source_facts.
Print Assumptions C17_crash_atomic_save.
Print Assumptions C17_crash_atomic_all_points.
Print Assumptions C17_concurrent_saves_serialised.
Print Assumptions C17_unlocked_saves_leave_empty_file.
Print Assumptions C17_crash_atomic_any_sequence.
Print Assumptions C17_save_ops_safe.
Print Assumptions C17_fault_free_save_is_save_ops.
Print Assumptions C17_crash_fault_is_crash_point.
Print Assumptions C17_remove_before_rename_breaks_atomicity.
Print Assumptions C17_crash_atomic_step.
Print Assumptions C17_never_partial.
Print Assumptions C17_belief_matches_disk.
Print Assumptions C17_retry.
Print Assumptions C17_startup.
Print Assumptions C17_loaded_values_valid.
Print Assumptions C17_tolerant_load.
Print Assumptions C17_precedence.
Print Assumptions C17_roundtrip_except_adjacent_surrogate_pair.
Print Assumptions C17_text_unchanged_without_adjacent_pair.
Print Assumptions C17_codec_scalar.
