(* C17 - why "only the rename touches the stored file" is an obligation on the code (translator facts
   only_rename_writes_target and target_touched_only_by_final_rename, and the comparison of the recorded call
   sequence with save_ops): the same save with a removal of the stored file inserted before the rename ("os.rename
   does not overwrite on all platforms") is NOT crash-atomic.  This is a statement about a hypothetical sequence,
   not a defect of /repo. *)
From Coq Require Import List Arith ZArith NArith Bool.
Import ListNotations.
Require Import FV.Base.Util FV.C17.Model.

Definition save_ops_remove_first (n : nat) : list fsop :=
  FIsDir :: FOpen :: map FWrite (seq 0 n) ++ [FClose; FRemoveTarget; FRename; FRemove].

Definition cx_old : amap := [(0, VInt 1)].
Definition cx_new : amap := [(0, VInt 2)].
Definition cx_disk : disk := {| target := Some (CW cx_old 3 3); tmp := None |}.

(* seq_safe rejects a sequence that reaches a removal of the stored file *)
Lemma counter_writes : forall n m a t rest,
  seq_safe n t (map FWrite (seq a m) ++ FClose :: FRemoveTarget :: rest) = false.
Proof. induction m; intros a t rest; simpl; auto. Qed.
