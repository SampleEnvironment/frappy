(* C17 - one save (__save_params) as a sequence of file-system operations.
   Under a fault (exec): what the save leaves behind, classified (outcome).
   Without control flow (fs_run), a crash point before every operation: a condition on the sequence alone (seq_safe)
   under which every prefix leaves the previous or the complete new document as the stored file; save_ops satisfies it.
   The two agree: the fault-free control model makes exactly the calls save_ops and ends with the disk of the plain
   run, and a crash fault at the operation of index k leaves what the plain run of the first k (k+1) operations leaves. *)
From Coq Require Import List Arith Bool.
Import ListNotations.
Require Import FV.Base.Util FV.C17.Model.

Lemma fsop_eqb_eq : forall a b, fsop_eqb a b = true <-> a = b.
Proof.
  intros a b. split; [|intros <-; destruct a; simpl; auto using Nat.eqb_refl].
  destruct a, b; simpl; try discriminate; try reflexivity. intros E. apply Nat.eqb_eq in E. now subst.
Qed.

Section Save.
Variable f : fault.
Variable data : amap.
Variable n : nat.

Definition tgt (s : sv) : option content := target (s_disk s).
Definition newc : option content := Some (CW data n n).
Definition is_crash_fault : Prop := exists o kd, f = Some (o, kd) /\ kd <> KErr.
Definition is_err_fault (o : fsop) : Prop := f = Some (o, KErr).

Lemma fault_at_some : forall o k, fault_at f o = Some k -> f = Some (o, k).
Proof.
  unfold fault_at. intros o k H. destruct f as [[o' k']|]; [|discriminate].
  destruct (fsop_eqb o o') eqn:E; [|discriminate]. apply fsop_eqb_eq in E. congruence.
Qed.

(* the fault strikes at o before it, after it, as an OSError (E : f = Some (o, kind)), or not at all, in this order *)
Ltac fault_cases o E :=
  destruct (fault_at f o) as [[]|] eqn:E; [apply fault_at_some in E .. | idtac].

(* the sequence does not go on: the process is dead, or an OSError propagates (only close and remove are still reached) *)
Definition stopped (s : sv) : Prop :=
  match s_ctl s with
  | CRun => False
  | CDead => is_crash_fault
  | _ => s_err s = true /\ exists o, is_err_fault o
  end.
Definition Stopped (T : option content) (s : sv) : Prop := stopped s /\ tgt s = T /\ s_done s = false.
Definition running (d : disk) (s : sv) : Prop :=
  s_disk s = d /\ s_ctl s = CRun /\ s_err s = false /\ s_done s = false.

Lemma crash_fault : forall o kd, f = Some (o, kd) -> kd <> KErr -> is_crash_fault.
Proof. intros o kd H K. now exists o, kd. Qed.

Lemma err_fault_at : forall o' o, is_err_fault o' -> fault_at f o = None \/ fault_at f o = Some KErr.
Proof. intros o' o H. unfold fault_at. rewrite H. destruct (fsop_eqb o o'); auto. Qed.

Lemma exec_stopped : forall T s o, Stopped T s -> Stopped T (exec f data n s o).
Proof.
  intros T [d c op er dn] o H. unfold exec, enabled. simpl.
  destruct c; try exact H; [destruct H as [[] _]|].
  (* an OSError propagates: close and remove are still reached, and the fault, being an error, strikes as an
     error or not at all *)
  assert (K := H). destruct K as ((_ & o' & K) & _). apply (err_fault_at o' o) in K.
  destruct o; simpl; try exact H; try (destruct op; simpl; [|exact H]);
    destruct H as ((He & Hf) & Ht & Hd), K as [-> | ->]; simpl; repeat split; auto.
Qed.

(* the invariant of the save before the rename: the control runs and the disk is d, or the sequence has stopped and
   the stored file is that of d *)
Definition St (d : disk) (s : sv) : Prop := running d s \/ Stopped (target d) s.

Ltac stop_solve E :=
  repeat split; try reflexivity; first [eapply crash_fault; [exact E|discriminate] | eexists; exact E].

(* an operation other than the rename, in the control model under the fault and in the plain file system *)
Lemma st_step : forall d s o, o <> FRename -> o <> FRemoveTarget -> St d s ->
  St (fs_step data n d o) (exec f data n s o).
Proof.
  intros d s o Hr Ht [(Hd & Hc & He & Hn)|H].
  - (* without fault the control model does what fs_step does; a fault stops the sequence, the stored file unchanged *)
    destruct s as [d0 c op er dn]. simpl in *. subst. unfold exec, enabled. simpl.
    destruct (match o with FClose => op | _ => true end) eqn:En; simpl;
      [|destruct o; try discriminate En; left; repeat split; reflexivity].   (* close of a file that is not open *)
    fault_cases o E;
      [right; destruct o; try contradiction; stop_solve E .. | left; destruct o; try contradiction; now repeat split].
  - right. apply exec_stopped.
    replace (target (fs_step data n d o)) with (target d); [exact H|].
    destruct o; try contradiction; reflexivity.
Qed.

Definition Sh (T : option content) (k : nat) : sv -> Prop := St {| target := T; tmp := Some (CW data k n) |}.

Lemma sh_writes : forall m T a k s, Sh T k s -> Sh T (k + m) (fold_left (exec f data n) (map FWrite (seq a m)) s).
Proof.
  induction m; intros T a k s H; simpl.
  - now rewrite Nat.add_0_r.
  - rewrite <- Nat.add_succ_comm. now apply IHm, (st_step {| target := T; tmp := Some (CW data k n) |}).
Qed.

(* what one save leaves behind: the complete classification *)
Inductive outcome (T : option content) (s : sv) : Prop :=
| OutOk : sres_of s = SOk -> s_disk s = {| target := newc; tmp := None |} -> s_done s = true -> outcome T s
| OutCrash : sres_of s = SCrash -> is_crash_fault -> (tgt s = T \/ tgt s = newc) -> outcome T s
| OutErr : forall o, sres_of s = SErr -> is_err_fault o ->
    ((tgt s = T /\ s_done s = false) \/ (o = FRemove /\ tgt s = newc /\ s_done s = true)) -> outcome T s.

Lemma stopped_outcome : forall T s, Stopped T s -> outcome T s.
Proof.
  intros T [d c op er dn] (Hs & Ht & Hd). unfold stopped in Hs. simpl in *.
  destruct c; try contradiction; try (destruct Hs as [-> [o Ho]]; apply (OutErr _ _ o); auto).
  apply OutCrash; auto.
Qed.

Lemma rename_remove : forall T s, Sh T n s -> outcome T (exec f data n (exec f data n s FRename) FRemove).
Proof.
  intros T s [(Hd & Hc & He & Hn)|H]; [|now apply stopped_outcome; do 2 apply exec_stopped].
  destruct s as [d0 c op er dn]. simpl in *. subst. unfold exec at 2. unfold enabled. simpl.
  fault_cases FRename E; simpl.
  - (* crash before the rename *) apply stopped_outcome, exec_stopped; stop_solve E.
  - (* crash after it: the new file is in place *)
    apply OutCrash; auto. eapply crash_fault; [exact E|discriminate].
  - (* OSError at the rename *) apply stopped_outcome, exec_stopped; stop_solve E.
  - (* renamed; the remove, with the same four cases *)
    unfold exec, enabled. simpl. fault_cases FRemove E'; simpl.
    + apply OutCrash; auto. eapply crash_fault; [exact E'|discriminate].
    + apply OutCrash; auto. eapply crash_fault; [exact E'|discriminate].
    + apply (OutErr _ _ FRemove); auto.
    + now apply OutOk.
Qed.

Lemma save_file_outcome : forall d, outcome (target d) (save_file f data n d).
Proof.
  intros d. unfold save_file, save_ops. simpl. rewrite fold_left_app.
  apply rename_remove, (st_step {| target := target d; tmp := Some (CW data n n) |} _ FClose); try discriminate.
  apply (sh_writes n (target d) 0 0), (st_step d _ FOpen), (st_step d _ FIsDir); try discriminate.
  left. now repeat split.
Qed.

Lemma save_file_target : forall d,
  target (s_disk (save_file f data n d)) = target d \/ target (s_disk (save_file f data n d)) = newc.
Proof.
  intros. destruct (save_file_outcome d) as [_ Hdisk _|_ _ Ht|o _ _ Ht].
  - right. now rewrite Hdisk.
  - exact Ht.
  - destruct Ht as [[Ht _]|[_ [Ht _]]]; auto.
Qed.

Lemma save_file_nofault : forall d, f = None ->
  sres_of (save_file f data n d) = SOk /\ s_disk (save_file f data n d) = {| target := newc; tmp := None |}
  /\ s_done (save_file f data n d) = true.
Proof.
  intros d Hf. destruct (save_file_outcome d) as [Hres Hdisk Hdone|_ [o [kd [Hcrash _]]] _|o _ Herr _].
  - auto.
  - congruence.
  - unfold is_err_fault in Herr. congruence.
Qed.

(* a dead process makes no further call *)
Lemma dead_stays : forall g l s, s_ctl s = CDead -> fold_left (exec g data n) l s = s.
Proof.
  induction l; intros s H; simpl; auto.
  assert (E : exec g data n s a = s) by (unfold exec, enabled; rewrite H; reflexivity).
  rewrite E. now apply IHl.
Qed.

(* what seq_safe knows about the temporary file is true of the disk *)
Definition tmp_agrees (t : option nat) (d : disk) : Prop :=
  match t with Some k => tmp d = Some (CW data k n) | None => True end.

(* one operation of a safe sequence: the rename finds the complete temporary file *)
Lemma safe_step : forall o r t d, seq_safe n t (o :: r) = true -> tmp_agrees t d ->
  exists t', seq_safe n t' r = true /\ tmp_agrees t' (fs_step data n d o) /\ snd (effect data n d o) = true /\
    (target (fs_step data n d o) = target d \/ target (fs_step data n d o) = newc).
Proof.
  intros o r t [tg tm] Hs Ht. unfold fs_step.
  destruct o; simpl in Hs; try discriminate; try (now eexists; split; [exact Hs|]; simpl; auto).
  - exists (option_map S t). destruct t; simpl in *; [rewrite Ht|]; auto.
  - destruct t as [k|]; [|discriminate]. apply andb_true_iff in Hs. destruct Hs as [Hk Hs].
    apply Nat.eqb_eq in Hk. subst k. simpl in Ht. subst tm. exists None. simpl. auto.
Qed.

Lemma safe_prefixes : forall ops t d j T,
  seq_safe n t ops = true -> tmp_agrees t d -> (target d = T \/ target d = newc) ->
  target (fs_run data n (firstn j ops) d) = T \/ target (fs_run data n (firstn j ops) d) = newc.
Proof.
  induction ops as [|o ops IH]; intros t d j T Hs Ht Hd; destruct j; simpl; auto.
  destruct (safe_step o ops t d Hs Ht) as (t' & Hs' & Ht' & _ & Hd').
  apply (IH t'); auto. destruct Hd' as [-> | ->]; auto.
Qed.

Lemma seq_safe_writes : forall m a k rest,
  seq_safe n (Some k) (map FWrite (seq a m) ++ rest) = seq_safe n (Some (k + m)) rest.
Proof.
  induction m; intros a k rest; simpl.
  - now rewrite Nat.add_0_r.
  - now rewrite IHm, Nat.add_succ_comm.
Qed.

Lemma save_ops_safe : forall t, seq_safe n t (save_ops n) = true.
Proof.
  intros t. unfold save_ops. cbn [seq_safe]. rewrite seq_safe_writes. simpl. now rewrite Nat.eqb_refl.
Qed.

(* a crash before the operation of index k of the save (k = length: after the last one) *)
Lemma save_all_points : forall d k,
  target (fs_run data n (firstn k (save_ops n)) d) = target d \/
  target (fs_run data n (firstn k (save_ops n)) d) = newc.
Proof.
  intros d k. apply (safe_prefixes (save_ops n) None d k (target d)); [apply save_ops_safe|exact I|now left].
Qed.

(* the open flag of the temporary file after a sequence; every close of the sequence finds it open *)
Definition open_step (b : bool) (o : fsop) : bool := match o with FOpen => true | FClose => false | _ => b end.
Definition open_of (l : list fsop) (b : bool) : bool := fold_left open_step l b.
Fixpoint close_ok (l : list fsop) (b : bool) : bool :=
  match l with
  | [] => true
  | o :: r => match o with FClose => b | _ => true end && close_ok r (open_step b o)
  end.

Lemma close_ok_writes : forall m a rest b, close_ok (map FWrite (seq a m) ++ rest) b = close_ok rest b.
Proof. induction m; intros a rest b; simpl; auto. Qed.

Lemma save_ops_close_ok : close_ok (save_ops n) false = true.
Proof. unfold save_ops. simpl. now rewrite close_ok_writes. Qed.

(* without fault a running control model performs the operation (a close of a file that is not open does nothing) *)
Lemma exec_none : forall s o, s_ctl s = CRun -> snd (effect data n (s_disk s) o) = true ->
  s_disk (exec None data n s o) = fs_step data n (s_disk s) o /\ s_ctl (exec None data n s o) = CRun /\
  s_open (exec None data n s o) = open_step (s_open s) o.
Proof.
  intros [d c op er dn] o Hc Hok. simpl in *. subst c. unfold exec, enabled, apply_effect, fs_step.
  destruct o; simpl in *; auto.
  - destruct op; simpl; auto.
  - destruct (tmp d); simpl in *; [auto|discriminate].
Qed.

(* so on a safe sequence its disk is the plain run *)
Lemma exec_nofault_agrees : forall ops t s,
  seq_safe n t ops = true -> tmp_agrees t (s_disk s) -> s_ctl s = CRun ->
  s_disk (fold_left (exec None data n) ops s) = fs_run data n ops (s_disk s) /\
  s_ctl (fold_left (exec None data n) ops s) = CRun /\
  s_open (fold_left (exec None data n) ops s) = open_of ops (s_open s).
Proof.
  induction ops as [|o ops IH]; intros t s Hs Ht Hc; simpl; auto.
  destruct (safe_step o ops t _ Hs Ht) as (t' & Hs' & Ht' & Hok & _).
  destruct (exec_none s o Hc Hok) as (E1 & E2 & E3).
  rewrite <- E1 in Ht'. destruct (IH t' _ Hs' Ht' E2) as (A & B & C). now rewrite A, E1, C, E3.
Qed.

(* and the calls it makes are exactly the sequence, in this order *)
Lemma log_nofault : forall ops t s l,
  seq_safe n t ops = true -> tmp_agrees t (s_disk s) -> s_ctl s = CRun -> close_ok ops (s_open s) = true ->
  snd (fold_left (exec_log None data n) ops (s, l)) = l ++ ops.
Proof.
  induction ops as [|o ops IH]; intros t s l Hs Ht Hc Hk; simpl; [now rewrite app_nil_r|].
  apply andb_true_iff in Hk. destruct Hk as [Ho Hk].
  destruct (safe_step o ops t _ Hs Ht) as (t' & Hs' & Ht' & Hok & _).
  destruct (exec_none s o Hc Hok) as (E1 & E2 & E3).
  assert (En : enabled s o = true) by (unfold enabled; rewrite Hc; destruct o; auto).
  unfold exec_log at 2. simpl fst. simpl snd. rewrite En, <- E1 in *. rewrite <- E3 in Hk.
  rewrite (IH t' _ _ Hs' Ht' E2 Hk), <- app_assoc. reflexivity.
Qed.

Lemma seq_safe_prefix : forall l1 l2 t, seq_safe n t (l1 ++ l2) = true -> seq_safe n t l1 = true.
Proof.
  induction l1 as [|o l1 IH]; intros l2 t H; simpl in *; auto.
  destruct o; try discriminate; try exact (IH _ _ H).
  destruct t as [k|]; [|discriminate]. apply andb_true_iff in H. destruct H as [H1 H2].
  rewrite H1. exact (IH _ _ H2).
Qed.

Lemma close_ok_nth : forall l k o b, close_ok l b = true -> nth_error l k = Some o ->
  match o with FClose => open_of (firstn k l) b | _ => true end = true.
Proof.
  induction l as [|a l IH]; intros k o b H Hk; destruct k; simpl in *; try discriminate;
    apply andb_true_iff in H; destruct H as [Ha H].
  - now inversion Hk; subst.
  - now apply IH.
Qed.

(* the operation at index k, and the sequence split there *)
Lemma nth_split : forall {A} (l : list A) k o, nth_error l k = Some o ->
  l = firstn k l ++ o :: skipn (S k) l /\ firstn (S k) l = firstn k l ++ [o].
Proof.
  induction l as [|a l IH]; intros k o H; destruct k; simpl in *; try discriminate.
  - now inversion H.
  - destruct (IH k o H) as [E1 E2]. now rewrite <- E1, E2.
Qed.

(* a fault at an operation that does not occur is no fault *)
Lemma fault_not_reached : forall o kd l s, ~ In o l ->
  fold_left (exec (Some (o, kd)) data n) l s = fold_left (exec None data n) l s.
Proof.
  induction l as [|a l IH]; intros s H; simpl in *; auto. rewrite <- IH by tauto. f_equal.
  unfold exec, fault_at. destruct (fsop_eqb a o) eqn:E; auto. apply fsop_eqb_eq in E. tauto.
Qed.

Lemma fault_at_same : forall o kd, fault_at (Some (o, kd)) o = Some kd.
Proof. intros. unfold fault_at. now rewrite (proj2 (fsop_eqb_eq o o)). Qed.

(* a crash fault at an operation that is reached: the process dies before, or after, the effect on the disk *)
Lemma exec_crash : forall s o, enabled s o = true ->
  (s_ctl (exec (Some (o, KCrashBefore)) data n s o) = CDead /\
   s_disk (exec (Some (o, KCrashBefore)) data n s o) = s_disk s) /\
  (s_ctl (exec (Some (o, KCrashAfter)) data n s o) = CDead /\
   s_disk (exec (Some (o, KCrashAfter)) data n s o) = fs_step data n (s_disk s) o).
Proof.
  intros s o En. unfold exec. rewrite En, !fault_at_same. simpl. repeat split.
  - now destruct o.
  - unfold apply_effect, fs_step. destruct o; simpl; try reflexivity; destruct (tmp (s_disk s)); reflexivity.
Qed.

(* crash faults and crash indices are the same thing, on every safe sequence: the crash-before (crash-after) fault at
   the operation of index k, when that operation does not occur earlier, leaves the disk of the plain run of the
   first k (k+1) operations *)
Theorem crash_at_index : forall ops d k o,
  seq_safe n None ops = true -> close_ok ops false = true -> nth_error ops k = Some o -> ~ In o (firstn k ops) ->
  s_disk (fold_left (exec (Some (o, KCrashBefore)) data n) ops (sv0 d)) = fs_run data n (firstn k ops) d /\
  s_disk (fold_left (exec (Some (o, KCrashAfter)) data n) ops (sv0 d)) = fs_run data n (firstn (S k) ops) d.
Proof.
  intros ops d k o Hs Hk H Hn. destruct (nth_split _ _ _ H) as [Sp ->].
  apply (close_ok_nth _ _ _ _ Hk) in H. clear Hk.
  (* ops = l1 ++ o :: l2 *)
  set (l1 := firstn k ops) in *. set (l2 := skipn (S k) ops) in *. clearbody l1 l2. subst ops.
  apply seq_safe_prefix in Hs.
  (* the fault is not reached in l1: the control model runs as without fault, to a state s that is the plain run *)
  rewrite !fold_left_app, !(fault_not_reached o _ l1) by exact Hn.
  destruct (exec_nofault_agrees _ None (sv0 d) Hs I eq_refl) as (Hdisk & Hctl & Hopen).
  cbn [sv0 s_disk s_open] in Hdisk, Hopen.
  set (s := fold_left (exec None data n) l1 (sv0 d)) in *.
  (* o is reached in s (if it is the close, the file is open); the process dies there and makes no further call *)
  assert (En : enabled s o = true) by (unfold enabled; rewrite Hctl; destruct o; auto; now rewrite Hopen).
  destruct (exec_crash s o En) as [[Bc Bd] [Ac Ad]].
  simpl. rewrite !dead_stays, Bd, Ad by assumption.
  unfold fs_run. rewrite fold_left_app. fold (fs_run data n l1 d). now rewrite Hdisk.
Qed.

(* the operations of one save are pairwise different *)
Definition op_index (o : fsop) : nat :=
  match o with FIsDir => 0 | FOpen => 1 | FWrite i => 2 + i | FClose => 2 + n | FRename => 3 + n | _ => 4 + n end.

Lemma save_ops_nodup : NoDup (save_ops n).
Proof.
  apply (NoDup_map_inv op_index). replace (map op_index (save_ops n)) with (seq 0 (2 + n + 3)); [apply seq_NoDup|].
  unfold save_ops. rewrite seq_app. simpl. rewrite map_app, map_map. simpl. now rewrite <- !seq_shift, map_map.
Qed.

Lemma save_ops_first : forall k o, nth_error (save_ops n) k = Some o -> ~ In o (firstn k (save_ops n)).
Proof.
  intros k o H Hin. pose proof save_ops_nodup as N. rewrite (proj1 (nth_split _ _ _ H)) in N.
  apply NoDup_remove_2 in N. apply N, in_or_app. now left.
Qed.

End Save.
