(* C17 - vacuity audit: every theorem of Properties.v applied to (or its premises instantiated with) a concrete,
   non-trivial instance.  Nothing here is a property theorem; the examples only show that the hypotheses of the
   theorems can be met by instances of the kind the correspondence driver builds (Run.v: a module created by
   OInit [] None n on the empty directory, then operations / threads under a schedule), and that the guarded parts of
   the conclusions (sres_of s = SOk, = SErr, the second disjuncts) are reached. *)
From Coq Require Import List Arith ZArith NArith Bool String.
Import ListNotations.
Require Import FV.Base.Util FV.C17.Model FV.C17.Lemmas FV.C17.LemmasSeq FV.C17.Counter
  FV.C17.ConcModel FV.C17.ConcLemmas FV.C17.ConcCounter FV.C17.Properties.
Local Open Scope Z_scope.

(* eight parameters, every datatype kind, the CPython tables as the harness builds them (harness/props/C17.py
   Tables.scaled / Tables.blob: scale 0.1 with the integers seen, canonical base64 rows) *)
Definition nv_scaled : dtype :=
  DScaled [(-5, FBits 13826050856027422720); (0, FInt 0); (1, FBits 4591870180066957722);
           (5, FBits 4602678819172646912); (10, FInt 1)] (-1000) 1000.
Definition nv_blob : dtype :=
  DBlob 0 4 [([1%N; 2%N; 255%N], [65%N; 81%N; 76%N; 47%N]); ([7%N], [66%N; 119%N; 61%N; 61%N])].
Definition s_a : str := [97%N].
Definition s_b : str := [98%N].
Definition s_on : str := [111%N; 110%N].
Definition s_off : str := [111%N; 102%N; 102%N].

Definition nvM : mdesc :=
  [ {| p_dt := DInt (-1000) 1000; p_pers := 2; p_hasw := false; p_default := VInt 1 |};                   (* 0 auto *)
    {| p_dt := DStr 0 5 false; p_pers := 1; p_hasw := true; p_default := VStr s_a |};                      (* 1 on, write *)
    {| p_dt := nv_scaled; p_pers := 2; p_hasw := false; p_default := VFlt (FInt 1) |};                     (* 2 auto *)
    {| p_dt := nv_blob; p_pers := 1; p_hasw := false; p_default := VBytes [1%N; 2%N; 255%N] |};            (* 3 on *)
    {| p_dt := DArray (DTuple [DInt 0 9; DBool]) 0 3; p_pers := 2; p_hasw := false;
       p_default := VSeq [VSeq [VInt 3; VBool true]] |};                                                   (* 4 auto *)
    {| p_dt := DStruct [(s_a, DFloat); (s_b, DEnum [(s_on, 1); (s_off, 0)])] [s_b]; p_pers := 1; p_hasw := false;
       p_default := VMap [(s_a, VFlt (FBits 4609434218613702656))] |};                                     (* 5 on *)
    {| p_dt := DEnum [(s_on, 1); (s_off, 0)]; p_pers := 0; p_hasw := false; p_default := VInt 0 |};        (* 6 not persistent *)
    {| p_dt := DFloat; p_pers := 2; p_hasw := true; p_default := VFlt (FInt 2) |} ].                       (* 7 auto, write *)

(* the document of the defaults and two other documents *)
Definition nv_doc0 : amap :=
  [(0, VInt 1); (1, VStr s_a); (2, VInt 10); (3, VStr [65%N; 81%N; 76%N; 47%N]);
   (4, VSeq [VSeq [VInt 3; VBool true]]); (5, VMap [(s_a, VFlt (FBits 4609434218613702656))]);
   (7, VFlt (FInt 2))]%nat.
Definition nv_old : amap := [(0%nat, VInt 1)].
Definition nv_new : amap := [(0%nat, VInt 2); (2%nat, VInt 5)].
Definition nv_disk : disk := {| target := Some (CW nv_old 3 3); tmp := None |}.
(* a disk with a stale temporary file of an earlier crashed save *)
Definition nv_disk_stale : disk := {| target := Some (CW nv_old 3 3); tmp := Some (CW nv_old 1 3) |}.

Example C17_nv_doc0 : snapshot_of nvM (base_vals nvM []) = Some nv_doc0.
Proof. vm_compute. reflexivity. Qed.

(* C17_source_facts:
   no premise; a closed conjunction over the constants of Gen/C17.v (it fails to compile when a fact is missing) *)

(* C17_crash_atomic_save:
   no premise.  The guards inside the conclusion are all reached, on a disk with a stored file and a stale
   temporary file, 4 chunks: SOk; SErr at the rename (previous file stays); SErr at the final remove (new file);
   a crash (neither guard) at a write with the previous file and after the rename with the new one *)
Example C17_nv_save_ok :
  let s := save_file None nv_new 4 nv_disk_stale in
  sres_of s = SOk /\ s_disk s = {| target := Some (CW nv_new 4 4); tmp := None |} /\ target (s_disk s) <> target nv_disk_stale.
Proof. vm_compute. repeat split; try reflexivity. discriminate. Qed.

Example C17_nv_save_err_rename :
  let s := save_file (Some (FRename, KErr)) nv_new 4 nv_disk_stale in
  sres_of s = SErr /\ target (s_disk s) = target nv_disk_stale /\ tmp (s_disk s) = None.
Proof. vm_compute. repeat split; reflexivity. Qed.

Example C17_nv_save_err_remove :
  let s := save_file (Some (FRemove, KErr)) nv_new 4 nv_disk_stale in
  sres_of s = SErr /\ target (s_disk s) = Some (CW nv_new 4 4).
Proof. vm_compute. repeat split; reflexivity. Qed.

Example C17_nv_save_err_isdir_write :
  sres_of (save_file (Some (FIsDir, KErr)) nv_new 4 nv_disk_stale) = SErr /\
  sres_of (save_file (Some (FWrite 2, KErr)) nv_new 4 nv_disk_stale) = SErr /\
  sres_of (save_file (Some (FOpen, KErr)) nv_new 4 nv_disk_stale) = SErr /\
  sres_of (save_file (Some (FClose, KErr)) nv_new 4 nv_disk_stale) = SErr.
Proof. vm_compute. repeat split; reflexivity. Qed.

Example C17_nv_save_crash :
  let s1 := save_file (Some (FWrite 2, KCrashAfter)) nv_new 4 nv_disk_stale in
  let s2 := save_file (Some (FRename, KCrashAfter)) nv_new 4 nv_disk_stale in
  sres_of s1 = SCrash /\ target (s_disk s1) = target nv_disk_stale /\ tmp (s_disk s1) = Some (CW nv_new 3 4) /\
  sres_of s2 = SCrash /\ target (s_disk s2) = Some (CW nv_new 4 4).
Proof. vm_compute. repeat split; reflexivity. Qed.

(* the theorem at the instance: the SErr branch yields the operation *)
Example C17_crash_atomic_save_applies :
  exists o, Some (FRemove, KErr) = Some (o, KErr) /\
    (target (s_disk (save_file (Some (FRemove, KErr)) nv_new 4 nv_disk_stale)) = target nv_disk_stale \/
     (o = FRemove /\ target (s_disk (save_file (Some (FRemove, KErr)) nv_new 4 nv_disk_stale)) = Some (CW nv_new 4 4))).
Proof.
  destruct (C17_crash_atomic_save (Some (FRemove, KErr)) nv_new 4 nv_disk_stale) as [_ [_ [H _]]].
  apply H. vm_compute. reflexivity.
Qed.

(* C17_crash_atomic_all_points:
   no premise.  Both disjuncts occur and differ: crash index 7 (before the rename) and 8 (after it) of the 9
   operations of a 4-chunk save *)
Example C17_nv_all_points :
  List.length (save_ops 4) = 9%nat /\
  target (fs_run nv_new 4 (firstn 7 (save_ops 4)) nv_disk_stale) = target nv_disk_stale /\
  tmp (fs_run nv_new 4 (firstn 7 (save_ops 4)) nv_disk_stale) = Some (CW nv_new 4 4) /\
  target (fs_run nv_new 4 (firstn 8 (save_ops 4)) nv_disk_stale) = Some (CW nv_new 4 4) /\
  target nv_disk_stale <> Some (CW nv_new 4 4).
Proof. vm_compute. repeat split; try reflexivity. discriminate. Qed.

(* C17_concurrent_saves_serialised:
   no premise (M, d, m, progs, sch arbitrary).  Instance built the way Run.v conc_final builds it: the module is
   created by OInit [] None 4 on the empty directory, then two threads (thread 0: two assignments, thread 1: one, on
   a scaled parameter) run under a schedule in which each thread finds the lock taken at least once.
   nv_sch_mid stops in the middle of the save of thread 1, nv_sch_end runs to the end. *)
Definition nvC : mdesc :=
  [ {| p_dt := DInt (-1000) 1000; p_pers := 2; p_hasw := false; p_default := VInt 1 |};
    {| p_dt := nv_scaled; p_pers := 2; p_hasw := false; p_default := VFlt (FInt 1) |};
    {| p_dt := DStr 0 5 false; p_pers := 2; p_hasw := false; p_default := VStr s_a |} ].
Definition nvc0 : st := fst (step nvC st0 (OInit [] None 4)).
Definition nv_m0 : mstate :=
  match md nvc0 with Some m => m | None => {| vals := []; wdict := []; pdata := None; initd := [] |} end.
Definition nv_progs : list (list assign) :=
  [ [ {| a_p := 0; a_v := VInt 5; a_n := 4 |}; {| a_p := 2; a_v := VStr s_b; a_n := 3 |} ];
    [ {| a_p := 1; a_v := VFlt (FBits 4602678819172646912); a_n := 4 |} ] ].
(* 0 acquires; 1 waits twice; 0: three operations; 1 waits; 0: six operations, releases; 1 acquires; 0 waits;
   1: three operations; 0 waits *)
Definition nv_sch_mid : list nat := [0;1;1;0;0;0;1;0;0;0;0;0;0;1;0;1;1;1;0]%nat.
Definition nv_sch_end : list nat := (nv_sch_mid ++ [1;1;0;1;1;1;1;0;0;0;0;0;0;0;0;0;0;1;0])%nat.
Definition nv_mid : cstate := crun true nvC nv_sch_mid (cinit (dk nvc0) nv_m0 nv_progs).
Definition nv_end : cstate := crun true nvC nv_sch_end (cinit (dk nvc0) nv_m0 nv_progs).

Example C17_nv_conc_start : md nvc0 = Some nv_m0 /\ wdict nv_m0 = [] /\
  target (dk nvc0) = Some (CW [(0, VInt 1); (1, VInt 10); (2, VStr s_a)]%nat 4 4).
Proof. vm_compute. repeat split; reflexivity. Qed.

(* the state in the middle: the lock is held by thread 1, one complete save of thread 0 and three operations of the
   save of thread 1 were made, the temporary file is partial, the stored file is the complete document of thread 0 *)
Example C17_nv_conc_mid :
  c_lock nv_mid = Some 1%nat /\
  c_ev nv_mid = flat_map blk [(0, 4)]%nat ++ map (pair 1%nat) (firstn 3 (save_ops 4)) /\
  tmp (c_disk nv_mid) = Some (CW [(0, VInt 5); (1, VInt 5); (2, VStr s_a)]%nat 1 4) /\
  target (c_disk nv_mid) = Some (CW [(0, VInt 5); (1, VInt 10); (2, VStr s_a)]%nat 4 4) /\
  target (c_disk nv_mid) <> target (dk nvc0) /\
  c_disk nv_mid = fs_run [(0, VInt 5); (1, VInt 5); (2, VStr s_a)]%nat 4 (firstn 3 (save_ops 4))
                    {| target := Some (CW [(0, VInt 5); (1, VInt 10); (2, VStr s_a)]%nat 4 4); tmp := None |}.
Proof. vm_compute. repeat split; try reflexivity. discriminate. Qed.

(* the state at the end: three complete saves (thread 0, thread 1, thread 0), lock free, all threads done *)
Example C17_nv_conc_end :
  c_lock nv_end = None /\ all_done nv_end = true /\
  c_ev nv_end = flat_map blk [(0, 4); (1, 4); (0, 3)]%nat /\
  c_disk nv_end = {| target := Some (CW [(0, VInt 5); (1, VInt 5); (2, VStr s_b)]%nat 3 3); tmp := None |}.
Proof. vm_compute. repeat split; reflexivity. Qed.

(* the theorem at the instance: with the lock held the save in progress exists *)
Example C17_concurrent_saves_serialised_applies :
  exists blocks cur,
    c_ev nv_mid = flat_map blk blocks ++
                  match cur with Some (i, n, j) => map (pair i) (firstn j (save_ops n)) | None => [] end /\
    cur <> None.
Proof.
  destruct (C17_concurrent_saves_serialised nvC (dk nvc0) nv_m0 nv_progs nv_sch_mid) as [[blocks [cur [H1 H2]]] _].
  exists blocks, cur. split; [exact H1|]. intros E. apply H2 in E. vm_compute in E. discriminate.
Qed.

(* C17_unlocked_saves_leave_empty_file: closed statement (ConcCounter.v), no premise *)

(* C17_crash_atomic_any_sequence:
   premises: seq_safe n t ops = true; forall j, t = Some j -> tmp d = Some (CW data j n).
   (a) t = Some 2: the rest of an interrupted 4-chunk save (2 chunks are in the temporary file) followed by a whole
       second save - a sequence that is not save_ops; (b) t = None: two saves on a disk with a stale temporary file *)
Definition nv_rest_ops : list fsop := [FWrite 2; FWrite 3; FClose; FRename; FRemove] ++ save_ops 4.
Definition nv_disk_half : disk := {| target := Some (CW nv_old 3 3); tmp := Some (CW nv_new 2 4) |}.

Example C17_nonvacuous_any_sequence :
  seq_safe 4 (Some 2%nat) nv_rest_ops = true /\
  (forall j, Some 2%nat = Some j -> tmp nv_disk_half = Some (CW nv_new j 4)) /\
  seq_safe 4 None (save_ops 4 ++ save_ops 4) = true /\
  (forall j, @None nat = Some j -> tmp nv_disk_stale = Some (CW nv_new j 4)).
Proof.
  split; [vm_compute; reflexivity|]. split; [intros j H; inversion H; reflexivity|].
  split; [vm_compute; reflexivity|]. intros j H; discriminate.
Qed.

Example C17_crash_atomic_any_sequence_applies : forall k,
  target (fs_run nv_new 4 (firstn k nv_rest_ops) nv_disk_half) = target nv_disk_half \/
  target (fs_run nv_new 4 (firstn k nv_rest_ops) nv_disk_half) = Some (CW nv_new 4 4).
Proof.
  intros k. destruct C17_nonvacuous_any_sequence as (Hs & Ht & _).
  exact (C17_crash_atomic_any_sequence nv_new 4 nv_rest_ops (Some 2%nat) nv_disk_half k Hs Ht).
Qed.

(* both disjuncts occur: before (k = 3) and after (k = 4) the rename *)
Example C17_nv_any_sequence_both :
  target (fs_run nv_new 4 (firstn 3 nv_rest_ops) nv_disk_half) = Some (CW nv_old 3 3) /\
  target (fs_run nv_new 4 (firstn 4 nv_rest_ops) nv_disk_half) = Some (CW nv_new 4 4) /\
  target (fs_run nv_new 4 (firstn 9 nv_rest_ops) nv_disk_half) = Some (CW nv_new 4 4) /\
  tmp (fs_run nv_new 4 (firstn 9 nv_rest_ops) nv_disk_half) = Some (CW nv_new 2 4).
Proof. vm_compute. repeat split; reflexivity. Qed.

(* the check is not trivially true: sequences it rejects *)
Example C17_nv_seq_safe_rejects :
  seq_safe 4 (Some 2%nat) [FWrite 2; FClose; FRename] = false /\          (* rename of a partial file *)
  seq_safe 4 None [FClose; FRename] = false /\                            (* rename of an unknown file *)
  seq_safe 4 None (save_ops 3) = false.                                   (* wrong chunk count *)
Proof. vm_compute. repeat split; reflexivity. Qed.

(* C17_save_ops_safe, C17_fault_free_save_is_save_ops: no premise *)
Example C17_nv_fault_free :
  save_log None nv_new 4 nv_disk_stale = save_ops 4 /\
  s_disk (save_file None nv_new 4 nv_disk_stale) = {| target := Some (CW nv_new 4 4); tmp := None |} /\
  save_log (Some (FWrite 1, KErr)) nv_new 4 nv_disk_stale = [FIsDir; FOpen; FWrite 0; FWrite 1; FClose; FRemove].
Proof. vm_compute. repeat split; reflexivity. Qed.

(* C17_crash_fault_is_crash_point:
   premise: nth_error (save_ops n) k = Some o - true for every k < n + 5 with exactly one o (the operations of one
   save are pairwise different).  Instances: the third write (k = 4) and the rename (k = 7) of a 4-chunk save *)
Example C17_nonvacuous_crash_point :
  nth_error (save_ops 4) 4 = Some (FWrite 2) /\ nth_error (save_ops 4) 7 = Some FRename /\
  nth_error (save_ops 4) 0 = Some FIsDir /\ nth_error (save_ops 4) 8 = Some FRemove.
Proof. vm_compute. repeat split; reflexivity. Qed.

Example C17_crash_fault_is_crash_point_applies :
  s_disk (save_file (Some (FRename, KCrashBefore)) nv_new 4 nv_disk_stale)
    = fs_run nv_new 4 (firstn 7 (save_ops 4)) nv_disk_stale /\
  s_disk (save_file (Some (FRename, KCrashAfter)) nv_new 4 nv_disk_stale)
    = fs_run nv_new 4 (firstn 8 (save_ops 4)) nv_disk_stale.
Proof. apply C17_crash_fault_is_crash_point. apply C17_nonvacuous_crash_point. Qed.

Example C17_nv_crash_point_states :
  s_disk (save_file (Some (FWrite 2, KCrashBefore)) nv_new 4 nv_disk_stale)
    = {| target := Some (CW nv_old 3 3); tmp := Some (CW nv_new 2 4) |} /\
  s_disk (save_file (Some (FRename, KCrashBefore)) nv_new 4 nv_disk_stale)
    = {| target := Some (CW nv_old 3 3); tmp := Some (CW nv_new 4 4) |} /\
  s_disk (save_file (Some (FRename, KCrashAfter)) nv_new 4 nv_disk_stale)
    = {| target := Some (CW nv_new 4 4); tmp := None |}.
Proof. vm_compute. repeat split; reflexivity. Qed.

(* C17_remove_before_rename_breaks_atomicity: closed statement (Counter.v), no premise *)

(* a stored file written by somebody else: entries that are out of range (0), of the wrong type (1, 7), unknown (99),
   not persistent (6), and usable ones of the table-based and the compound datatypes (2 scaled, 3 blob, 4 array of
   tuples with 0 for False, 5 struct with an integer for the double and the name of the enum member) *)
Definition nv_half : val := VFlt (FBits 4602678819172646912).
Definition nv_foreign : amap :=
  [(0, VInt 5000); (1, VInt 3); (99, VNull); (2, VInt 5); (3, VStr [66%N; 119%N; 61%N; 61%N]);
   (4, VSeq [VSeq [VInt 1; VInt 0]; VSeq [VInt 9; VBool true]]);
   (5, VMap [(s_a, VInt 2); (s_b, VStr s_on)]); (6, VInt 1); (7, VStr s_a)]%nat.
Definition nv_foreign_disk : disk :=
  {| target := Some (CForeign (PJObj nv_foreign)); tmp := Some (CW nv_old 1 3) |}.
Definition nv_pre : list op := [OInit [] None 5; OCorrupt (Some (CForeign (PJObj nv_foreign)))].
Definition nv_cfg : amap := [(0%nat, VInt 4); (7%nat, VFlt (FBits 4609434218613702656))].
(* seven operations of five kinds; four of them with an OSError (at the rename, at is_dir, at a write, at close) *)
Definition nv_ops : list op :=
  [OWriteInit None 5; OSet 0 (VInt 7) (Some (FRename, KErr)) 5; OSave (Some (FIsDir, KErr)) 5;
   OSet 2 (VFlt (FInt 0)) None 6; OLoad None 5; OReset (Some (FWrite 0, KErr)) 5;
   OSet 4 (VSeq []) (Some (FClose, KErr)) 7].
Definition nv_hist : list op := nv_pre ++ OInit nv_cfg None 5 :: nv_ops.
Definition nv_s : st := run nvM nv_hist st0.
Definition nv_m : mstate :=
  match md nv_s with Some m => m | None => {| vals := []; wdict := []; pdata := None; initd := [] |} end.
Fixpoint nv_trace (M : mdesc) (s : st) (ops : list op) : list res :=
  match ops with [] => [] | o :: r => snd (step M s o) :: nv_trace M (fst (step M s o)) r end.

Lemma nv_own_ops : Forall own_op nv_ops.
Proof. repeat constructor. Qed.

(* what the history does: results of the operations, the state at the end *)
Definition nv_doc_end : amap :=
  [(0, VInt 7); (1, VStr s_a); (2, VInt 0); (3, VStr [66%N; 119%N; 61%N; 61%N]);
   (4, VSeq [VSeq [VInt 1; VBool false]; VSeq [VInt 9; VBool true]]);
   (5, VMap [(s_a, VFlt (FInt 2)); (s_b, VInt 1)]); (7, VFlt (FBits 4609434218613702656))]%nat.
Example C17_nv_history :
  nv_trace nvM st0 nv_hist = [ROk; ROk; ROk; ROk; ROk; RIOErr; ROk; ROk; ROk; ROk] /\
  md nv_s = Some nv_m /\ wdict nv_m = [] /\ pdata nv_m = Some nv_doc_end /\
  target (dk nv_s) = Some (CW nv_doc_end 6 6) /\
  aget 0 (vals nv_m) = Some (VInt 4) /\ aget 4 (vals nv_m) = Some (VSeq []).
Proof. vm_compute. repeat split; reflexivity. Qed.

(* C17_crash_atomic_step:
   premise: is_corrupt o = false (every operation of the module itself).  Instances on the state nv_s: a save that
   fails at a write (stored file stays) and one that dies right after the rename (the new document, 9 chunks) *)
Example C17_nonvacuous_crash_atomic_step :
  is_corrupt (OSet 0 (VInt 9) (Some (FWrite 1, KErr)) 9) = false /\
  is_corrupt (OSet 0 (VInt 9) (Some (FRename, KCrashAfter)) 9) = false /\
  target (dk (fst (step nvM nv_s (OSet 0 (VInt 9) (Some (FWrite 1, KErr)) 9)))) = target (dk nv_s) /\
  (exists data, target (dk (fst (step nvM nv_s (OSet 0 (VInt 9) (Some (FRename, KCrashAfter)) 9)))) = Some (CW data 9 9) /\
                aget 0 data = Some (VInt 9) /\ aget 4 data = Some (VSeq [])) /\
  target (dk (fst (step nvM nv_s (OSet 0 (VInt 9) (Some (FRename, KCrashAfter)) 9)))) <> target (dk nv_s) /\
  md (fst (step nvM nv_s (OSet 0 (VInt 9) (Some (FRename, KCrashAfter)) 9))) = None.
Proof.
  split; [reflexivity|]. split; [reflexivity|]. split; [vm_compute; reflexivity|]. split.
  - eexists. vm_compute. repeat split; reflexivity.
  - split; [vm_compute; discriminate|vm_compute; reflexivity].
Qed.

Example C17_crash_atomic_step_applies :
  let o := OSet 0 (VInt 9) (Some (FRename, KCrashAfter)) 9 in
  target (dk (fst (step nvM nv_s o))) = target (dk nv_s) \/
  exists data, target (dk (fst (step nvM nv_s o))) = Some (CW data 9 9).
Proof. intros o. apply (C17_crash_atomic_step nvM nv_s o). reflexivity. Qed.

(* C17_never_partial:
   premises: Forall op_ok ops (replacements by others are whole files, missing files or foreign bytes),
   content_ok (target (dk s)).  Instance: the history above (it contains an OCorrupt) continued by two more
   replacements, a crash in the middle of a dump and a new start-up, from the state the harness starts with (st0) *)
Definition nv_hist2 : list op :=
  nv_hist ++ [OCorrupt (Some (CW nv_old 3 3)); OInit [] (Some (FWrite 2, KCrashAfter)) 8; OCorrupt None;
              OInit nv_cfg None 8; OCorrupt (Some (CForeign PJInvalid)); OInit [] None 4; OWriteInit None 4].

Example C17_nonvacuous_never_partial : Forall op_ok nv_hist2 /\ content_ok (target (dk st0)).
Proof. split; [|exact I]. repeat constructor. Qed.

Example C17_never_partial_applies : content_ok (target (dk (run nvM nv_hist2 st0))).
Proof. apply C17_never_partial; [repeat constructor|exact I]. Qed.

Example C17_nv_never_partial_state :
  nv_trace nvM st0 nv_hist2 =
    [ROk; ROk; ROk; ROk; ROk; RIOErr; ROk; ROk; ROk; ROk; ROk; RCrash; ROk; ROk; ROk; ROk; ROk] /\
  target (dk (run nvM nv_hist2 st0)) = Some (CW nv_doc0 4 4) /\
  (* the premise matters: a partial file put there by somebody else stays *)
  ~ content_ok (target (dk (run nvM [OCorrupt (Some (CW nv_old 1 3))] st0))).
Proof. split; [vm_compute; reflexivity|]. split; [vm_compute; reflexivity|]. vm_compute. discriminate. Qed.

(* C17_belief_matches_disk:
   premise: Forall own_op ops (nobody else replaces the file after the creation of the module; before it - pre -
   anything may happen, here a foreign document).  The conclusion is not the trivial case of sync: the module
   exists, persistentData is a non-empty document and the stored file parses to it, although four saves failed and
   the values differ from it *)
Example C17_belief_matches_disk_applies : sync nv_s.
Proof. apply (C17_belief_matches_disk nvM nv_pre nv_cfg None 5 nv_ops). exact nv_own_ops. Qed.

Example C17_nv_belief_nontrivial :
  exists m p c, md nv_s = Some m /\ pdata m = Some p /\ p <> [] /\ target (dk nv_s) = Some c /\ parse c = PJObj p /\
                snapshot_of nvM (vals m) <> Some p.
Proof.
  destruct C17_nv_history as (_ & Hm & _ & Hp & Ht & _).
  exists nv_m, nv_doc_end, (CW nv_doc_end 6 6).
  split; [exact Hm|]. split; [exact Hp|]. split; [discriminate|]. split; [exact Ht|].
  split; [vm_compute; reflexivity|]. vm_compute. discriminate.
Qed.

(* C17_retry:
   premises: Forall own_op ops, md s = Some m, wdict m = [], snapshot_of M (vals m) = Some data - all about the state
   reached by the history; met by nv_s (writeDict was emptied by OWriteInit / OLoad / OReset; every value is
   exportable).  The retry really writes (SPWrote SOk, not SPNothing) a non-empty document *)
Definition nv_doc_retry : amap :=
  [(0, VInt 4); (1, VStr s_a); (2, VInt 10); (3, VStr [65%N; 81%N; 76%N; 47%N]); (4, VSeq []);
   (5, VMap [(s_a, VFlt (FBits 4609434218613702656))]); (7, VFlt (FBits 4609434218613702656))]%nat.

Example C17_nonvacuous_retry :
  Forall own_op nv_ops /\ md nv_s = Some nv_m /\ wdict nv_m = [] /\ snapshot_of nvM (vals nv_m) = Some nv_doc_retry.
Proof.
  destruct C17_nv_history as (_ & Hm & Hw & _).
  split; [exact nv_own_ops|]. split; [exact Hm|]. split; [exact Hw|]. vm_compute. reflexivity.
Qed.

Example C17_retry_applies :
  let '(d', m', o) := save_parameters nvM None 6 (dk nv_s) nv_m in
  (nv_doc_retry = [] \/ holds d' nv_doc_retry) /\ in_sync d' m' /\ (o = SPNothing \/ o = SPWrote SOk).
Proof.
  apply (C17_retry nvM nv_pre nv_cfg None 5 nv_ops 6 nv_m nv_doc_retry nv_own_ops); vm_compute; reflexivity.
Qed.

Example C17_nv_retry_writes :
  save_parameters nvM None 6 (dk nv_s) nv_m =
    ({| target := Some (CW nv_doc_retry 6 6); tmp := None |}, set_pdata nv_m (Some nv_doc_retry), SPWrote SOk).
Proof. vm_compute. reflexivity. Qed.

(* C17_startup:
   premise: base_ok M cfg, a law quantified over the parameters of M (finitely many): the configured value or the
   default of every persistent parameter can be exported.  Holds for nvM (defaults valid for their datatypes, the
   tables contain them as the harness builds them) with two configured values; start-up from the foreign document *)
Lemma nv_base_ok : base_ok nvM nv_cfg.
Proof.
  intros i p Hn Hp.
  do 8 (destruct i as [|i]; [injection Hn as <-; vm_compute; discriminate|]).
  destruct i; discriminate Hn.
Qed.
Lemma nv_base_ok_nocfg : base_ok nvM [].
Proof.
  intros i p Hn Hp.
  do 8 (destruct i as [|i]; [injection Hn as <-; vm_compute; discriminate|]).
  destruct i; discriminate Hn.
Qed.

Example C17_startup_applies :
  snd (do_init nvM nv_cfg None 5 nv_foreign_disk) = ROk /\ md (fst (do_init nvM nv_cfg None 5 nv_foreign_disk)) <> None.
Proof. apply C17_startup. exact nv_base_ok. Qed.

(* base_ok is not trivially true: a default outside the scaled table / a struct default lacking a mandatory member *)
Example C17_nv_base_ok_can_fail :
  ~ base_ok [{| p_dt := nv_scaled; p_pers := 1; p_hasw := false; p_default := VFlt (FInt 7) |}] [] /\
  snd (do_init [{| p_dt := nv_scaled; p_pers := 1; p_hasw := false; p_default := VFlt (FInt 7) |}] [] None 5
         nv_foreign_disk) = RExc.
Proof.
  split; [|vm_compute; reflexivity].
  intros H. apply (H 0%nat _ eq_refl eq_refl). vm_compute. reflexivity.
Qed.

(* C17_loaded_values_valid:
   premises: load_file M d = LOk raw loaded, aget k loaded = Some v.  Met by the foreign document: four of the nine
   entries are loaded (scaled through the table, blob through base64, array of tuples, struct) *)
Definition nv_loaded : amap :=
  [(2, nv_half); (3, VBytes [7%N]); (4, VSeq [VSeq [VInt 1; VBool false]; VSeq [VInt 9; VBool true]]);
   (5, VMap [(s_a, VFlt (FInt 2)); (s_b, VInt 1)])]%nat.

Example C17_nonvacuous_loaded_values :
  load_file nvM nv_foreign_disk = LOk nv_foreign nv_loaded /\
  aget 2 nv_loaded = Some nv_half /\ aget 5 nv_loaded = Some (VMap [(s_a, VFlt (FInt 2)); (s_b, VInt 1)]) /\
  aget 0 nv_loaded = None /\ aget 7 nv_loaded = None.
Proof. vm_compute. repeat split; reflexivity. Qed.

Example C17_loaded_values_valid_applies :
  exists p j x, nth_error nvM 5 = Some p /\ persistent p = true /\
    import (p_dt p) j = Some x /\ validate (p_dt p) x = Some (VMap [(s_a, VFlt (FInt 2)); (s_b, VInt 1)]) /\
    export (p_dt p) (VMap [(s_a, VFlt (FInt 2)); (s_b, VInt 1)]) <> None.
Proof.
  destruct C17_nonvacuous_loaded_values as (Hl & _ & H5 & _).
  exact (C17_loaded_values_valid nvM nv_foreign_disk nv_foreign nv_loaded 5 _ Hl H5).
Qed.

(* C17_tolerant_load:
   first part, premises: NoDup (map fst raw), In (k, j) raw, usable M k j = Some v; second part, premise: every entry
   of raw under the key k is unusable.  raw = the nine foreign entries; k = 2 (usable) and k = 0, 6, 7, 99 (not) *)
Lemma nv_foreign_nodup : NoDup (map fst nv_foreign).
Proof. replace (map fst nv_foreign) with (nodup Nat.eq_dec (map fst nv_foreign)) by reflexivity. apply NoDup_nodup. Qed.

Example C17_nonvacuous_tolerant_load :
  NoDup (map fst nv_foreign) /\ In (2%nat, VInt 5) nv_foreign /\ usable nvM 2 (VInt 5) = Some nv_half /\
  (forall j, In (0%nat, j) nv_foreign -> usable nvM 0 j = None) /\
  (forall j, In (6%nat, j) nv_foreign -> usable nvM 6 j = None) /\
  (forall j, In (7%nat, j) nv_foreign -> usable nvM 7 j = None) /\
  (forall j, In (99%nat, j) nv_foreign -> usable nvM 99 j = None).
Proof.
  split; [exact nv_foreign_nodup|]. split; [do 3 right; left; reflexivity|]. split; [vm_compute; reflexivity|].
  repeat split; intros j H; simpl in H;
    repeat (destruct H as [H|H]; [try discriminate H; injection H as <-; vm_compute; reflexivity|]); destruct H.
Qed.

Example C17_tolerant_load_applies :
  aget 2 (fold_left (load_entry nvM) nv_foreign []) = Some nv_half /\
  aget 0 (fold_left (load_entry nvM) nv_foreign []) = None.
Proof.
  destruct (C17_tolerant_load nvM nv_foreign 2) as [H _]. destruct (C17_tolerant_load nvM nv_foreign 0) as [_ H0].
  destruct C17_nonvacuous_tolerant_load as (Hn & Hi & Hu & Hu0 & _).
  split; [exact (H _ _ Hn Hi Hu)|exact (H0 Hu0)].
Qed.

(* C17_precedence:
   premise: nth_error M i = Some p.  All three branches on one module: 0 configured (the file says 5000), 2 from the
   file, 1 default (the file entry is unusable), 6 not persistent (the file entry is ignored), 7 configured *)
Example C17_precedence_applies :
  let m := init_state nvM nv_cfg nv_foreign nv_loaded in
  aget 0 (vals m) = Some (VInt 4) /\ aget 2 (vals m) = Some nv_half /\ aget 1 (vals m) = Some (VStr s_a) /\
  aget 6 (vals m) = Some (VInt 0) /\ aget 3 (vals m) = Some (VBytes [7%N]).
Proof.
  intros m. unfold m.
  rewrite (C17_precedence nvM nv_cfg nv_foreign nv_loaded 0 _ eq_refl).
  rewrite (C17_precedence nvM nv_cfg nv_foreign nv_loaded 2 _ eq_refl).
  rewrite (C17_precedence nvM nv_cfg nv_foreign nv_loaded 1 _ eq_refl).
  rewrite (C17_precedence nvM nv_cfg nv_foreign nv_loaded 6 _ eq_refl).
  rewrite (C17_precedence nvM nv_cfg nv_foreign nv_loaded 3 _ eq_refl).
  vm_compute. repeat split; reflexivity.
Qed.

(* C17_roundtrip_except_adjacent_surrogate_pair:
   premises: codec_ok M vs (a law quantified over parameter numbers, values and documents, but only for the values
   vs holds: finitely many instances), snapshot_of M vs = Some data, jtext data = data (the guard of the open finding:
   no string of the document holds an adjacent surrogate pair), nth_error M i = Some p, persistent p = true,
   aget i vs = Some v, aget i cfg = None.  vs = the values of the module created from the foreign document: all
   eight parameters, table-based and compound datatypes included *)
Definition nv_vs : amap := vals (init_state nvM nv_cfg nv_foreign nv_loaded).
Definition nv_doc_vs : amap :=
  [(0, VInt 4); (1, VStr s_a); (2, VInt 5); (3, VStr [66%N; 119%N; 61%N; 61%N]);
   (4, VSeq [VSeq [VInt 1; VBool false]; VSeq [VInt 9; VBool true]]);
   (5, VMap [(s_a, VFlt (FInt 2)); (s_b, VInt 1)]); (7, VFlt (FBits 4609434218613702656))]%nat.

Lemma nv_codec_ok : codec_ok nvM nv_vs.
Proof.
  intros i p v j Hn Hv He.
  do 8 (destruct i as [|i];
        [injection Hn as <-; vm_compute in Hv; injection Hv as <-; vm_compute in He; injection He as <-;
         vm_compute; reflexivity|]).
  destruct i; discriminate Hn.
Qed.

Example C17_nonvacuous_roundtrip_except_adjacent_surrogate_pair :
  codec_ok nvM nv_vs /\ snapshot_of nvM nv_vs = Some nv_doc_vs /\ jtext nv_doc_vs = nv_doc_vs /\
  (exists p, nth_error nvM 2 = Some p /\ persistent p = true) /\ aget 2 nv_vs = Some nv_half /\
  aget 2 [(0%nat, VInt 8)] = None.
Proof.
  split; [exact nv_codec_ok|]. split; [vm_compute; reflexivity|]. split; [vm_compute; reflexivity|].
  split; [eexists; split; reflexivity|].
  split; vm_compute; reflexivity.
Qed.

Example C17_roundtrip_except_adjacent_surrogate_pair_applies :
  (exists raw loaded, load_file nvM {| target := Some (CW nv_doc_vs 7 7); tmp := None |} = LOk raw loaded /\
     aget 2 (vals (init_state nvM [(0%nat, VInt 8)] raw loaded)) = Some nv_half) /\
  (exists raw loaded, load_file nvM {| target := Some (CW nv_doc_vs 7 7); tmp := None |} = LOk raw loaded /\
     aget 3 (vals (init_state nvM [(0%nat, VInt 8)] raw loaded)) = Some (VBytes [7%N])) /\
  (exists raw loaded, load_file nvM {| target := Some (CW nv_doc_vs 7 7); tmp := None |} = LOk raw loaded /\
     aget 5 (vals (init_state nvM [(0%nat, VInt 8)] raw loaded)) = Some (VMap [(s_a, VFlt (FInt 2)); (s_b, VInt 1)])).
Proof.
  repeat split; eapply C17_roundtrip_except_adjacent_surrogate_pair with (vs := nv_vs) (data := nv_doc_vs);
    try exact nv_codec_ok; reflexivity.
Qed.

(* codec_ok is not trivially true: a scaled table in which two integers give the same double (it cannot come from
   CPython for a non-zero scale) breaks it *)
Example C17_nv_codec_ok_can_fail :
  ~ codec_ok [{| p_dt := DScaled [(1, FInt 3); (2, FInt 3)] (-1000) 0; p_pers := 1; p_hasw := false;
                 p_default := VFlt (FInt 3) |}] [(0%nat, VFlt (FInt 3))].
Proof.
  intros H. specialize (H 0%nat _ (VFlt (FInt 3)) (VInt 1) eq_refl eq_refl eq_refl). vm_compute in H. discriminate.
Qed.

(* C17_codec_scalar:
   premises: scalar d = true, validate d v = Some v, export d v = Some j.  One instance per scalar kind *)
Example C17_nonvacuous_codec_scalar :
  (scalar (DInt (-5) 5) = true /\ validate (DInt (-5) 5) (VInt (-3)) = Some (VInt (-3)) /\
   export (DInt (-5) 5) (VInt (-3)) = Some (VInt (-3))) /\
  (scalar DBool = true /\ validate DBool (VBool true) = Some (VBool true) /\ export DBool (VBool true) = Some (VBool true)) /\
  (scalar (DEnum [(s_on, 1); (s_off, 0)]) = true /\ validate (DEnum [(s_on, 1); (s_off, 0)]) (VInt 1) = Some (VInt 1) /\
   export (DEnum [(s_on, 1); (s_off, 0)]) (VInt 1) = Some (VInt 1)) /\
  (scalar (DStr 1 3 false) = true /\ validate (DStr 1 3 false) (VStr s_on) = Some (VStr s_on) /\
   export (DStr 1 3 false) (VStr s_on) = Some (VStr s_on)) /\
  (scalar DFloat = true /\ validate DFloat nv_half = Some nv_half /\ export DFloat nv_half = Some nv_half).
Proof. vm_compute. repeat split; reflexivity. Qed.

Example C17_codec_scalar_applies :
  usable_dt (DInt (-5) 5) (VInt (-3)) = Some (VInt (-3)) /\ usable_dt DBool (VBool true) = Some (VBool true) /\
  usable_dt (DEnum [(s_on, 1); (s_off, 0)]) (VInt 1) = Some (VInt 1) /\
  usable_dt (DStr 1 3 false) (VStr s_on) = Some (VStr s_on) /\ usable_dt DFloat nv_half = Some nv_half.
Proof. repeat split; apply C17_codec_scalar; reflexivity. Qed.
