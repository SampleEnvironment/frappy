(* C17 - lemmas about the module: the persistentData / disk synchronisation invariant through every operation with
   every fault (by what LemmasSeq.v says of one save), tolerant loading, start-up precedence, the round trip. *)
From Coq Require Import List Arith ZArith NArith Bool Lia.
Import ListNotations.
Require Import FV.Base.Util FV.C17.Model FV.C17.LemmasSeq.

Lemma aget_aset : forall k k' v l, aget k (aset k' v l) = if Nat.eqb k k' then Some v else aget k l.
Proof.
  intros k k' v l. unfold aget. induction l as [|[k2 v2] r IH]; simpl; [reflexivity|].
  destruct (Nat.eqb k' k2) eqn:E; simpl.
  - apply Nat.eqb_eq in E. subst k2. now destruct (Nat.eqb k k').
  - rewrite IH. destruct (Nat.eqb k k2) eqn:E2; auto. apply Nat.eqb_eq in E2. subst k2. now rewrite Nat.eqb_sym, E.
Qed.

Lemma parse_complete : forall d n, parse (CW d n n) = PJObj (jtext d).
Proof. intros. simpl. replace (Nat.leb (n - 1) n) with true; auto. symmetry. apply Nat.leb_le. lia. Qed.

(* the stored file changes only to a complete new document *)
Definition tstep (n : nat) (d d' : disk) : Prop :=
  target d' = target d \/ exists data, target d' = Some (CW data n n).

Lemma tstep_refl : forall n d, tstep n d d.
Proof. intros; left; reflexivity. Qed.
Lemma tstep_trans : forall n a b c, tstep n a b -> tstep n b c -> tstep n a c.
Proof.
  intros n a b c [H1|[x H1]] [H2|[y H2]]; unfold tstep.
  - left; congruence.
  - right; eauto.
  - right; exists x; congruence.
  - right; eauto.
Qed.

(* reading the file c gives the document p, or what the JSON text of p reads back as (p itself unless a string of p
   holds a high surrogate directly followed by a low one, see jtext in Model.v): p is what json.load returned, or p
   is what json.dump wrote *)
Definition reads_as (c : content) (p : amap) : Prop := parse c = PJObj p \/ parse c = PJObj (jtext p).

(* persistentData describes the stored file (or is the empty dict of a module that has nothing stored) *)
Definition in_sync (d : disk) (m : mstate) : Prop :=
  match pdata m with
  | None => True
  | Some p => p = [] \/ exists c, target d = Some c /\ reads_as c p
  end.

(* the stored file is a complete document equal (python ==) to data *)
Definition holds (d : disk) (data : amap) : Prop :=
  exists c p, target d = Some c /\ reads_as c p /\ (p = data \/ snap_eqb data p = true).

(* it is a matter of the stored file and of persistentData only *)
Lemma in_sync_same : forall d d' m m', target d' = target d -> pdata m' = pdata m -> in_sync d m -> in_sync d' m'.
Proof. intros d d' m m' Ht Hp. unfold in_sync. now rewrite Ht, Hp. Qed.

Lemma in_sync_vals : forall d m v, in_sync d (set_vals m v) <-> in_sync d m.
Proof. intros; unfold in_sync; simpl; tauto. Qed.
Lemma in_sync_wdict : forall d m v, in_sync d (set_wdict m v) <-> in_sync d m.
Proof. intros; unfold in_sync; simpl; tauto. Qed.
Lemma in_sync_initd : forall d m v, in_sync d (set_initd m v) <-> in_sync d m.
Proof. intros; unfold in_sync; simpl; tauto. Qed.

(* persistentData assigned after the rename of the complete document *)
Lemma in_sync_new : forall d m data n, target d = Some (CW data n n) -> in_sync d (set_pdata m (Some data)).
Proof. intros d m data n H. right. eexists. split; [exact H|]. right. apply parse_complete. Qed.

(* what an operation returns - the disk, the module, whether the process died: the stored file stays or becomes a
   complete document, and persistentData keeps describing it *)
Definition post (n : nat) (d : disk) (m : mstate) (r : disk * mstate * bool) : Prop :=
  let '(d', m', dead) := r in tstep n d d' /\ (in_sync d m -> dead = true \/ in_sync d' m').

Lemma post_refl : forall n d m, post n d m (d, m, false).
Proof. intros. split; [apply tstep_refl|auto]. Qed.

Lemma post_chain : forall n d m d1 m1 r, post n d m (d1, m1, false) -> post n d1 m1 r -> post n d m r.
Proof.
  intros n d m d1 m1 [[d2 m2] dead] [A1 A2] [B1 B2]. split; [eapply tstep_trans; eauto|].
  intros Hs. destruct (A2 Hs) as [X|X]; [discriminate|auto].
Qed.

(* the operation may be started from any module state with the same persistentData *)
Lemma post_pdata : forall n d m m0 r, pdata m0 = pdata m -> post n d m0 r -> post n d m r.
Proof.
  intros n d m m0 [[d' m'] dead] E [P1 P2]. split; [exact P1|]. intros H. apply P2. revert H. now apply in_sync_same.
Qed.

Lemma save_params_post : forall M f n d m,
  let '(d', m', o) := save_params M f n d m in post n d m (d', m', crashed o).
Proof.
  intros M f n d m. unfold save_params.
  destruct (snapshot_of M (vals m)) as [data|]; [|apply post_refl].
  destruct (differs data (pdata m)); [|apply post_refl]. split.
  - destruct (save_file_target f data n d) as [H|H]; [left; exact H|right; eexists; exact H].
  - intros Hs. destruct (save_file_outcome f data n d) as [Hres Hdisk Hdone|Hres _ _|o Hres _ Hleft]; rewrite Hres; simpl.
    + (* saved: persistentData is the new document, and so is the stored file *)
      right. rewrite Hdone. apply (in_sync_new _ _ data n). now rewrite Hdisk.
    + (* the process died *) now left.
    + (* OSError: before the rename nothing has changed, after it both have *)
      right. destruct Hleft as [[Ht ->]|[_ [Ht ->]]]; [now apply (in_sync_same d _ m)|now apply (in_sync_new _ _ data n)].
Qed.

Lemma save_parameters_post : forall M f n d m,
  let '(d', m', o) := save_parameters M f n d m in post n d m (d', m', crashed o).
Proof. intros M f n d m. unfold save_parameters. destruct (wdict m); [apply save_params_post|apply post_refl]. Qed.

Lemma announce_post : forall M f n d m p v, post n d m (announce M f n d m p v).
Proof.
  intros M f n d m p v. unfold announce. set (m1 := set_vals m (aset p v (vals m))).
  apply (post_pdata n d m m1); [reflexivity|]. destruct (is_auto M p); [|apply post_refl].
  pose proof (save_parameters_post M f n d m1) as H. now destruct (save_parameters M f n d m1) as [[d' m'] o].
Qed.

Lemma wi_step_post : forall M f n d m acc pv, post n d m acc -> post n d m (wi_step M f n acc pv).
Proof.
  intros M f n d m [[d1 m1] dead1] pv H. unfold wi_step. destruct dead1; auto.
  destruct (aget (fst pv) (wdict m1)) as [v|]; auto.
  eapply post_chain; [exact H|]. eapply post_pdata; [|apply announce_post]. reflexivity.
Qed.

Lemma write_init_post : forall M f n d m, post n d m (write_init M f n d m).
Proof.
  intros M f n d m. unfold write_init.
  assert (G : forall l acc, post n d m acc -> post n d m (fold_left (wi_step M f n) l acc))
    by (induction l; simpl; auto using wi_step_post).
  apply G, post_refl.
Qed.

Definition sync (s : st) : Prop := match md s with Some m => in_sync (dk s) m | None => True end.

Definition op_fault (o : op) : fault :=
  match o with
  | OInit _ f _ | OSet _ _ f _ | OSave f _ | OWriteInit f _ | OLoad f _ | OReset f _ => f
  | OCorrupt _ => None
  end.
Definition op_n (o : op) : nat :=
  match o with
  | OInit _ _ n | OSet _ _ _ n | OSave _ n | OWriteInit _ n | OLoad _ n | OReset _ n => n
  | OCorrupt _ => 0
  end.
Definition is_corrupt (o : op) : bool := match o with OCorrupt _ => true | _ => false end.

Lemma load_file_sync : forall M d raw loaded, load_file M d = LOk raw loaded ->
  raw = [] \/ exists c, target d = Some c /\ reads_as c raw.
Proof.
  intros M d raw loaded. unfold load_file. destruct (target d) as [c|].
  - destruct (parse c) eqn:P; intros H; inversion H; subst; auto. right. exists c. split; [reflexivity|left; exact P].
  - intros H; inversion H; auto.
Qed.

Lemma fold_pdata : forall {A} (g : mstate -> A -> mstate), (forall m x, pdata (g m x) = pdata m) ->
  forall l m, pdata (fold_left g l m) = pdata m.
Proof. intros A g H. induction l; intros m; simpl; auto. now rewrite IHl. Qed.

Lemma init_step_pdata : forall cfg loaded m ip, pdata (init_step cfg loaded m ip) = pdata m.
Proof.
  intros cfg loaded m ip. unfold init_step. destruct (persistent (snd ip)); auto.
  destruct (aget (fst ip) (vals m)); auto. destruct (amem (fst ip) cfg); auto.
  destruct (p_hasw (snd ip)); auto.
Qed.

Lemma init_state_pdata : forall M cfg raw loaded, pdata (init_state M cfg raw loaded) = Some raw.
Proof. intros. unfold init_state. now rewrite (fold_pdata _ (init_step_pdata cfg loaded)). Qed.

Lemma load_step_pdata : forall M m kv, pdata (load_step M m kv) = pdata m.
Proof.
  intros. unfold load_step. destruct (nth_error M (fst kv)) as [p|]; auto. destruct (p_hasw p); auto.
Qed.

(* the result of a save that may have crashed: the process died, or persistentData still describes the stored file *)
Lemma died_or_sync : forall d m o, crashed o = true \/ in_sync d m -> o = SPWrote SCrash \/ in_sync d m.
Proof. intros d m [|[]|] [C|I]; auto; discriminate C. Qed.

Lemma do_init_post : forall M cfg f n d,
  tstep n d (dk (fst (do_init M cfg f n d))) /\ sync (fst (do_init M cfg f n d)).
Proof.
  intros M cfg f n d. unfold do_init.
  destruct (snd (pre_ops f init_pre)) as [[]|]; try (split; [apply tstep_refl|exact I]).
  destruct (load_file M d) as [raw loaded] eqn:L.
  pose proof (save_params_post M f n d (init_state M cfg raw loaded)) as P.
  destruct (save_params M f n d (init_state M cfg raw loaded)) as [[d' m'] o]. destruct P as [P1 P2].
  assert (S0 : in_sync d (init_state M cfg raw loaded)).
  { unfold in_sync. rewrite init_state_pdata. eapply load_file_sync; eauto. }
  split; [destruct o as [|[]|]; exact P1|].
  destruct (died_or_sync _ _ _ (P2 S0)) as [->|I]; [exact I|].   (* died: there is no module *)
  unfold sync. destruct o as [|[]|]; simpl; auto.
Qed.

(* the end of an operation that returns the dead flag *)
Lemma finish_post : forall n s m r, (sync s -> in_sync (dk s) m) -> post n (dk s) m r ->
  let '(d', m', dead) := r in
  tstep n (dk s) (dk (fst (finish d' m' dead))) /\ (sync s -> sync (fst (finish d' m' dead))).
Proof.
  intros n s m [[d' m'] dead] Hm [P1 P2]. unfold finish. split; [now destruct dead|].
  intros Hs. destruct (P2 (Hm Hs)) as [->|H]; [exact I|]. now destruct dead.
Qed.

(* every operation with every fault: the stored file stays or becomes a complete document, and persistentData
   keeps describing the stored file *)
Lemma step_post : forall M s o, is_corrupt o = false ->
  tstep (op_n o) (dk s) (dk (fst (step M s o))) /\ (sync s -> sync (fst (step M s o))).
Proof.
  intros M s o Hc. destruct o; try discriminate; simpl.
  1: destruct (do_init_post M cfg f n (dk s)); auto.   (* OInit *)
  all: destruct (md s) as [m|] eqn:E; simpl; [|split; [apply tstep_refl|auto]].
  all: assert (Hm : sync s -> in_sync (dk s) m) by (unfold sync; now rewrite E).
  - (* OSet *)
    pose proof (finish_post n s m _ Hm (announce_post M f n (dk s) m p v)) as P.
    now destruct (announce M f n (dk s) m p v) as [[d' m'] dead].
  - (* OSave *)
    unfold do_save. pose proof (save_parameters_post M f n (dk s) m) as P.
    destruct (save_parameters M f n (dk s) m) as [[d' m'] o]. destruct P as [P1 P2].
    split; [destruct o as [|[]|]; exact P1|].
    intros Hs. destruct (died_or_sync _ _ _ (P2 (Hm Hs))) as [->|I]; [exact I|].
    unfold sync. destruct o as [|[]|]; simpl; auto.
  - (* OWriteInit *)
    pose proof (finish_post n s m _ Hm (write_init_post M f n (dk s) m)) as P.
    now destruct (write_init M f n (dk s) m) as [[d' m'] dead].
  - (* OLoad *)
    unfold do_load.
    destruct (snd (pre_ops f load_pre)) as [[]|]; try (split; [apply tstep_refl|auto; intros _; exact I]).
    destruct (load_file M (dk s)) as [raw loaded] eqn:L.
    set (m1 := fold_left (load_step M) loaded (set_pdata m (Some raw))).
    assert (S1 : in_sync (dk s) m1).
    { unfold in_sync, m1. rewrite (fold_pdata _ (load_step_pdata M)). simpl. eapply load_file_sync; eauto. }
    pose proof (finish_post n s m1 _ (fun _ => S1) (write_init_post M f n (dk s) m1)) as P.
    now destruct (write_init M f n (dk s) m1) as [[d' m'] dead].
  - (* OReset *)
    unfold do_reset. set (m1 := set_wdict m _).
    pose proof (finish_post n s m _ Hm (post_pdata _ _ m m1 _ eq_refl (write_init_post M f n (dk s) m1))) as P.
    now destruct (write_init M f n (dk s) m1) as [[d' m'] dead].
Qed.

(* no partially written document is ever the stored file *)
Definition content_ok (c : option content) : Prop :=
  match c with Some (CW _ k n) => k = n | _ => True end.
Definition op_ok (o : op) : Prop := match o with OCorrupt c => content_ok c | _ => True end.

Lemma tstep_ok : forall n d d', tstep n d d' -> content_ok (target d) -> content_ok (target d').
Proof. intros n d d' [H|[x H]] Hd; rewrite H; simpl; auto. Qed.

Lemma step_target_ok : forall M s o, op_ok o -> content_ok (target (dk s)) -> content_ok (target (dk (fst (step M s o)))).
Proof.
  intros M s o Ho Hs. destruct (is_corrupt o) eqn:C.
  - destruct o; try discriminate. simpl. exact Ho.
  - eapply tstep_ok; [apply (step_post M s o C)|exact Hs].
Qed.

(* nobody else replaces the stored file under the running module *)
Definition own_op (o : op) : Prop := is_corrupt o = false.

Lemma run_sync : forall M ops s, Forall own_op ops -> sync s -> sync (run M ops s).
Proof.
  induction ops as [|o ops IH]; intros s Hf Hs; simpl; auto. inversion Hf as [|? ? Ho Hf']; subst.
  apply IH; auto. apply (step_post M s o Ho); auto.
Qed.

(* a save of a synchronised module without fault puts the current snapshot on disk *)
Lemma snap_eqb_nil : forall data, snap_eqb data [] = true -> data = [].
Proof. intros [|x r]; simpl; auto. discriminate. Qed.

Lemma save_reaches_disk : forall M n d m data,
  wdict m = [] -> snapshot_of M (vals m) = Some data -> in_sync d m ->
  let '(d', m', o) := save_parameters M None n d m in
  (data = [] \/ holds d' data) /\ in_sync d' m' /\ (o = SPNothing \/ o = SPWrote SOk).
Proof.
  intros M n d m data Hw Hd Hs. unfold save_parameters, save_params. rewrite Hw, Hd.
  destruct (differs data (pdata m)) eqn:D.
  - destruct (save_file_nofault None data n d eq_refl) as [H1 [H2 H3]]. rewrite H1, H2, H3. repeat split; auto.
    + right. exists (CW data n n), data. simpl target.
      split; [reflexivity|split; [right; apply parse_complete|left; reflexivity]].
    + now apply (in_sync_new _ _ data n).
  - repeat split; auto. unfold differs in D. unfold in_sync in Hs. destruct (pdata m) as [p|]; [|discriminate].
    apply negb_false_iff in D. destruct Hs as [Hs|[c [Hc Hp]]].
    + subst p. left. now apply snap_eqb_nil.
    + right. exists c, p. auto.
Qed.

(* what one stored entry is worth: None = ignored (unknown key, not persistent, import / validate / export raises) *)
Definition usable (M : mdesc) (k : nat) (j : val) : option val :=
  match nth_error M k with
  | Some p => if persistent p then usable_dt (p_dt p) j else None
  | None => None
  end.

Lemma load_entry_usable : forall M acc kv,
  load_entry M acc kv = match usable M (fst kv) (snd kv) with Some v => aset (fst kv) v acc | None => acc end.
Proof.
  intros M acc [k j]. unfold load_entry, usable. simpl. destruct (nth_error M k) as [p|]; auto.
  destruct (persistent p); auto.
Qed.

Lemma load_other_keys : forall M raw acc k,
  (forall j, In (k, j) raw -> usable M k j = None) ->
  aget k (fold_left (load_entry M) raw acc) = aget k acc.
Proof.
  induction raw as [|[k' j'] r IH]; intros acc k H; simpl; auto.
  rewrite IH.
  - rewrite load_entry_usable. simpl. destruct (usable M k' j') as [v|] eqn:U; auto.
    rewrite aget_aset. destruct (Nat.eqb k k') eqn:E; auto. apply Nat.eqb_eq in E. subst k'.
    rewrite (H j') in U; [discriminate|left; reflexivity].
  - intros j Hj. apply H. right. exact Hj.
Qed.

(* a usable entry is restored whatever the other entries are; an unusable one is ignored on its own *)
Lemma load_restores : forall M raw acc k j v,
  NoDup (map fst raw) -> In (k, j) raw -> usable M k j = Some v ->
  aget k (fold_left (load_entry M) raw acc) = Some v.
Proof.
  induction raw as [|[k' j'] r IH]; intros acc k j v Hn Hi Hu; simpl in *; [contradiction|].
  inversion Hn as [|? ? Hk' Hn']; subst. destruct Hi as [E|Hi].
  - inversion E; subst. rewrite load_other_keys.
    + rewrite load_entry_usable. simpl. now rewrite Hu, aget_aset, Nat.eqb_refl.
    + intros j2 Hj2. exfalso. apply Hk'. change k with (fst (k, j2)). now apply in_map.
  - eapply IH; eauto.
Qed.

(* whatever the file contains, every value taken from it is the validated import of a stored value and can be
   stored again *)
Definition good_value (M : mdesc) (k : nat) (v : val) : Prop :=
  exists p j x, nth_error M k = Some p /\ persistent p = true /\
    import (p_dt p) j = Some x /\ validate (p_dt p) x = Some v /\ export (p_dt p) v <> None.

Lemma usable_dt_good : forall d j v, usable_dt d j = Some v ->
  exists x, import d j = Some x /\ validate d x = Some v /\ export d v <> None.
Proof.
  intros d j v. unfold usable_dt. destruct (import d j) as [x|]; [|discriminate].
  destruct (validate d x) as [y|] eqn:V; [|discriminate]. destruct (export d y) eqn:X; [|discriminate].
  intros H. inversion H; subst. exists x. repeat split; auto. congruence.
Qed.

Lemma loaded_good : forall M raw acc,
  (forall k v, aget k acc = Some v -> good_value M k v) ->
  forall k v, aget k (fold_left (load_entry M) raw acc) = Some v -> good_value M k v.
Proof.
  induction raw as [|[k' j'] r IH]; intros acc Hacc k v H; simpl in *; [now apply Hacc|].
  eapply IH; [|exact H]. clear H k v. intros k v H. rewrite load_entry_usable in H. simpl in H.
  destruct (usable M k' j') as [v'|] eqn:U; [|now apply Hacc].
  rewrite aget_aset in H. destruct (Nat.eqb k k') eqn:E; [|now apply Hacc]. apply Nat.eqb_eq in E. subst k'.
  inversion H; subst. unfold usable in U.
  destruct (nth_error M k) as [p|] eqn:Hn; [|discriminate]. destruct (persistent p) eqn:P; [|discriminate].
  apply usable_dt_good in U. destruct U as [x [U1 [U2 U3]]]. exists p, j', x. auto.
Qed.

Definition has_pers (i : nat) (L : list (nat * pdesc)) : bool :=
  existsb (fun ip => Nat.eqb (fst ip) i && persistent (snd ip)) L.

Definition pick (cfg loaded : amap) (i : nat) (v0 : val) : val :=
  if amem i cfg then v0 else match aget i loaded with Some v => v | None => v0 end.

Lemma pick_idem : forall cfg loaded i v0, pick cfg loaded i (pick cfg loaded i v0) = pick cfg loaded i v0.
Proof. intros. unfold pick. destruct (amem i cfg); auto. destruct (aget i loaded); auto. Qed.

Lemma init_step_vals : forall cfg loaded m ip i,
  aget i (vals (init_step cfg loaded m ip)) =
  match aget i (vals m) with
  | None => None
  | Some v0 => Some (if Nat.eqb (fst ip) i && persistent (snd ip) then pick cfg loaded i v0 else v0)
  end.
Proof.
  intros cfg loaded m [k p] i. unfold init_step. simpl.
  destruct (persistent p); simpl; [|rewrite andb_false_r; now destruct (aget i (vals m))].
  rewrite andb_true_r. destruct (Nat.eqb k i) eqn:E.
  - apply Nat.eqb_eq in E. subst k. destruct (aget i (vals m)) as [v0|] eqn:G; simpl; [|now rewrite G].
    unfold pick. destruct (amem i cfg); simpl; [now rewrite G|].
    destruct (p_hasw p); simpl; now rewrite aget_aset, Nat.eqb_refl.
  - destruct (aget k (vals m)) as [vk|]; simpl; [|now destruct (aget i (vals m))].
    destruct (amem k cfg); simpl; [now destruct (aget i (vals m))|].
    destruct (p_hasw p); simpl; rewrite aget_aset, Nat.eqb_sym, E; now destruct (aget i (vals m)).
Qed.

Lemma init_fold_vals : forall cfg loaded L m i,
  aget i (vals (fold_left (init_step cfg loaded) L m)) =
  match aget i (vals m) with
  | None => None
  | Some v0 => Some (if has_pers i L then pick cfg loaded i v0 else v0)
  end.
Proof.
  induction L as [|ip L IH]; intros m i; simpl.
  - destruct (aget i (vals m)); auto.
  - rewrite IH, init_step_vals. destruct (aget i (vals m)) as [v0|]; auto.
    destruct (Nat.eqb (fst ip) i && persistent (snd ip)); simpl; auto.
    destruct (has_pers i L); auto. now rewrite pick_idem.
Qed.

Lemma nth_indexed_from : forall (M : mdesc) a k p, nth_error M k = Some p -> In (a + k, p) (combine (seq a (length M)) M).
Proof.
  induction M as [|q M IH]; intros a k p H; destruct k; simpl in *; try discriminate.
  - inversion H; subst. left. now rewrite Nat.add_0_r.
  - right. replace (a + S k) with (S a + k) by lia. now apply IH.
Qed.

Lemma indexed_keys_from : forall (M : mdesc) a i p, In (i, p) (combine (seq a (length M)) M) -> a <= i /\ nth_error M (i - a) = Some p.
Proof.
  induction M as [|q M IH]; intros a i p H; simpl in *; [contradiction|].
  destruct H as [H|H].
  - inversion H; subst. rewrite Nat.sub_diag. auto.
  - apply IH in H. destruct H as [H1 H2]. split; [lia|]. replace (i - a) with (S (i - S a)) by lia. exact H2.
Qed.

Lemma base_vals_get : forall M cfg i p, nth_error M i = Some p ->
  aget i (base_vals M cfg) = Some (match aget i cfg with Some v => v | None => p_default p end).
Proof.
  intros M cfg i p H. unfold base_vals, indexed.
  assert (G : forall (M : mdesc) a k p, nth_error M k = Some p ->
    aget (a + k) (map (fun ip => (fst ip, match aget (fst ip) cfg with Some v => v | None => p_default (snd ip) end))
                   (combine (seq a (length M)) M)) = Some (match aget (a + k) cfg with Some v => v | None => p_default p end)).
  { clear. induction M as [|q M IH]; intros a k p H; destruct k; simpl in *; try discriminate.
    - inversion H; subst. unfold aget at 1. simpl. rewrite Nat.add_0_r, Nat.eqb_refl. reflexivity.
    - unfold aget at 1. simpl. replace (Nat.eqb (a + S k) a) with false by (symmetry; apply Nat.eqb_neq; lia).
      replace (a + S k) with (S a + k) by lia. apply (IH (S a) k p H). }
  apply (G M 0 i p H).
Qed.

Lemma has_pers_indexed : forall M i p, nth_error M i = Some p -> has_pers i (indexed M) = persistent p.
Proof.
  intros M i p H. unfold has_pers, indexed. destruct (persistent p) eqn:P.
  - apply existsb_exists. exists (i, p). split; [apply (nth_indexed_from M 0 i p H)|]. simpl. now rewrite Nat.eqb_refl.
  - destruct (existsb _ _) eqn:E; auto. apply existsb_exists in E. destruct E as [[k q] [Hin Hq]]. simpl in Hq.
    apply andb_true_iff in Hq. destruct Hq as [Hk Hq]. apply Nat.eqb_eq in Hk. subst k.
    apply indexed_keys_from in Hin. destruct Hin as [_ Hin]. rewrite Nat.sub_0_r in Hin. congruence.
Qed.

Lemma snap_none : forall vs L, fold_left (snapshot_step vs) L None = None.
Proof. induction L; simpl; auto. Qed.

Lemma snapshot_step_some : forall vs l0 k q, snapshot_step vs (Some l0) (k, q) =
  if persistent q then match aget k vs with
                       | Some v => match export (p_dt q) v with Some j => Some (l0 ++ [(k, j)]) | None => None end
                       | None => None end
  else Some l0.
Proof. reflexivity. Qed.

Definition pers_keys (L : list (nat * pdesc)) : list nat := map fst (filter (fun ip => persistent (snd ip)) L).

Lemma snap_fold : forall vs L l0 data, fold_left (snapshot_step vs) L (Some l0) = Some data ->
  (forall i p, In (i, p) L -> persistent p = true ->
     exists v j, aget i vs = Some v /\ export (p_dt p) v = Some j /\ In (i, j) data) /\
  map fst data = map fst l0 ++ pers_keys L /\ incl l0 data.
Proof.
  induction L as [|[k q] L IH]; intros l0 data H; cbn [fold_left] in H.
  - inversion H; subst. repeat split; [intros; contradiction|now rewrite app_nil_r|apply incl_refl].
  - rewrite snapshot_step_some in H. unfold pers_keys. simpl. destruct (persistent q) eqn:P.
    + destruct (aget k vs) as [v|] eqn:G; [|rewrite snap_none in H; discriminate].
      destruct (export (p_dt q) v) as [j|] eqn:X; [|rewrite snap_none in H; discriminate].
      apply IH in H. destruct H as [H1 [H2 H3]]. repeat split.
      * intros i p [E|Hin] Pp.
        -- inversion E; subst. exists v, j. repeat split; auto. apply H3. apply in_or_app. right. left. reflexivity.
        -- now apply H1.
      * rewrite H2, map_app. simpl. now rewrite <- app_assoc.
      * intros x Hx. apply H3. apply in_or_app. now left.
    + apply IH in H. destruct H as [H1 [H2 H3]]. repeat split; auto.
      intros i p [E|Hin] Pp; [inversion E; subst; congruence|now apply H1].
Qed.

Lemma pers_keys_bound : forall (M : mdesc) a i, In i (pers_keys (combine (seq a (length M)) M)) -> a <= i.
Proof.
  intros M a i H. unfold pers_keys in H. apply in_map_iff in H. destruct H as [[k p] [E H]]. simpl in E. subst k.
  apply filter_In in H. destruct H as [H _]. apply indexed_keys_from in H. tauto.
Qed.

Lemma pers_keys_nodup : forall (M : mdesc) a, NoDup (pers_keys (combine (seq a (length M)) M)).
Proof.
  induction M as [|q M IH]; intros a; simpl; [constructor|].
  unfold pers_keys. simpl. destruct (persistent q); simpl; [|apply IH].
  constructor; [|apply IH]. intros H. apply pers_keys_bound in H. lia.
Qed.

Lemma snapshot_entries : forall M vs data, snapshot_of M vs = Some data ->
  NoDup (map fst data) /\
  forall i p v, nth_error M i = Some p -> persistent p = true -> aget i vs = Some v ->
    exists j, export (p_dt p) v = Some j /\ In (i, j) data.
Proof.
  intros M vs data H. unfold snapshot_of in H. apply snap_fold in H. destruct H as [H1 [H2 _]]. split.
  - rewrite H2. simpl. apply pers_keys_nodup.
  - intros i p v Hn Hp Hv. destruct (H1 i p (nth_indexed_from M 0 i p Hn) Hp) as [v' [j [A [B C]]]].
    exists j. split; auto. congruence.
Qed.

(* snapshot_of succeeds as soon as every persistent parameter has an exportable value *)
Lemma snap_fold_total : forall vs L l0,
  (forall i p, In (i, p) L -> persistent p = true -> exists v, aget i vs = Some v /\ export (p_dt p) v <> None) ->
  exists data, fold_left (snapshot_step vs) L (Some l0) = Some data.
Proof.
  induction L as [|[k q] L IH]; intros l0 H; cbn [fold_left].
  - eauto.
  - rewrite snapshot_step_some. destruct (persistent q) eqn:P.
    + destruct (H k q (or_introl eq_refl) P) as [v [Hv Hx]]. rewrite Hv.
      destruct (export (p_dt q) v) as [j|]; [|congruence]. apply IH. intros i p Hin. apply H. now right.
    + apply IH. intros i p Hin. apply H. now right.
Qed.

Lemma snapshot_total : forall M vs,
  (forall i p, nth_error M i = Some p -> persistent p = true -> exists v, aget i vs = Some v /\ export (p_dt p) v <> None) ->
  snapshot_of M vs <> None.
Proof.
  intros M vs H. unfold snapshot_of. destruct (snap_fold_total vs (indexed M) []) as [data Hd].
  - intros i p Hin Hp. apply indexed_keys_from in Hin. destruct Hin as [_ Hin]. rewrite Nat.sub_0_r in Hin. eauto.
  - intros X. assert (E : Some data = None) by (etransitivity; [symmetry; exact Hd|exact X]). discriminate.
Qed.

(* the values configured and the defaults are storable (they were validated by Module.__init__ / the class) *)
Definition base_ok (M : mdesc) (cfg : amap) : Prop :=
  forall i p, nth_error M i = Some p -> persistent p = true ->
    export (p_dt p) (match aget i cfg with Some v => v | None => p_default p end) <> None.

(* export and the reading of stored entries invert each other on the values at hand *)
Definition codec_ok (M : mdesc) (vs : amap) : Prop :=
  forall i p v j, nth_error M i = Some p -> aget i vs = Some v -> export (p_dt p) v = Some j -> usable_dt (p_dt p) j = Some v.

(* the scalar datatypes: their import / export involves no CPython table *)
Definition scalar (d : dtype) : bool :=
  match d with DInt _ _ | DBool | DEnum _ | DStr _ _ _ | DFloat => true | _ => false end.

(* no high surrogate is directly followed by a low surrogate *)
Fixpoint no_adjacent_pair (s : str) : bool :=
  match s with
  | [] => true
  | h :: t => match t with
              | l :: _ => negb (is_high h && is_low l) && no_adjacent_pair t
              | [] => true
              end
  end.

