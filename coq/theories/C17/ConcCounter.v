(* C17 - what updateLock is needed for (hypothetical system, not a defect of /repo: ConcModel.v with lk = false, i.e.
   the parameter callbacks called after updateLock was released).  Two threads, two persistent=auto parameters of one
   module, one shared temporary file name.  Schedule: thread 0 writes its whole document into the temporary file;
   thread 1 enters its own save and opens the same temporary file for writing, which truncates it; thread 0 closes
   and renames: the stored file is now EMPTY - neither the previous document nor a complete new one; a start-up from
   it falls back to the defaults.  With the lock the same schedule leaves a complete document (the steps of thread 1
   find the lock taken and wait). *)
From Coq Require Import List Arith ZArith NArith Bool.
Import ListNotations.
Require Import FV.Base.Util FV.C17.Model FV.C17.ConcModel.

Definition wM : mdesc :=
  [ {| p_dt := DInt (-10)%Z 10%Z; p_pers := 2; p_hasw := false; p_default := VInt 1%Z |};
    {| p_dt := DInt (-10)%Z 10%Z; p_pers := 2; p_hasw := false; p_default := VInt 2%Z |} ].
Definition w0 : st := fst (step wM st0 (OInit [] None 4)).
Definition wprogs : list (list assign) :=
  [ [ {| a_p := 0; a_v := VInt 5%Z; a_n := 4 |} ]; [ {| a_p := 1; a_v := VInt 7%Z; a_n := 4 |} ] ].
(* thread 0: acquire/store, is_dir, open, 4 writes; thread 1: acquire/store, is_dir, open; thread 0: close, rename *)
Definition wsch : list nat := [0;0;0;0;0;0;0; 1;1;1; 0;0].
Definition wfinal (lk : bool) : option cstate :=
  match md w0 with Some m => Some (crun lk wM wsch (cinit (dk w0) m wprogs)) | None => None end.

