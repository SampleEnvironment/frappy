(* C17 - witnesses (vm_compute) of the open finding C17/adjacent-surrogate-pair-not-restored: "every value the module
   accepted is restored to an equal value after a restart" fails for a string value that holds a high surrogate
   DIRECTLY followed by a low surrogate as two code points ('\ud83d' + '\ude00', len 2).  StringType(isUTF8=True)
   accepts it, json.dump writes the two escapes - the same text as for the ONE character U+1F600 - and json.load reads
   that text as the one character (jtext of Model.v).  The parameter comes back with a different value (len 1); when
   the length limits reject the shorter string the entry is unusable and the default is restored. *)
From Coq Require Import List Arith ZArith NArith Bool.
Import ListNotations.
Require Import FV.Base.Util FV.C17.Model FV.C17.Lemmas.

Definition rf_pair : str := [55357%N; 56832%N].            (* '😀' : two code points *)
Definition rf_joined : str := [128512%N].                  (* '\U0001f600'   : one code point *)
Definition rf_M (lo hi : nat) : mdesc :=
  [{| p_dt := DStr lo hi true; p_pers := 2; p_hasw := false; p_default := VStr [97%N; 98%N] |}].
Definition rf_ops : list op := [OInit [] None 3; OSet 0 (VStr rf_pair) None 3; OInit [] None 3].

(* the history of the replay: created, p0 := the pair (accepted, saved automatically, no fault), re-created *)
Theorem C17_refuted_adjacent_surrogate_pair_not_restored :
  exists M v ops, ops = [OInit [] None 3; OSet 0 v None 3; OInit [] None 3] /\
    (* the value is valid for the datatype, accepted and exportable *)
    (exists p, nth_error M 0 = Some p /\ persistent p = true /\ validate (p_dt p) v = Some v /\ export (p_dt p) v = Some v) /\
    (* before the restart the module holds it and the save has been done *)
    option_map vals (md (run M (firstn 2 ops) st0)) = Some [(0%nat, v)] /\
    target (dk (run M (firstn 2 ops) st0)) = Some (CW [(0%nat, v)] 3 3) /\
    (* after the restart the parameter has a different value *)
    option_map vals (md (run M ops st0)) = Some [(0%nat, VStr rf_joined)] /\ val_eqb v (VStr rf_joined) = false.
Proof.
  exists (rf_M 0 6), (VStr rf_pair), rf_ops. split; [reflexivity|]. split.
  - eexists. split; [reflexivity|]. vm_compute. repeat split; reflexivity.
  - vm_compute. repeat split; reflexivity.
Qed.

(* with StringType(2, 2) the joined string is too short: the stored entry is unusable, the default comes back *)
Theorem C17_refuted_adjacent_surrogate_pair_default_restored :
  exists M v, validate (DStr 2 2 true) v = Some v /\ M = rf_M 2 2 /\
    option_map vals (md (run M [OInit [] None 3; OSet 0 v None 3] st0)) = Some [(0%nat, v)] /\
    option_map vals (md (run M [OInit [] None 3; OSet 0 v None 3; OInit [] None 3] st0)) =
      Some [(0%nat, VStr [97%N; 98%N])].
Proof. exists (rf_M 2 2), (VStr rf_pair). vm_compute. repeat split; reflexivity. Qed.

(* the module-level round trip law (C17_roundtrip_except_adjacent_surrogate_pair of Properties.v) is false without
   its premise jtext data = data: all other premises hold, the conclusion does not *)
Theorem C17_refuted_roundtrip_without_guard :
  exists M vs data n cfg i p v,
    codec_ok M vs /\ snapshot_of M vs = Some data /\ nth_error M i = Some p /\ persistent p = true /\
    aget i vs = Some v /\ aget i cfg = None /\ jtext data <> data /\
    forall raw loaded, load_file M {| target := Some (CW data n n); tmp := None |} = LOk raw loaded ->
      aget i (vals (init_state M cfg raw loaded)) <> Some v.
Proof.
  exists (rf_M 0 6), [(0%nat, VStr rf_pair)], [(0%nat, VStr rf_pair)], 3%nat, [], 0%nat.
  eexists. exists (VStr rf_pair).
  split.
  { intros i p v j Hn Hv He. destruct i as [|i]; [|destruct i; discriminate].
    injection Hn as <-. vm_compute in Hv. injection Hv as <-. vm_compute in He. injection He as <-.
    vm_compute. reflexivity. }
  split; [vm_compute; reflexivity|]. split; [reflexivity|]. split; [reflexivity|]. split; [reflexivity|].
  split; [reflexivity|]. split; [vm_compute; discriminate|].
  intros raw loaded H. vm_compute in H. inversion H; subst. vm_compute. discriminate.
Qed.

Print Assumptions C17_refuted_adjacent_surrogate_pair_not_restored.
Print Assumptions C17_refuted_adjacent_surrogate_pair_default_restored.
Print Assumptions C17_refuted_roundtrip_without_guard.
