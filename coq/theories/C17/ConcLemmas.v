(* C17 - with updateLock the saves of the threads of one module are serialised: invariant of the transition system
   of ConcModel.v for ALL schedules *)
From Coq Require Import List Arith Bool.
Import ListNotations.
Require Import FV.Base.Util FV.C17.Model FV.C17.LemmasSeq FV.C17.ConcModel.

Lemma nth_set_nth : forall {A} (l : list A) i x k,
  nth_error (set_nth i x l) k = if Nat.eqb k i then (match nth_error l k with Some _ => Some x | None => None end)
                                else nth_error l k.
Proof.
  induction l as [|y l IH]; intros i x k.
  - destruct i, k; simpl; try reflexivity. destruct (Nat.eqb k i); reflexivity.
  - destruct i, k; simpl; try reflexivity. apply IH.
Qed.

Lemma firstn_app_length : forall {A} (l1 l2 : list A), firstn (length l1) (l1 ++ l2) = l1.
Proof. intros. rewrite <- (Nat.add_0_r (length l1)), firstn_app_2. apply app_nil_r. Qed.

Local Arguments save_ops : simpl never.
Local Arguments fs_run : simpl never.

(* one complete save of thread i: its operations, tagged *)
Definition blk (b : nat * nat) : list (nat * fsop) := map (pair (fst b)) (save_ops (snd b)).

Definition complete_or (T0 c : option content) : Prop := c = T0 \/ exists data n, c = Some (CW data n n).

(* the threads are idle, except the one (if any) that is inside a save, at pc *)
Definition pcs_are (thr : list cthread) (cur : option (nat * (amap * nat * list fsop))) : Prop :=
  forall k t, nth_error thr k = Some t ->
    t_pc t = match cur with Some (i, pc) => if Nat.eqb k i then Some pc else None | None => None end.

(* thread i makes a step: it is the one inside a save, if any is *)
Lemma pcs_set : forall thr cur i x, pcs_are thr cur -> match cur with Some (j, _) => j = i | None => True end ->
  pcs_are (set_nth i x thr) (option_map (pair i) (t_pc x)).
Proof.
  intros thr cur i x H Hi k t Hk. rewrite nth_set_nth in Hk. destruct (Nat.eqb k i) eqn:E.
  - destruct (nth_error thr k); inversion Hk; subst t. destruct (t_pc x); simpl; [now rewrite E|reflexivity].
  - rewrite (H k t Hk). destruct cur as [[j pc]|]; [rewrite Hi, E|]; destruct (t_pc x); simpl;
      try rewrite E; reflexivity.
Qed.

Section Serialised.
Variable M : mdesc.
Variable T0 : option content.          (* the stored file when the threads start *)

Inductive Inv (cs : cstate) : Prop :=
| InvFree (blocks : list (nat * nat)) :
    c_lock cs = None ->
    pcs_are (c_thr cs) None ->
    complete_or T0 (target (c_disk cs)) ->
    c_ev cs = flat_map blk blocks ->
    Inv cs
| InvHeld (i : nat) (data : amap) (n : nat) (done rest : list fsop) (dprev : disk) (blocks : list (nat * nat)) :
    c_lock cs = Some i ->
    pcs_are (c_thr cs) (Some (i, (data, n, rest))) ->
    save_ops n = done ++ rest -> rest <> [] ->
    complete_or T0 (target dprev) ->
    c_disk cs = fs_run data n done dprev ->
    c_ev cs = flat_map blk blocks ++ map (pair i) done ->
    Inv cs.

Lemma complete_or_save : forall data n k dprev,
  complete_or T0 (target dprev) ->
  complete_or T0 (target (fs_run data n (firstn k (save_ops n)) dprev)).
Proof.
  intros data n k dprev H.
  destruct (save_all_points data n dprev k) as [E|E]; rewrite E; auto.
  right. now exists data, n.
Qed.

Lemma inv_target : forall cs, Inv cs -> complete_or T0 (target (c_disk cs)).
Proof.
  intros cs [blocks H1 H2 H3 H4 | i data n done rest dprev blocks H1 H2 Hs H3 H4 H5 H6]; auto.
  rewrite H5, <- (firstn_app_length done rest), <- Hs. now apply complete_or_save.
Qed.

Lemma inv_step : forall cs i, Inv cs -> Inv (cstep true M cs i).
Proof.
  intros cs i HI. unfold cstep.
  destruct (nth_error (c_thr cs) i) as [t|] eqn:Ht; [|exact HI].
  destruct HI as [blocks H1 H2 H3 H4 | h data n done rest dprev blocks H1 H2 Hs H3 H4 H5 H6]; rewrite (H2 i t Ht).
  - (* lock free: the thread is idle *)
    destruct (t_todo t) as [|a todo]; [now apply (InvFree cs blocks)|].
    rewrite H1. simpl.
    destruct (save_due M _ (a_p a)) as [data|].
    + apply (InvHeld _ i data (a_n a) [] (save_ops (a_n a)) (c_disk cs) blocks); simpl; auto.
      * exact (pcs_set _ None i _ H2 I).
      * unfold save_ops. discriminate.
      * now rewrite H4, app_nil_r.
    + apply (InvFree _ blocks); simpl; auto. exact (pcs_set _ None i _ H2 I).
  - (* lock held by h *)
    destruct (Nat.eqb i h) eqn:E.
    + apply Nat.eqb_eq in E. subst h.
      destruct rest as [|o rest]; [contradiction|].
      assert (Hd : fst (effect data n (c_disk cs) o) = fs_run data n (done ++ [o]) dprev).
      { unfold fs_run. rewrite fold_left_app. simpl. unfold fs_run in H5. now rewrite <- H5. }
      destruct (effect data n (c_disk cs) o) as [d' ok] eqn:Ee. cbn [fst] in Hd.
      rewrite (app_assoc done [o] rest : done ++ o :: rest = (done ++ [o]) ++ rest) in Hs.
      destruct rest as [|o2 rest2].
      * (* the last operation of the save: the lock is released *)
        rewrite app_nil_r in Hs.
        apply (InvFree _ (blocks ++ [(i, n)])); simpl; auto.
        -- exact (pcs_set _ _ i _ H2 eq_refl).
        -- rewrite Hd, <- Hs, <- (firstn_all (save_ops n)). now apply complete_or_save.
        -- rewrite H6, flat_map_app. cbn [flat_map]. rewrite app_nil_r, <- app_assoc. unfold blk. cbn [fst snd].
           now rewrite Hs, map_app.
      * apply (InvHeld _ i data n (done ++ [o]) (o2 :: rest2) dprev blocks); cbn [c_lock c_thr c_disk c_ev]; auto.
        -- exact (pcs_set _ _ i _ H2 eq_refl).
        -- discriminate.
        -- now rewrite H6, map_app, <- app_assoc.
    + (* another thread: idle, and it finds the lock taken *)
      destruct (t_todo t) as [|a todo].
      * now apply (InvHeld cs h data n done rest dprev blocks).
      * rewrite H1. simpl. now apply (InvHeld cs h data n done rest dprev blocks).
Qed.

Lemma inv_run : forall sch cs, Inv cs -> Inv (crun true M sch cs).
Proof.
  induction sch as [|i sch IH]; intros cs H; simpl; auto. apply IH. now apply inv_step.
Qed.

End Serialised.

Lemma inv_init : forall d m progs, Inv (target d) (cinit d m progs).
Proof.
  intros d m progs. apply (InvFree _ _ []); simpl; auto.
  - intros k t Hk. apply nth_error_In in Hk. apply in_map_iff in Hk. destruct Hk as [p [Hp _]]. now subst t.
  - now left.
Qed.
