(* C19 -- lemmas about the constructor (length budgeting, truncation, disabling) and the receive loop
   (answers exactly the discovery requests, which datagrams end it, what it sends). *)
From Coq Require Import List Arith ZArith NArith Bool Lia.
Import ListNotations.
Require Import FV.Gen.C19 FV.C19.Model FV.C19.LemmasUtf8 FV.C19.LemmasJson.
Open Scope N_scope.

Definition desc0 (c : cfg) : str := match c_desc c with Some d => d | None => [] end.

Definition wf_cfg (c : cfg) : Prop := valid (c_eid c) /\ valid (c_version c) /\ valid (desc0 c).

(* the listener before budgeting *)
Definition base (c : cfg) : listener :=
  {| l_eid := c_eid c; l_fw := firmware_prefix ++ c_version c; l_desc := desc0 c;
     l_ports := ports_of (c_ifaces c); l_enabled := true; l_bcast := c_bcast c |}.

Definition avail (c : cfg) : Z := (MAX_MESSAGE_LEN - blen (message (base c) budget_port))%Z.
Definition rawlen (s : str) : Z := blen (utf8_encode s).       (* bytes of the text itself *)
Definition esclen (s : str) : Z := blen (utf8_encode (escape s)). (* bytes of the text inside a JSON string *)

(* bytes of the announcement with the longest port and an empty description: "the identity alone" *)
Definition identity_len (c : cfg) : Z := blen (message (set_desc (base c) []) budget_port).

Definition no_escapes (s : str) : Prop := Forall (fun c => esc1 c = [c]) s.

Definition prefix_of (a b : str) : Prop := exists rest, b = a ++ rest.

Lemma blen_app a b : blen (a ++ b) = (blen a + blen b)%Z.
Proof. unfold blen. rewrite app_length. lia. Qed.

Lemma hexdigit_ascii n : n < 16 -> hexdigit n < 0x80.
Proof. intro H. unfold hexdigit. destruct (n <? 10); lia. Qed.

Lemma esc1_cases c : esc1 c = [c] \/ (c < 0x80 /\ esc1 c <> [] /\ is_ascii (esc1 c)).
Proof.
  unfold esc1.
  (* the seven characters with a two-character escape: c is a constant, the escape a closed text *)
  repeat match goal with |- context [if c =? ?k then _ else _] =>
    destruct (N.eqb_spec c k) as [->|_];
      [right; split; [reflexivity | split; [discriminate | repeat constructor; reflexivity]]|] end.
  (* the other controls are written \u00XY with two hex digits; every other character stands for itself *)
  destruct (N.ltb_spec c 32) as [L|_]; [right | left; reflexivity].
  repeat split; [lia | discriminate|]. generalize (div_mod_pos c 16). generalize (c / 16), (c mod 16).
  intros q d [E B]. repeat constructor; try reflexivity; apply hexdigit_ascii; lia.
Qed.

Lemma esc1_length_ge c : (length (enc1 c) <= length (utf8_encode (esc1 c)))%nat.
Proof.
  destruct (esc1_cases c) as [->|(L & N & A)].
  - cbn. rewrite app_nil_r. lia.
  - rewrite (utf8_encode_ascii _ A). unfold enc1. rewrite (proj2 (N.ltb_lt _ _) L).
    destruct (esc1 c); [contradiction | cbn; lia].
Qed.

Lemma esclen_ge_rawlen s : (rawlen s <= esclen s)%Z.
Proof.
  unfold rawlen, esclen. induction s as [|c s IH]; [cbn; lia|].
  rewrite escape_cons, utf8_encode_app, utf8_encode_cons, !blen_app.
  pose proof (esc1_length_ge c). unfold blen in *. lia.
Qed.

Lemma esclen_app a b : esclen (a ++ b) = (esclen a + esclen b)%Z.
Proof. unfold esclen. rewrite escape_app, utf8_encode_app. apply blen_app. Qed.

Lemma rawlen_app a b : rawlen (a ++ b) = (rawlen a + rawlen b)%Z.
Proof. unfold rawlen. rewrite utf8_encode_app. apply blen_app. Qed.

Lemma esclen_no_escapes s : no_escapes s -> esclen s = rawlen s.
Proof.
  unfold esclen, rawlen. induction 1 as [|c s Hc _ IH]; [reflexivity|].
  rewrite escape_cons, Hc, utf8_encode_app, (utf8_encode_cons c s), !blen_app, IH.
  cbn [utf8_encode flat_map]. rewrite app_nil_r. reflexivity.
Qed.

Lemma message_length l port :
  blen (message l port) = (blen (utf8_encode (msg_head port (l_eid l) (l_fw l))) + esclen (l_desc l) + 3)%Z.
Proof.
  unfold message, msg_text, esclen, json_string.
  change (34 :: escape (l_desc l) ++ [34]) with ([34] ++ escape (l_desc l) ++ [34]).
  rewrite 4 utf8_encode_app, 4 blen_app.
  replace (blen (utf8_encode [34])) with 1%Z by reflexivity.
  match goal with |- context [blen (utf8_encode (s2l ?x))] =>
    replace (blen (utf8_encode (s2l x))) with 1%Z by reflexivity end.
  lia.
Qed.

Lemma msg_head_shape eid fw : exists a b, forall port, msg_head port eid fw = a ++ digits port ++ b.
Proof. eexists _, _. reflexivity. Qed.

(* the budget port has the longest decimal form a port can have *)
Lemma message_port_le l port : port <= 65535 -> (blen (message l port) <= blen (message l budget_port))%Z.
Proof.
  intro Hp. destruct (msg_head_shape (l_eid l) (l_fw l)) as (a & b & E).
  rewrite !message_length, !E, !utf8_encode_app, !blen_app.
  rewrite (utf8_encode_ascii (digits port)) by apply digits_ascii.
  assert (length (digits port) <= 5)%nat as L
    by (apply (digits_length 4), (N.le_lt_trans _ _ _ Hp); reflexivity).
  replace (blen (utf8_encode (digits budget_port))) with 5%Z by reflexivity.
  unfold blen at 2. lia.
Qed.

Lemma message_set_desc l d port :
  blen (message (set_desc l d) port) = (blen (message l port) - esclen (l_desc l) + esclen d)%Z.
Proof. rewrite !message_length. cbn [set_desc l_eid l_fw l_desc]. lia. Qed.

Lemma init_unfold c :
  init c = if (avail c <? 0)%Z then
             if (avail c + rawlen (desc0 c) <? 0)%Z then set_enabled (base c) false
             else set_desc (base c) (utf8_decode_ignore (py_slice_to (utf8_encode (desc0 c)) (avail c)))
           else base c.
Proof. unfold init, avail, base, rawlen, desc0. reflexivity. Qed.

Lemma py_slice_to_neg {A} (l : list A) k : (k < 0)%Z -> (0 <= Z.of_nat (length l) + k)%Z ->
  py_slice_to l k = firstn (Z.to_nat (Z.of_nat (length l) + k)) l.
Proof.
  intros H1 H2. unfold py_slice_to. destruct (Z.ltb_spec k 0); [|lia]. rewrite Z.max_r by lia. reflexivity.
Qed.

Lemma base_length c : blen (message (base c) budget_port) = (MAX_MESSAGE_LEN - avail c)%Z.
Proof. unfold avail. lia. Qed.

Lemma rawlen_nonneg s : (0 <= rawlen s)%Z.
Proof. unfold rawlen, blen. lia. Qed.

Lemma init_enabled c :
  l_enabled (init c) = negb ((avail c <? 0) && (avail c + rawlen (desc0 c) <? 0))%Z.
Proof.
  rewrite init_unfold. destruct (avail c <? 0)%Z; [destruct (avail c + rawlen (desc0 c) <? 0)%Z|]; reflexivity.
Qed.

Inductive init_case (c : cfg) : Prop :=
| IC_fits : (0 <= avail c)%Z -> init c = base c -> init_case c
| IC_disabled : (avail c + rawlen (desc0 c) < 0)%Z -> init c = set_enabled (base c) false -> init_case c
| IC_truncated : (avail c < 0)%Z -> (0 <= rawlen (desc0 c) + avail c)%Z ->
    init c = set_desc (base c) (take_fit (Z.to_nat (rawlen (desc0 c) + avail c)) (desc0 c)) -> init_case c.

Lemma init_cases c : valid (desc0 c) -> init_case c.
Proof.
  intro Hv. generalize (init_unfold c).
  destruct (Z.ltb_spec (avail c) 0) as [A|A]; [|exact (IC_fits c A)].
  destruct (Z.ltb_spec (avail c + rawlen (desc0 c)) 0) as [B|B]; [exact (IC_disabled c B)|].
  intro E. apply IC_truncated; [exact A | lia |]. rewrite E. f_equal.
  rewrite py_slice_to_neg by (unfold rawlen, blen in B; lia). apply utf8_decode_ignore_cut, Hv.
Qed.

Lemma init_frame c : l_eid (init c) = c_eid c /\ l_fw (init c) = firmware_prefix ++ c_version c /\
  l_ports (init c) = ports_of (c_ifaces c) /\ l_bcast (init c) = c_bcast c.
Proof.
  rewrite init_unfold. destruct (avail c <? 0)%Z; [destruct (avail c + rawlen (desc0 c) <? 0)%Z|]; cbn; auto.
Qed.

Lemma init_desc_prefix c : valid (desc0 c) -> prefix_of (l_desc (init c)) (desc0 c).
Proof.
  intro Hv. destruct (init_cases c Hv) as [_ E|_ E|_ _ E]; rewrite E; cbn [l_desc set_desc set_enabled base].
  1, 2: exists []; symmetry; apply app_nil_r.
  - destruct (take_fit_split (Z.to_nat (rawlen (desc0 c) + avail c)) (desc0 c)) as (rest & E' & _).
    exists rest. exact E'.
Qed.

Lemma init_desc_valid c : valid (desc0 c) -> valid (l_desc (init c)).
Proof.
  intro Hv. destruct (init_desc_prefix c Hv) as (rest & E). rewrite E in Hv. apply valid_app in Hv. tauto.
Qed.

(* not truncated unless necessary *)
Lemma init_desc_whole c : (blen (message (base c) budget_port) <= MAX_MESSAGE_LEN)%Z -> init c = base c.
Proof.
  rewrite base_length, init_unfold. intro H. destruct (Z.ltb_spec (avail c) 0); [lia | reflexivity].
Qed.

(* when truncated, the cut is as late as raw-length budgeting allows: the next character does not fit in the
   number of bytes that were kept *)
Lemma init_desc_maximal c ch rest : valid (desc0 c) -> l_enabled (init c) = true ->
  desc0 c = l_desc (init c) ++ ch :: rest ->
  (rawlen (desc0 c) + avail c < rawlen (l_desc (init c) ++ [ch]))%Z.
Proof.
  intros Hv He E. destruct (init_cases c Hv) as [_ E1|_ E1|A B E1]; rewrite E1 in He, E |- *;
    cbn [l_desc set_desc base] in E |- *.
  - exfalso. apply (f_equal (@length N)) in E. rewrite app_length in E. cbn [length] in E. lia.
  - discriminate He.
  - apply take_fit_maximal in E. unfold rawlen, blen in B, E |- *. lia.
Qed.

Theorem bounded c port : wf_cfg c -> l_enabled (init c) = true -> port <= 65535 ->
  (blen (message (init c) port) <= MAX_MESSAGE_LEN)%Z.
Proof.
  intros (_ & _ & Hv) He Hp. etransitivity; [apply message_port_le, Hp|].
  destruct (init_cases c Hv) as [A E|_ E|A B E]; rewrite E in He |- *.
  - rewrite base_length. lia.
  - discriminate He.
  - rewrite message_set_desc, base_length. change (l_desc (base c)) with (desc0 c).
    set (k := Z.to_nat (rawlen (desc0 c) + avail c)).
    destruct (take_fit_split k (desc0 c)) as (rest & E' & F).
    (* escaping only adds bytes, to the part that is dropped as well *)
    pose proof (esclen_ge_rawlen rest) as G.
    pose proof (f_equal esclen E') as S. rewrite esclen_app in S.
    pose proof (f_equal rawlen E') as R. rewrite rawlen_app in R.
    assert (rawlen (take_fit k (desc0 c)) <= Z.of_nat k)%Z by (unfold rawlen, blen; lia).
    lia.
Qed.

Lemma identity_len_eq c : identity_len c = (MAX_MESSAGE_LEN - avail c - esclen (desc0 c))%Z.
Proof. unfold identity_len. rewrite message_set_desc, base_length. apply Z.add_0_r. Qed.

Theorem disabled_iff c :
  l_enabled (init c) = false <->
  (MAX_MESSAGE_LEN < identity_len c + (esclen (desc0 c) - rawlen (desc0 c)))%Z.
Proof.
  rewrite init_enabled, identity_len_eq, negb_false_iff, andb_true_iff, !Z.ltb_lt.
  pose proof (rawlen_nonneg (desc0 c)). lia.
Qed.

Lemma valid_esc1 c : is_scalar c = true -> valid (esc1 c).
Proof.
  intro Hs. destruct (esc1_cases c) as [->|(_ & _ & H)]; [repeat constructor; exact Hs | apply ascii_valid, H].
Qed.

Lemma valid_escape s : valid s -> valid (escape s).
Proof.
  induction 1 as [|c s Hc _ IH]; [constructor|]. rewrite escape_cons. apply valid_app. split; [apply valid_esc1; exact Hc | exact IH].
Qed.

Lemma valid_json_string s : valid s -> valid (json_string s).
Proof.
  intro H. unfold json_string. constructor; [reflexivity|]. apply valid_app. split; [apply valid_escape; exact H|].
  constructor; [reflexivity | constructor].
Qed.

Lemma valid_closed s : forallb is_scalar s = true -> valid s.
Proof. intro H. apply Forall_forall. rewrite forallb_forall in H. exact H. Qed.

Lemma valid_msg_text port eid fw desc : valid eid -> valid fw -> valid desc ->
  valid (msg_text port eid fw desc).
Proof.
  intros He Hf Hd. unfold msg_text, msg_head.
  repeat (apply valid_app; split); try (apply valid_json_string; assumption);
    try (apply valid_closed; reflexivity).
  apply ascii_valid, digits_ascii.
Qed.

Lemma str_eqb_eq a b : str_eqb a b = true <-> a = b.
Proof.
  revert b. induction a as [|x a IH]; intros [|y b]; cbn; try (split; [discriminate | discriminate]); [tauto|].
  rewrite andb_true_iff, N.eqb_eq, IH. split; [intros [-> ->]; reflexivity | intro E; injection E; auto].
Qed.

(* a discovery request: UTF-8 text (as far as the receive buffer goes) that json.loads turns into a dict whose
   member SECoP is the str discover *)
Definition is_request (data : bytes) (p : parse) : bool :=
  match utf8_decode (received data) with
  | None => false
  | Some _ => match p with
              | PObj ms => match lookup K_SECoP ms with
                           | Some (Some v) => str_eqb K_discover v
                           | _ => false
                           end
              | _ => false
              end
  end.

(* a killer: UTF-8 text on which json.loads raises something that is not a ValueError *)
Definition is_killer (data : bytes) (p : parse) : bool :=
  match utf8_decode (received data) with
  | None => false
  | Some _ => match p with PRaise => true | _ => false end
  end.

Lemma handle_spec data p :
  handle data p = if is_request data p then VAnswer else if is_killer data p then VKill else VIgnore.
Proof.
  unfold handle, is_request, is_killer. destruct (utf8_decode (received data)); [|reflexivity].
  destruct p as [| | |s0|es|ms]; try reflexivity.
  destruct (lookup K_SECoP ms) as [[v|]|]; try reflexivity.
  all: cbn [elem_is]; destruct (str_eqb K_discover v); reflexivity.
Qed.

Definition reply (l : listener) (i : input) : list (dest * bytes) :=
  match i with
  | IRecv data p a => if is_request data p then answers l (DAddr a) else []
  | IError => []
  end.

Theorem answers_iff l s data p a : st s = Listening ->
  outs (lstep l s (IRecv data p a)) = outs s ++ reply l (IRecv data p a).
Proof.
  intro H. unfold lstep, reply. rewrite H, handle_spec.
  destruct (is_request data p); cbn; [reflexivity|].
  destruct (is_killer data p); cbn; symmetry; apply app_nil_r.
Qed.

Definition loads_law (limit : nat) (text : bytes) (p : parse) : Prop := loads_law_b limit text p = true.

Lemma openers_le_length bs : (openers bs <= length bs)%nat.
Proof.
  unfold openers. induction bs as [|b bs IH]; [cbn; lia|]. cbn [filter]. destruct (is_opener b); cbn [length]; lia.
Qed.

Lemma received_length data : (length (received data) <= recv_size)%nat.
Proof. unfold received. rewrite firstn_length. lia. Qed.

(* a text cut to fewer bytes than the nesting limit cannot make json.loads raise anything but a ValueError *)
Lemma law_no_raise limit data p : (recv_size < limit)%nat -> loads_law limit (received data) p -> p <> PRaise.
Proof.
  intros HR HL ->. unfold loads_law, loads_law_b in HL. apply Nat.leb_le in HL.
  pose proof (openers_le_length (received data)). pose proof (received_length data). lia.
Qed.

(* no datagram whatsoever ends the loop, as long as the receive size is below the nesting limit of json.loads *)
Theorem survives limit l s data p a : (recv_size < limit)%nat -> loads_law limit (received data) p ->
  st s = Listening -> st (lstep l s (IRecv data p a)) = Listening.
Proof.
  intros HR HL H. unfold lstep. rewrite H, handle_spec. destruct (is_request data p); [reflexivity|].
  unfold is_killer. destruct (utf8_decode (received data)); [|reflexivity].
  destruct p; try reflexivity. destruct (law_no_raise limit data PRaise HR HL eq_refl).
Qed.

Definition is_recv (i : input) : Prop := match i with IRecv _ _ _ => True | IError => False end.

(* a received datagram together with a json.loads outcome that obeys the law *)
Definition recv_ok (limit : nat) (i : input) : Prop :=
  match i with IRecv data p _ => loads_law limit (received data) p | IError => False end.

Lemma loop_recv limit l ins : (recv_size < limit)%nat -> Forall (recv_ok limit) ins -> forall s, st s = Listening ->
  st (fold_left (lstep l) ins s) = Listening /\
  outs (fold_left (lstep l) ins s) = outs s ++ flat_map (reply l) ins.
Proof.
  intro HR. induction 1 as [|i ins Hi _ IH]; intros s Hs.
  - cbn. rewrite app_nil_r. auto.
  - destruct i as [data p a|]; [|contradiction].
    cbn [fold_left flat_map].
    destruct (IH _ (survives limit l s data p a HR Hi Hs)) as (I1 & I2). split; [exact I1|].
    rewrite I2, (answers_iff l s data p a Hs), <- app_assoc. reflexivity.
Qed.

(* whatever is received -- any bytes, any JSON value -- an enabled responder goes on listening and has answered
   exactly the requests, in order; only a socket error (shutdown) ends it *)
Theorem keeps_answering limit l ins : (recv_size < limit)%nat ->
  l_enabled l = true -> Forall (recv_ok limit) ins ->
  st (run l ins) = Listening /\ outs (run l ins) = outs (start l) ++ flat_map (reply l) ins.
Proof.
  intros HR He Hb. unfold run. assert (st (start l) = Listening) as Hs by (cbn; rewrite He; reflexivity).
  apply (loop_recv limit l ins HR Hb _ Hs).
Qed.

Lemma not_listening_forever l ins : forall s, st s <> Listening -> fold_left (lstep l) ins s = s.
Proof.
  induction ins as [|i ins IH]; intros s H; [reflexivity|].
  cbn [fold_left]. assert (lstep l s i = s) as -> by (unfold lstep; destruct (st s); [contradiction| | |]; reflexivity).
  apply IH. exact H.
Qed.

Definition sent_ok (l : listener) (o : dest * bytes) : Prop := exists p, In p (l_ports l) /\ snd o = message l p.

Lemma answers_sent_ok l d : Forall (sent_ok l) (answers l d).
Proof.
  unfold answers. apply Forall_forall. intros o H. apply in_map_iff in H. destruct H as (p & <- & Hp).
  exists p. auto.
Qed.

Lemma lstep_sent_ok l s i : Forall (sent_ok l) (outs s) -> Forall (sent_ok l) (outs (lstep l s i)).
Proof.
  intro H. unfold lstep. destruct (st s); try exact H. destruct i as [data p a|]; [|exact H].
  destruct (handle data p); cbn; try exact H. apply Forall_app. split; [exact H | apply answers_sent_ok].
Qed.

Theorem run_sent_ok l ins : Forall (sent_ok l) (outs (run l ins)).
Proof.
  unfold run. assert (Forall (sent_ok l) (outs (start l))) as H.
  { cbn. destruct (l_bcast l && l_enabled l); [apply answers_sent_ok | constructor]. }
  revert H. generalize (start l). induction ins as [|i ins IH]; intros s H; [exact H|].
  cbn [fold_left]. apply IH. apply lstep_sent_ok. exact H.
Qed.

(* a disabled responder sends nothing at all *)
Lemma run_disabled_silent l ins : l_enabled l = false -> outs (run l ins) = [] /\ st (run l ins) = NotListening.
Proof.
  intros He. unfold run. rewrite not_listening_forever; cbn; rewrite ?He, ?andb_false_r; [auto | discriminate].
Qed.

(* the advertised ports are those of the tcp interfaces handed to the constructor *)
Definition K_tcp : str := [116; 99; 112].    (* the letters t c p *)
Lemma ports_of_in ifaces p : In p (ports_of ifaces) <->
  exists scheme, In (scheme, p) ifaces /\ starts_with K_tcp (uri (scheme, p)) = true.
Proof.
  unfold ports_of. rewrite in_map_iff. split.
  - intros ([sch q] & E & H). cbn in E. subst q. apply filter_In in H. exists sch. exact H.
  - intros (sch & H1 & H2). exists (sch, p). split; [reflexivity|]. apply filter_In. auto.
Qed.

Lemma run_sent_port c ins o : In o (outs (run (init c) ins)) ->
  exists scheme p, In (scheme, p) (c_ifaces c) /\ starts_with K_tcp (uri (scheme, p)) = true /\
    snd o = message (init c) p.
Proof.
  intro Ho. pose proof (run_sent_ok (init c) ins) as S. rewrite Forall_forall in S.
  destruct (S o Ho) as (p & Hp & E). destruct (init_frame c) as (_ & _ & EP & _). rewrite EP in Hp.
  apply ports_of_in in Hp. destruct Hp as (scheme & H1 & H2). eauto.
Qed.

(* everything a responder ever sends: an announcement of one of the tcp ports of the interface list, within the
   limit, valid UTF-8, a JSON object that reads back as port, identity and the (possibly shortened) description *)
Definition good_datagram (c : cfg) (o : dest * bytes) : Prop :=
  exists scheme p,
    In (scheme, p) (c_ifaces c) /\ starts_with K_tcp (uri (scheme, p)) = true /\
    snd o = message (init c) p /\
    (blen (snd o) <= MAX_MESSAGE_LEN)%Z /\
    exists text, utf8_decode (snd o) = Some text /\
      read_msg text = Some (p, c_eid c, firmware_prefix ++ c_version c, l_desc (init c)) /\
      prefix_of (l_desc (init c)) (desc0 c).
