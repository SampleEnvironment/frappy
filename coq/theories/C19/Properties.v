(* C19 -- Discovery responder: bounded well-formed answers, unkillable by datagrams.
   The property theorems, over the lemmas of Lemmas*.v.  c ranges over all constructor arguments
   (equipment id, version, description of Unicode scalar values, any interface list, broadcast flag), ins over
   all histories of the socket (datagrams with what json.loads makes of them, socket errors).
   The code still violates the property in one way (Refuted.v: a description full of JSON-escaped characters
   disables the responder although the identity fits); theorem 4 carries the exact guard.  The two other defects
   found earlier were repaired in /repo (8298523, d6d9c1c): theorems 5 and 7 now hold without guard.
   Theorem 7 rests on the receive size of run() being below the nesting limit of json.loads (an obligation on the
   generated constants); theorem 8 covers the start-up of the interfaces in Server.run. *)
From Coq Require Import List Arith ZArith NArith Bool Lia String.
Import ListNotations.
Require Import FV.Gen.C19 FV.C19.Model FV.C19.LemmasUtf8 FV.C19.LemmasJson FV.C19.Lemmas FV.C19.LemmasServer
  FV.C19.Refuted.
Open Scope N_scope.

(* obligations on the facts regenerated from /repo (Gen/C19.v): the source still has the modelled shape *)
Theorem C19_source_facts :
  run_shape = true /\ budget_shape = true /\ init_assignments = true /\
  dumps_compact_no_ascii_escape = true /\
  msg_keys = [s2l "SECoP"; s2l "port"; s2l "equipment_id"; s2l "firmware"; s2l "description"] /\
  msg_values = [s2l "'node'"; s2l "port"; s2l "self.equipment_id"; s2l "self.firmware"; s2l "self.description"] /\
  getmsg_args = [s2l "self"; s2l "port"] /\
  firmware_prefix = s2l "FRAPPY " /\
  loads_catches = [s2l "ValueError"] /\
  filter_expr = s2l "not isinstance(request, dict) or request.get('SECoP') != 'discover'" /\
  broadcast_guarded_by_enabled = true /\
  server_passes_opened_interfaces = true /\ interfaces_registered_after_open = true /\
  tcp_port_parse_agrees = true /\
  server_startup_shape = true /\ interface_thread_shape = true /\ startup_broadcast_default = true /\
  budget_port = 65535 /\ (0 < MAX_MESSAGE_LEN)%Z /\ 0 < recv_bufsize /\ 0 < UDP_PORT /\
  (* the datagram is cut to fewer bytes than json.loads needs nesting levels to raise a RecursionError *)
  recv_bufsize < json_depth_limit.
Proof. repeat split; reflexivity. Qed.

(* the same obligation in the form the theorems about the receive loop use it *)
Theorem C19_recv_below_limit : (recv_size < N.to_nat json_depth_limit)%nat.
Proof. unfold recv_size. apply Nat.compare_lt_iff. rewrite <- N2Nat.inj_compare. reflexivity. Qed.

(* 1. at most MAX_MESSAGE_LEN (508) bytes for every port a TCP server can listen on, whenever the responder is
      enabled *)
Theorem C19_bounded : forall c port,
  wf_cfg c -> l_enabled (init c) = true -> port <= 65535 ->
  (blen (message (init c) port) <= MAX_MESSAGE_LEN)%Z.
Proof. exact bounded. Qed.

(* 2. every message is valid UTF-8 and a JSON object that reads back as exactly the port, the equipment id, the
      firmware string and the description the listener holds, which is a prefix of the configured one *)
Theorem C19_wellformed : forall c port,
  wf_cfg c -> port <= 65535 ->
  let l := init c in
  utf8_decode (message l port) = Some (msg_text port (l_eid l) (l_fw l) (l_desc l)) /\
  read_msg (msg_text port (l_eid l) (l_fw l) (l_desc l))
    = Some (port, c_eid c, firmware_prefix ++ c_version c, l_desc l) /\
  prefix_of (l_desc l) (desc0 c).
Proof.
  intros c port (He & Hver & Hd) Hp l.
  destruct (init_frame c) as (E1 & E2 & _). fold l in E1, E2. unfold message. rewrite E1, E2.
  assert (valid (firmware_prefix ++ c_version c)) as Hf
    by (apply valid_app; split; [apply valid_closed; reflexivity | exact Hver]).
  pose proof (init_desc_valid c Hd) as Hd'. fold l in Hd'.
  split; [|split].
  - apply utf8_decode_encode, valid_msg_text; assumption.
  - apply read_msg_msg_text; try assumption. apply (N.le_lt_trans _ _ _ Hp). reflexivity.
  - apply init_desc_prefix, Hd.
Qed.

(* 3. truncation on a character boundary: the description kept is a prefix (in whole code points) of the
      configured one; it is the whole one if the message fits; and if a character was dropped, it would not have
      fitted into the bytes that raw-length budgeting grants *)
Theorem C19_char_boundary : forall c,
  valid (desc0 c) ->
  prefix_of (l_desc (init c)) (desc0 c) /\ valid (l_desc (init c)) /\
  ((blen (message (base c) budget_port) <= MAX_MESSAGE_LEN)%Z -> init c = base c) /\
  (forall ch rest, l_enabled (init c) = true -> desc0 c = l_desc (init c) ++ ch :: rest ->
     (rawlen (desc0 c) + avail c < rawlen (l_desc (init c) ++ [ch]))%Z).
Proof.
  intros c Hv. split; [apply init_desc_prefix; exact Hv|]. split; [apply init_desc_valid; exact Hv|].
  split; [apply init_desc_whole|]. intros ch rest. apply init_desc_maximal. exact Hv.
Qed.

(* 4. when is the responder disabled?  Exactly when the identity alone (5 digit port, empty description) plus the
      bytes that JSON escaping adds to the description exceed the limit ... *)
Theorem C19_disabled_iff : forall c, valid (desc0 c) ->
  (l_enabled (init c) = false <->
   (MAX_MESSAGE_LEN < identity_len c + (esclen (desc0 c) - rawlen (desc0 c)))%Z).
Proof. intros c _. apply disabled_iff. Qed.

(*    ... hence (full statement: disabled iff the identity alone does not fit) only for descriptions without
      characters that JSON escapes; C19_refuted_disabled_though_identity_fits shows the guard is needed ... *)
Theorem C19_disabled_iff_identity_too_long_except_escapes : forall c,
  valid (desc0 c) -> no_escapes (desc0 c) ->
  (l_enabled (init c) = false <-> (MAX_MESSAGE_LEN < identity_len c)%Z).
Proof.
  intros c _ Hn. rewrite disabled_iff, (esclen_no_escapes _ Hn). split; intro; lia.
Qed.

(*    ... while an identity that does not fit always disables *)
Theorem C19_identity_too_long_disables : forall c,
  valid (desc0 c) -> (MAX_MESSAGE_LEN < identity_len c)%Z -> l_enabled (init c) = false.
Proof.
  intros c _ H. apply disabled_iff. pose proof (esclen_ge_rawlen (desc0 c)). lia.
Qed.

(* 5. each announcement or answer is a good datagram: it announces a tcp port of the interface list handed over by
      the server, has at most 508 bytes, is valid UTF-8 and a JSON object carrying port, identity and description.
      Full strength: every configuration, every history of the socket (a disabled responder sends nothing) *)
Theorem C19_sends_good : forall c ins,
  wf_cfg c -> (forall p, In p (ports_of (c_ifaces c)) -> p <= 65535) ->
  Forall (good_datagram c) (outs (run (init c) ins)).
Proof.
  intros c ins Hwf Hports. destruct (l_enabled (init c)) eqn:He.
  - apply Forall_forall. intros o Ho. destruct (run_sent_port c ins o Ho) as (scheme & p & H1 & H2 & E).
    assert (p <= 65535) as Hle by (apply Hports, ports_of_in; eauto).
    exists scheme, p. rewrite E. repeat split; [exact H1 | exact H2 | apply C19_bounded; assumption |].
    destruct (C19_wellformed c p Hwf Hle) as (W1 & W2 & W3). eauto.
  - destruct (run_disabled_silent (init c) ins He) as [-> _]. constructor.
Qed.

Theorem C19_disabled_silent : forall c ins,
  l_enabled (init c) = false -> outs (run (init c) ins) = [] /\ st (run (init c) ins) = NotListening.
Proof. intros c ins. apply run_disabled_silent. Qed.

(*    the ports announced are exactly those of the tcp interfaces in the list (in order); that the list holds the
      interfaces actually opened is the pair of source facts server_passes_opened_interfaces /
      interfaces_registered_after_open of C19_source_facts *)
Theorem C19_ports_opened : forall c p,
  In p (l_ports (init c)) <->
  exists scheme, In (scheme, p) (c_ifaces c) /\ starts_with K_tcp (uri (scheme, p)) = true.
Proof. intros c p. destruct (init_frame c) as (_ & _ & -> & _). apply ports_of_in. Qed.

(* 6. answers iff discovery request: whatever a listening responder receives, it sends one message per port to the
      sender if the datagram is a discovery request, and nothing otherwise (full strength) *)
Theorem C19_answers_iff : forall l s data p a,
  st s = Listening ->
  outs (lstep l s (IRecv data p a)) = outs s ++ (if is_request data p then answers l (DAddr a) else []).
Proof. intros l s data p a H. rewrite (answers_iff l s data p a H). reflexivity. Qed.

Theorem C19_is_request_meaning : forall data p,
  is_request data p = true <->
  (exists text, utf8_decode (received data) = Some text) /\
  exists ms, p = PObj ms /\ lookup K_SECoP ms = Some (Some K_discover).
Proof.
  intros data p. unfold is_request. split.
  - destruct (utf8_decode (received data)) as [t|]; [|discriminate]. destruct p as [| | | | |ms]; try discriminate.
    destruct (lookup K_SECoP ms) as [[v|]|] eqn:L; try discriminate. intro H. apply str_eqb_eq in H. subst v. eauto.
  - intros ((t & E) & ms & -> & L). rewrite E, L. apply str_eqb_eq. reflexivity.
Qed.

(* 7. keeps answering.  The loop catches ValueError only; what else json.loads can raise is a RecursionError, and
      only on text with at least json_depth_limit nested brackets (loads_law: the law assumed of CPython, measured
      and checked on every generated datagram).  The thread is ended by exactly such datagrams ... *)
Theorem C19_killed_iff : forall l s data p a,
  st s = Listening ->
  (st (lstep l s (IRecv data p a)) = Killed <->
   (exists text, utf8_decode (received data) = Some text) /\ p = PRaise).
Proof.
  intros l s data p a H. unfold lstep, handle. rewrite H. split.
  - destruct (utf8_decode (received data)) as [t|]; [|discriminate]. destruct p as [| | | | |ms]; try discriminate.
    + eauto.
    + destruct (lookup K_SECoP ms) as [v|]; [destruct (elem_is K_discover v)|]; discriminate.
  - intros ((t & E) & ->). rewrite E. reflexivity.
Qed.

(*    ... which cannot arrive when the receive size is below the limit: for every receive size and every limit
      above it, every datagram -- any bytes, any JSON value -- leaves the responder listening ... *)
Theorem C19_survives_if_recv_below_limit : forall limit l s data p a,
  (recv_size < limit)%nat -> loads_law limit (received data) p ->
  st s = Listening -> st (lstep l s (IRecv data p a)) = Listening.
Proof. exact survives. Qed.

(*    ... in particular for the code as it is: recvfrom(1024) against the measured limit (the obligation
      recv_bufsize < json_depth_limit of C19_source_facts) *)
Theorem C19_survives : forall l s data p a,
  loads_law (N.to_nat json_depth_limit) (received data) p ->
  st s = Listening -> st (lstep l s (IRecv data p a)) = Listening.
Proof. intros l s data p a. apply survives. exact C19_recv_below_limit. Qed.

(*    and over whole histories: after any sequence of datagrams the responder listens and has answered exactly the
      requests among them, in order; only a socket error (shutdown) ends the loop *)
Theorem C19_keeps_answering : forall l ins,
  l_enabled l = true -> Forall (recv_ok (N.to_nat json_depth_limit)) ins ->
  st (run l ins) = Listening /\ outs (run l ins) = outs (start l) ++ flat_map (reply l) ins.
Proof. intros l ins. apply keeps_answering. exact C19_recv_below_limit. Qed.

(* 8. a TCP port it really listens on: Server.run starts one thread per configured interface; evs is what these
      threads did before the server went on -- (i, true): thread i constructed (bound) its interface and registered
      it, (i, false): its constructor raised, no event: still inside the constructor when the start-up time-out
      expired -- in any order, any number of them.  Whatever happened, every datagram the responder ever sends
      announces the tcp port of an interface that was opened ... *)
Theorem C19_ports_are_open : forall conf evs ifs eid ver desc ins o,
  handed conf evs = Some ifs ->
  In o (outs (run (init (node_cfg eid ver desc ifs)) ins)) ->
  exists i scheme p,
    In (i, true) evs /\ nth_error (map normalise conf) i = Some (scheme, p) /\
    starts_with K_tcp (uri (scheme, p)) = true /\
    snd o = message (init (node_cfg eid ver desc ifs)) p.
Proof.
  intros conf evs ifs eid ver desc ins o H Ho.
  destruct (run_sent_port _ ins o Ho) as (scheme & p & H1 & H2 & E).
  apply (handed_opened _ _ _ H) in H1. destruct H1 as (i & I1 & I2).
  exists i, scheme, p. auto.
Qed.

(*    ... every opened tcp interface is announced, each interface once ... *)
Theorem C19_open_ports_announced : forall conf evs ifs eid ver desc i scheme p,
  handed conf evs = Some ifs ->
  In (i, true) evs -> nth_error (map normalise conf) i = Some (scheme, p) ->
  starts_with K_tcp (uri (scheme, p)) = true ->
  In p (l_ports (init (node_cfg eid ver desc ifs))).
Proof.
  intros conf evs ifs eid ver desc i scheme p H H1 H2 H3.
  destruct (init_frame (node_cfg eid ver desc ifs)) as (_ & _ & -> & _).
  apply ports_of_in. exists scheme. split; [|exact H3].
  apply (handed_opened _ _ _ H). exists i. auto.
Qed.

Theorem C19_handed_interfaces : forall conf evs ifs,
  handed conf evs = Some ifs ->
  ifs <> [] /\ NoDup ifs /\ forall u, In u ifs <-> opened_by (map normalise conf) evs u.
Proof.
  intros conf evs ifs H. destruct (handed_some _ _ _ H) as (N & ->).
  split; [exact N|]. split; [apply startup_nodup | intro u; apply startup_opened].
Qed.

(*    ... and no responder is created exactly when no interface was opened *)
Theorem C19_no_responder_iff_nothing_opened : forall conf evs,
  handed conf evs = None <-> forall u, ~ opened_by (map normalise conf) evs u.
Proof.
  intros conf evs. unfold handed. setoid_rewrite <- startup_opened.
  destruct (s_opened (startup (map normalise conf) evs)) as [|u l].
  - split; [intros _ u [] | reflexivity].
  - split; [discriminate | intro H; destruct (H u); left; reflexivity].
Qed.

(* non-vacuity: a description of 300 euro signs is cut to 140 characters (whole characters: 3 bytes each), the
   messages have 508 bytes, a request from sender 2 is answered once per tcp port, other datagrams (an empty object,
   invalid UTF-8, the JSON number 5) are neither answered nor fatal *)
Definition demo_cfg : cfg :=
  {| c_eid := s2l "e"; c_version := s2l "v1"; c_desc := Some (repeat 8364 300);
     c_ifaces := [(s2l "tcp", 10767); (s2l "ws", 8010); (s2l "tcp", 1)]; c_bcast := false |}.
Example C19_demo :
  let l := init demo_cfg in
  let r := run l [IRecv (utf8_encode (s2l "{}")) (PObj []) 1; IRecv [255] PBad 0; IRecv [53] PScalar 0;
                  IRecv request_bytes request_parse 2] in
  (l_enabled l, List.length (l_desc l), l_ports l, st r, map (fun o => (fst o, blen (snd o))) (outs r))
  = (true, 140%nat, [10767; 1], Listening, [(DAddr 2, 508%Z); (DAddr 2, 504%Z)]).
Proof. vm_compute. reflexivity. Qed.

(* non-vacuity of the law hypothesis of theorem 7: the model can express the kill -- json.loads raising on valid
   UTF-8 ends the loop -- so C19_survives really rests on the receive size obligation *)
Example C19_demo_killer :
  st (run (init demo_cfg) [IRecv (repeat 91 2000) PRaise 0; IRecv request_bytes request_parse 2]) = Killed
  /\ loads_law_b (N.to_nat json_depth_limit) (received (repeat 91 2000)) PRaise = false.
Proof. vm_compute. split; reflexivity. Qed.

(* non-vacuity of theorem 8: four configured interfaces (the second one a bare number); the ws interface and the
   first tcp interface come up (in this order), the last one fails, the second one hangs until the time-out: the
   responder gets the two opened ones and announces port 10767 only, although the local list of the server still
   holds the hanging tcp://10768 *)
Example C19_demo_startup :
  let conf := [(Some (s2l "tcp"), 10767); (None, 10768); (Some (s2l "ws"), 8010); (Some (s2l "tcp"), 10769)] in
  let evs := [(2, true); (0, true); (3, false)]%nat in
  handed conf evs = Some [(s2l "ws", 8010); (s2l "tcp", 10767)] /\
  s_list (startup (map normalise conf) evs) = [(s2l "tcp", 10767); (s2l "tcp", 10768); (s2l "ws", 8010)] /\
  l_ports (init (node_cfg (s2l "e") (s2l "v1") None [(s2l "ws", 8010); (s2l "tcp", 10767)])) = [10767].
Proof. vm_compute. repeat split; reflexivity. Qed.

Print Assumptions C19_source_facts.
Print Assumptions C19_recv_below_limit.
Print Assumptions C19_bounded.
Print Assumptions C19_wellformed.
Print Assumptions C19_char_boundary.
Print Assumptions C19_disabled_iff.
Print Assumptions C19_disabled_iff_identity_too_long_except_escapes.
Print Assumptions C19_identity_too_long_disables.
Print Assumptions C19_sends_good.
Print Assumptions C19_disabled_silent.
Print Assumptions C19_ports_opened.
Print Assumptions C19_answers_iff.
Print Assumptions C19_is_request_meaning.
Print Assumptions C19_killed_iff.
Print Assumptions C19_survives_if_recv_below_limit.
Print Assumptions C19_survives.
Print Assumptions C19_keeps_answering.
Print Assumptions C19_ports_are_open.
Print Assumptions C19_open_ports_announced.
Print Assumptions C19_handed_interfaces.
Print Assumptions C19_no_responder_iff_nothing_opened.
Print Assumptions C19_refuted_disabled_though_identity_fits.
