(* C19 -- lemmas about the start-up of the interfaces in Server.run and the interface list handed to the responder:
   whatever the interface threads did before the server went on (opened, failed, still inside the constructor at the
   time-out; in any order), the list handed over holds exactly the interfaces that were opened, each once. *)
From Coq Require Import List Arith ZArith NArith Bool Lia.
Import ListNotations.
Require Import FV.Gen.C19 FV.C19.Model FV.C19.Lemmas.
Open Scope N_scope.

Lemma iface_eqb_eq a b : iface_eqb a b = true <-> a = b.
Proof.
  destruct a as [s n], b as [t m]. unfold iface_eqb. cbn [fst snd].
  rewrite andb_true_iff, str_eqb_eq, N.eqb_eq. split; [intros [-> ->]; reflexivity | intro E; injection E; auto].
Qed.

Lemma dict_add_in k d x : In x (dict_add k d) <-> k = x \/ In x d.
Proof.
  induction d as [|y d IH]; cbn [dict_add]; [reflexivity|].
  destruct (iface_eqb k y) eqn:E; cbn [In].
  - apply iface_eqb_eq in E. subst y. split; [auto | intros [H|H]; auto].
  - rewrite IH. split; intros [H|[H|H]]; auto.
Qed.

Lemma dict_add_nodup k d : NoDup d -> NoDup (dict_add k d).
Proof.
  induction 1 as [|y d Hy Hd IH]; cbn [dict_add].
  - constructor; [intros []| constructor].
  - destruct (iface_eqb k y) eqn:E; [constructor; assumption|].
    constructor; [|exact IH]. rewrite dict_add_in. intros [<-|H]; [|contradiction].
    assert (iface_eqb k k = true) by (apply iface_eqb_eq; reflexivity). congruence.
Qed.

Lemma remove_first_incl k l x : In x (remove_first k l) -> In x l.
Proof.
  induction l as [|y l IH]; cbn [remove_first]; [auto|].
  destruct (iface_eqb k y); cbn [In]; tauto.
Qed.

Lemma ev_step_opened conf s e u :
  In u (s_opened (ev_step conf s e)) <->
  In u (s_opened s) \/ (snd e = true /\ nth_error conf (fst e) = Some u).
Proof.
  unfold ev_step. destruct (nth_error conf (fst e)) as [v|]; [destruct (snd e); cbn [s_opened]|];
    rewrite ?dict_add_in; intuition congruence.
Qed.

Lemma ev_step_nodup conf s e : NoDup (s_opened s) -> NoDup (s_opened (ev_step conf s e)).
Proof.
  intro H. unfold ev_step. destruct (nth_error conf (fst e)); [|exact H].
  destruct (snd e); cbn [s_opened]; [apply dict_add_nodup; exact H | exact H].
Qed.

(* the local list only ever shrinks: it stays a part of the configured list *)
Lemma ev_step_list conf s e x : In x (s_list (ev_step conf s e)) -> In x (s_list s).
Proof.
  unfold ev_step. destruct (nth_error conf (fst e)); [|auto].
  destruct (snd e); cbn [s_list]; [auto | apply remove_first_incl].
Qed.

(* u was opened: some thread i, started for the configured interface u, constructed its interface object and
   registered it before the server went on *)
Definition opened_by (conf : list (str * N)) (evs : list (nat * bool)) (u : str * N) : Prop :=
  exists i, In (i, true) evs /\ nth_error conf i = Some u.

Lemma opened_by_cons conf e evs u : opened_by conf (e :: evs) u <->
  (snd e = true /\ nth_error conf (fst e) = Some u) \/ opened_by conf evs u.
Proof.
  destruct e as [j b]. unfold opened_by. cbn [In fst snd]. split.
  - intros (i & [E|H] & N); [injection E as -> ->; auto | right; eauto].
  - intros [(-> & N)|(i & H & N)]; eauto.
Qed.

Lemma fold_opened conf evs : forall s u,
  In u (s_opened (fold_left (ev_step conf) evs s)) <-> In u (s_opened s) \/ opened_by conf evs u.
Proof.
  induction evs as [|e evs IH]; intros s u; cbn [fold_left].
  - split; [auto | intros [H|(i & [] & _)]; exact H].
  - rewrite IH, ev_step_opened, opened_by_cons. apply or_assoc.
Qed.

Lemma fold_nodup conf evs : forall s, NoDup (s_opened s) -> NoDup (s_opened (fold_left (ev_step conf) evs s)).
Proof.
  induction evs as [|e evs IH]; intros s H; cbn [fold_left]; [exact H|]. apply IH, ev_step_nodup, H.
Qed.

Theorem startup_opened conf evs u : In u (s_opened (startup conf evs)) <-> opened_by conf evs u.
Proof. unfold startup. rewrite fold_opened. cbn. tauto. Qed.

Theorem startup_nodup conf evs : NoDup (s_opened (startup conf evs)).
Proof. unfold startup. apply fold_nodup. constructor. Qed.

Lemma handed_some conf evs ifs : handed conf evs = Some ifs ->
  ifs <> [] /\ ifs = s_opened (startup (map normalise conf) evs).
Proof.
  unfold handed. destruct (s_opened (startup (map normalise conf) evs)); [discriminate|].
  intro H. injection H as <-. split; [discriminate | reflexivity].
Qed.

Lemma handed_opened conf evs ifs : handed conf evs = Some ifs ->
  forall u, In u ifs <-> opened_by (map normalise conf) evs u.
Proof. intros H u. rewrite (proj2 (handed_some _ _ _ H)). apply startup_opened. Qed.

(* the responder Server.run creates: equipment id, version and description are whatever the node has; no
   startup_broadcast argument is passed (default True) *)
Definition node_cfg (eid ver : str) (desc : option str) (ifs : list (str * N)) : cfg :=
  {| c_eid := eid; c_version := ver; c_desc := desc; c_ifaces := ifs; c_bcast := true |}.
