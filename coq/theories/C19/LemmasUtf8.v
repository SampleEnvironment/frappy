(* C19 -- UTF-8 lemmas: decoding inverts encoding on scalar values; decoding a cut-off encoding with
   the lenient decoder yields the longest prefix of whole characters that fits. *)
From Coq Require Import List Arith ZArith NArith Bool Lia.
Import ListNotations.
Require Import FV.Gen.C19 FV.C19.Model.
Open Scope N_scope.

Definition valid (s : str) : Prop := Forall (fun c => is_scalar c = true) s.

(* settles the next comparison that the goal branches on, by lia where the context decides it *)
Ltac dec_if :=
  match goal with
  | |- context [if (?a <? ?b) then _ else _] =>
      let H := fresh "C" in destruct (N.ltb_spec a b) as [H|H]; try (exfalso; lia)
  | |- context [if (?a <=? ?b) then _ else _] =>
      let H := fresh "C" in destruct (N.leb_spec a b) as [H|H]; try (exfalso; lia)
  end.

Lemma is_scalar_spec c : is_scalar c = true <-> (c < 0xD800 \/ (0xDFFF < c /\ c <= 0x10FFFF)).
Proof.
  unfold is_scalar. rewrite orb_true_iff, andb_true_iff, N.ltb_lt, N.ltb_lt, N.leb_le. tauto.
Qed.

Lemma add_sub_l a b : a + b - a = b.
Proof. lia. Qed.

Lemma is_cont_low x : x < 64 -> is_cont (0x80 + x) = true.
Proof. intro H. apply andb_true_iff. split; [apply N.leb_le | apply N.ltb_lt]; lia. Qed.

Lemma enc1_length c : (1 <= length (enc1 c) <= 4)%nat.
Proof. unfold enc1. repeat dec_if; cbn; lia. Qed.

Lemma enc1_nonnil c : enc1 c <> [].
Proof. pose proof (enc1_length c). destruct (enc1 c); cbn in *; [lia | discriminate]. Qed.

(* a lead byte L + h passes every test of dec1 against a bound up to L, whatever its payload h *)
Lemma lead_ge L h t : t <= L -> (L + h <? t) = false.
Proof. intro H. apply N.ltb_ge. lia. Qed.

(* dec1 on the three multi-byte forms: lead byte with payload h, continuation bytes with payloads x y z *)
Lemma dec1_2 h x r : 2 <= h < 32 -> x < 64 ->
  dec1 (0xC0 + h :: 0x80 + x :: r) = Some (h * 64 + x, r).
Proof.
  intros Hh Hx. cbn [dec1]. rewrite lead_ge by discriminate. repeat dec_if.
  rewrite (is_cont_low x Hx), !add_sub_l. reflexivity.
Qed.

Lemma dec1_3 c h x y r : h < 16 -> x < 64 -> y < 64 -> c = h * 4096 + x * 64 + y ->
  0x800 <= c -> is_scalar c = true ->
  dec1 (0xE0 + h :: 0x80 + x :: 0x80 + y :: r) = Some (c, r).
Proof.
  intros Hh Hx Hy E Hc Hs. cbn [dec1]. rewrite !lead_ge by discriminate. dec_if.
  rewrite (is_cont_low x Hx), (is_cont_low y Hy), !add_sub_l, <- E, Hs, (proj2 (N.leb_le _ _) Hc). reflexivity.
Qed.

Lemma dec1_4 c h x y z r : h < 5 -> x < 64 -> y < 64 -> z < 64 -> c = h * 262144 + x * 4096 + y * 64 + z ->
  0x10000 <= c <= 0x10FFFF ->
  dec1 (0xF0 + h :: 0x80 + x :: 0x80 + y :: 0x80 + z :: r) = Some (c, r).
Proof.
  intros Hh Hx Hy Hz E [Hc Hc']. cbn [dec1]. rewrite !lead_ge by discriminate. dec_if.
  rewrite (is_cont_low x Hx), (is_cont_low y Hy), (is_cont_low z Hz), !add_sub_l, <- E,
    (proj2 (N.leb_le _ _) Hc), (proj2 (N.leb_le _ _) Hc'). reflexivity.
Qed.

(* what lia needs to know of a quotient and a remainder once they are generalised to variables *)
Lemma div_mod_pos a p : a = a / N.pos p * N.pos p + a mod N.pos p /\ a mod N.pos p < N.pos p.
Proof. split; [rewrite N.mul_comm; apply N.div_mod' | apply N.mod_lt; discriminate]. Qed.

Lemma dec1_enc1 c r : is_scalar c = true -> dec1 (enc1 c ++ r) = Some (c, r).
Proof.
  intro Hs. assert (c <= 0x10FFFF) as Hmax by (apply is_scalar_spec in Hs; lia). unfold enc1.
  (* the payloads are the base 64 digits of c; from here on they are variables and the arithmetic is linear *)
  replace (c / 4096) with (c / 64 / 64) by (rewrite N.div_div by discriminate; reflexivity).
  replace (c / 262144) with (c / 64 / 64 / 64) by (rewrite !N.div_div by discriminate; reflexivity).
  generalize (div_mod_pos c 64), (div_mod_pos (c / 64) 64), (div_mod_pos (c / 64 / 64) 64).
  generalize (c mod 64), (c / 64). intros d0 q1. generalize (q1 mod 64), (q1 / 64). intros d1 q2.
  generalize (q2 mod 64), (q2 / 64). intros d2 q3 [E1 B1] [E2 B2] [E3 B3].
  destruct (N.ltb_spec c 0x80) as [C1|C1].
  { cbn. destruct (N.ltb_spec c 128); [reflexivity | lia]. }
  destruct (N.ltb_spec c 0x800) as [C2|C2].
  { cbn [app]. rewrite dec1_2 by lia. do 2 f_equal. lia. }
  destruct (N.ltb_spec c 0x10000) as [C3|C3].
  { apply dec1_3; (exact Hs || lia). }
  apply dec1_4; lia.
Qed.

Lemma dec1_cut c k : (k < length (enc1 c))%nat -> dec1 (firstn k (enc1 c)) = None.
Proof.
  (* the lead byte alone sends dec1 past the shorter forms, and the form it selects asks for more bytes than are left *)
  unfold enc1. destruct (c <? 0x80); [|destruct (c <? 0x800); [|destruct (c <? 0x10000)]]; cbn [length]; intro Hk;
    destruct k as [|[|[|[|k]]]]; try (exfalso; lia);
    cbn [firstn dec1]; rewrite ?lead_ge by discriminate;
    repeat match goal with |- context [if ?b then _ else _] => destruct b end; reflexivity.
Qed.

Lemma utf8_encode_app a b : utf8_encode (a ++ b) = utf8_encode a ++ utf8_encode b.
Proof. apply flat_map_app. Qed.

Lemma utf8_encode_cons c s : utf8_encode (c :: s) = enc1 c ++ utf8_encode s.
Proof. reflexivity. Qed.

Lemma utf8_length_ge s : (length s <= length (utf8_encode s))%nat.
Proof.
  induction s as [|c s IH]; [cbn; lia|]. rewrite utf8_encode_cons, app_length.
  pose proof (enc1_length c). cbn [length]. lia.
Qed.

Lemma dec_loop_encode strict s : valid s -> forall fuel, (length s <= fuel)%nat ->
  dec_loop fuel strict (utf8_encode s) = Some s.
Proof.
  induction 1 as [|c s Hc Hs IH]; intros fuel Hf.
  - destruct fuel; reflexivity.
  - rewrite utf8_encode_cons. destruct fuel as [|fuel]; [cbn in Hf; lia|].
    cbn [dec_loop]. rewrite (dec1_enc1 c _ Hc). rewrite IH by (cbn in Hf; lia). reflexivity.
Qed.

Lemma utf8_decode_encode s : valid s -> utf8_decode (utf8_encode s) = Some s.
Proof. intro H. apply dec_loop_encode; [exact H | apply utf8_length_ge]. Qed.

(* the longest prefix of whole characters whose encoding has at most k bytes *)
Fixpoint take_fit (k : nat) (s : str) : str :=
  match s with
  | [] => []
  | c :: s' => if (length (enc1 c) <=? k)%nat then c :: take_fit (k - length (enc1 c)) s' else []
  end.

Lemma dec_loop_cut s : valid s -> forall k fuel, (length (take_fit k s) <= fuel)%nat ->
  dec_loop fuel false (firstn k (utf8_encode s)) = Some (take_fit k s).
Proof.
  induction 1 as [|c s Hc Hs IH]; intros k fuel Hf.
  - rewrite firstn_nil. destruct fuel; reflexivity.
  - rewrite utf8_encode_cons, firstn_app. cbn [take_fit] in *.
    destruct (Nat.leb_spec (length (enc1 c)) k) as [L|L].
    + rewrite firstn_all2 by exact L.
      destruct fuel as [|fuel]; [cbn in Hf; lia|].
      cbn [dec_loop]. rewrite (dec1_enc1 c _ Hc). rewrite IH by (cbn in Hf; lia). reflexivity.
    + replace (k - length (enc1 c))%nat with 0%nat by lia. rewrite firstn_O, app_nil_r.
      destruct fuel; cbn [dec_loop]; rewrite (dec1_cut c k L); destruct (firstn k (enc1 c)); reflexivity.
Qed.

Lemma take_fit_split k s : exists rest,
  s = take_fit k s ++ rest /\ (length (utf8_encode (take_fit k s)) <= k)%nat.
Proof.
  revert k. induction s as [|c s IH]; intro k.
  - exists []. split; [reflexivity | cbn; lia].
  - cbn [take_fit]. destruct (Nat.leb_spec (length (enc1 c)) k) as [L|L].
    + destruct (IH (k - length (enc1 c))%nat) as (rest & E & B). exists rest. split.
      * cbn. f_equal. exact E.
      * rewrite utf8_encode_cons, app_length. lia.
    + exists (c :: s). split; [reflexivity | cbn; lia].
Qed.

Lemma take_fit_all k s : (length (utf8_encode s) <= k)%nat -> take_fit k s = s.
Proof.
  revert k. induction s as [|c s IH]; intros k Hk; [reflexivity|].
  rewrite utf8_encode_cons, app_length in Hk. cbn [take_fit].
  destruct (Nat.leb_spec (length (enc1 c)) k) as [L|L]; [|lia]. f_equal. apply IH. lia.
Qed.

Lemma take_fit_maximal k s c rest : s = take_fit k s ++ c :: rest ->
  (k < length (utf8_encode (take_fit k s ++ [c])))%nat.
Proof.
  revert k. induction s as [|d s IH]; intros k E.
  - destruct (take_fit k []); discriminate.
  - cbn [take_fit] in *. destruct (Nat.leb_spec (length (enc1 d)) k) as [L|L].
    + cbn [app] in E. injection E as E. specialize (IH _ E).
      cbn [app]. rewrite utf8_encode_cons, app_length. lia.
    + cbn [app] in E. injection E as -> _. cbn [app]. rewrite utf8_encode_cons, app_length. cbn. lia.
Qed.

Lemma utf8_decode_ignore_cut s k : valid s ->
  utf8_decode_ignore (firstn k (utf8_encode s)) = take_fit k s.
Proof.
  intro H. unfold utf8_decode_ignore. rewrite dec_loop_cut; [reflexivity | exact H |].
  destruct (take_fit_split k s) as (rest & E & B).
  rewrite firstn_length. apply Nat.min_glb.
  - pose proof (utf8_length_ge (take_fit k s)). lia.
  - rewrite E at 2. rewrite utf8_encode_app, app_length. pose proof (utf8_length_ge (take_fit k s)). lia.
Qed.

Lemma valid_app a b : valid (a ++ b) <-> valid a /\ valid b.
Proof. apply Forall_app. Qed.

Definition is_ascii (s : str) : Prop := Forall (fun c => c < 0x80) s.

Lemma utf8_encode_ascii s : is_ascii s -> utf8_encode s = s.
Proof.
  induction 1 as [|c s Hc _ IH]; [reflexivity|].
  rewrite utf8_encode_cons, IH. unfold enc1. destruct (N.ltb_spec c 0x80); [reflexivity | lia].
Qed.

Lemma ascii_valid s : is_ascii s -> valid s.
Proof.
  unfold is_ascii, valid. apply Forall_impl. intros c Hc. apply is_scalar_spec. lia.
Qed.
