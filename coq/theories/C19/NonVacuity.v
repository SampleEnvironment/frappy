(* C19 -- vacuity audit: for every theorem of Properties.v its premises are instantiated with concrete, non-trivial
   terms and the theorem is applied.  Nothing here is part of the property; the examples only show that the
   hypotheses of the theorems can be met together, by instances of the shape the correspondence driver (Run.v)
   builds: constructor arguments through xs, datagrams through mk_input / xb, start-up through handed.

   The instance:
   - aud_cfg: equipment id with a two byte and a four byte character, description of 60 blocks
     [euro sign; double quote; line feed; U+1F600; a] (600 raw bytes, 720 bytes inside a JSON string), three
     interfaces (two of them tcp, one with the largest port), start-up broadcast on.  The description is truncated
     in the middle of a multi byte character, the responder stays enabled.
   - aud_dgrams: seven datagrams from four senders: an empty object, invalid UTF-8, a JSON number, a discovery
     request, 1000 opening brackets (json.loads answers with a ValueError), an object whose SECoP member is not
     discover, a second request with further members.
   - aud_conf / aud_evs: five configured interfaces (one a bare number); three come up, one fails, one hangs. *)
From Coq Require Import List Arith ZArith NArith Bool Lia String.
From Coq Require Import Init.Byte.
Import ListNotations.
Require Import FV.Base.Util FV.Gen.C19 FV.C19.Model FV.C19.LemmasUtf8 FV.C19.LemmasJson FV.C19.Lemmas
  FV.C19.LemmasServer FV.C19.Refuted FV.C19.Run FV.C19.Properties.
Open Scope N_scope.

(* no_escapes of a closed string by evaluation *)
Definition no_escape_b (c : N) : bool := match esc1 c with [d] => d =? c | _ => false end.

Lemma no_escapes_of_b s : forallb no_escape_b s = true -> no_escapes s.
Proof.
  intro H. apply Forall_forall. intros c Hc. rewrite forallb_forall in H. specialize (H c Hc).
  unfold no_escape_b in H. destruct (esc1 c) as [|d [|e r]]; try discriminate.
  apply N.eqb_eq in H. subst d. reflexivity.
Qed.

Definition aud_block : list N := [8364; 34; 10; 128512; 97].

Definition aud_cfg : cfg :=
  {| c_eid := xs [([233; 113], 2%nat); ([128512], 1%nat); ([113], 2%nat)];
     c_version := xs [(s2l "1.2", 1%nat)];
     c_desc := option_map xs (Some [(aud_block, 60%nat)]);
     c_ifaces := [(s2l "tcp", 10767); (s2l "ws", 8010); (s2l "tcp", 65535)];
     c_bcast := true |}.

(* the bytes of {"SECoP":"discover"} *)
Definition aud_req : list byte :=
  [x7b; x22; x53; x45; x43; x6f; x50; x22; x3a; x22; x64; x69; x73; x63; x6f; x76; x65; x72; x22; x7d].

Definition aud_dgrams : list dgram :=
  [DG [([x7b; x7d], 1%nat)] (PObj []) 1;
   DG [([xff], 1%nat)] PBad 0;
   DG [([x35], 1%nat)] PScalar 0;
   DG [(aud_req, 1%nat)] request_parse 2;
   DG [([x5b], 1000%nat)] PBad 3;
   DG [(aud_req, 1%nat)] (PObj [(K_SECoP, Some (s2l "describe"))]) 1;
   DG [(aud_req, 1%nat)] (PObj [(s2l "x", None); (K_SECoP, Some K_discover); (s2l "y", Some (s2l "z"))]) 3].

Definition aud_ins : list input := map mk_input aud_dgrams.

Example aud_req_is_request_bytes : xb [(aud_req, 1%nat)] = request_bytes.
Proof. vm_compute. reflexivity. Qed.

Lemma aud_wf : wf_cfg aud_cfg.
Proof. repeat split; apply valid_closed; vm_compute; reflexivity. Qed.

Lemma aud_ports_le : forall p, In p (ports_of (c_ifaces aud_cfg)) -> p <= 65535.
Proof. intros p H. vm_compute in H. destruct H as [<-|[<-|[]]]; vm_compute; discriminate. Qed.

(* the constructor on the instance, evaluated once: the description is cut to 143 characters *)
Lemma aud_init : init aud_cfg = set_desc (base aud_cfg) (firstn 143 (desc0 aud_cfg)).
Proof. vm_compute. reflexivity. Qed.

(* what the instance looks like: enabled, 600 raw bytes cut to 143 whole characters (285 bytes; the budget of 288
   bytes ends inside the four byte character that follows), two tcp ports, the announcement for the longest port has 443
   bytes *)
Example aud_shape :
  (l_enabled (init aud_cfg), List.length (desc0 aud_cfg), List.length (l_desc (init aud_cfg)),
   rawlen (desc0 aud_cfg), esclen (desc0 aud_cfg), rawlen (l_desc (init aud_cfg)),
   (rawlen (desc0 aud_cfg) + avail aud_cfg)%Z, l_ports (init aud_cfg),
   blen (message (init aud_cfg) 65535))
  = (true, 300%nat, 143%nat, 600%Z, 720%Z, 285%Z, 288%Z, [10767; 65535], 443%Z).
Proof. rewrite aud_init. vm_compute. reflexivity. Qed.

(* 1. C19_bounded
   premises: wf_cfg c, l_enabled (init c) = true, port <= 65535 *)
Example C19_bounded_applies : (blen (message (init aud_cfg) 65535) <= MAX_MESSAGE_LEN)%Z.
Proof. apply C19_bounded; [exact aud_wf | rewrite aud_init; reflexivity | vm_compute; discriminate]. Qed.

(* the same for a configuration that is not truncated at all and for the one of C19_demo (cut on a character
   boundary, 508 bytes exactly) *)
Definition small_cfg : cfg :=
  {| c_eid := s2l "eq"; c_version := s2l "v1"; c_desc := None;
     c_ifaces := [(s2l "tcp", 10767)]; c_bcast := false |}.

Lemma small_wf : wf_cfg small_cfg.
Proof. repeat split; apply valid_closed; vm_compute; reflexivity. Qed.

Lemma demo_wf : wf_cfg demo_cfg.
Proof. repeat split; apply valid_closed; vm_compute; reflexivity. Qed.

Example C19_bounded_applies_untruncated : (blen (message (init small_cfg) 0) <= MAX_MESSAGE_LEN)%Z.
Proof. apply C19_bounded; [exact small_wf | vm_compute; reflexivity | vm_compute; discriminate]. Qed.

Example C19_bounded_applies_tight : (blen (message (init demo_cfg) 10767) <= MAX_MESSAGE_LEN)%Z.
Proof. apply C19_bounded; [exact demo_wf | vm_compute; reflexivity | vm_compute; discriminate]. Qed.

(* 2. C19_wellformed
   premises: wf_cfg c, port <= 65535 *)
Example C19_wellformed_applies :
  let l := init aud_cfg in
  utf8_decode (message l 10767) = Some (msg_text 10767 (l_eid l) (l_fw l) (l_desc l)) /\
  read_msg (msg_text 10767 (l_eid l) (l_fw l) (l_desc l))
    = Some (10767, c_eid aud_cfg, firmware_prefix ++ c_version aud_cfg, l_desc l) /\
  prefix_of (l_desc l) (desc0 aud_cfg).
Proof. apply C19_wellformed; [exact aud_wf | vm_compute; discriminate]. Qed.

(* 3. C19_char_boundary
   premise: valid (desc0 c); inside the conclusion: (a) the message of the untruncated listener fits,
   (b) the responder is enabled and a character ch was dropped.  (a) and (b) exclude each other for one
   configuration (as they should), each is met by a configuration of its own. *)
Example C19_char_boundary_applies :
  prefix_of (l_desc (init aud_cfg)) (desc0 aud_cfg) /\ valid (l_desc (init aud_cfg)) /\
  ((blen (message (base aud_cfg) budget_port) <= MAX_MESSAGE_LEN)%Z -> init aud_cfg = base aud_cfg) /\
  (forall ch rest, l_enabled (init aud_cfg) = true -> desc0 aud_cfg = l_desc (init aud_cfg) ++ ch :: rest ->
     (rawlen (desc0 aud_cfg) + avail aud_cfg < rawlen (l_desc (init aud_cfg) ++ [ch]))%Z).
Proof. apply C19_char_boundary, aud_wf. Qed.

(* (a): the inner premise of the third part holds for small_cfg, the part yields init = base *)
Example C19_char_boundary_whole_applies : init small_cfg = base small_cfg.
Proof.
  destruct (C19_char_boundary small_cfg) as (_ & _ & H & _); [apply small_wf|].
  apply H. vm_compute. discriminate.
Qed.

(* (b): the inner premises of the fourth part hold for aud_cfg with the dropped character U+1F600: it needs
   4 bytes where 3 are left *)
Example C19_char_boundary_dropped_applies :
  let kept := l_desc (init aud_cfg) in
  let ch := nth (List.length kept) (desc0 aud_cfg) 0 in
  ch = 128512 /\
  (rawlen (desc0 aud_cfg) + avail aud_cfg < rawlen (kept ++ [ch]))%Z /\
  (rawlen kept, (rawlen (desc0 aud_cfg) + avail aud_cfg)%Z, rawlen (kept ++ [ch])) = (285%Z, 288%Z, 289%Z).
Proof.
  destruct (C19_char_boundary aud_cfg) as (_ & _ & _ & H); [apply aud_wf|].
  rewrite aud_init in *. intros kept ch. split; [vm_compute; reflexivity|]. split; [|vm_compute; reflexivity].
  apply (H ch (skipn (S (List.length kept)) (desc0 aud_cfg))); vm_compute; reflexivity.
Qed.

(* 4. C19_disabled_iff and its corollaries
   premise: valid (desc0 c); both sides of the equivalence occur *)
Definition long_eid_cfg : cfg :=
  {| c_eid := repeat 120 240 ++ repeat 233 120; c_version := s2l "v1"; c_desc := Some (s2l "a fine node, 20 " ++ [8364]);
     c_ifaces := [(s2l "tcp", 10767)]; c_bcast := true |}.

Lemma long_eid_wf : wf_cfg long_eid_cfg.
Proof. repeat split; apply valid_closed; vm_compute; reflexivity. Qed.

Example C19_disabled_iff_both_sides :
  (* disabled by escapes although the identity fits, disabled by the identity, enabled *)
  (l_enabled (init cfg_escapes) = false /\
   (MAX_MESSAGE_LEN < identity_len cfg_escapes + (esclen (desc0 cfg_escapes) - rawlen (desc0 cfg_escapes)))%Z) /\
  (l_enabled (init long_eid_cfg) = false /\
   (MAX_MESSAGE_LEN < identity_len long_eid_cfg + (esclen (desc0 long_eid_cfg) - rawlen (desc0 long_eid_cfg)))%Z) /\
  (l_enabled (init aud_cfg) = true /\
   ~ (MAX_MESSAGE_LEN < identity_len aud_cfg + (esclen (desc0 aud_cfg) - rawlen (desc0 aud_cfg)))%Z).
Proof.
  assert (valid (desc0 cfg_escapes)) as V1 by (apply valid_closed; vm_compute; reflexivity).
  destruct long_eid_wf as (_ & _ & V2). destruct aud_wf as (_ & _ & V3).
  split; [|split].
  - assert (l_enabled (init cfg_escapes) = false) as E by (vm_compute; reflexivity).
    split; [exact E | apply (C19_disabled_iff _ V1); exact E].
  - assert (MAX_MESSAGE_LEN < identity_len long_eid_cfg
              + (esclen (desc0 long_eid_cfg) - rawlen (desc0 long_eid_cfg)))%Z as E by (vm_compute; reflexivity).
    split; [apply (C19_disabled_iff _ V2); exact E | exact E].
  - split; [rewrite aud_init; reflexivity|]. intro H. apply (C19_disabled_iff _ V3) in H.
    rewrite aud_init in H. discriminate H.
Qed.

(* premises: valid (desc0 c), no_escapes (desc0 c); both sides occur (long identity / euro signs only) *)
Example C19_disabled_iff_identity_applies :
  l_enabled (init long_eid_cfg) = false /\ ~ (MAX_MESSAGE_LEN < identity_len demo_cfg)%Z.
Proof.
  split.
  - apply C19_disabled_iff_identity_too_long_except_escapes.
    + apply long_eid_wf.
    + apply no_escapes_of_b. vm_compute. reflexivity.
    + vm_compute. reflexivity.
  - intro H. apply C19_disabled_iff_identity_too_long_except_escapes in H.
    + vm_compute in H. discriminate.
    + apply demo_wf.
    + apply no_escapes_of_b. vm_compute. reflexivity.
Qed.

(* premises: valid (desc0 c), MAX_MESSAGE_LEN < identity_len c *)
Example C19_identity_too_long_disables_applies :
  l_enabled (init long_eid_cfg) = false /\ identity_len long_eid_cfg = 567%Z.
Proof.
  split; [|vm_compute; reflexivity].
  apply C19_identity_too_long_disables; [apply long_eid_wf | vm_compute; reflexivity].
Qed.

(* 5. C19_sends_good, C19_disabled_silent,
   C19_ports_opened.  premises of C19_sends_good: wf_cfg c, every tcp port of the list is at most 65535 *)
Example C19_sends_good_applies :
  Forall (good_datagram aud_cfg) (outs (run (init aud_cfg) (aud_ins ++ [IError]))) /\
  (* ... and the Forall ranges over something: two broadcasts, two answers to sender 2, two to sender 3; the
     history is the one the driver produces (it ends with the socket error) *)
  (st (run (init aud_cfg) (aud_ins ++ [IError])), consumed (run (init aud_cfg) (aud_ins ++ [IError])),
   map (fun o => (fst o, blen (snd o))) (outs (run (init aud_cfg) (aud_ins ++ [IError]))))
  = (Returned, 8%nat,
     [(DBroadcast 10767, 443%Z); (DBroadcast 10767, 443%Z); (DAddr 2, 443%Z); (DAddr 2, 443%Z);
      (DAddr 3, 443%Z); (DAddr 3, 443%Z)]).
Proof.
  split; [apply C19_sends_good; [exact aud_wf | exact aud_ports_le] |].
  (* as a local definition the run is evaluated once by the checker, not once for each of the three places that
     look at it *)
  rewrite aud_init. set (r := run _ _). vm_compute. reflexivity.
Qed.

(* premise: l_enabled (init c) = false; the history contains requests and the broadcast flag is set *)
Example C19_disabled_silent_applies :
  c_bcast long_eid_cfg = true /\
  outs (run (init long_eid_cfg) aud_ins) = [] /\ st (run (init long_eid_cfg) aud_ins) = NotListening.
Proof. split; [reflexivity|]. apply C19_disabled_silent. vm_compute. reflexivity. Qed.

(* an equivalence without premises; both sides hold for the largest port, both fail for the ws port *)
Example C19_ports_opened_applies :
  In 65535 (l_ports (init aud_cfg)) /\ ~ In 8010 (l_ports (init aud_cfg)).
Proof.
  split.
  - apply (proj2 (C19_ports_opened aud_cfg 65535)). exists (s2l "tcp"). split; [right; right; left; reflexivity | vm_compute; reflexivity].
  - intro H. rewrite aud_init in H. vm_compute in H. destruct H as [H|[H|[]]]; discriminate H.
Qed.

(* 6. C19_answers_iff, C19_is_request_meaning
   premise: st s = Listening; s is the state reached after the first three datagrams, with the two broadcasts
   already sent *)
Definition aud_s3 : lstate := run (init aud_cfg) (firstn 3 aud_ins).

Example aud_s3_shape : (st aud_s3, consumed aud_s3, List.length (outs aud_s3)) = (Listening, 3%nat, 2%nat).
Proof. unfold aud_s3. rewrite aud_init. vm_compute. reflexivity. Qed.

Lemma aud_s3_listening : st aud_s3 = Listening.
Proof. exact (f_equal (fun t => let '(s, _, _) := t in s) aud_s3_shape). Qed.

Example C19_answers_iff_applies :
  (* a request: one answer per port *)
  outs (lstep (init aud_cfg) aud_s3 (IRecv request_bytes request_parse 2))
    = outs aud_s3 ++ answers (init aud_cfg) (DAddr 2) /\
  (* a JSON object that is no request: nothing *)
  outs (lstep (init aud_cfg) aud_s3 (IRecv request_bytes (PObj [(K_SECoP, Some (s2l "describe"))]) 2))
    = outs aud_s3 ++ [].
Proof.
  split.
  - rewrite C19_answers_iff by exact aud_s3_listening.
    replace (is_request request_bytes request_parse) with true by (vm_compute; reflexivity). reflexivity.
  - rewrite C19_answers_iff by exact aud_s3_listening.
    replace (is_request request_bytes (PObj [(K_SECoP, Some (s2l "describe"))])) with false
      by (vm_compute; reflexivity). reflexivity.
Qed.

(* an equivalence without premises: the right hand side is met by the request with further members (and so the
   left one), and refuted by the same bytes with another SECoP member *)
Example C19_is_request_meaning_applies :
  is_request request_bytes (PObj [(s2l "x", None); (K_SECoP, Some K_discover); (s2l "y", Some (s2l "z"))]) = true /\
  is_request request_bytes (PObj [(K_SECoP, Some (s2l "describe"))]) = false.
Proof.
  split.
  - apply C19_is_request_meaning. split.
    + eexists. vm_compute. reflexivity.
    + eexists. split; [reflexivity | vm_compute; reflexivity].
  - vm_compute. reflexivity.
Qed.

(* 7. C19_killed_iff, C19_survives*,
   C19_keeps_answering *)
(* premise: st s = Listening; both sides of the equivalence occur: 2000 opening brackets on which json.loads
   raises a RecursionError (only possible on an interpreter whose limit is below the receive size: the model can
   express it, the law excludes it), and they fail together for the same bytes with a ValueError *)
Example C19_killed_iff_applies :
  st (lstep (init aud_cfg) aud_s3 (IRecv (repeat 91 2000) PRaise 0)) = Killed /\
  st (lstep (init aud_cfg) aud_s3 (IRecv (repeat 91 2000) PBad 0)) <> Killed.
Proof.
  split.
  - apply C19_killed_iff; [exact aud_s3_listening|]. split; [|reflexivity].
    exists (received (repeat 91 2000)). vm_compute. reflexivity.
  - intro H. apply C19_killed_iff in H; [|exact aud_s3_listening]. destruct H as (_ & H). discriminate H.
Qed.

(* premises: recv_size < limit, loads_law limit (received data) p, st s = Listening.
   Instance with a limit of its own (1100) and the datagram of 1000 brackets answered by a ValueError. *)
Example C19_survives_if_recv_below_limit_applies :
  st (lstep (init aud_cfg) aud_s3 (IRecv (xb [([x5b], 1000%nat)]) PBad 3)) = Listening.
Proof.
  apply (C19_survives_if_recv_below_limit 1100); [apply Nat.leb_le; vm_compute; reflexivity | vm_compute; reflexivity | exact aud_s3_listening].
Qed.

(* the premises recv_size < limit and loads_law limit _ PRaise exclude each other -- that is the content of the
   theorem, not an accident: for p = PRaise the law asks for at least limit brackets among at most recv_size bytes.
   Shown here on the datagram with the most brackets a datagram can have.  For every other p the law holds
   trivially, so the premises are met by every datagram on which json.loads returns or raises a ValueError. *)
Example C19_survives_law_excludes_raise :
  loads_law_b (S recv_size) (received (repeat 91 5000)) PRaise = false /\
  loads_law_b recv_size (received (repeat 91 5000)) PRaise = true.
Proof. vm_compute. split; reflexivity. Qed.

(* premises: loads_law at the measured limit, st s = Listening; here for the request *)
Example C19_survives_applies :
  st (lstep (init aud_cfg) aud_s3 (IRecv request_bytes request_parse 2)) = Listening.
Proof. apply C19_survives; [vm_compute; reflexivity | exact aud_s3_listening]. Qed.

(* premises: l_enabled l = true, every input is a datagram obeying the law.  The seven datagrams of the
   instance, built by mk_input as the driver does; law_ok of Run.v is the same check *)
Lemma aud_ins_ok : Forall (recv_ok (N.to_nat json_depth_limit)) aud_ins.
Proof. repeat (apply Forall_cons; [vm_compute; reflexivity|]). apply Forall_nil. Qed.

Example aud_law_ok_as_in_run :
  forallb (fun d => match d with
                    | DG data p _ => loads_law_b (N.to_nat json_depth_limit) (received (xb data)) p
                    | DErr => true
                    end) aud_dgrams = true.
Proof. vm_compute. reflexivity. Qed.

Example C19_keeps_answering_applies :
  st (run (init aud_cfg) aud_ins) = Listening /\
  outs (run (init aud_cfg) aud_ins) = outs (start (init aud_cfg)) ++ flat_map (reply (init aud_cfg)) aud_ins.
Proof. apply C19_keeps_answering; [rewrite aud_init; reflexivity | exact aud_ins_ok]. Qed.

Example C19_keeps_answering_nontrivial :
  (List.length aud_ins, List.length (outs (start (init aud_cfg))),
   map (fun i => List.length (reply (init aud_cfg) i)) aud_ins)
  = (7%nat, 2%nat, [0; 0; 0; 2; 0; 0; 2]%nat).
Proof. rewrite aud_init. vm_compute. reflexivity. Qed.

(* 8. start-up of the interfaces *)
Definition aud_conf : list cfg_iface :=
  [(Some (s2l "tcp"), 10767); (None, 10768); (Some (s2l "ws"), 8010); (Some (s2l "tcp"), 10769);
   (Some (s2l "tcp"), 10770)].
(* ws first, then the bare number, then tcp://10767; tcp://10769 fails; tcp://10770 hangs *)
Definition aud_evs : list (nat * bool) := [(2, true); (1, true); (3, false); (0, true)]%nat.
Definition aud_ifs : list (str * N) := [(s2l "ws", 8010); (s2l "tcp", 10768); (s2l "tcp", 10767)].

Lemma aud_handed : handed aud_conf aud_evs = Some aud_ifs.
Proof. vm_compute. reflexivity. Qed.

Definition aud_node : cfg := node_cfg (c_eid aud_cfg) (c_version aud_cfg) (c_desc aud_cfg) aud_ifs.

Lemma aud_node_init : init aud_node = set_desc (base aud_node) (firstn 143 (desc0 aud_node)).
Proof. vm_compute. reflexivity. Qed.

(* premises: handed conf evs = Some ifs, o is among the datagrams sent.  o is the answer to the second request
   for the second port (index 5 of 6 datagrams) *)
Example C19_ports_are_open_applies :
  let o := (DAddr 3, message (init aud_node) 10767) in
  nth_error (outs (run (init aud_node) (aud_ins ++ [IError]))) 5 = Some o /\
  List.length (outs (run (init aud_node) (aud_ins ++ [IError]))) = 6%nat /\
  exists i scheme p,
    In (i, true) aud_evs /\ nth_error (map normalise aud_conf) i = Some (scheme, p) /\
    starts_with K_tcp (uri (scheme, p)) = true /\ snd o = message (init aud_node) p.
Proof.
  intro o. assert (nth_error (outs (run (init aud_node) (aud_ins ++ [IError]))) 5 = Some o) as E
    by (subst o; rewrite aud_node_init; vm_compute; reflexivity).
  split; [exact E|]. split; [rewrite aud_node_init; vm_compute; reflexivity|].
  apply (C19_ports_are_open aud_conf aud_evs aud_ifs (c_eid aud_cfg) (c_version aud_cfg) (c_desc aud_cfg)
           (aud_ins ++ [IError]) o aud_handed).
  exact (nth_error_In _ _ E).
Qed.

(* premises: handed = Some ifs, thread i reported success, it was started for (scheme, p), a tcp uri.
   The bare number 10768 (thread 1) that the server turned into tcp://10768 *)
Example C19_open_ports_announced_applies :
  In 10768 (l_ports (init aud_node)) /\ l_ports (init aud_node) = [10768; 10767].
Proof.
  split; [|rewrite aud_node_init; reflexivity].
  apply (C19_open_ports_announced aud_conf aud_evs aud_ifs _ _ _ 1%nat (s2l "tcp") 10768 aud_handed).
  - right. left. reflexivity.
  - vm_compute. reflexivity.
  - vm_compute. reflexivity.
Qed.

(* premise: handed = Some ifs *)
Example C19_handed_interfaces_applies :
  aud_ifs <> [] /\ NoDup aud_ifs /\ forall u, In u aud_ifs <-> opened_by (map normalise aud_conf) aud_evs u.
Proof. apply (C19_handed_interfaces aud_conf aud_evs). exact aud_handed. Qed.

(* an equivalence without premises: the left side holds when two threads fail and the others hang, and fails
   for the instance above *)
Example C19_no_responder_applies :
  (forall u, ~ opened_by (map normalise aud_conf) [(3, false); (0, false)]%nat u) /\
  ~ (forall u, ~ opened_by (map normalise aud_conf) aud_evs u).
Proof.
  split.
  - apply C19_no_responder_iff_nothing_opened. vm_compute. reflexivity.
  - intro H. apply C19_no_responder_iff_nothing_opened in H. vm_compute in H. discriminate.
Qed.

Print Assumptions C19_bounded_applies.
Print Assumptions C19_wellformed_applies.
Print Assumptions C19_char_boundary_dropped_applies.
Print Assumptions C19_disabled_iff_both_sides.
Print Assumptions C19_disabled_iff_identity_applies.
Print Assumptions C19_identity_too_long_disables_applies.
Print Assumptions C19_sends_good_applies.
Print Assumptions C19_disabled_silent_applies.
Print Assumptions C19_answers_iff_applies.
Print Assumptions C19_killed_iff_applies.
Print Assumptions C19_survives_if_recv_below_limit_applies.
Print Assumptions C19_survives_applies.
Print Assumptions C19_keeps_answering_applies.
Print Assumptions C19_ports_are_open_applies.
Print Assumptions C19_open_ports_announced_applies.
Print Assumptions C19_handed_interfaces_applies.
Print Assumptions C19_no_responder_applies.
