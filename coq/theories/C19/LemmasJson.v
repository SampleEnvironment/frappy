(* C19 -- specification side: a small reader for the JSON texts the responder may send (an object with the five
   members in order, string values with the standard escapes, a non-negative integer without leading zeros), and
   the proof that it reads back exactly what the message builder was given.  The reader accepts a subset of JSON:
   whatever it accepts is a JSON object; it is only used in theorem statements, never by the model. *)
From Coq Require Import List Arith ZArith NArith Bool Lia String.
Import ListNotations.
Require Import FV.Gen.C19 FV.C19.Model FV.C19.LemmasUtf8.
Open Scope N_scope.

Definition is_digit (c : N) : bool := (48 <=? c) && (c <=? 57).

Fixpoint read_digits (acc : N) (t : str) : N * str :=
  match t with
  | c :: r => if is_digit c then read_digits (acc * 10 + (c - 48)) r else (acc, t)
  | [] => (acc, [])
  end.

Definition read_nat (t : str) : option (N * str) :=
  match t with
  | c :: r =>
    if is_digit c then
      if (c =? 48) && (match r with d :: _ => is_digit d | [] => false end) then None
      else Some (read_digits 0 t)
    else None
  | [] => None
  end.

Definition unhex (c : N) : option N :=
  if (48 <=? c) && (c <=? 57) then Some (c - 48)
  else if (97 <=? c) && (c <=? 102) then Some (c - 87)
  else if (65 <=? c) && (c <=? 70) then Some (c - 55)
  else None.

Definition unesc_simple (e : N) : option N :=
  if e =? 34 then Some 34 else if e =? 92 then Some 92 else if e =? 47 then Some 47
  else if e =? 98 then Some 8 else if e =? 102 then Some 12 else if e =? 110 then Some 10
  else if e =? 114 then Some 13 else if e =? 116 then Some 9 else None.

Definition cons_opt (x : N) (o : option (str * str)) : option (str * str) :=
  match o with Some (s, rest) => Some (x :: s, rest) | None => None end.

(* the body of a JSON string after the opening quote: (decoded text, rest after the closing quote) *)
Fixpoint read_string (t : str) : option (str * str) :=
  match t with
  | [] => None
  | c :: r =>
    if c =? 34 then Some ([], r)
    else if c =? 92 then
      match r with
      | e :: r1 =>
        if e =? 117 then
          match r1 with
          | h1 :: h2 :: h3 :: h4 :: r2 =>
            match unhex h1, unhex h2, unhex h3, unhex h4 with
            | Some a, Some b, Some c', Some d =>
              let u := ((a * 16 + b) * 16 + c') * 16 + d in
              if is_scalar u then cons_opt u (read_string r2) else None
            | _, _, _, _ => None
            end
          | _ => None
          end
        else match unesc_simple e with
             | Some x => cons_opt x (read_string r1)
             | None => None
             end
      | [] => None
      end
    else if c <? 32 then None
    else cons_opt c (read_string r)
  end.

Definition read_jstring (t : str) : option (str * str) :=
  match t with
  | 34 :: r => read_string r
  | _ => None
  end.

Fixpoint expect (lit t : str) : option str :=
  match lit with
  | [] => Some t
  | a :: lit' => match t with
                 | b :: t' => if a =? b then expect lit' t' else None
                 | [] => None
                 end
  end.

(* {"SECoP":"node","port":<n>,"equipment_id":<string>,"firmware":<string>,"description":<string>} *)
Definition read_msg (t : str) : option (N * str * str * str) :=
  match expect (s2l "{""SECoP"":""node"",""port"":") t with None => None | Some t1 =>
  match read_nat t1 with None => None | Some (port, t2) =>
  match expect (s2l ",""equipment_id"":") t2 with None => None | Some t3 =>
  match read_jstring t3 with None => None | Some (eid, t4) =>
  match expect (s2l ",""firmware"":") t4 with None => None | Some t5 =>
  match read_jstring t5 with None => None | Some (fw, t6) =>
  match expect (s2l ",""description"":") t6 with None => None | Some t7 =>
  match read_jstring t7 with None => None | Some (desc, t8) =>
  match t8 with
  | [125] => Some (port, eid, fw, desc)
  | _ => None
  end end end end end end end end end.

Lemma expect_app lit r : expect lit (lit ++ r) = Some r.
Proof. induction lit as [|a lit IH]; [reflexivity|]. cbn. rewrite N.eqb_refl. exact IH. Qed.

Lemma unhex_hexdigit x : x < 16 -> unhex (hexdigit x) = Some x.
Proof.
  intro H. unfold hexdigit, unhex. destruct (N.ltb_spec x 10).
  - assert ((48 <=? 48 + x) && (48 + x <=? 57) = true) as ->.
    { apply andb_true_iff; split; apply N.leb_le; lia. }
    f_equal. lia.
  - assert ((48 <=? 87 + x) && (87 + x <=? 57) = false) as ->.
    { apply andb_false_iff; right; apply N.leb_gt; lia. }
    assert ((97 <=? 87 + x) && (87 + x <=? 102) = true) as ->.
    { apply andb_true_iff; split; apply N.leb_le; lia. }
    f_equal. lia.
Qed.

Lemma escape_cons c s : escape (c :: s) = esc1 c ++ escape s.
Proof. reflexivity. Qed.

Lemma escape_app a b : escape (a ++ b) = escape a ++ escape b.
Proof. apply flat_map_app. Qed.

Lemma read_string_esc1 c t : is_scalar c = true ->
  read_string (esc1 c ++ t) = cons_opt c (read_string t).
Proof.
  intro Hs. unfold esc1.
  (* the seven two-character escapes read back by computation *)
  repeat match goal with |- context [if c =? ?k then _ else _] =>
    destruct (N.eqb_spec c k) as [->|]; [reflexivity|] end.
  destruct (N.ltb_spec c 32) as [L|L].
  - change (read_string ([92; 117; 48; 48; hexdigit (c / 16); hexdigit (c mod 16)] ++ t))
      with (match unhex (hexdigit (c / 16)), unhex (hexdigit (c mod 16)) with
            | Some c', Some d =>
              let u := ((0 * 16 + 0) * 16 + c') * 16 + d in
              if is_scalar u then cons_opt u (read_string t) else None
            | _, _ => None
            end).
    generalize (div_mod_pos c 16). generalize (c / 16), (c mod 16). intros q d [E B].
    rewrite !unhex_hexdigit by lia. cbv zeta.
    replace (((0 * 16 + 0) * 16 + q) * 16 + d) with c by lia.
    rewrite Hs. reflexivity.
  - cbn [app read_string].
    destruct (N.eqb_spec c 34); [contradiction|]. destruct (N.eqb_spec c 92); [contradiction|].
    destruct (N.ltb_spec c 32); [lia | reflexivity].
Qed.

Lemma read_string_escape s rest : valid s ->
  read_string (escape s ++ 34 :: rest) = Some (s, rest).
Proof.
  induction 1 as [|c s Hc _ IH]; [reflexivity|].
  rewrite escape_cons, <- app_assoc, read_string_esc1 by exact Hc. rewrite IH. reflexivity.
Qed.

Lemma read_jstring_json_string s rest : valid s ->
  read_jstring (json_string s ++ rest) = Some (s, rest).
Proof.
  intro H. unfold json_string. cbn [app read_jstring]. rewrite <- app_assoc. apply read_string_escape. exact H.
Qed.

Lemma digits_aux_app f : forall n acc t, digits_aux f n acc ++ t = digits_aux f n (acc ++ t).
Proof.
  induction f as [|f IH]; intros n acc t; cbn [digits_aux]; [reflexivity|].
  destruct (n / 10 =? 0); [reflexivity | apply IH].
Qed.

Lemma is_digit_low d : d < 10 -> is_digit (48 + d) = true.
Proof. intro H. apply andb_true_iff. split; apply N.leb_le; lia. Qed.

(* digits_aux writes the last digit first, read_digits reads the first digit first: with accumulator 0 on the
   reading side the induction on the fuel goes through, the text already written being the rest that is read on *)
Lemma read_nat_digits_aux f : forall n t, 0 < n < 10 ^ N.of_nat f ->
  read_nat (digits_aux f n t) = Some (read_digits n t).
Proof.
  induction f as [|f IH]; intros n t H; [cbn in H; lia|].
  rewrite Nat2N.inj_succ, N.pow_succ_r' in H. cbn [digits_aux].
  generalize (div_mod_pos n 10), (IH (n / 10)). generalize (n / 10), (n mod 10). intros q d [E B] IHq.
  destruct (N.eqb_spec q 0) as [Q|Q].
  - cbn [read_nat read_digits]. rewrite (is_digit_low d B).
    destruct (N.eqb_spec (48 + d) 48); [lia|]. cbn [andb]. do 2 f_equal. lia.
  - rewrite IHq by lia. cbn [read_digits]. rewrite (is_digit_low d B). do 2 f_equal. lia.
Qed.

(* str(p) reads back as p, for every p within the fuel of digits *)
Lemma read_nat_digits p c r : p < 10 ^ 40 -> is_digit c = false ->
  read_nat (digits p ++ c :: r) = Some (p, c :: r).
Proof.
  intros Hp Hc. destruct (N.eq_dec p 0) as [->|N0].
  - cbn. rewrite Hc. reflexivity.
  - unfold digits. rewrite digits_aux_app, read_nat_digits_aux by (split; [lia | exact Hp]).
    cbn [app read_digits]. rewrite Hc. reflexivity.
Qed.

Lemma digits_aux_length f : forall k n acc, n < 10 ^ N.of_nat (S k) ->
  (List.length (digits_aux f n acc) <= S k + List.length acc)%nat.
Proof.
  induction f as [|f IH]; intros k n acc H; cbn [digits_aux]; [lia|].
  generalize (div_mod_pos n 10). generalize (n / 10), (n mod 10). intros q d [E B].
  destruct (N.eqb_spec q 0) as [Q|Q]; [cbn [List.length]; lia|].
  rewrite Nat2N.inj_succ, N.pow_succ_r' in H.
  destruct k as [|k]; [cbn in H; lia|]. rewrite IH with (k := k) by lia. cbn [List.length]. lia.
Qed.

Lemma digits_length k p : p < 10 ^ N.of_nat (S k) -> (List.length (digits p) <= S k)%nat.
Proof. intro H. unfold digits. rewrite digits_aux_length by exact H. cbn [List.length]. lia. Qed.

Lemma digits_aux_ascii f : forall n acc, is_ascii acc -> is_ascii (digits_aux f n acc).
Proof.
  induction f as [|f IH]; intros n acc H; cbn [digits_aux]; [exact H|].
  assert (is_ascii ((48 + n mod 10) :: acc)) as H'
    by (constructor; [pose proof (proj2 (div_mod_pos n 10)); lia | exact H]).
  destruct (n / 10 =? 0); [exact H' | apply IH, H'].
Qed.

Lemma digits_ascii p : is_ascii (digits p).
Proof. apply digits_aux_ascii. constructor. Qed.

Theorem read_msg_msg_text port eid fw desc : port < 10 ^ 40 -> valid eid -> valid fw -> valid desc ->
  read_msg (msg_text port eid fw desc) = Some (port, eid, fw, desc).
Proof.
  intros Hp He Hf Hd. unfold read_msg, msg_text, msg_head.
  repeat rewrite <- app_assoc.
  rewrite expect_app.
  change (s2l ",""equipment_id"":") with (44 :: s2l """equipment_id"":").
  cbn [app]. rewrite read_nat_digits by (exact Hp || reflexivity).
  change (44 :: s2l """equipment_id"":" ++ ?x) with (s2l ",""equipment_id"":" ++ x).
  rewrite expect_app.
  rewrite read_jstring_json_string by exact He.
  rewrite expect_app.
  rewrite read_jstring_json_string by exact Hf.
  rewrite expect_app.
  rewrite read_jstring_json_string by exact Hd.
  reflexivity.
Qed.
