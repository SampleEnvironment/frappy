(* Binary64 facts shared by the datatype proofs.  Finite floats as real numbers (key = B2R, comparisons, signs);
   rounding to nearest even as a function rnd on R, its error bound, and + - * / on finite operands as the rounding
   of the exact result while that stays below 2^1024; x + 0.0, x - y = x + (-y), adding a non-negative number;
   round(x), integral floats and the exact int/float comparison; literals m * 2^e and sys.float_info.max.
   Nothing here is specific to frappy. *)
From Coq Require Import ZArith Bool Reals Lra Lia.
From Flocq Require Import Core.Zaux Core.Raux Core.Defs Core.Generic_fmt Core.Float_prop Core.FIX Core.FLT Core.Round_NE
  Relative IEEE754.BinarySingleNaN.
Require Import FV.Base.F64 FV.Base.F64Lemmas.

Local Open Scope R_scope.

Lemma finite_notnan (x : f64) : is_finite x = true -> notnan x.
Proof. destruct x; try discriminate; reflexivity. Qed.
Lemma key_finite (x : f64) : is_finite x = true -> key x = B2R x.
Proof. destruct x; try discriminate; reflexivity. Qed.
Lemma finite_of_key (x : f64) : notnan x -> - BIG < key x < BIG -> is_finite x = true.
Proof. intros Hn H. destruct x as [s|[|]| |s m e B]; try discriminate; try reflexivity; cbn [key] in H; lra. Qed.

Lemma keys_of_fle (a b : f64) : fle a b = true -> notnan a /\ notnan b /\ key a <= key b.
Proof.
  intros H. destruct (fle_true_notnan _ _ H) as [Na Nb]. split; [exact Na|]. split; [exact Nb|].
  apply fle_true in H; assumption.
Qed.

(* comparisons of finite floats are comparisons of their numbers *)
Lemma fle_finite (a b : f64) : is_finite a = true -> is_finite b = true -> (fle a b = true <-> B2R a <= B2R b).
Proof. intros Fa Fb. rewrite <- (key_finite a Fa), <- (key_finite b Fb). apply fle_true; apply finite_notnan; assumption. Qed.
Lemma flt_finite (a b : f64) : is_finite a = true -> is_finite b = true -> (flt a b = true <-> B2R a < B2R b).
Proof. intros Fa Fb. rewrite <- (key_finite a Fa), <- (key_finite b Fb). apply flt_true; apply finite_notnan; assumption. Qed.

Lemma finite_between (lo x hi : f64) : is_finite lo = true -> is_finite hi = true -> fle lo x = true -> fle x hi = true ->
  is_finite x = true.
Proof.
  intros Fl Fh A B. apply keys_of_fle in A as (_ & Nx & A). apply keys_of_fle in B as (_ & _ & B).
  pose proof (finite_key_bound _ Fl). pose proof (finite_key_bound _ Fh). apply finite_of_key; [exact Nx|lra].
Qed.

Lemma sign_nonpos (x : f64) : is_finite x = true -> Bsign x = true -> B2R x <= 0.
Proof.
  destruct x as [s|s| |s m e B]; cbn; intros F S; try discriminate; try lra. subst s.
  apply F2R_le_0. cbn. lia.
Qed.
Lemma sign_nonneg (x : f64) : is_finite x = true -> Bsign x = false -> 0 <= B2R x.
Proof.
  destruct x as [s|s| |s m e B]; cbn; intros F S; try discriminate; try lra. subst s.
  apply F2R_ge_0. cbn. lia.
Qed.

(* what Flocq's correctness statements say of an operation that overflows *)
Lemma inf_of_SF (z : f64) s : B2SF z = SpecFloat.S754_infinity s -> z = B754_infinity s.
Proof. destruct z; cbn; intros H; try discriminate. injection H as ->. reflexivity. Qed.

(* rounding to nearest, ties to even, as a function on R *)
Definition rnd (x : R) : R := round radix2 (SpecFloat.fexp prec emax) (round_mode mode_NE) x.

#[local] Instance valid_fexp64 : Valid_exp (SpecFloat.fexp prec emax) := fexp_correct prec emax prec_gt_0_64.

Lemma rnd_le x y : x <= y -> rnd x <= rnd y.
Proof. intros H. unfold rnd. apply round_le; auto with typeclass_instances. Qed.
Lemma rnd_B2R (x : f64) : rnd (B2R x) = B2R x.
Proof. unfold rnd. apply round_generic; [auto with typeclass_instances|apply generic_format_B2R]. Qed.
Lemma rnd_0 : rnd 0 = 0.
Proof. unfold rnd. apply round_0. auto with typeclass_instances. Qed.

(* Flocq states each operation as: if the rounded exact result is below 2^1024 the operation returns it, with a
   finiteness flag F, else it overflows.  The first branch, in the vocabulary used here *)
Lemma no_overflow (z : f64) r (F : bool) (S O : Prop) :
  (if Rlt_bool (Rabs (rnd r)) (bpow radix2 emax) then B2R z = rnd r /\ is_finite z = F /\ S else O) ->
  Rabs (rnd r) < bpow radix2 emax -> is_finite z = F /\ B2R z = rnd r.
Proof. intros H Hb. rewrite Rlt_bool_true in H by exact Hb. tauto. Qed.

Lemma fadd_val (a b : f64) : is_finite a = true -> is_finite b = true ->
  Rabs (rnd (B2R a + B2R b)) < bpow radix2 emax ->
  is_finite (fadd a b) = true /\ B2R (fadd a b) = rnd (B2R a + B2R b).
Proof. intros Fa Fb. exact (no_overflow _ _ _ _ _ (Bplus_correct prec emax _ _ mode_NE a b Fa Fb)). Qed.
Lemma fsub_val (a b : f64) : is_finite a = true -> is_finite b = true ->
  Rabs (rnd (B2R a - B2R b)) < bpow radix2 emax ->
  is_finite (fsub a b) = true /\ B2R (fsub a b) = rnd (B2R a - B2R b).
Proof. intros Fa Fb. exact (no_overflow _ _ _ _ _ (Bminus_correct prec emax _ _ mode_NE a b Fa Fb)). Qed.
Lemma fmul_val (a b : f64) : is_finite a = true -> is_finite b = true ->
  Rabs (rnd (B2R a * B2R b)) < bpow radix2 emax ->
  is_finite (fmul a b) = true /\ B2R (fmul a b) = rnd (B2R a * B2R b).
Proof.
  intros Fa Fb Hb. destruct (no_overflow _ _ _ _ _ (Bmult_correct prec emax _ _ mode_NE a b) Hb) as [F B].
  rewrite Fa, Fb in F. split; [exact F|exact B].
Qed.
Lemma fdiv_val (a b : f64) : is_finite a = true -> B2R b <> 0 ->
  Rabs (rnd (B2R a / B2R b)) < bpow radix2 emax ->
  is_finite (fdiv a b) = true /\ B2R (fdiv a b) = rnd (B2R a / B2R b).
Proof.
  intros Fa Hb Hlt. destruct (no_overflow _ _ _ _ _ (Bdiv_correct prec emax _ _ mode_NE a b Hb) Hlt) as [F B].
  rewrite Fa in F. split; [exact F|exact B].
Qed.

(* the error of one rounding: at most 2^-53 relative plus 2^-1075 absolute *)
Lemma rnd_error (x : R) : Rabs (rnd x - x) <= bpow radix2 (-53) * Rabs x + bpow radix2 (-1075).
Proof.
  destruct (error_N_FLT radix2 (3 - emax - prec) prec prec_gt_0_64 (fun z => negb (Z.even z)) x)
    as (eps & et & He & Ht & _ & Hr).
  change (rnd x) with (round radix2 (FLT_exp (3 - emax - prec) prec) (Znearest (fun z => negb (Z.even z))) x).
  rewrite Hr. replace (x * (1 + eps) + et - x) with (eps * x + et) by ring.
  change (/ 2) with (bpow radix2 (-1)) in He, Ht. rewrite <- bpow_plus in He, Ht.
  eapply Rle_trans; [apply Rabs_triang|]. rewrite Rabs_mult.
  apply Rplus_le_compat; [apply Rmult_le_compat_r; [apply Rabs_pos|exact He]|exact Ht].
Qed.

(* x + 0.0 of a finite number is that number (as a number: -0.0 becomes 0.0) *)
Lemma fadd_zero (x : f64) : is_finite x = true -> is_finite (fadd x fzero) = true /\ B2R (fadd x fzero) = B2R x.
Proof. destruct x as [[]|[]| |s m e B]; try discriminate; intros _; split; reflexivity. Qed.

Lemma fsub_fadd (x y : f64) : fsub x y = fadd x (fopp y).
Proof. destruct x, y; reflexivity. Qed.
Lemma key_fopp (p : f64) : key (fopp p) = - key p.
Proof.
  destruct p as [s|[|]| |s m e B]; cbn [fopp Bopp key negb]; try lra; [cbn; lra..|].
  apply (B2R_Bopp _ _ (B754_finite s m e B)).
Qed.

(* a finite a plus a number p: either no overflow, or an infinity whose sign is that of p, and p is not zero *)
Lemma fadd_cases (a p : f64) : is_finite a = true -> notnan p ->
  (is_finite p = true /\ is_finite (fadd a p) = true /\ B2R (fadd a p) = rnd (B2R a + B2R p)) \/
  (exists s, fadd a p = B754_infinity s /\ if s then key p < 0 else 0 < key p).
Proof.
  intros Fa Np. pose proof BIG_pos as Bp. destruct (is_finite p) eqn:Fp.
  - pose proof (Bplus_correct prec emax _ _ mode_NE a p Fa Fp) as H. fold (rnd (B2R a + B2R p)) in H.
    revert H. case Rlt_bool_spec; intros Hb H.
    + left. unfold fadd. tauto.
    + right. destruct H as [H1 H2]. exists (Bsign p). rewrite H2 in H1. split; [exact (inf_of_SF _ _ H1)|].
      destruct p as [s|s| |s m e B]; try discriminate.
      * exfalso. cbn [B2R] in Hb. rewrite Rplus_0_r, rnd_B2R in Hb. pose proof (abs_B2R_lt_emax prec emax a). lra.
      * destruct s; [apply F2R_lt_0|apply F2R_gt_0]; cbn; lia.
  - right. destruct p as [s|s| |s m e B]; try discriminate. exists s.
    split; [destruct a; try discriminate; reflexivity|]. destruct s; [change (- BIG < 0)|change (0 < BIG)]; lra.
Qed.

(* a <= a + p and a - p <= a for a finite a and a number p >= 0 (possibly +inf), also when the result overflows *)
Lemma fadd_ge_self (a p : f64) : is_finite a = true -> notnan p -> 0 <= key p ->
  notnan (fadd a p) /\ key a <= key (fadd a p).
Proof.
  intros Fa Np Hp. destruct (fadd_cases a p Fa Np) as [(Fp & F & B)|(s & E & Hs)].
  - split; [exact (finite_notnan _ F)|]. rewrite (key_finite _ F), (key_finite _ Fa), B.
    rewrite <- (rnd_B2R a) at 1. apply rnd_le. rewrite (key_finite _ Fp) in Hp. lra.
  - rewrite E. destruct s; [lra|]. split; [reflexivity|]. apply Rlt_le, finite_key_bound, Fa.
Qed.

Lemma fsub_le_self (a p : f64) : is_finite a = true -> notnan p -> 0 <= key p ->
  notnan (fsub a p) /\ key (fsub a p) <= key a.
Proof.
  intros Fa Np Hp. rewrite fsub_fadd. assert (No : notnan (fopp p)) by (destruct p; try discriminate; reflexivity).
  pose proof (key_fopp p) as Ko.
  destruct (fadd_cases a (fopp p) Fa No) as [(Fp & F & B)|(s & E & Hs)].
  - split; [exact (finite_notnan _ F)|]. rewrite (key_finite _ F), (key_finite _ Fa), B.
    rewrite <- (rnd_B2R a) at 2. apply rnd_le. rewrite (key_finite _ Fp) in Ko. lra.
  - rewrite E. destruct s; [|lra]. split; [reflexivity|]. apply Rlt_le, finite_key_bound, Fa.
Qed.

(* round(x) is the nearest integer, ties to even *)
Lemma fround_nearest (y : f64) : fround y = ZnearestE (B2R y).
Proof.
  unfold fround. apply eq_IZR. rewrite Btrunc_correct.
  destruct (Bnearbyint_correct prec emax prec_lt_emax_64 mode_NE y) as (H & _). rewrite H.
  rewrite !round_FIX_IZR. rewrite (Zrnd_IZR Ztrunc). reflexivity. exact prec_lt_emax_64.
Qed.

Lemma fround_integral (y : f64) n : B2R y = IZR n -> fround y = n.
Proof. intros Hy. rewrite fround_nearest, Hy. apply (Zrnd_IZR ZnearestE). Qed.

(* the exact comparison of an int with a finite float compares the numbers *)
Lemma cmp_Z_f_spec (z : Z) (a : f64) : is_finite a = true -> cmp_Z_f z a = Some (Rcompare (IZR z) (B2R a)).
Proof.
  destruct a as [s|s| |s m e B]; try discriminate; intros _; cbn [cmp_Z_f B2R].
  - rewrite (Rcompare_IZR z 0). reflexivity.
  - f_equal. unfold F2R. cbn [Fnum Fexp]. set (mz := cond_Zopp s (Z.pos m)).
    destruct (0 <=? e)%Z eqn:E.
    + apply Z.leb_le in E. rewrite <- IZR_Zpower by exact E. rewrite <- mult_IZR.
      rewrite Rcompare_IZR. reflexivity.
    + apply Z.leb_gt in E.
      rewrite <- (Rcompare_mult_r (bpow radix2 (- e))) by apply bpow_gt_0.
      rewrite Rmult_assoc, <- bpow_plus. replace (e + - e)%Z with 0%Z by lia. cbn [bpow]. rewrite Rmult_1_r.
      rewrite <- IZR_Zpower by lia. rewrite <- mult_IZR. rewrite Rcompare_IZR. reflexivity.
Qed.

Lemma cmp_Z_f_integral (y : f64) n : is_finite y = true -> B2R y = IZR n -> cmp_Z_f n y = Some Eq.
Proof. intros Fy Hy. rewrite (cmp_Z_f_spec _ _ Fy), Hy, Rcompare_Eq; reflexivity. Qed.

(* an int converted to float is integral *)
Lemma rnd_int_is_int z : exists n, rnd (IZR z) = IZR n.
Proof.
  assert (E : F2R (Float radix2 z 0) = IZR z) by (unfold F2R; cbn; lra).
  destruct (Z_lt_le_dec (cexp radix2 (SpecFloat.fexp prec emax) (IZR z)) 0) as [Hc|Hc].
  - exists z. apply round_generic; [auto with typeclass_instances|].
    rewrite <- E. apply generic_format_F2R. intros _. rewrite E. cbn [Fexp]. lia.
  - exists (round_mode mode_NE (scaled_mantissa radix2 (SpecFloat.fexp prec emax) (IZR z)) * 2 ^ cexp radix2 (SpecFloat.fexp prec emax) (IZR z))%Z.
    unfold rnd, round, F2R. cbn [Fnum Fexp]. rewrite mult_IZR. f_equal.
    symmetry. apply (IZR_Zpower radix2). exact Hc.
Qed.

Lemma of_Z_integral z : is_finite (of_Z z) = true -> exists n, B2R (of_Z z) = IZR n.
Proof.
  intros Hf. pose proof (binary_normalize_correct prec emax _ _ mode_NE z 0 false) as H. cbv zeta in H.
  replace (F2R (Float radix2 z 0)) with (IZR z) in H by (unfold F2R; cbn; lra).
  destruct (Rlt_bool _ _).
  - destruct H as (H & _). unfold of_Z, fmk. rewrite H. apply rnd_int_is_int.
  - apply inf_of_SF in H. unfold of_Z, fmk in Hf. rewrite H in Hf. discriminate.
Qed.

(* a literal m * 2^e that needs no rounding *)
Lemma fmk_exact m e : (Z.abs m < 2 ^ prec)%Z -> (3 - emax - prec <= e)%Z -> (e <= emax - prec)%Z ->
  is_finite (fmk m e) = true /\ B2R (fmk m e) = F2R (Float radix2 m e).
Proof.
  intros Hm He1 He2. pose proof (binary_normalize_correct prec emax _ _ mode_NE m e false) as H. cbv zeta in H.
  assert (G : generic_format radix2 (SpecFloat.fexp prec emax) (F2R (Float radix2 m e))).
  { apply generic_format_FLT. exists (Float radix2 m e); [reflexivity|exact Hm|exact He1]. }
  rewrite round_generic in H by (auto with typeclass_instances).
  rewrite Rlt_bool_true in H; [split; apply H|].
  apply F2R_lt_bpow. cbn [Fnum Fexp]. apply Z.lt_le_trans with (2 ^ prec)%Z; [exact Hm|].
  change (radix2 ^ (emax - e))%Z with (2 ^ (emax - e))%Z. apply Z.pow_le_mono_r; unfold prec, emax in *; lia.
Qed.

Lemma B2R_fmk_exact m e : (Z.abs m < 2 ^ prec)%Z -> (3 - emax - prec <= e)%Z -> (e <= emax - prec)%Z ->
  B2R (fmk m e) = F2R (Float radix2 m e).
Proof. apply fmk_exact. Qed.

Lemma B2R_fmaxval : B2R fmaxval = bpow radix2 emax - bpow radix2 (emax - prec).
Proof.
  unfold fmaxval. rewrite B2R_fmk_exact by (unfold prec, emax; lia).
  unfold F2R. cbn [Fnum Fexp]. change emax with (prec + 971)%Z. rewrite bpow_plus.
  change (prec + 971 - prec)%Z with 971%Z. change (bpow radix2 prec) with 9007199254740992. ring.
Qed.
