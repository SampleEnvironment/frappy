(* Order facts about binary64 used by the datatype proofs: non-NaN floats embed monotonically into R
   (infinities to +-2^1024), so the boolean comparisons are a total preorder there and the median-of-three
   (frappy.lib.clamp) lies between its bounds.  Before that: fsame is equality. *)
From Coq Require Import ZArith Bool Reals Lra Lia Eqdep_dec.
From Flocq Require Import Core.Zaux Core.Raux Core.Defs Core.FLT IEEE754.BinarySingleNaN.
Require Import FV.Base.F64.

Lemma fsame_refl (a : f64) : fsame a a = true.
Proof.
  destruct a as [[]|[]| |[] m e B]; cbn; try reflexivity;
    rewrite Pos.eqb_refl, Z.eqb_refl; reflexivity.
Qed.

(* two finite floats with the same sign, mantissa and exponent are equal: the proof field is an equation between
   booleans, and those have one proof *)
Lemma fsame_eq (a b : f64) : fsame a b = true -> a = b.
Proof.
  destruct a as [s|s| |s m e B], b as [s'|s'| |s' m' e' B']; cbn; try discriminate; intros H.
  - apply eqb_prop in H. subst. reflexivity.
  - apply eqb_prop in H. subst. reflexivity.
  - reflexivity.
  - apply andb_prop in H. destruct H as [H He]. apply andb_prop in H. destruct H as [Hs Hm].
    apply eqb_prop in Hs. apply Pos.eqb_eq in Hm. apply Z.eqb_eq in He. subst.
    f_equal. apply UIP_dec, bool_dec.
Qed.

Local Open Scope R_scope.

Definition BIG : R := bpow radix2 emax.
Definition key (x : f64) : R :=
  match x with
  | B754_infinity true => - BIG
  | B754_infinity false => BIG
  | _ => B2R x
  end.
Definition notnan (x : f64) : Prop := fis_nan x = false.

Lemma finite_key_bound (x : f64) : is_finite x = true -> - BIG < key x < BIG.
Proof.
  intros Hf. assert (H := abs_B2R_lt_emax prec emax x).
  destruct x as [s|s| |s m e B]; try discriminate; cbn [key]; unfold BIG;
    apply Rabs_def2 in H; lra.
Qed.

Lemma BIG_pos : 0 < BIG. Proof. apply bpow_gt_0. Qed.

#[local] Opaque BIG.

Lemma compare_key (a b : f64) : notnan a -> notnan b ->
  Bcompare a b = Some (Rcompare (key a) (key b)).
Proof.
  intros Ha Hb. pose proof BIG_pos as HB.
  destruct (is_finite a) eqn:Fa, (is_finite b) eqn:Fb.
  - rewrite (Bcompare_correct prec emax a b Fa Fb).
    destruct a as [s|s| |s m e B]; try discriminate; destruct b as [s'|s'| |s' m' e' B']; try discriminate; reflexivity.
  - pose proof (finite_key_bound a Fa) as Ka.
    destruct b as [s'|[|]| |s' m' e' B']; try discriminate.
    + destruct a as [s|s| |s m e B]; try discriminate; cbn [key] in *; cbn in *;
        symmetry; apply f_equal, Rcompare_Gt; lra.
    + destruct a as [s|s| |s m e B]; try discriminate; cbn [key] in *; cbn in *;
        symmetry; apply f_equal, Rcompare_Lt; lra.
  - pose proof (finite_key_bound b Fb) as Kb.
    destruct a as [s|[|]| |s m e B]; try discriminate.
    + destruct b as [s'|s'| |s' m' e' B']; try discriminate; cbn [key] in *; cbn in *;
        symmetry; apply f_equal, Rcompare_Lt; lra.
    + destruct b as [s'|s'| |s' m' e' B']; try discriminate; cbn [key] in *; cbn in *;
        symmetry; apply f_equal, Rcompare_Gt; lra.
  - destruct a as [s|[|]| |s m e B]; try discriminate; destruct b as [s'|[|]| |s' m' e' B']; try discriminate;
      cbn; symmetry; apply f_equal.
    + apply Rcompare_Eq; reflexivity.
    + apply Rcompare_Lt; lra.
    + apply Rcompare_Gt; lra.
    + apply Rcompare_Eq; reflexivity.
Qed.

Lemma fle_key (a b : f64) : notnan a -> notnan b -> fle a b = Rle_bool (key a) (key b).
Proof.
  intros Ha Hb. unfold fle, Bleb, SpecFloat.SFleb. fold (Bcompare a b). rewrite (compare_key a b Ha Hb).
  case Rcompare_spec; intro H; case Rle_bool_spec; intro H'; try reflexivity; lra.
Qed.

Lemma flt_key (a b : f64) : notnan a -> notnan b -> flt a b = Rlt_bool (key a) (key b).
Proof.
  intros Ha Hb. unfold flt, Bltb, SpecFloat.SFltb. fold (Bcompare a b). rewrite (compare_key a b Ha Hb).
  case Rcompare_spec; intro H; case Rlt_bool_spec; intro H'; try reflexivity; lra.
Qed.

Lemma fle_true (a b : f64) : notnan a -> notnan b -> (fle a b = true <-> key a <= key b).
Proof. intros Ha Hb. rewrite (fle_key a b Ha Hb). case Rle_bool_spec; intro H; split; intros; try lra; discriminate. Qed.

Lemma flt_true (a b : f64) : notnan a -> notnan b -> (flt a b = true <-> key a < key b).
Proof. intros Ha Hb. rewrite (flt_key a b Ha Hb). case Rlt_bool_spec; intro H; split; intros; try lra; discriminate. Qed.

Lemma flt_false (a b : f64) : notnan a -> notnan b -> (flt a b = false <-> key b <= key a).
Proof. intros Ha Hb. rewrite (flt_key a b Ha Hb). case Rlt_bool_spec; intro H; split; intros; try lra; discriminate. Qed.

(* a comparison that succeeds proves both operands are numbers *)
Lemma fle_true_notnan (a b : f64) : fle a b = true -> notnan a /\ notnan b.
Proof. destruct a as [s|s| |s m e B], b as [s'|s'| |s' m' e' B']; cbn; intros; try discriminate; split; reflexivity. Qed.
Lemma flt_true_notnan (a b : f64) : flt a b = true -> notnan a /\ notnan b.
Proof. destruct a as [s|s| |s m e B], b as [s'|s'| |s' m' e' B']; cbn; intros; try discriminate; split; reflexivity. Qed.

Lemma fle_refl (a : f64) : notnan a -> fle a a = true.
Proof. intros Ha. apply fle_true; auto. lra. Qed.
Lemma fle_trans (a b c : f64) : fle a b = true -> fle b c = true -> fle a c = true.
Proof.
  intros H1 H2. destruct (fle_true_notnan _ _ H1) as [Ha Hb]. destruct (fle_true_notnan _ _ H2) as [_ Hc].
  apply fle_true in H1; auto. apply fle_true in H2; auto. apply fle_true; auto. lra.
Qed.

(* the median of three is one of them *)
Lemma clamp3_one_of {A} (lt : A -> A -> bool) lo v hi :
  clamp3 lt lo v hi = lo \/ clamp3 lt lo v hi = v \/ clamp3 lt lo v hi = hi.
Proof.
  unfold clamp3, sort3.
  destruct (lt v lo), (lt hi v), (lt hi lo); cbn; auto.
Qed.

Ltac cmp_to_R :=
  repeat match goal with
  | H : flt ?a ?b = true |- _ => apply flt_true in H; [|assumption|assumption]
  | H : flt ?a ?b = false |- _ => apply flt_false in H; [|assumption|assumption]
  | H : fle ?a ?b = true |- _ => apply fle_true in H; [|assumption|assumption]
  end.

Theorem fclamp_between (lo v hi : f64) :
  notnan lo -> notnan v -> notnan hi -> fle lo hi = true ->
  fle lo (fclamp lo v hi) = true /\ fle (fclamp lo v hi) hi = true /\
  (fle lo v = true -> fle v hi = true -> fclamp lo v hi = v).
Proof.
  intros Hlo Hv Hhi Hle.
  unfold fclamp, clamp3, sort3.
  destruct (flt v lo) eqn:E1; destruct (flt hi v) eqn:E2; destruct (flt hi lo) eqn:E3; cmp_to_R; cbn;
    (split; [|split]);
    first [ apply fle_true; [assumption|assumption|lra]
          | intros A B; cmp_to_R; first [reflexivity | exfalso; lra] ].
Qed.

Lemma fclamp_notnan (lo v hi : f64) : notnan lo -> notnan v -> notnan hi -> notnan (fclamp lo v hi).
Proof. intros. unfold fclamp. destruct (clamp3_one_of flt lo v hi) as [E|[E|E]]; rewrite E; assumption. Qed.
