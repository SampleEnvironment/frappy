(* C14 - vacuity audit: every property theorem with premises is applied at a concrete, non-trivial instance
   (worlds of the shape Run.mk_world / Run.hworld build: association tables with defaults, w_guard constant). *)
From Coq Require Import List Arith ZArith Bool Lia.
Import ListNotations.
Require Import FV.Base.Util FV.Gen.C14 FV.C14.Model FV.C14.Lemmas FV.C14.HasStates FV.C14.HasStatesLemmas FV.C14.Conc
  FV.C14.ConcLemmas FV.C14.Properties.

Definition nvW : world :=
  {| w_s := fun _ => BRetry; w_c := fun _ => CNext 7; w_env := fun _ => None; w_guard := fun _ => false |}.
Lemma nvW_quiet : quiet nvW.
Proof. intro n. reflexivity. Qed.

(* (a) pending start taken at once: the machine runs state 1 with a cleanup installed, a restart is posted between the
   cycles; the round interrupts, the cleanup sequence is entered (go = false: the start stays pending) *)
Definition nv_opsA : list op := [OPost (TStart 0 1 (Some 5) [(0, 4%Z)]); OCycle; OPost (TStart 2 2 None [(0, 9%Z); (1, 3%Z)])].
Example C14_last_start_wins_applies_deferred :
  let s := run nvW maxloops outer_rounds nv_opsA in
  let r := round nvW maxloops s in
  statefunc s = Some 1 /\ snd r = false /\
  next_task (fst r) = Some (TStart 2 2 None [(0, 9%Z); (1, 3%Z)]) /\ statefunc (fst r) <> None /\
  cleanup_reason (fst r) <> None.
Proof.
  intros s r.
  pose proof (C14_last_start_wins nvW nv_opsA 2 2 None [(0, 9%Z); (1, 3%Z)] nvW_quiet eq_refl) as H.
  cbv zeta in H. fold s in H. fold r in H.
  assert (G : snd r = false) by (vm_compute; reflexivity).
  split; [reflexivity|]. split; [exact G|].
  destruct r as [s' go]. simpl in G. subst go. exact H.
Qed.
(* (b) from an idle machine with old attributes: go = true, attributes updated exactly *)
Definition nvW2 : world :=
  {| w_s := fun n => if Nat.ltb n 4 then BFinish else BRetry; w_c := fun _ => CNone; w_env := fun _ => None;
     w_guard := fun _ => false |}.
Definition nv_opsB : list op :=
  [OPost (TStart 0 1 None [(0, 4%Z); (2, 1%Z)]); OCycle; OPost (TStop 1); OPost (TStart 2 2 (Some 6) [(0, 9%Z); (1, 3%Z)])].
Example C14_last_start_wins_applies_taken :
  let s := run nvW2 maxloops outer_rounds nv_opsB in
  let r := round nvW2 maxloops s in
  statefunc s = None /\ attrs s = [(0, 4%Z); (2, 1%Z)] /\ snd r = true /\
  statefunc (fst r) = Some 2 /\ init (fst r) = true /\ next_task (fst r) = None /\ cleanup (fst r) = Some (2, 6) /\
  attrs (fst r) = [(0, 9%Z); (2, 1%Z); (1, 3%Z)].
Proof.
  intros s r.
  pose proof (C14_last_start_wins nvW2 nv_opsB 2 2 (Some 6) [(0, 9%Z); (1, 3%Z)] (fun n => eq_refl) eq_refl) as H.
  cbv zeta in H. fold s in H. fold r in H.
  assert (G : snd r = true) by (vm_compute; reflexivity).
  split; [reflexivity|]. split; [reflexivity|]. split; [exact G|].
  destruct r as [s' go]. simpl in G. subst go. destruct H as [H1 [H2 [H3 [_ [H5 H6]]]]].
  simpl fst. repeat split; try assumption; try (rewrite H6; reflexivity).
Qed.

Example C14_stop_inactive_applies :
  let s := run nvW maxloops outer_rounds [OPost (TStart 0 1 None [(0, 4%Z)]); OCycle; OCycle; OPost (TStop 3)] in
  let r := round nvW maxloops s in
  statefunc s = Some 1 /\ snd r = true /\ statefunc (fst r) = None /\ next_task (fst r) = None /\ attrs (fst r) = attrs s.
Proof.
  intros s r.
  pose proof (C14_stop_inactive nvW [OPost (TStart 0 1 None [(0, 4%Z)]); OCycle; OCycle; OPost (TStop 3)] 3
                nvW_quiet eq_refl) as H.
  cbv zeta in H. fold s in H. fold r in H.
  assert (G : snd r = true) by (vm_compute; reflexivity).
  split; [reflexivity|]. split; [exact G|].
  destruct r as [s' go]. simpl in G. subst go. destruct H as [H1 [H2 [_ H4]]]. repeat split; assumption.
Qed.

Example C14_attrs_applies :
  lookup 1 (upd_all ([(1, 5%Z); (2, 6%Z)] ++ (1, 7%Z) :: [(3, 8%Z)]) [(1, 0%Z); (4, 2%Z)]) = Some 7%Z /\
  lookup 4 (upd_all [(1, 5%Z); (2, 6%Z)] [(1, 0%Z); (4, 2%Z)]) = lookup 4 [(1, 0%Z); (4, 2%Z)].
Proof.
  split.
  - apply C14_attrs_exact. simpl. intros [H|[]]; discriminate.
  - apply C14_attrs_frame. simpl. intros [H|[H|[]]]; discriminate.
Qed.

Definition nv_sched : list clabel :=
  post_steps tA ++ [LCycle; LCycle; LPost tB; LPost tB; LPost tB; LCycle; LCycle; LCycle; LPost tB; LPost tB; LPost tB].
Example C14_no_request_lost_explicit_applies :
  let c := crun pickup_reads_under_lock nv_sched in
  c_posted c = [tB; tA] /\
  (In tA (c_picked c) \/ c_nt c = Some tA \/ [tB] <> []) /\ (In tB (c_picked c) \/ c_nt c = Some tB \/ @nil task <> []).
Proof.
  intro c. split; [reflexivity|]. split.
  - apply (C14_no_request_lost_explicit nv_sched [tB] tA []). reflexivity.
  - apply (C14_no_request_lost_explicit nv_sched [] tB [tA]). reflexivity.
Qed.
Example C14_picked_were_posted_applies : In tA (c_posted (crun pickup_reads_under_lock nv_sched)).
Proof. apply C14_picked_requests_were_posted. vm_compute. left; reflexivity. Qed.
Example C14_pending_newest_applies : exists l, c_posted (crun pickup_reads_under_lock nv_sched) = tB :: l.
Proof. apply C14_pending_request_is_newest. reflexivity. Qed.

(* the hook at the acquisition of the lock posts a stop while a start is pending *)
Definition nvW3 : world :=
  {| w_s := fun _ => BRetry; w_c := fun _ => CNone; w_env := fun n => if Nat.eqb n 0 then Some tB else None;
     w_guard := fun _ => false |}.
Example C14_model_pickup_applies :
  let s := post sm0 tA in
  let c' := fold_left (cstep pickup_reads_under_lock)
                      (LCycle :: env_post nvW3 s ++ [LCycle; LCycle; LCycle; LCycle]) (cinit (next_task s)) in
  env_post nvW3 s <> [] /\
  exists t, next_task (hook nvW3 s) = Some t /\ c_picked c' = [t] /\ c_nt c' = None.
Proof.
  intros s c'. split; [vm_compute; discriminate|].
  destruct (C14_model_pickup_is_a_schedule nvW3 s tA eq_refl) as [t [A [B [D _]]]].
  exists t. repeat split; assumption.
Qed.

Definition nv_scode : sid -> option Z := fun f => assoc_nat f [(1, status_busy); (2, (status_busy + 10)%Z)].
Lemma nv_scode_busy : forall f c, nv_scode f = Some c -> busyb gcodes c = true.
Proof.
  intros f c. unfold nv_scode. destruct f as [|[|[|f]]]; simpl; intro H; inversion H; reflexivity.
Qed.
(* start_machine from the body of a state function (hook 3), stop_machine from a later body; both guarded *)
Definition nvH : world :=
  {| w_s := fun n => match assoc_nat n [(3, BNext 2); (6, BFinal 150%Z)] with Some b => b | None => BRetry end;
     w_c := fun _ => CNone;
     w_env := fun n => assoc_nat n [(3, TStart 77 1 None [])];
     w_guard := fun _ => true |}.
Lemma nvH_guarded : guarded nvH.
Proof. intro n. reflexivity. Qed.
Definition nv_hrun (W : world) (ops : list hop) : hs :=
  hrun gcodes nv_scode start_resets_idle_status start_assigns_idle_status W maxloops outer_rounds ops.

Example C14_status_busy_applies :
  let h := nv_hrun nvH [HStart 0 1 0 []; HCycle] in
  (is_active (core h) = true \/ pending_start (core h) = true) /\ busyb gcodes (fst (st h)) = true.
Proof.
  intro h. assert (A : is_active (core h) = true \/ pending_start (core h) = true) by (left; vm_compute; reflexivity).
  split; [exact A|].
  apply (C14_status_busy_while_running nv_scode nvH [HStart 0 1 0 []; HCycle] nvH_guarded nv_scode_busy). exact A.
Qed.

(* a world whose runs end: state 1 finishes with final_status, restart posted from its body at hook 3 *)
Definition nvH2 : world :=
  {| w_s := fun n => BFinal (Z.of_nat n);
     w_c := fun _ => CNone;
     w_env := fun n => assoc_nat n [(3, TStart 77 2 None [])];
     w_guard := fun _ => true |}.
Definition nv_hops2 : list hop := [HStart 0 1 0 []; HCycle; HCycle; HStop 5; HCycle].
Example C14_nonvacuous_hs2 :
  let h := nv_hrun nvH2 nv_hops2 in
  is_active (core h) = false /\ pending_start (core h) = false /\ late h = false /\
  length (filter (fun e => match e with EvPickup _ _ => true | _ => false end) (trace (core h))) = 2.
Proof. vm_compute. repeat split; reflexivity. Qed.

Example C14_status_final_applies :
  let h := nv_hrun nvH2 nv_hops2 in st h = idle_or_default gcodes (idle h).
Proof.
  intro h.
  apply (C14_status_final_when_inactive_except_stop_while_finishing nv_scode nvH2 nv_hops2 (fun n => eq_refl));
    vm_compute; reflexivity.
Qed.
Example C14_status_is_own_applies :
  let h := nv_hrun nvH2 nv_hops2 in st h = own h.
Proof.
  intro h. apply (C14_status_is_own_final_status nv_scode nvH2 nv_hops2 (fun n => eq_refl)).
  - intros n i. unfold nvH2; simpl. destruct n as [|[|[|[|n]]]]; simpl; discriminate.
  - vm_compute; reflexivity.
  - vm_compute; reflexivity.
Qed.

(* stop_machine at a hook (body of the state function, hook 3), taking effect while active: late stays false *)
Definition nvH3 : world :=
  {| w_s := fun n => if Nat.ltb n 5 then BRetry else BFinal 120%Z;
     w_c := fun _ => CNone;
     w_env := fun n => assoc_nat n [(3, TStop 88)];
     w_guard := fun _ => true |}.
Definition nv_hops3 : list hop := [HStart 0 1 0 []; HCycle; HCycle; HCycle].
Example C14_status_is_own_except_applies :
  let h := nv_hrun nvH3 nv_hops3 in
  late h = false /\ is_active (core h) = false /\ pending_start (core h) = false /\ st h = own h /\
  snd (own h) = TStopped.
Proof.
  intro h.
  assert (A : late h = false) by (vm_compute; reflexivity).
  assert (B : is_active (core h) = false) by (vm_compute; reflexivity).
  assert (D : pending_start (core h) = false) by (vm_compute; reflexivity).
  split; [exact A|]. split; [exact B|]. split; [exact D|]. split; [|vm_compute; reflexivity].
  apply (C14_status_is_own_final_status_except_stop_while_finishing nv_scode nvH3 nv_hops3 (fun n => eq_refl)); assumption.
Qed.
