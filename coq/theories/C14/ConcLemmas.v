(* C14 — the two-thread pick-up: the invariant CI of every schedule (no posted request is lost), and the pick-up of the
   sequential model as one of the schedules *)
From Coq Require Import List Arith ZArith Bool.
Import ListNotations.
Require Import FV.C14.Model FV.C14.Lemmas FV.C14.Conc.

Definition holds_c (p : cpc) : bool := match p with CHeld _ | CRead _ | CCleared => true | _ => false end.
Definition holds_p (p : ppc) : bool := match p with PHeld _ | PWritten => true | _ => false end.
Definition lock_is (w : who) (s : cst) : bool :=
  match c_lock s, w with Some Cycler, Cycler | Some Poster, Poster => true | _, _ => false end.

(* lock discipline + the value read under the lock is still there when it is cleared + the newest request is
   pending or taken + only posted requests are pending or taken *)
Definition CI (s : cst) : Prop :=
  holds_c (c_cyc s) = lock_is Cycler s /\
  holds_p (c_pos s) = lock_is Poster s /\
  (forall a, c_cyc s = CRead a -> c_nt s = a) /\
  match c_posted s with [] => c_nt s = None | t :: _ => c_nt s = Some t \/ (c_nt s = None /\ In t (c_picked s)) end /\
  (forall t, In t (c_picked s) -> In t (c_posted s)).

Lemma cycler_step_CI s : CI s -> CI (cycler_step true s).
Proof.
  destruct s as [nt lk cyc pos posted picked]. unfold CI, cycler_step, lock_is, set_cyc. cbn.
  intros (D1 & D2 & R & N & P).
  destruct cyc as [|a|a|a|]; cbn in *.
  - destruct nt; cbn; repeat split; auto; intros; discriminate.
  - destruct lk as [[|]|]; cbn in *; repeat split; auto; intros; discriminate.
  - repeat split; auto. intros a' [= <-]. reflexivity.
  - (* the clearing step, the only one that moves a request: by R what is taken (a) is what is cleared (nt), so the newest
       request goes from pending to picked and nothing else is taken *)
    pose proof (R a eq_refl) as Ra. subst a.
    repeat split; auto; try (intros; discriminate).
    + destruct posted as [|t l]; [reflexivity|]. right. split; [reflexivity|].
      destruct N as [N|[N1 N2]]; [subst nt; left; reflexivity|subst nt; exact N2].
    + intros t Ht. destruct nt as [t'|]; [|apply P; exact Ht].
      destruct Ht as [<-|Ht]; [|apply P; exact Ht].
      destruct posted as [|t0 l]; [discriminate|].
      destruct N as [N|[N1 N2]]; [injection N as <-; left; reflexivity|discriminate].
  - destruct lk as [[|]|]; cbn in *; try discriminate. repeat split; auto. intros; discriminate.
Qed.

Lemma poster_step_CI s t : CI s -> CI (poster_step s t).
Proof.
  destruct s as [nt lk cyc pos posted picked]. unfold CI, poster_step, lock_is, set_pos. cbn.
  intros (D1 & D2 & R & N & P).
  destruct pos as [|t'|t'|]; cbn in *.
  - repeat split; auto.
  - destruct lk as [[|]|]; cbn in *; repeat split; auto.
  - destruct lk as [[|]|]; cbn in *; try discriminate.
    repeat split; auto; try (intros a Ha; subst cyc; discriminate).
  - destruct lk as [[|]|]; cbn in *; try discriminate. repeat split; auto.
Qed.

Lemma crun_CI sched : CI (crun true sched).
Proof.
  unfold crun. assert (H : CI c0) by (unfold CI; cbn; repeat split; try discriminate; intros; contradiction).
  revert H. generalize c0. induction sched as [|l sched IH]; intros s H; cbn [fold_left]; [exact H|].
  apply IH. destruct l; [apply cycler_step_CI|apply poster_step_CI]; exact H.
Qed.

(* Model.pickup with a request pending: the hook at the acquisition of the lock = the second thread runs a complete
   start()/stop() between the test and the acquisition; what Model.pickup takes is what the two-thread system takes *)
Definition cinit (nt : option task) : cst :=
  {| c_nt := nt; c_lock := None; c_cyc := COut; c_pos := PIdle; c_posted := []; c_picked := [] |}.

Definition env_post (W : world) (s : sm) : list clabel :=
  match w_env W (ctr s) with
  | Some t => if suppressed W (ctr s) t s then [] else post_steps t
  | None => []
  end.

(* the second thread's moves during the hook leave t0 pending, or are a complete start()/stop() posting t *)
Lemma hook_env_post W s t0 :
  next_task s = Some t0 ->
  exists t, next_task (hook W s) = Some t /\ (env_post W s = [] /\ t = t0 \/ env_post W s = post_steps t).
Proof.
  intros E. unfold env_post, hook.
  destruct (w_env W (ctr s)) as [t|]; [destruct (suppressed W (ctr s) t s)|];
    [exists t0|exists t|exists t0]; auto.
Qed.

Lemma pickup_schedule t0 t e :
  e = [] /\ t = t0 \/ e = post_steps t ->
  let c' := fold_left (cstep true) (LCycle :: e ++ [LCycle; LCycle; LCycle; LCycle]) (cinit (Some t0)) in
  c_picked c' = [t] /\ c_nt c' = None /\ c_lock c' = None /\ c_cyc c' = COut.
Proof. intros [[-> ->]| ->]; repeat split. Qed.

Lemma pickup_locked_trace W s t :
  next_task s = Some t -> exists b, In (EvPickup (task_id t) b) (trace (pickup_locked W s)).
Proof.
  intros E. destruct t as [i f cl kw|i].
  - destruct (pickup_locked_start W s _ _ _ _ E) as (_ & _ & _ & _ & _ & Ht & _). rewrite Ht.
    eexists. right; left; reflexivity.
  - rewrite (pickup_locked_stop W s i E). eexists. left; reflexivity.
Qed.
