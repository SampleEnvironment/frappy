(* C14 — invariants of the state machine model, for every world (behaviour program + interference), every loop bound
   and every history: what each primitive of Model.v does, one rule for the invariants of cycle (Section Rule), and then
   bounded work per cycle (within), the init flag (FInv), cleanup exactly once and never interrupted (CInv), the last
   request wins and stop makes inactive (RInv, Pend, round_progress). *)
From Coq Require Import List Arith ZArith Bool Lia.
Import ListNotations.
Require Import FV.Base.Util FV.C14.Model.

Ltac hookframe W s :=
  unfold hook, post, set_next_task; destruct (w_env W (ctr s)) as [t|]; [destruct (suppressed W (ctr s) t s)|]; reflexivity.

Lemma hook_trace W s : trace (hook W s) = trace s.
Proof. hookframe W s. Qed.
Lemma hook_cleanup W s : cleanup (hook W s) = cleanup s.
Proof. hookframe W s. Qed.
Lemma hook_init W s : init (hook W s) = init s.
Proof. hookframe W s. Qed.
Lemma hook_statefunc W s : statefunc (hook W s) = statefunc s.
Proof. hookframe W s. Qed.
Lemma hook_reason W s : cleanup_reason (hook W s) = cleanup_reason s.
Proof. hookframe W s. Qed.
Lemma hook_attrs W s : attrs (hook W s) = attrs s.
Proof. hookframe W s. Qed.
Lemma hook_next_task_eq W s :
  next_task (hook W s) =
  match w_env W (ctr s) with
  | Some t => if suppressed W (ctr s) t s then next_task s else Some t
  | None => next_task s
  end.
Proof. hookframe W s. Qed.
Lemma hook_ctr W s : ctr (hook W s) = S (ctr s).
Proof. hookframe W s. Qed.

Lemma new_state_trace W s f : trace (new_state W s f) = EvTrans (active s) f :: trace s.
Proof. unfold new_state, active; cbn. rewrite hook_trace. reflexivity. Qed.
Lemma new_state_statefunc W s f : statefunc (new_state W s f) = f.
Proof. reflexivity. Qed.
Lemma new_state_init W s f : init (new_state W s f) = true.
Proof. reflexivity. Qed.
Lemma new_state_cleanup W s f : cleanup (new_state W s f) = cleanup s.
Proof. unfold new_state; cbn. rewrite hook_cleanup. reflexivity. Qed.
Lemma new_state_reason W s f : cleanup_reason (new_state W s f) = cleanup_reason s.
Proof. unfold new_state; cbn. rewrite hook_reason. reflexivity. Qed.
Lemma new_state_attrs W s f : attrs (new_state W s f) = attrs s.
Proof. unfold new_state; cbn. rewrite hook_attrs. reflexivity. Qed.

Definition quiet (W : world) : Prop := forall n, w_env W n = None.

Lemma hook_next_task W s : quiet W -> next_task (hook W s) = next_task s.
Proof. intros Q. rewrite hook_next_task_eq, Q. reflexivity. Qed.
Lemma new_state_next_task W s f : quiet W -> next_task (new_state W s f) = next_task s.
Proof. intros Q. unfold new_state. cbn. rewrite hook_next_task by exact Q. reflexivity. Qed.

Lemma pickup_locked_none W s : next_task s = None -> pickup_locked W s = s.
Proof. intros E. unfold pickup_locked. rewrite E. reflexivity. Qed.

Lemma pickup_locked_stop W s i :
  next_task s = Some (TStop i) -> pickup_locked W s = emit (set_reason (set_next_task s None) None) (EvPickup i false).
Proof. intros E. unfold pickup_locked. rewrite E. reflexivity. Qed.

Lemma pickup_locked_start W s i f cl kw :
  next_task s = Some (TStart i f cl kw) ->
  statefunc (pickup_locked W s) = Some f /\ init (pickup_locked W s) = true /\
  cleanup_reason (pickup_locked W s) = None /\ cleanup (pickup_locked W s) = option_map (fun c => (i, c)) cl /\
  attrs (pickup_locked W s) = upd_all kw (attrs s) /\
  trace (pickup_locked W s) =
    EvTrans (active s) (Some f) :: EvPickup i (match cl with Some _ => true | None => false end) :: trace s /\
  (quiet W -> next_task (pickup_locked W s) = None).
Proof.
  intros E.
  assert (H : pickup_locked W s =
    let s3 := new_state W (emit (set_reason (set_next_task s None) None)
                                (EvPickup i (match cl with Some _ => true | None => false end))) (Some f) in
    set_attrs (set_cleanup s3 (option_map (fun c => (i, c)) cl)) (upd_all kw (attrs s3)))
    by (unfold pickup_locked; rewrite E; destruct cl; reflexivity).
  rewrite H. cbv zeta. repeat split; cbn [cleanup_reason attrs trace next_task set_attrs set_cleanup].
  - apply new_state_reason.
  - rewrite new_state_attrs. reflexivity.
  - apply new_state_trace.
  - intros Q. rewrite new_state_next_task by exact Q. reflexivity.
Qed.

(* do_cleanup in three pieces: the reason is recorded, the cleanup function is consumed and logged, its result read *)
Definition mark (s : sm) (r : reason) : sm :=
  let s0 := emit s (EvInt (reason_code r)) in
  match cleanup_reason s0 with None => set_reason s0 (Some r) | Some _ => s0 end.
Definition called (s : sm) (o : nat) (c : cid) : sm :=
  emit (set_cleanup s None) (EvCleanup o c (match cleanup_reason s with Some r => reason_code r | None => 0 end)).
Definition cret (x : cbeh) : option sid := match x with CNext f => Some f | _ => None end.
Lemma cret_pair {A} (a : A) x :
  match x with CNext f => (a, Some f) | CNone | CNonCallable | CRaise => (a, None) end = (a, cret x).
Proof. destruct x; reflexivity. Qed.

Lemma mark_spec s r :
  statefunc (mark s r) = statefunc s /\ next_task (mark s r) = next_task s /\ init (mark s r) = init s /\
  attrs (mark s r) = attrs s /\ cleanup (mark s r) = cleanup s /\
  cleanup_reason (mark s r) = Some (match cleanup_reason s with None => r | Some x => x end) /\
  trace (mark s r) = EvInt (reason_code r) :: trace s.
Proof. unfold mark. destruct (cleanup_reason s) eqn:E; cbn; rewrite ?E; auto 10. Qed.

Lemma mark_statefunc s r : statefunc (mark s r) = statefunc s.
Proof. exact (proj1 (mark_spec s r)). Qed.
Lemma mark_next_task s r : next_task (mark s r) = next_task s.
Proof. exact (proj1 (proj2 (mark_spec s r))). Qed.
Lemma mark_cleanup s r : cleanup (mark s r) = cleanup s.
Proof. destruct (mark_spec s r) as (_ & _ & _ & _ & E & _). exact E. Qed.

Lemma do_cleanup_eq W s r :
  do_cleanup W s r =
  match cleanup s with
  | None => (mark s r, None)
  | Some (o, c) => (hook W (called (hook W (mark s r)) o c), cret (w_c W (ctr (called (hook W (mark s r)) o c))))
  end.
Proof.
  rewrite <- (mark_cleanup s r). unfold do_cleanup, mark. cbv zeta.
  destruct (cleanup _) as [[o c]|]; [apply cret_pair|reflexivity].
Qed.

Lemma do_cleanup_spec W s r :
  statefunc (fst (do_cleanup W s r)) = statefunc s /\ init (fst (do_cleanup W s r)) = init s /\
  attrs (fst (do_cleanup W s r)) = attrs s /\ cleanup (fst (do_cleanup W s r)) = None /\
  cleanup_reason (fst (do_cleanup W s r)) = Some (match cleanup_reason s with None => r | Some x => x end) /\
  match cleanup s with
  | None => trace (fst (do_cleanup W s r)) = EvInt (reason_code r) :: trace s /\ snd (do_cleanup W s r) = None
  | Some (o, c) =>
      trace (fst (do_cleanup W s r)) =
      EvCleanup o c (reason_code (match cleanup_reason s with None => r | Some x => x end)) :: EvInt (reason_code r) :: trace s
  end.
Proof.
  rewrite do_cleanup_eq. destruct (mark_spec s r) as (E1 & _ & E2 & E3 & E4 & E5 & E6).
  destruct (cleanup s) as [[o c]|]; cbn [fst snd]; [|auto 10].
  rewrite hook_statefunc, hook_init, hook_attrs, hook_cleanup, hook_reason, hook_trace. unfold called. cbn.
  rewrite hook_statefunc, hook_init, hook_attrs, hook_reason, hook_trace, E5, E6. auto 10.
Qed.

Lemma do_cleanup_statefunc W s r : statefunc (fst (do_cleanup W s r)) = statefunc s.
Proof. exact (proj1 (do_cleanup_spec W s r)). Qed.
Lemma do_cleanup_cleanup W s r : cleanup (fst (do_cleanup W s r)) = None.
Proof. destruct (do_cleanup_spec W s r) as (_ & _ & _ & E & _). exact E. Qed.

Definition dstate (d : decision) : sm := match d with DRet s _ => s | DGo s => s end.

(* the test "a task is pending and no cleanup sequence is running" of turn (and of the HasStates layer's h_turn) *)
Lemma interrupt_cases {A} (P : A -> Prop) (nt : option task) (cr : option reason) (a : task -> A) (b : A) :
  (forall t, nt = Some t -> cr = None -> P (a t)) -> P b ->
  P (match nt, cr with Some t, None => a t | _, _ => b end).
Proof. intros Ha Hb. destruct nt, cr; auto. Qed.

Lemma turn_cases W s (P : decision -> Prop) :
  let s0 := hook W s in
  (forall t, next_task s0 = Some t -> cleanup_reason s0 = None -> P (after_cleanup W (do_cleanup W s0 (RTask t)))) ->
  (statefunc s0 = None -> P (DRet s0 IBreak)) ->
  (forall f, statefunc s0 = Some f ->
     let s1 := hook W (emit s0 (EvCall f (init s0))) in
     P (DRet (set_init s1 false) IReturn) /\ P (DRet (set_init s1 false) IBreak) /\
     (forall c, P (DRet (set_init (emit s1 (EvFinal c)) false) IBreak)) /\
     (forall g, P (DGo (new_state W (set_init s1 false) (Some g)))) /\
     P (after_cleanup W (do_cleanup W (set_init s1 false) RExc)) /\
     P (after_cleanup W (do_cleanup W s1 RExc))) ->
  P (turn W s).
Proof.
  intros s0 Hi Hn Hc. subst s0. unfold turn. cbv zeta in *. apply (interrupt_cases P); [exact Hi|].
  destruct (statefunc (hook W s)) as [f|]; [|auto].
  destruct (Hc f eq_refl) as (H1 & H2 & H3 & H4 & H5 & H6). destruct (w_s W (ctr (hook W s))); auto.
Qed.

(* One rule for every invariant of cycle.  L holds whenever the inner loop is at its head and between rounds; M is what
   is left of it between a state call and the next transition (an exception leaves init unreset).  One hypothesis per
   primitive of the model, with what the control flow guarantees at that point. *)
Section Rule.
Variables (W : world) (L M : sm -> Prop).
Hypothesis LM : forall s, L s -> M s.
Hypothesis Hhook : forall s, L s -> L (hook W s).
Hypothesis Hcall : forall s f, L s -> statefunc s = Some f ->
  let s1 := hook W (emit s (EvCall f (init s))) in
  M s1 /\ L (set_init s1 false) /\ forall c, M (set_init (emit s1 (EvFinal c)) false).
Hypothesis Hclean : forall s r,
  M s -> statefunc s <> None -> (forall t, r = RTask t -> cleanup_reason s = None) -> M (fst (do_cleanup W s r)).
Hypothesis Htrans : forall s f, M s -> (f <> None -> statefunc s <> None) -> L (new_state W s f).

Definition at_exit (r : iret) : sm -> Prop := match r with IBreak => M | _ => L end.
Definition turn_ok (d : decision) : Prop :=
  statefunc (dstate d) <> None /\ match d with DGo s => L s | DRet s r => at_exit r s end.

Lemma after_cleanup_ok s r :
  M s -> statefunc s <> None -> (forall t, r = RTask t -> cleanup_reason s = None) ->
  turn_ok (after_cleanup W (do_cleanup W s r)).
Proof.
  intros Hm Ha Hr. pose proof (Hclean s r Hm Ha Hr) as Hc. pose proof (do_cleanup_statefunc W s r) as Hs.
  unfold after_cleanup. destruct (do_cleanup W s r) as [s' [f|]]; cbn [fst snd] in *; split; cbn [dstate at_exit].
  - rewrite new_state_statefunc. discriminate.
  - apply Htrans; [exact Hc|congruence].
  - congruence.
  - exact Hc.
Qed.

Lemma turn_rule s : L s -> statefunc s <> None -> turn_ok (turn W s).
Proof.
  intros Hl Ha. apply (Hhook s) in Hl. rewrite <- (hook_statefunc W s) in Ha. apply turn_cases; cbv zeta.
  - intros t _ Hr. apply after_cleanup_ok; auto.
  - intros E. contradiction.
  - intros f E. destruct (Hcall _ f Hl E) as (C1 & C2 & C3).
    set (s1 := hook W (emit (hook W s) (EvCall f (init (hook W s))))) in *.
    assert (A : statefunc s1 <> None) by (subst s1; rewrite hook_statefunc; cbn; congruence).
    split; [split; [exact A|exact C2]|].
    split; [split; [exact A|apply LM, C2]|].
    split; [intros c; split; [exact A|apply C3]|].
    split; [intros g; split; [cbn [dstate]; rewrite new_state_statefunc; discriminate|apply Htrans; auto]|].
    split; apply after_cleanup_ok; auto; discriminate.
Qed.

Lemma inner_rule k : forall s, L s -> statefunc s <> None ->
  statefunc (fst (inner W k s)) <> None /\ at_exit (snd (inner W k s)) (fst (inner W k s)).
Proof.
  induction k as [|k IH]; intros s Hl Ha; cbn [inner]; [split; assumption|].
  destruct (turn_rule s Hl Ha) as [T1 T2]. destruct (turn W s) as [s' r|s']; cbn [dstate fst snd] in *; auto.
Qed.

(* declared after inner_rule, which the pending-request argument uses without a fact about the pick-up *)
Hypothesis Hpick : forall s, L s -> statefunc s = None -> L (pickup_locked W s).

Lemma pickup_rule s : L s -> statefunc s = None -> L (pickup W s).
Proof.
  intros Hl Hi. unfold pickup. destruct (next_task s); [|exact Hl].
  apply Hpick; [apply Hhook, Hl|rewrite hook_statefunc; exact Hi].
Qed.

Lemma round_rule m s : L s -> L (fst (round W m s)).
Proof.
  intros Hl. unfold round. destruct (statefunc s) eqn:Hs; [|apply pickup_rule; assumption].
  destruct (inner_rule m s Hl) as [I1 I2]; [congruence|]. destruct (inner W m s) as [s1 r]. cbn [fst snd] in *.
  assert (F : forall s2, M s2 -> L (pickup W (new_state W s2 None))).
  { intros s2 H2. apply pickup_rule; [apply Htrans; [exact H2|congruence]|reflexivity]. }
  destruct r; cbn [fst at_exit] in *; auto.
  assert (D : M (fst (do_cleanup W s1 RExc))) by (apply Hclean; auto; discriminate).
  pose proof (do_cleanup_statefunc W s1 RExc) as Ds.
  destruct (do_cleanup W s1 RExc) as [s2 [f|]]; cbn [fst] in *; [apply Htrans; [exact D|congruence]|apply F, D].
Qed.

Lemma outer_rule m k : forall s, L s -> L (outer W m k s).
Proof.
  induction k as [|k IH]; intros s Hl; cbn [outer]; [exact Hl|].
  pose proof (round_rule m s Hl) as R. destruct (round W m s) as [s' go]. cbn [fst] in R. destruct go; auto.
Qed.

Hypothesis Hpost : forall s t, L s -> L (post s t).

Lemma run_rule m r ops : forall s, L s -> L (fold_left (step W m r) ops s).
Proof.
  induction ops as [|o ops IH]; intros s Hl; cbn [fold_left]; [exact Hl|].
  apply IH. destruct o; cbn [step]; [apply outer_rule|apply Hpost]; exact Hl.
Qed.
End Rule.

Definition is_call (e : event) : bool := match e with EvCall _ _ => true | _ => false end.
Definition is_cleanup (e : event) : bool := match e with EvCleanup _ _ _ => true | _ => false end.
Definition ncalls (s : sm) : nat := length (filter is_call (trace s)).
Definition ncleanups (s : sm) : nat := length (filter is_cleanup (trace s)).
Definition has_cleanup (s : sm) : nat := match cleanup s with Some _ => 1 | None => 0 end.

(* from s to s' at most a state calls were made, and every cleanup call consumed an installed cleanup function *)
Definition within (a : nat) (s s' : sm) : Prop :=
  ncalls s' <= ncalls s + a /\ ncleanups s' + has_cleanup s' <= ncleanups s + has_cleanup s.

Lemma within_trans a b {s1 s2 s3} : within a s1 s2 -> within b s2 s3 -> within (a + b) s1 s3.
Proof. unfold within. lia. Qed.
Lemma within_0 a {s1 s2 s3} : within a s1 s2 -> within 0 s2 s3 -> within a s1 s3.
Proof. unfold within. lia. Qed.
Lemma within_le a b {s s'} : a <= b -> within a s s' -> within b s s'.
Proof. unfold within. lia. Qed.

(* the counters read the trace and the cleanup field only *)
Lemma within_eq s s' : trace s' = trace s -> cleanup s' = cleanup s -> within 0 s s'.
Proof. unfold within, ncalls, ncleanups, has_cleanup. intros -> ->. lia. Qed.
Lemma within_emit s s' e :
  trace s' = e :: trace s -> cleanup s' = cleanup s -> is_cleanup e = false -> within (if is_call e then 1 else 0) s s'.
Proof.
  unfold within, ncalls, ncleanups, has_cleanup. intros -> -> E. cbn [filter]. rewrite E. destruct (is_call e); cbn; lia.
Qed.

Lemma new_state_within W s f : within 0 s (new_state W s f).
Proof. apply (within_emit s _ _ (new_state_trace W s f) (new_state_cleanup W s f) eq_refl). Qed.

Lemma do_cleanup_within W s r : within 0 s (fst (do_cleanup W s r)).
Proof.
  destruct (do_cleanup_spec W s r) as (_ & _ & _ & Hc & _ & Ht). unfold within, ncalls, ncleanups, has_cleanup. rewrite Hc.
  destruct (cleanup s) as [[o c]|]; [rewrite Ht | destruct Ht as [Ht _]; rewrite Ht]; cbn; lia.
Qed.

Lemma after_cleanup_within W s r : within 0 s (dstate (after_cleanup W (do_cleanup W s r))).
Proof.
  pose proof (do_cleanup_within W s r) as D. unfold after_cleanup.
  destruct (do_cleanup W s r) as [s' [f|]]; cbn [fst snd dstate] in *; [|exact D].
  exact (within_0 0 D (new_state_within W s' (Some f))).
Qed.

(* in what follows set_init and final_status do not show: within reads trace and cleanup only, and EvFinal is not counted *)
Lemma turn_within W s : within 1 s (dstate (turn W s)).
Proof.
  pose proof (within_eq s _ (hook_trace W s) (hook_cleanup W s)) as H.
  apply (turn_cases W s (fun d => within 1 s (dstate d))); cbv zeta.
  - intros t _ _. exact (within_le 0 1 (Nat.le_0_l 1) (within_0 0 H (after_cleanup_within W _ _))).
  - intros _. exact (within_le 0 1 (Nat.le_0_l 1) H).
  - intros f _. set (s0 := hook W s) in *. set (s1 := hook W (emit s0 (EvCall f (init s0)))).
    pose proof (within_trans 0 1 H (within_emit s0 s1 _ (hook_trace W _) (hook_cleanup W _) eq_refl)) as K.
    assert (R : forall s2, within 0 s1 s2 -> within 1 s s2) by (intros s2; apply (within_0 1 K)).
    split; [|split; [|split; [intros c|split; [intros g|split]]]]; apply R.
    + exact (within_eq s1 _ eq_refl eq_refl).
    + exact (within_eq s1 _ eq_refl eq_refl).
    + exact (within_emit s1 (emit s1 (EvFinal c)) _ eq_refl eq_refl eq_refl).
    + exact (new_state_within W (set_init s1 false) (Some g)).
    + exact (after_cleanup_within W (set_init s1 false) RExc).
    + exact (after_cleanup_within W s1 RExc).
Qed.

Lemma inner_within W k : forall s, within k s (fst (inner W k s)).
Proof.
  induction k as [|k IH]; intros s; cbn [inner fst]; [exact (within_eq s s eq_refl eq_refl)|].
  pose proof (turn_within W s) as T. destruct (turn W s) as [s' r|s']; cbn [fst dstate] in *.
  - exact (within_le 1 (S k) (le_n_S 0 k (Nat.le_0_l k)) T).
  - exact (within_trans 1 k T (IH s')).
Qed.

Lemma pickup_counts W s : ncalls (pickup W s) = ncalls s /\ ncleanups (pickup W s) = ncleanups s.
Proof.
  assert (PL : forall s, ncalls (pickup_locked W s) = ncalls s /\ ncleanups (pickup_locked W s) = ncleanups s).
  { intros s1. unfold ncalls, ncleanups. destruct (next_task s1) as [[i f cl kw|i]|] eqn:E.
    - destruct (pickup_locked_start W s1 _ _ _ _ E) as (_ & _ & _ & _ & _ & -> & _). auto.
    - rewrite (pickup_locked_stop W s1 i E). auto.
    - rewrite (pickup_locked_none W s1 E). auto. }
  unfold pickup. destruct (next_task s); [|auto].
  destruct (PL (hook W s)). unfold ncalls, ncleanups in *. rewrite hook_trace in *. auto.
Qed.

(* a round: at most m calls in the inner loop; at most the installed cleanup function is called; the pick-up calls nothing *)
Lemma round_counts W m s :
  ncalls (fst (round W m s)) <= ncalls s + m /\ ncleanups (fst (round W m s)) <= ncleanups s + 1.
Proof.
  assert (B : forall s2, within m s s2 -> ncalls s2 <= ncalls s + m /\ ncleanups s2 <= ncleanups s + 1).
  { unfold within, has_cleanup. intros s2. destruct (cleanup s), (cleanup s2); lia. }
  assert (F : forall s2, within m s s2 ->
    ncalls (pickup W (new_state W s2 None)) <= ncalls s + m /\ ncleanups (pickup W (new_state W s2 None)) <= ncleanups s + 1).
  { intros s2 H. destruct (pickup_counts W (new_state W s2 None)) as [-> ->].
    apply B, (within_0 m H (new_state_within W s2 None)). }
  unfold round. destruct (statefunc s).
  - pose proof (inner_within W m s) as I. destruct (inner W m s) as [s1 r]. cbn [fst] in I.
    destruct r; cbn [fst]; [apply B, I|apply F, I|].
    pose proof (within_0 m I (do_cleanup_within W s1 RExc)) as D.
    destruct (do_cleanup W s1 RExc) as [s2 [f|]]; cbn [fst] in *.
    + apply B, (within_0 m D (new_state_within W s2 (Some f))).
    + apply F, D.
  - cbn [fst]. destruct (pickup_counts W s) as [-> ->].
    apply B, (within_le 0 m (Nat.le_0_l m) (within_eq s s eq_refl eq_refl)).
Qed.

Lemma outer_counts W m k : forall s,
  ncalls (outer W m k s) <= ncalls s + k * m /\ ncleanups (outer W m k s) <= ncleanups s + k.
Proof.
  induction k as [|k IH]; intros s; cbn [outer]; [lia|].
  pose proof (round_counts W m s) as [R1 R2].
  destruct (round W m s) as [s' go]. cbn [fst] in *.
  destruct go; [pose proof (IH s')|]; lia.
Qed.

(* all three read the trace newest-first, i.e. they describe the situation after the last event *)
Fixpoint scur (t : list event) : option sid :=          (* state the last transition went to *)
  match t with [] => None | EvTrans _ f :: _ => f | _ :: r => scur r end.
Fixpoint sfresh (t : list event) : bool :=              (* no state call since the last transition *)
  match t with [] => true | EvTrans _ _ :: _ => true | EvCall _ _ :: _ => false | _ :: r => sfresh r end.
Fixpoint sok (t : list event) : bool :=                 (* every call was made on the current state and saw init = fresh *)
  match t with
  | [] => true
  | EvCall f b :: r => sok r && opt_eqb Nat.eqb (scur r) (Some f) && Bool.eqb b (sfresh r)
  | _ :: r => sok r
  end.

Definition WInv (s : sm) : Prop := sok (trace s) = true /\ scur (trace s) = statefunc s.
(* FInv fails only between a state call that raised (init is not reset) and the transition that follows *)
Definition FInv (s : sm) : Prop := WInv s /\ sfresh (trace s) = init s.

Lemma hook_WInv W s : WInv s -> WInv (hook W s).
Proof. unfold WInv. rewrite hook_trace, hook_statefunc. auto. Qed.
Lemma hook_FInv W s : FInv s -> FInv (hook W s).
Proof. unfold FInv. rewrite hook_trace, hook_init. intros [H1 H2]. auto using hook_WInv. Qed.

Lemma Nat_eqb_refl_opt f : opt_eqb Nat.eqb (Some f) (Some f) = true.
Proof. cbn. apply Nat.eqb_refl. Qed.

Lemma call_FInv W s f :
  FInv s -> statefunc s = Some f ->
  let s1 := hook W (emit s (EvCall f (init s))) in
  WInv s1 /\ FInv (set_init s1 false) /\ forall c, WInv (set_init (emit s1 (EvFinal c)) false).
Proof.
  intros [[Hok Hcur] Hfr] Hs s1.
  assert (Ht : trace s1 = EvCall f (init s) :: trace s) by apply hook_trace.
  assert (HW : WInv s1).
  { unfold WInv. rewrite Ht. subst s1. rewrite hook_statefunc. cbn.
    rewrite Hok, Hcur, Hfr, Hs, Nat_eqb_refl_opt, Bool.eqb_reflx. auto. }
  destruct HW as [A B]. unfold FInv, WInv. cbn. rewrite Ht in *. auto.
Qed.

Lemma do_cleanup_WInv W s r : WInv s -> WInv (fst (do_cleanup W s r)).
Proof.
  destruct (do_cleanup_spec W s r) as (Hs & _ & _ & _ & _ & Ht). unfold WInv. rewrite Hs.
  destruct (cleanup s) as [[o c]|]; [rewrite Ht | destruct Ht as [Ht _]; rewrite Ht]; cbn; auto.
Qed.

Lemma new_state_FInv W s f : WInv s -> FInv (new_state W s f).
Proof. intros [H _]. unfold FInv, WInv. rewrite new_state_trace. cbn. auto. Qed.

Lemma pickup_locked_FInv W s : FInv s -> FInv (pickup_locked W s).
Proof.
  intros HF. destruct (next_task s) as [[i f cl kw|i]|] eqn:E.
  - destruct (pickup_locked_start W s _ _ _ _ E) as (Hs & Hi & _ & _ & _ & Ht & _).
    unfold FInv, WInv. rewrite Ht, Hs, Hi. cbn. repeat split. apply HF.
  - rewrite (pickup_locked_stop W s i E). exact HF.
  - rewrite (pickup_locked_none W s E). exact HF.
Qed.

Lemma run_FInv W m r ops : FInv (run W m r ops).
Proof.
  apply (run_rule W FInv WInv).
  - intros s H. apply H.
  - apply hook_FInv.
  - apply call_FInv.
  - intros s r0 H _ _. apply do_cleanup_WInv, H.
  - intros s f H _. apply new_state_FInv, H.
  - intros s H _. apply pickup_locked_FInv, H.
  - intros s t H. exact H.
  - repeat split.
Qed.

Definition is_task_rc (rc : nat) : bool := Nat.eqb rc 1 || Nat.eqb rc 2.

(* counters since the run in progress was entered (EvTrans false (Some _) = a deferred start is taken) *)
Fixpoint ints (t : list event) : nat :=
  match t with
  | [] => 0 | EvTrans false (Some _) :: _ => 0 | EvInt _ :: r => S (ints r) | _ :: r => ints r end.
Fixpoint cleans (t : list event) : nat :=
  match t with
  | [] => 0 | EvTrans false (Some _) :: _ => 0 | EvCleanup _ _ _ :: r => S (cleans r) | _ :: r => cleans r end.
Fixpoint hascl (t : list event) : bool :=
  match t with [] => false | EvPickup _ b :: _ => b | _ :: r => hascl r end.
(* the last event is the first interruption of a run that installed a cleanup: the cleanup must be called next *)
Definition need (t : list event) : bool :=
  match t with EvInt _ :: r => hascl r && Nat.eqb (ints r) 0 | _ => false end.
(* the trace is in order (newest first): a cleanup function is called only right after the first interruption of its run
   (the event before is EvInt, ints = 1) and at most once per run (cleans = 0 before); a start or stop interrupts only a run
   not interrupted before (ints = 0: a cleanup sequence is never interrupted); and where the event before makes the
   cleanup call due (need), nothing but that call may follow *)
Fixpoint cok (t : list event) : bool :=
  match t with
  | [] => true
  | EvCleanup _ _ _ :: r =>
      cok r && Nat.eqb (cleans r) 0 && Nat.eqb (ints r) 1 && (match r with EvInt _ :: _ => true | _ => false end)
  | EvInt rc :: r => cok r && negb (need r) && (if is_task_rc rc then Nat.eqb (ints r) 0 else true)
  | _ :: r => cok r && negb (need r)
  end.

(* the trace read against the state: the trace is in order and no cleanup call is due; a cleanup function still installed
   belongs to a run neither interrupted nor cleaned up; an active machine outside a cleanup sequence has not been
   interrupted in this run; a run that installed a cleanup function and was not interrupted still has it *)
Definition CInv (s : sm) : Prop :=
  cok (trace s) = true /\ need (trace s) = false /\
  (cleanup s <> None -> ints (trace s) = 0 /\ cleans (trace s) = 0) /\
  (statefunc s <> None -> cleanup_reason s = None -> ints (trace s) = 0) /\
  (hascl (trace s) = true -> ints (trace s) = 0 -> cleanup s <> None).

Lemma hook_CInv W s : CInv s -> CInv (hook W s).
Proof. unfold CInv. rewrite hook_trace, hook_cleanup, hook_statefunc, hook_reason. auto. Qed.

Lemma reason_code_task t : is_task_rc (reason_code (RTask t)) = true.
Proof. destruct t; reflexivity. Qed.

Lemma set_init_CInv s b : CInv s -> CInv (set_init s b).
Proof. intros H; exact H. Qed.

(* a state call and final_status leave the counters alone *)
Lemma emit_CInv s e : (exists f b, e = EvCall f b) \/ (exists c, e = EvFinal c) -> CInv s -> CInv (emit s e).
Proof.
  intros He (Hok & Hneed & Hinst & Hrun & Hhas). unfold CInv.
  destruct He as [(f & b & ->)|(c & ->)]; cbn; rewrite Hok, Hneed; auto.
Qed.

Lemma do_cleanup_CInv W s r :
  CInv s -> (is_task_rc (reason_code r) = true -> ints (trace s) = 0) -> CInv (fst (do_cleanup W s r)).
Proof.
  intros (Hok & Hneed & Hinst & Hrun & Hhas) HP.
  destruct (do_cleanup_spec W s r) as (Hs & _ & _ & Hc & Hr & Ht).
  unfold CInv. rewrite Hc, Hs, Hr.
  assert (Hcond : (if is_task_rc (reason_code r) then Nat.eqb (ints (trace s)) 0 else true) = true).
  { destruct (is_task_rc (reason_code r)); [rewrite HP by reflexivity|]; reflexivity. }
  destruct (cleanup s) as [[o c]|] eqn:Hcl.
  - destruct Hinst as [I0 C0]; [discriminate|].
    rewrite Ht. cbn [cok need ints cleans hascl]. rewrite Hok, Hneed, Hcond, I0, C0. cbn.
    repeat split; try discriminate; congruence.
  - destruct Ht as [Ht _]. rewrite Ht. cbn [cok need ints cleans hascl]. rewrite Hok, Hneed, Hcond. cbn.
    repeat split; try congruence.
    destruct (hascl (trace s)) eqn:Hh; [|reflexivity]. cbn.
    destruct (ints (trace s)) eqn:Hi; [|reflexivity]. exfalso. apply Hhas; auto.
Qed.

(* transitions inside a run, or to the idle state *)
Lemma new_state_CInv W s f : CInv s -> (f <> None -> statefunc s <> None) -> CInv (new_state W s f).
Proof.
  intros (Hok & Hneed & Hinst & Hrun & Hhas) Hact. unfold CInv.
  rewrite new_state_trace, new_state_cleanup, new_state_reason, new_state_statefunc.
  assert (E : ints (EvTrans (active s) f :: trace s) = ints (trace s) /\
              cleans (EvTrans (active s) f :: trace s) = cleans (trace s)).
  { unfold active. destruct f as [g|]; [destruct (statefunc s); [cbn; auto|exfalso; apply Hact; congruence]|].
    destruct (statefunc s); cbn; auto. }
  destruct E as [E1 E2]. rewrite E1, E2. cbn [cok need hascl]. rewrite Hok, Hneed. cbn.
  split; [reflexivity|]. split; [reflexivity|]. split; [exact Hinst|]. split; [|exact Hhas].
  (* a transition to a state happens inside a run: s was active, and its fourth clause applies *)
  intros Hf. apply Hrun, Hact, Hf.
Qed.

Lemma pickup_locked_CInv W s : CInv s -> statefunc s = None -> CInv (pickup_locked W s).
Proof.
  intros HC Hidle. pose proof HC as (Hok & Hneed & Hinst & Hrun & Hhas).
  destruct (next_task s) as [[i f cl kw|i]|] eqn:E; [| |rewrite (pickup_locked_none W s E); exact HC].
  - destruct (pickup_locked_start W s _ _ _ _ E) as (Hs & _ & Hr & Hc & _ & Ht & _). unfold CInv. rewrite Ht, Hs, Hr, Hc. unfold active. rewrite Hidle.
    cbn [cok need ints cleans hascl]. rewrite Hok, Hneed. cbn.
    (* a new run: the counters restart; the cleanup function announced by EvPickup is the one installed *)
    split; [reflexivity|]. split; [reflexivity|]. split; [auto|]. split; [auto|]. intros. destruct cl; discriminate.
  - rewrite (pickup_locked_stop W s i E). unfold CInv. cbn. rewrite Hok, Hneed. cbn.
    (* the machine stays idle, no cleanup function is announced *)
    split; [reflexivity|]. split; [reflexivity|]. split; [exact Hinst|]. split; [|discriminate].
    intros Hs. contradiction (Hs Hidle).
Qed.

Lemma run_CInv W m r ops : CInv (run W m r ops).
Proof.
  apply (run_rule W CInv CInv).
  - auto.
  - apply hook_CInv.
  - intros s f H _ s1. assert (H1 : CInv s1) by (apply hook_CInv, emit_CInv; eauto).
    split; [exact H1|]. split; [apply set_init_CInv, H1|]. intros c. apply set_init_CInv, emit_CInv; eauto.
  - intros s r0 H Ha Hr. apply do_cleanup_CInv; [exact H|].
    destruct r0 as [|t]; [discriminate|]. intros _. apply H; eauto.
  - apply new_state_CInv.
  - apply pickup_locked_CInv.
  - intros s t H. exact H.
  - (* sm0: empty trace, inactive, nothing installed *)
    repeat split; try discriminate; intros X; contradiction X; reflexivity.
Qed.

(* while a cleanup sequence runs its cleanup function has been consumed: holds in every reachable state *)
Definition RInv (s : sm) : Prop := cleanup_reason s <> None -> cleanup s = None.

Lemma hook_RInv W s : RInv s -> RInv (hook W s).
Proof. unfold RInv. rewrite hook_reason, hook_cleanup. auto. Qed.
Lemma new_state_RInv W s f : RInv s -> RInv (new_state W s f).
Proof. unfold RInv. rewrite new_state_reason, new_state_cleanup. auto. Qed.
Lemma do_cleanup_RInv W s r : RInv (fst (do_cleanup W s r)).
Proof. intros _. apply do_cleanup_cleanup. Qed.
Lemma pickup_locked_RInv W s : RInv s -> RInv (pickup_locked W s).
Proof.
  intros HR. destruct (next_task s) as [[i f cl kw|i]|] eqn:E; [| |rewrite (pickup_locked_none W s E); exact HR];
    intros X; contradiction X.
  - apply (pickup_locked_start W s _ _ _ _ E).
  - rewrite (pickup_locked_stop W s i E). reflexivity.
Qed.

Theorem RInv_reachable W m r ops : RInv (run W m r ops).
Proof.
  apply (run_rule W RInv RInv); auto using new_state_RInv, pickup_locked_RInv, do_cleanup_RInv.
  - apply hook_RInv.
  - intros s f H _ s1. assert (H1 : RInv s1) by apply hook_RInv, H. split; [exact H1|split; [exact H1|intros c; exact H1]].
  - intros X. reflexivity.
Qed.

Lemma do_cleanup_next_task W s r : quiet W -> next_task (fst (do_cleanup W s r)) = next_task s.
Proof.
  intros Q. rewrite do_cleanup_eq. destruct (cleanup s) as [[o c]|]; cbn [fst]; [|apply mark_next_task].
  rewrite hook_next_task by exact Q. cbn. rewrite hook_next_task by exact Q. apply mark_next_task.
Qed.

Definition Pend (t : task) (a : list (nat * Z)) (s : sm) : Prop :=
  next_task s = Some t /\ attrs s = a /\ cleanup_reason s <> None /\ cleanup s = None.

Lemma hook_Pend W s t a : quiet W -> Pend t a s -> Pend t a (hook W s).
Proof. intros Q. unfold Pend. rewrite hook_next_task, hook_attrs, hook_reason, hook_cleanup by exact Q. auto. Qed.
Lemma new_state_Pend W s f t a : quiet W -> Pend t a s -> Pend t a (new_state W s f).
Proof.
  intros Q. unfold Pend. rewrite new_state_next_task, new_state_attrs, new_state_reason, new_state_cleanup by exact Q. auto.
Qed.
Lemma do_cleanup_Pend W s r t : quiet W -> next_task s = Some t -> Pend t (attrs s) (fst (do_cleanup W s r)).
Proof.
  intros Q Hn. destruct (do_cleanup_spec W s r) as (_ & _ & Ha & Hc & Hr & _).
  repeat split; [rewrite do_cleanup_next_task by exact Q; exact Hn|exact Ha|rewrite Hr; discriminate|exact Hc].
Qed.

Lemma inner_Pend W t a k s :
  quiet W -> Pend t a s -> statefunc s <> None ->
  statefunc (fst (inner W k s)) <> None /\ Pend t a (fst (inner W k s)).
Proof.
  intros Q HP Ha. destruct (inner_rule W (Pend t a) (Pend t a)) with (k := k) (s := s) as [I1 I2];
    auto using hook_Pend, new_state_Pend.
  - intros s0 f H _ s1. assert (H1 : Pend t a s1) by (apply hook_Pend; [exact Q|exact H]).
    split; [exact H1|split; [exact H1|intros c; exact H1]].
  - intros s0 r (Hn & <- & _) _ _. apply do_cleanup_Pend; assumption.
  - split; [exact I1|destruct (snd (inner W k s)); exact I2].
Qed.

(* the first turn interrupts the run unless a cleanup sequence is running already *)
Lemma inner_pending W t k s :
  quiet W -> next_task s = Some t -> statefunc s <> None -> RInv s -> 0 < k ->
  statefunc (fst (inner W k s)) <> None /\ Pend t (attrs s) (fst (inner W k s)).
Proof.
  intros Q Hn Ha HR Hk. destruct (cleanup_reason s) eqn:Hr.
  - apply inner_Pend; auto. repeat split; auto; [congruence|apply HR; congruence].
  - destruct k as [|k]; [lia|]. cbn [inner].
    assert (T : turn W s = after_cleanup W (do_cleanup W (hook W s) (RTask t))).
    { unfold turn. cbv zeta. rewrite hook_next_task, Hn, hook_reason, Hr by exact Q. reflexivity. }
    pose proof (do_cleanup_Pend W (hook W s) (RTask t) t Q) as D. rewrite hook_next_task, hook_attrs in D by exact Q.
    pose proof (do_cleanup_statefunc W (hook W s) (RTask t)) as Ds. rewrite hook_statefunc in Ds.
    rewrite T. unfold after_cleanup. destruct (do_cleanup W (hook W s) (RTask t)) as [s' [f|]]; cbn [fst snd] in *.
    + apply inner_Pend; [exact Q|apply new_state_Pend; auto|rewrite new_state_statefunc; discriminate].
    + split; [congruence|auto].
Qed.

(* one round of a cycle with a pending request and no interference: either the request is taken
   from an idle machine whose attributes are untouched, or the cycle returns inside a cleanup sequence *)
Lemma round_progress W m s t :
  quiet W -> 0 < m -> RInv s -> next_task s = Some t ->
  let '(s', go) := round W m s in
  if go then exists s1, next_task s1 = Some t /\ attrs s1 = attrs s /\ statefunc s1 = None /\ s' = pickup W s1
  else next_task s' = Some t /\ statefunc s' <> None /\ cleanup_reason s' <> None.
Proof.
  intros Q Hm HR Hn. unfold round. destruct (statefunc s) eqn:Hs; [|exists s; auto].
  destruct (inner_pending W t m s Q Hn) as (I3 & I1 & I2 & I4 & I5); [congruence|exact HR|exact Hm|].
  destruct (inner W m s) as [s1 r]. cbn [fst] in *. destruct r.
  - repeat split; assumption.
  - exists (new_state W s1 None). rewrite new_state_next_task, new_state_attrs by exact Q. auto.
  - destruct (do_cleanup_spec W s1 RExc) as (_ & _ & D3 & _ & _ & D6).
    pose proof (do_cleanup_next_task W s1 RExc Q) as Dn. rewrite I5 in D6. destruct D6 as [_ D6].
    destruct (do_cleanup W s1 RExc) as [s2 ret]. cbn [fst snd] in *. subst ret.
    exists (new_state W s2 None). rewrite new_state_next_task, new_state_attrs by exact Q. repeat split; congruence.
Qed.

Lemma pickup_start W s i f cl kw :
  quiet W -> next_task s = Some (TStart i f cl kw) ->
  let s' := pickup W s in
  statefunc s' = Some f /\ init s' = true /\ next_task s' = None /\ cleanup_reason s' = None /\
  cleanup s' = option_map (fun c => (i, c)) cl /\ attrs s' = upd_all kw (attrs s).
Proof.
  intros Q Hn. unfold pickup. rewrite Hn. rewrite <- (hook_next_task W s Q) in Hn.
  destruct (pickup_locked_start W _ _ _ _ _ Hn) as (A & B & C & D & E & _ & F). rewrite hook_attrs in E. auto 10.
Qed.

Lemma pickup_stop W s i :
  quiet W -> next_task s = Some (TStop i) ->
  let s' := pickup W s in
  statefunc s' = statefunc s /\ next_task s' = None /\ cleanup_reason s' = None /\ attrs s' = attrs s.
Proof.
  intros Q Hn. unfold pickup. rewrite Hn. rewrite <- (hook_next_task W s Q) in Hn.
  rewrite (pickup_locked_stop W _ i Hn). cbn. rewrite hook_statefunc, hook_attrs. auto.
Qed.

Lemma lookup_upd_same k v l : lookup k (upd k v l) = Some v.
Proof.
  induction l as [|[k' v'] l IH]; cbn; [rewrite Nat.eqb_refl; reflexivity|].
  destruct (Nat.eqb k k') eqn:E; cbn; [rewrite Nat.eqb_refl; reflexivity|rewrite E; exact IH].
Qed.
Lemma lookup_upd_other k k' v l : k <> k' -> lookup k' (upd k v l) = lookup k' l.
Proof.
  intros Hne. induction l as [|[k2 v2] l IH]; cbn.
  - destruct (Nat.eqb k' k) eqn:E; [apply Nat.eqb_eq in E; congruence|reflexivity].
  - destruct (Nat.eqb k k2) eqn:E; cbn.
    + apply Nat.eqb_eq in E. subst k2.
      destruct (Nat.eqb k' k) eqn:E2; [apply Nat.eqb_eq in E2; congruence|reflexivity].
    + destruct (Nat.eqb k' k2); [reflexivity|exact IH].
Qed.
