(* C14 — witnesses (vm_compute): one genuine defect of the pinned tree, and two variants of the code that the
   regenerated source facts exclude. *)
From Coq Require Import List Arith ZArith Bool.
Import ListNotations.
Require Import FV.Gen.C14 FV.C14.Model FV.C14.HasStates FV.C14.HasStatesLemmas FV.C14.Conc.

Definition gcodes : codes := {| c_idle := status_idle; c_busy := status_busy; c_error := status_error |}.

(* finding C14/stop-while-finishing (open): stop_machine() takes effect while the machine is inside the
   transition callback of its finishing transition (sm.is_active is still true there: same thread from the callback,
   or a second thread at that moment).  The machine becomes inactive, the Stop request is taken from an inactive
   machine without any status update, and the module keeps reporting (<code>, 'stopping') - with the busy code of the
   state if it has one - instead of its stopped status (IDLE, 'stopped').
   History: start_machine(state 0); cycle_machine().  Hooks of the cycle: 0 lock (pick-up), 1 transition to state 0,
   2 time.time(), 3 body of state 0 (returns Finish), 4 transition to None <- stop_machine() here, 5 lock (pick-up). *)
Definition lateW : world :=
  {| w_s := fun _ => BFinish; w_c := fun _ => CNone;
     w_env := fun n => if Nat.eqb n 4 then Some (TStop 1004) else None;
     w_guard := fun _ => true |}.

Theorem C14_refuted_status_final_when_inactive :
  exists scode W ops,
    (forall n, w_guard W n = true) /\
    let h := hrun gcodes scode start_resets_idle_status start_assigns_idle_status W maxloops outer_rounds ops in
    is_active (core h) = false /\ pending_start (core h) = false /\ next_task (core h) = None /\
    idle h = Some (status_idle, TStopped) /\ own h = (status_idle, TStopped) /\
    st h = (status_idle, TStopping) /\ late h = true.
Proof.
  exists (fun _ => None), lateW, [HStart 0 0 0 []; HCycle]. split; [reflexivity|].
  vm_compute. repeat split; reflexivity.
Qed.

(* variant excluded by the fact pickup_reads_under_lock: `action = self.next_task` read by the unlocked test,
   only the clearing under the lock.  Schedule: start(A) completely; the cycling thread tests and reads A; the second
   thread runs stop() completely; the cycling thread acquires the lock, clears next_task and takes A: the stop
   request is neither taken nor pending and nothing was posted after it. *)
Definition reqA : task := TStart 0 1 None [].
Definition reqB : task := TStop 1.
Definition lost_sched : list clabel :=
  post_steps reqA ++ [LCycle] ++ post_steps reqB ++ [LCycle; LCycle; LCycle; LCycle].

Theorem C14_refuted_read_outside_lock : exists sched, ~ no_request_lost (crun false sched).
Proof.
  exists lost_sched. intros H. specialize (H [] reqB [reqA]).
  assert (E : c_posted (crun false lost_sched) = [] ++ reqB :: [reqA]) by (vm_compute; reflexivity).
  specialize (H E). vm_compute in H. destruct H as [[H|[]]|[H|H]]; [discriminate H|discriminate H|apply H; reflexivity].
Qed.

(* the same schedule with the read under the lock: the stop request is the one taken *)
Example C14_same_schedule_with_locked_read :
  c_picked (crun true lost_sched) = [reqB] /\ c_nt (crun true lost_sched) = None.
Proof. vm_compute. split; reflexivity. Qed.

(* variant excluded by the facts start_resets_idle_status / start_assigns_idle_status: start_machine assigns
   sm.idle_status = (IDLE, '') itself when it is called instead of passing it with the start request.
   History: run of state 0; during its second call (hook 5) start_machine(state 1) comes from a second thread, then the
   call returns final_status(200); run of state 1 finishes with plain Finish - and reports the status of the first run. *)
Definition inheritW : world :=
  {| w_s := fun n => if Nat.eqb n 3 then BRetry else if Nat.eqb n 5 then BFinal 200 else BFinish;
     w_c := fun _ => CNone;
     w_env := fun n => if Nat.eqb n 5 then Some (TStart 1005 1 (Some 0) []) else None;
     w_guard := fun _ => true |}.

Theorem C14_refuted_idle_status_assigned_at_call :
  exists scode W ops,
    (forall n, w_guard W n = true) /\ (forall n i, w_env W n <> Some (TStop i)) /\
    let h := hrun gcodes scode false true W maxloops outer_rounds ops in
    late h = false /\ is_active (core h) = false /\ pending_start (core h) = false /\
    own h = (status_idle, TEmpty) /\ st h = (200%Z, TFinal 200).
Proof.
  exists (fun _ => None), inheritW, [HStart 0 0 0 []; HCycle; HCycle; HCycle]. split; [reflexivity|]. split.
  - (* the request id plays no part.  With the numeral 1005 (a unary nat) in the goal, destruct and discriminate rebuild it
       at every step (about a second); so the fact is proved for a variable t and the numeral enters only through apply *)
    assert (H : forall t n i, (if Nat.eqb n 5 then Some (TStart t 1 (Some 0) []) else None) <> Some (TStop i))
      by (intros t n i; destruct (Nat.eqb n 5); discriminate).
    intros n i. apply H.
  - vm_compute. repeat split; reflexivity.
Qed.

(* the same history on the code as it is: the second run reports its own (default) final status *)
Example C14_same_history_as_built :
  let h := hrun gcodes (fun _ => None) start_resets_idle_status start_assigns_idle_status inheritW maxloops outer_rounds
             [HStart 0 0 0 []; HCycle; HCycle; HCycle] in
  is_active (core h) = false /\ st h = (status_idle, TEmpty) /\ own h = (status_idle, TEmpty).
Proof. vm_compute. repeat split; reflexivity. Qed.

Print Assumptions C14_refuted_status_final_when_inactive.
Print Assumptions C14_refuted_read_outside_lock.
Print Assumptions C14_refuted_idle_status_assigned_at_call.
