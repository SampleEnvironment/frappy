(* C14 — invariants of the HasStates layer with start_machine / stop_machine issued between cycles and at every hook
   inside a cycle: projection onto the core state machine, one rule for the invariants of the layer (Section Rule), and
   three of them: busy while running (J), final/stopped status when inactive (K), the reported final status is the one of
   the run that finished (IdleOwn). *)
From Coq Require Import List Arith ZArith Bool.
Import ListNotations.
Require Import FV.Base.Util FV.C14.Model FV.C14.Lemmas FV.C14.HasStates.

Section Proofs.
Variable C : codes.
Variable scode : sid -> option Z.
Variable reset_idle : bool.
Variable assign_idle : bool.
Variable W : world.

(* the operations of HasStates.v at the parameters of this section *)
Notation h_start := (h_start C scode assign_idle).
Notation h_stop := (h_stop C scode).
Notation h_hook := (h_hook C scode assign_idle).
Notation h_new_state := (h_new_state C scode assign_idle).
Notation h_do_cleanup := (h_do_cleanup C scode assign_idle).
Notation h_after_cleanup := (h_after_cleanup C scode assign_idle).
Notation h_turn := (h_turn C scode assign_idle).
Notation h_inner := (h_inner C scode assign_idle).
Notation h_pickup_locked := (h_pickup_locked C scode reset_idle assign_idle).
Notation h_pickup := (h_pickup C scode reset_idle assign_idle).
Notation h_round := (h_round C scode reset_idle assign_idle).
Notation h_outer := (h_outer C scode reset_idle assign_idle).
Notation hstep := (hstep C scode reset_idle assign_idle).
Notation hrun := (hrun C scode reset_idle assign_idle).
Notation transition := (transition C scode).
Notation get_status := (get_status C scode).

(* what the world posts at the hook: nothing that takes effect, a start_machine, or a stop_machine on an active machine *)
Lemma h_hook_cases fin h (Q : hs -> Prop) :
  (next_task (hook W (core h)) = next_task (core h) -> Q (with_core h (hook W (core h)))) ->
  (forall i f cl kw, next_task (hook W (core h)) = Some (TStart i f cl kw) -> Q (h_start h (hook W (core h)) f)) ->
  (forall i, w_env W (ctr (core h)) = Some (TStop i) -> suppressed W (ctr (core h)) (TStop i) (core h) = false ->
             next_task (hook W (core h)) = Some (TStop i) -> Q (h_stop h (hook W (core h)) fin)) ->
  Q (h_hook W fin h).
Proof.
  intros H1 H2 H3. unfold HasStates.h_hook. rewrite hook_next_task_eq in H1, H2, H3.
  destruct (w_env W (ctr (core h))) as [[i f cl kw|i]|]; [eapply H2; reflexivity| |apply H1; reflexivity].
  destruct (suppressed W (ctr (core h)) (TStop i) (core h)) eqn:Hsup; [apply H1; reflexivity|].
  apply (H3 i eq_refl Hsup eq_refl).
Qed.

Definition hdstate (d : hdecision) : hs := match d with HRet h _ => h | HGo h => h end.
Definition proj (d : hdecision) : decision :=
  match d with HRet h r => DRet (core h) r | HGo h => DGo (core h) end.

Lemma core_h_hook fin h : core (h_hook W fin h) = hook W (core h).
Proof. apply h_hook_cases; reflexivity. Qed.

Lemma h_hook_statefunc fin h : statefunc (core (h_hook W fin h)) = statefunc (core h).
Proof. rewrite core_h_hook. apply hook_statefunc. Qed.

Lemma core_h_new_state h f : core (h_new_state W h f) = new_state W (core h) f.
Proof. unfold HasStates.h_new_state, new_state. cbn [core with_core]. rewrite core_h_hook. reflexivity. Qed.

(* h_new_state in steps: the status of the transition is set and logged (announced), the transition callback runs
   (h_hook, the finishing one if f = None), then the core takes the new state *)
Definition announced (h : hs) (f : option sid) : hs :=
  let s' := transition (st h) (idle h) (next_task (core h)) f in
  {| core := emit (core h) (EvTrans (active (core h)) f); st := s'; idle := idle h; log := s' :: log h;
     own := own h; late := late h |}.
Lemma h_new_state_eq h f :
  h_new_state W h f =
  let h2 := h_hook W (match f with None => true | Some _ => false end) (announced h f) in
  with_core h2 (set_statefunc (set_init (core h2) true) f).
Proof. reflexivity. Qed.

Lemma is_active_true s : is_active s = true <-> statefunc s <> None.
Proof. unfold is_active, active. destruct (statefunc s); split; congruence. Qed.
Lemma is_active_false s : is_active s = false <-> statefunc s = None.
Proof. unfold is_active, active. destruct (statefunc s); split; congruence. Qed.

Lemma core_set_final h s : core (set_final h s) = core h.
Proof. reflexivity. Qed.

(* h_do_cleanup in the pieces of Lemmas.do_cleanup_eq; on_cleanup (function 0) called for an exception sets the error status *)
Lemma h_do_cleanup_eq h r :
  h_do_cleanup W h r =
  match cleanup (core h) with
  | None => (with_core h (mark (core h) r), None)
  | Some (o, c) =>
      let h1 := h_hook W false (with_core h (mark (core h) r)) in
      let c3 := called (core h1) o c in
      (h_hook W false (if Nat.eqb c 0 && Nat.eqb (match cleanup_reason (core h1) with Some r' => reason_code r' | None => 0 end) 0
                       then set_final (with_core h1 c3) (c_error C, TError) else with_core h1 c3),
       cret (w_c W (ctr c3)))
  end.
Proof.
  rewrite <- (mark_cleanup (core h) r).
  unfold HasStates.h_do_cleanup, mark. cbv zeta.
  destruct (cleanup _) as [[o c]|]; [apply cret_pair|reflexivity].
Qed.

Lemma core_h_do_cleanup h r :
  core (fst (h_do_cleanup W h r)) = fst (do_cleanup W (core h) r) /\ snd (h_do_cleanup W h r) = snd (do_cleanup W (core h) r).
Proof.
  rewrite h_do_cleanup_eq, do_cleanup_eq. destruct (cleanup (core h)) as [[o c]|]; [|split; reflexivity].
  cbv zeta. cbn [fst snd]. rewrite !core_h_hook. cbn [core with_core].
  split; [destruct (_ && _)|]; reflexivity.
Qed.

Lemma h_do_cleanup_statefunc h r : statefunc (core (fst (h_do_cleanup W h r))) = statefunc (core h).
Proof. destruct (core_h_do_cleanup h r) as [-> _]. apply do_cleanup_statefunc. Qed.

Lemma proj_h_after_cleanup h r :
  proj (h_after_cleanup W (h_do_cleanup W h r)) = after_cleanup W (do_cleanup W (core h) r).
Proof.
  destruct (core_h_do_cleanup h r) as [A B]. unfold HasStates.h_after_cleanup, after_cleanup.
  rewrite B. destruct (snd (do_cleanup W (core h) r)); cbn [proj]; [rewrite core_h_new_state|]; rewrite A; reflexivity.
Qed.

Lemma proj_h_turn h : proj (h_turn W h) = turn W (core h).
Proof.
  assert (IC : forall nt cr a b a' b', (forall t : task, proj (a t) = a' t) -> proj b = b' ->
    proj (match nt, cr : option reason with Some t, None => a t | _, _ => b end) =
    match nt, cr with Some t, None => a' t | _, _ => b' end) by (intros [t|] [x|]; auto).
  unfold HasStates.h_turn, turn. cbv zeta. rewrite <- (core_h_hook false h). set (h0 := h_hook W false h).
  apply IC; [intros t; apply proj_h_after_cleanup|].
  destruct (statefunc (core h0)) as [f|]; [|reflexivity].
  set (h1 := h_hook W false (with_core h0 (emit (core h0) (EvCall f (init (core h0)))))).
  assert (E1 : core h1 = hook W (emit (core h0) (EvCall f (init (core h0))))) by apply core_h_hook. rewrite <- E1.
  destruct (w_s W (ctr (core h0))); cbn [proj core with_core set_final]; rewrite ?core_h_new_state; try reflexivity.
  - apply (proj_h_after_cleanup (with_core h1 (set_init (core h1) false))).
  - apply proj_h_after_cleanup.
Qed.

Lemma core_h_inner k : forall h,
  core (fst (h_inner W k h)) = fst (inner W k (core h)) /\ snd (h_inner W k h) = snd (inner W k (core h)).
Proof.
  induction k as [|k IH]; intros h; cbn [HasStates.h_inner inner]; [auto|].
  pose proof (proj_h_turn h) as P. destruct (h_turn W h) as [h' r|h']; cbn [proj] in P; rewrite <- P; [auto|apply IH].
Qed.

Lemma core_h_pickup_locked h : core (h_pickup_locked W h) = pickup_locked W (core h).
Proof.
  unfold HasStates.h_pickup_locked. destruct (next_task (core h)) as [[i f cl kw|i]|] eqn:E; cbn [core with_core]; try reflexivity.
  - unfold pickup_locked. rewrite E. rewrite core_h_new_state. reflexivity.
  - symmetry. apply (pickup_locked_none W _ E).
Qed.

Lemma core_h_pickup h : core (h_pickup W h) = pickup W (core h).
Proof.
  unfold HasStates.h_pickup, pickup. destruct (next_task (core h)); [|reflexivity].
  rewrite core_h_pickup_locked, core_h_hook. reflexivity.
Qed.

Lemma core_h_round m h :
  core (fst (h_round W m h)) = fst (round W m (core h)) /\ snd (h_round W m h) = snd (round W m (core h)).
Proof.
  unfold HasStates.h_round, round. destruct (statefunc (core h)).
  - destruct (core_h_inner m h) as [A B]. destruct (h_inner W m h) as [h1 r], (inner W m (core h)) as [s1 r'].
    cbn [fst snd] in *. subst r'. destruct r; cbn [fst snd].
    + auto.
    + rewrite core_h_pickup, core_h_new_state, A. auto.
    + destruct (core_h_do_cleanup h1 RExc) as [D1 D2]. rewrite A in D1, D2.
      destruct (h_do_cleanup W h1 RExc) as [h2 ret], (do_cleanup W s1 RExc) as [s2 ret']. cbn [fst snd] in *. subst ret'.
      destruct ret; cbn [fst snd]; [|rewrite core_h_pickup]; rewrite core_h_new_state, D1; auto.
  - cbn [fst snd]. rewrite core_h_pickup. auto.
Qed.

Lemma core_h_outer m k : forall h, core (h_outer W m k h) = outer W m k (core h).
Proof.
  induction k as [|k IH]; intros h; cbn [HasStates.h_outer outer]; [reflexivity|].
  destruct (core_h_round m h) as [A B]. destruct (h_round W m h) as [h' go], (round W m (core h)) as [s' go'].
  cbn [fst snd] in *. rewrite <- B, <- A. destruct go; [apply IH|reflexivity].
Qed.

(* as Lemmas.run_rule; the layer's state changes through h_hook, with_core (core steps that keep statefunc and next_task),
   set_final (in a state function or a cleanup function, so the machine is active), h_new_state and h_pickup_locked *)
Section Rule.
Variable P : hs -> Prop.
Hypothesis Hhook : forall h, P h -> P (h_hook W false h).
Hypothesis Hcore : forall h c,
  P h -> statefunc c = statefunc (core h) -> next_task c = next_task (core h) -> P (with_core h c).
Hypothesis Hfinal : forall h s, P h -> statefunc (core h) <> None -> P (set_final h s).
Hypothesis Htrans : forall h f, P h -> (f <> None -> statefunc (core h) <> None) -> P (h_new_state W h f).
Hypothesis Hpick : forall h, P h -> statefunc (core h) = None -> P (h_pickup_locked W h).

Lemma h_do_cleanup_rule h r : P h -> statefunc (core h) <> None -> P (fst (h_do_cleanup W h r)).
Proof.
  intros Hp Ha. rewrite h_do_cleanup_eq.
  assert (P1 : P (with_core h (mark (core h) r))) by (apply Hcore; [exact Hp|apply mark_statefunc|apply mark_next_task]).
  destruct (cleanup (core h)) as [[o c]|]; [|exact P1]. cbv zeta. cbn [fst]. apply Hhook.
  set (h1 := h_hook W false (with_core h (mark (core h) r))).
  assert (P3 : P (with_core h1 (called (core h1) o c))) by (apply Hcore; [apply Hhook, P1|reflexivity..]).
  destruct (_ && _); [apply Hfinal|]; try exact P3.
  cbn. subst h1. rewrite h_hook_statefunc. cbn. destruct (mark_spec (core h) r) as [-> _]. exact Ha.
Qed.

Definition h_turn_ok (d : hdecision) : Prop := P (hdstate d) /\ statefunc (core (hdstate d)) <> None.

Lemma h_after_cleanup_rule h r :
  P h -> statefunc (core h) <> None -> h_turn_ok (h_after_cleanup W (h_do_cleanup W h r)).
Proof.
  intros Hp Ha. pose proof (h_do_cleanup_rule h r Hp Ha) as D. pose proof (h_do_cleanup_statefunc h r) as Ds.
  unfold HasStates.h_after_cleanup, h_turn_ok. destruct (h_do_cleanup W h r) as [h' [f|]]; cbn [fst snd hdstate] in *.
  - split; [apply Htrans; [exact D|congruence]|rewrite core_h_new_state; discriminate].
  - split; [exact D|congruence].
Qed.

Lemma h_turn_rule h : P h -> statefunc (core h) <> None -> h_turn_ok (h_turn W h).
Proof.
  intros Hp Ha. apply Hhook in Hp. rewrite <- (h_hook_statefunc false h) in Ha.
  unfold HasStates.h_turn. cbv zeta. set (h0 := h_hook W false h) in *.
  apply (interrupt_cases h_turn_ok); [intros t _ _; apply h_after_cleanup_rule; assumption|].
  destruct (statefunc (core h0)) as [f|] eqn:E; [|contradiction].
  set (h1 := h_hook W false (with_core h0 (emit (core h0) (EvCall f (init (core h0)))))).
  assert (P1 : P h1) by (apply Hhook, Hcore; [exact Hp|reflexivity..]).
  assert (A1 : statefunc (core h1) <> None) by (subst h1; rewrite h_hook_statefunc; cbn; congruence).
  assert (P2 : P (with_core h1 (set_init (core h1) false))) by (apply Hcore; [exact P1|reflexivity..]).
  destruct (w_s W (ctr (core h0))).
  - split; cbn [hdstate]; [apply Htrans; auto|rewrite core_h_new_state; discriminate].
  - split; assumption.
  - split; assumption.
  - apply h_after_cleanup_rule; assumption.
  - apply h_after_cleanup_rule; assumption.
  - split; [apply Hfinal; [apply Hcore; [exact P1|reflexivity..]|]|]; exact A1.
Qed.

Lemma h_inner_rule k : forall h, P h -> statefunc (core h) <> None ->
  P (fst (h_inner W k h)) /\ statefunc (core (fst (h_inner W k h))) <> None.
Proof.
  induction k as [|k IH]; intros h Hp Ha; cbn [HasStates.h_inner]; [split; assumption|].
  destruct (h_turn_rule h Hp Ha) as [T1 T2]. destruct (h_turn W h) as [h' r|h']; cbn [hdstate fst] in *; auto.
Qed.

Lemma h_pickup_rule h : P h -> statefunc (core h) = None -> P (h_pickup W h).
Proof.
  intros Hp Hi. unfold HasStates.h_pickup. destruct (next_task (core h)); [|exact Hp].
  apply Hpick; [apply Hhook, Hp|rewrite h_hook_statefunc; exact Hi].
Qed.

Lemma h_round_rule m h : P h -> P (fst (h_round W m h)).
Proof.
  intros Hp. unfold HasStates.h_round. destruct (statefunc (core h)) eqn:Hs; [|apply h_pickup_rule; assumption].
  destruct (h_inner_rule m h Hp) as [I1 I2]; [congruence|]. destruct (h_inner W m h) as [h1 r]. cbn [fst] in *.
  assert (F : forall h2, P h2 -> P (h_pickup W (h_new_state W h2 None))).
  { intros h2 H2. apply h_pickup_rule; [apply Htrans; [exact H2|congruence]|rewrite core_h_new_state; reflexivity]. }
  destruct r; cbn [fst]; auto.
  pose proof (h_do_cleanup_rule h1 RExc I1 I2) as D. pose proof (h_do_cleanup_statefunc h1 RExc) as Ds.
  destruct (h_do_cleanup W h1 RExc) as [h2 [f|]]; cbn [fst] in *; [apply Htrans; [exact D|congruence]|apply F, D].
Qed.

Lemma h_outer_rule m k : forall h, P h -> P (h_outer W m k h).
Proof.
  induction k as [|k IH]; intros h Hp; cbn [HasStates.h_outer]; [exact Hp|].
  pose proof (h_round_rule m h Hp) as R. destruct (h_round W m h) as [h' go]. cbn [fst] in R. destruct go; auto.
Qed.
End Rule.

Lemma hrun_ind (P : hs -> Prop) m r ops :
  (forall h o, P h -> P (hstep W m r h o)) -> P (hs0 C) -> P (hrun W m r ops).
Proof.
  intros Hstep. unfold HasStates.hrun. generalize (hs0 C).
  induction ops as [|o ops IH]; intros h H; cbn [fold_left]; auto.
Qed.

(* every stop request at a hook comes from stop_machine: it is issued only while the machine is active *)
Hypothesis G : forall n, w_guard W n = true.

Lemma effective_stop_active i s : suppressed W (ctr s) (TStop i) s = false -> statefunc s <> None.
Proof. unfold suppressed, active. rewrite G. destruct (statefunc s); [discriminate|discriminate]. Qed.

Definition busyb (c : Z) : bool := (c_busy C <=? c)%Z && (c <? c_error C)%Z.
Hypothesis Hsc : forall f c, scode f = Some c -> busyb c = true.
Hypothesis Hbusy : busyb (c_busy C) = true.

Definition pending_start (s : sm) : bool := match next_task s with Some (TStart _ _ _ _) => true | _ => false end.
Definition J (h : hs) : Prop :=
  (is_active (core h) = true \/ pending_start (core h) = true) -> busyb (fst (st h)) = true.
Definition JN (h : hs) : Prop := pending_start (core h) = true -> busyb (fst (st h)) = true.
Definition Busy (h : hs) : Prop := busyb (fst (st h)) = true.

Lemma B_J h : Busy h -> J h.
Proof. intros H _. exact H. Qed.
Lemma J_JN h : J h -> JN h.
Proof. intros H X. apply H. right. exact X. Qed.
Lemma J_active_B h : J h -> statefunc (core h) <> None -> Busy h.
Proof. intros H X. apply H. left. apply is_active_true, X. Qed.

Lemma start_status_busy h c' f : Busy (h_start h c' f).
Proof.
  unfold Busy, HasStates.h_start. cbn [st].
  assert (X : busyb (fst (match get_status (idle h) (Some f) (Some (c_busy C)) with Some s => s | None => st h end)) = true).
  { unfold HasStates.get_status. destruct (scode f) as [c|] eqn:E; cbn; [apply (Hsc f c E)|exact Hbusy]. }
  destruct (is_active (core h)); exact X.
Qed.

Lemma stop_status_busy h c' fin : Busy h -> statefunc (core h) <> None -> Busy (h_stop h c' fin).
Proof.
  intros HB Hs. unfold Busy, HasStates.h_stop. cbn [st fst]. unfold HasStates.get_status.
  destruct (statefunc (core h)) as [g|]; [|congruence].
  destruct (scode g) as [c|] eqn:E; cbn; [apply (Hsc g c E)|exact HB].
Qed.

Lemma transition_some_busy s i p g : busyb (fst s) = true -> busyb (fst (transition s i p (Some g))) = true.
Proof.
  intros Hs. unfold HasStates.transition, HasStates.get_status.
  destruct (scode g) as [c|] eqn:E.
  - pose proof (Hsc g c E) as Hc.
    destruct p as [[i0 f cl kw|i0]|]; cbn; try exact Hc.
    destruct (text_eqb (snd s) (TName g)); cbn; exact Hs.
  - destruct p as [[i0 f cl kw|i0]|]; cbn; exact Hs.
Qed.

Lemma transition_none_start s i tid f cl kw : busyb (fst (transition s i (Some (TStart tid f cl kw)) None)) = true.
Proof.
  unfold HasStates.transition, HasStates.get_status. destruct (scode f) as [c|] eqn:E; cbn; [apply (Hsc f c E)|exact Hbusy].
Qed.

Lemma with_core_J h c : J h -> statefunc c = statefunc (core h) -> next_task c = next_task (core h) -> J (with_core h c).
Proof. unfold J, is_active, active, pending_start. cbn. intros HJ -> ->. exact HJ. Qed.

Lemma h_hook_B fin h : Busy h -> Busy (h_hook W fin h).
Proof.
  intros HB. apply h_hook_cases.
  - intros _. exact HB.
  - intros. apply start_status_busy.
  - intros i _ Hsup _. apply stop_status_busy; [exact HB|apply (effective_stop_active i), Hsup].
Qed.

Lemma h_hook_J fin h : J h -> J (h_hook W fin h).
Proof.
  intros HJ. apply h_hook_cases.
  - intros E. apply with_core_J; [exact HJ|apply hook_statefunc|exact E].
  - intros. apply B_J, start_status_busy.
  - intros i _ Hsup _. pose proof (effective_stop_active i _ Hsup) as Hact.
    apply B_J, stop_status_busy; [apply J_active_B; assumption|exact Hact].
Qed.

Lemma h_hook_JN fin h : JN h -> JN (h_hook W fin h).
Proof.
  intros HJ. apply h_hook_cases.
  - intros E. unfold JN, pending_start in *. cbn [core st with_core]. rewrite E. exact HJ.
  - intros i f cl kw _ _. apply start_status_busy.
  - intros i _ _ E. unfold JN, pending_start. cbn [core st HasStates.h_stop]. rewrite E. discriminate.
Qed.

Lemma h_new_state_B h g : Busy h -> Busy (h_new_state W h (Some g)).
Proof.
  intros HB. rewrite h_new_state_eq. change (Busy (h_hook W false (announced h (Some g)))).
  apply h_hook_B. unfold Busy, announced. cbn [st]. apply transition_some_busy, HB.
Qed.

Lemma h_new_state_J_none h : J (h_new_state W h None).
Proof.
  rewrite h_new_state_eq. cbv zeta.
  assert (H1 : JN (h_hook W true (announced h None))).
  { apply h_hook_JN. unfold JN, pending_start, announced. cbn [core st emit next_task].
    destruct (next_task (core h)) as [[tid f cl kw|tid]|]; try discriminate. intros _. apply transition_none_start. }
  unfold J, is_active, active. cbn [core st with_core set_statefunc statefunc]. intros [X|X]; [discriminate|].
  apply H1. exact X.
Qed.

Lemma h_new_state_J h f : J h -> (f <> None -> statefunc (core h) <> None) -> J (h_new_state W h f).
Proof.
  intros HJ Ha. destruct f as [g|]; [|apply h_new_state_J_none].
  apply B_J, h_new_state_B, J_active_B; [exact HJ|apply Ha; discriminate].
Qed.

Lemma h_pickup_locked_J h : J h -> statefunc (core h) = None -> J (h_pickup_locked W h).
Proof.
  intros HJ Hidle. unfold HasStates.h_pickup_locked.
  destruct (next_task (core h)) as [[i f cl kw|i]|] eqn:E; [| |exact HJ].
  - apply B_J. unfold Busy. cbn [st].
    apply h_new_state_B. unfold Busy. cbn [st with_core]. apply HJ. right. unfold pending_start. rewrite E. reflexivity.
  - unfold J, is_active, active, pending_start. cbn [core st with_core]. unfold pickup_locked. rewrite E. cbn. rewrite Hidle.
    intros [X|X]; discriminate.
Qed.

Lemma hstep_J m r h o : J h -> J (hstep W m r h o).
Proof.
  intros HJ. destruct o; cbn [HasStates.hstep].
  - apply B_J, start_status_busy.
  - destruct (is_active (core h)) eqn:A; [|exact HJ].
    apply B_J, stop_status_busy; [apply HJ; left; exact A|].
    apply is_active_true, A.
  - exact (h_outer_rule J (h_hook_J false) with_core_J (fun h s H _ => H) h_new_state_J h_pickup_locked_J m r h HJ).
Qed.

Theorem busy_while_running m r ops : J (hrun W m r ops).
Proof.
  apply hrun_ind; [intros; apply hstep_J; assumption|].
  unfold J, is_active, active, pending_start; cbn; intros [X|X]; discriminate.
Qed.

Definition idle_or_default (i : option status) : status := match i with Some s => s | None => (c_error C, TNoFinal) end.
Definition K (h : hs) : Prop :=
  late h = false -> is_active (core h) = false -> pending_start (core h) = false -> st h = idle_or_default (idle h).
(* the same without looking at the state: what holds inside the finishing transition *)
Definition K0 (h : hs) : Prop :=
  late h = false -> pending_start (core h) = false -> st h = idle_or_default (idle h).

Lemma active_K h : statefunc (core h) <> None -> K h.
Proof. intros Ha _ Hi _. contradiction (Ha (proj1 (is_active_false _) Hi)). Qed.

Lemma with_core_K h c : K h -> statefunc c = statefunc (core h) -> next_task c = next_task (core h) -> K (with_core h c).
Proof. unfold K, is_active, active, pending_start. cbn. intros HK -> ->. exact HK. Qed.

Lemma h_hook_K fin h : K h -> K (h_hook W fin h).
Proof.
  intros HK. apply h_hook_cases.
  - intros E. apply with_core_K; [exact HK|apply hook_statefunc|exact E].
  - intros i f cl kw E. unfold K, pending_start. cbn [core HasStates.h_start]. rewrite E. discriminate.
  - intros i _ Hsup _. apply active_K. cbn [core HasStates.h_stop]. rewrite hook_statefunc. apply (effective_stop_active i), Hsup.
Qed.

Lemma h_hook_K0_fin h : K0 h -> K0 (h_hook W true h).
Proof.
  intros HK. apply h_hook_cases.
  - intros E. unfold K0, pending_start in *. cbn [core st idle late with_core]. rewrite E. exact HK.
  - intros i f cl kw E. unfold K0, pending_start. cbn [core HasStates.h_start]. rewrite E. discriminate.
  - intros. unfold K0. cbn [late HasStates.h_stop]. discriminate.
Qed.

Lemma h_new_state_K h f : K (h_new_state W h f).
Proof.
  destruct f as [g|]; [apply active_K; rewrite core_h_new_state; cbn; discriminate|].
  rewrite h_new_state_eq. cbv zeta.
  assert (H1 : K0 (h_hook W true (announced h None))).
  { apply h_hook_K0_fin. unfold K0, pending_start, announced. cbn [core st idle late emit next_task]. intros _ Hp.
    unfold HasStates.transition, HasStates.get_status, idle_or_default.
    destruct (next_task (core h)) as [[tid f cl kw|tid]|]; [discriminate| |]; destruct (idle h); reflexivity. }
  unfold K, pending_start in *. cbn [core st idle late with_core set_statefunc next_task]. intros L _ P. apply H1; assumption.
Qed.

Lemma h_pickup_locked_K h : K h -> statefunc (core h) = None -> K (h_pickup_locked W h).
Proof.
  intros HK Hidle. unfold HasStates.h_pickup_locked.
  destruct (next_task (core h)) as [[i f cl kw|i]|] eqn:E; [| |exact HK].
  - apply active_K. cbn [core]. cbn. discriminate.
  - unfold K, is_active, active, pending_start in *. cbn [core st idle late with_core]. unfold pickup_locked. rewrite E. cbn.
    rewrite Hidle. rewrite Hidle, E in HK. intros L _ _. apply HK; auto.
Qed.

Lemma hstep_K m r h o : K h -> K (hstep W m r h o).
Proof.
  intros HK. destruct o; cbn [HasStates.hstep].
  - unfold K, pending_start. cbn [core HasStates.h_start]. intros _ _ X. discriminate.
  - destruct (is_active (core h)) eqn:A; [|exact HK].
    apply active_K. exact (proj1 (is_active_true (core h)) A).
  - exact (h_outer_rule K (h_hook_K false) with_core_K (fun h s _ => active_K (set_final h s))
             (fun h f _ _ => h_new_state_K h f) h_pickup_locked_K m r h HK).
Qed.

Theorem inactive_status_is_final m r ops : K (hrun W m r ops).
Proof. apply hrun_ind; [intros; apply hstep_K; assumption|]. unfold K; cbn; reflexivity. Qed.

Hypothesis HR : reset_idle = true.       (* start_machine passes idle_status with the start keywords *)
Hypothesis HA : assign_idle = false.     (* ... and never assigns it itself *)

(* NS: no stop request arrives at a hook (stop_machine is called between cycles only) *)
Definition NS : Prop := forall n i, w_env W n <> Some (TStop i).
Definition IdleOwn (h : hs) : Prop := idle h = Some (own h) /\ (NS -> late h = false).

Lemma with_core_I h c : IdleOwn h -> IdleOwn (with_core h c).
Proof. intros H; exact H. Qed.

Lemma set_final_I h s : IdleOwn h -> IdleOwn (set_final h s).
Proof. intros [_ H]. split; [reflexivity|exact H]. Qed.

Lemma h_hook_I fin h : IdleOwn h -> IdleOwn (h_hook W fin h).
Proof.
  intros HI. apply h_hook_cases.
  - intros _. exact HI.
  - intros. unfold IdleOwn, HasStates.h_start. cbn [idle own late]. rewrite HA. split; [apply HI|reflexivity].
  - intros i E _ _. split; [reflexivity|]. intros N. exfalso. apply (N _ _ E).
Qed.

Lemma h_new_state_I h f : IdleOwn h -> IdleOwn (h_new_state W h f).
Proof.
  intros HI. rewrite h_new_state_eq. exact (h_hook_I _ (announced h f) HI).
Qed.

Lemma h_pickup_locked_I h : IdleOwn h -> IdleOwn (h_pickup_locked W h).
Proof.
  intros HI. unfold HasStates.h_pickup_locked. destruct (next_task (core h)) as [[i f cl kw|i]|]; [| |exact HI].
  - match goal with |- context [HasStates.h_new_state C scode assign_idle W ?x ?y] =>
      pose proof (h_new_state_I x y (with_core_I h _ HI)) as [_ H3] end.
    unfold IdleOwn. cbn [idle own late]. rewrite HR. split; [reflexivity|exact H3].
  - exact HI.
Qed.

Lemma hstep_I m r h o : IdleOwn h -> IdleOwn (hstep W m r h o).
Proof.
  intros HI. destruct o; cbn [HasStates.hstep].
  - unfold IdleOwn, HasStates.h_start. cbn [idle own late]. rewrite HA. split; [apply HI|reflexivity].
  - destruct (is_active (core h)); [|exact HI]. split; [reflexivity|]. cbn [late HasStates.h_stop]. apply HI.
  - exact (h_outer_rule IdleOwn (h_hook_I false) (fun h c H _ _ => with_core_I h c H) (fun h s H _ => set_final_I h s H)
             (fun h f H _ => h_new_state_I h f H) (fun h H _ => h_pickup_locked_I h H) m r h HI).
Qed.

Theorem idle_is_own_final m r ops : IdleOwn (hrun W m r ops).
Proof. apply hrun_ind; [intros; apply hstep_I; assumption|]. split; reflexivity. Qed.

(* after a run has finished the reported status is that run's own final status *)
Theorem status_is_own_final m r ops :
  let h := hrun W m r ops in
  late h = false -> is_active (core h) = false -> pending_start (core h) = false -> st h = own h.
Proof.
  intros h L A P. pose proof (inactive_status_is_final m r ops L A P) as HK.
  pose proof (idle_is_own_final m r ops) as [HI _]. fold h in HK, HI. rewrite HI in HK. exact HK.
Qed.

End Proofs.
