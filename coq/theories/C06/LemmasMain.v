(* C06 -- states reachable from a built node *)
From Coq Require Import ZArith NArith Bool List.
Import ListNotations.
Require Import FV.Base.Util FV.Base.F64 FV.Base.PyVal FV.C01.Model FV.Gen.C06 FV.C06.Model FV.C06.Lemmas FV.C06.LemmasBuild.

(* module names are the keys of a python dict *)
Definition well_configured (n : list mcfg) : Prop := NoDup (map mc_name n).

Lemma reachable_consistent n s0 E ops :
  build n = Ok s0 -> well_configured n -> consistent (run E s0 ops).
Proof. intros H H1. apply run_consistent. eapply build_consistent; eauto. Qed.

Theorem stable E s ops : describe (run E s ops) = describe s.
Proof. apply describe_run. Qed.

(* Parameter.finish forces readonly on a parameter with a constant *)
Lemma built_constant_readonly n s md a p : build n = Ok s -> In md (s_mods s) -> In a (m_accs md) -> a_body a = AP p ->
  p_constant p <> None -> p_readonly p = true.
Proof.
  intros H Hmd Ha. pose proof (built_pars (fun p => p_constant p <> None -> p_readonly p = true) _ _ H) as Q.
  rewrite Forall_forall in Q. specialize (Q (fun mu pc p X => proj1 (build_par_flags mu pc p X)) md Hmd).
  rewrite Forall_forall in Q. exact (Q a Ha p).
Qed.
