(* C06 -- The node's self-description is true of its behaviour: property theorems.
   n ranges over ALL node configurations (any number of modules and accessibles, any datatypes of FV.C01.Model),
   ops over ALL histories of describe / read / change / do / activate requests and driver-side assignments,
   j / arg over all modelled Python values.  well_configured n = module names distinct (keys of a python dict).

   (lists exactly)   the report lists, in order, exactly the exported modules, and for each of them the list of its keys IS the
                     list of wire names of its accessibles (class export overridden by the configured export, module-level
                     hiding, fixExport rules), which are distinct              -- C06_lists_exactly, C06_wire_name_rules,
                     C06_duplicate_export_rejected (a shared wire name is a configuration error: no node is built)
   (stable)          no request and no driver assignment changes the report                      -- C06_stable
   (same datainfo)   a change / do request is accepted or rejected by exactly the datatype the report shows   -- C06_datainfo_same_object
   (flags)           readonly / constant in the report <-> change refused with ReadOnly; constant implies readonly;
                     a constant parameter reads as exactly the described constant
                                                    -- C06_flags_predict, C06_constant_is_readonly, C06_read_described
   (read)            what a read method obtained from the hardware is converted by the DESCRIBED datatype (the instance's
                     Parameter, class datatype + configured datatype properties): reply and updates carry the converted value,
                     a value that datatype refuses gives an error reply and error updates only        -- C06_read_described
   (nothing undescribed) read / change / do / activate of a name the report does not list is refused with NoSuch..., state
                     unchanged, no update, in every reachable state                              -- C06_nothing_undescribed
   (interface class / features / implementation) functions of the class (supplied MRO, qualified name), for EVERY
                     configuration, also one that names these module properties itself        -- C06_interface_and_features
   (main unit)       after substitution no described unit contains $ when the main unit has none  -- C06_main_unit_substituted
   (emitted values)  every update any operation emits (change, hardware read, driver assignment, activate snapshot) belongs to a
                     described parameter and carries the error mark or the export, by the DESCRIBED datatype, of a value that
                     this datatype's conversion or validation produced; the same for the cached value a read answers
                                                    -- C06_emitted_values_converted, C06_cached_values_converted
                     (that a client's import_value takes every such export back is the round trip of C02, not restated here;
                     the direct oracle checks it with the real get_datatype on every generated case)
   (strict JSON)     not modelled: checked by the direct oracle on every generated case; the NaN
                     constant that breaks strict JSON (open finding) is reproduced by C06_refuted_nan_constant_described *)
From Coq Require Import ZArith NArith Bool List.
Import ListNotations.
Require Import FV.Gen.C06 FV.Base.Util FV.Base.F64 FV.Base.PyVal FV.C01.Model FV.C06.Model FV.C06.Lemmas FV.C06.LemmasBuild
  FV.C06.LemmasMain FV.C06.LemmasValues FV.C06.Refuted FV.C06.Startup FV.C06.LemmasStartup.

Theorem C06_source_facts :
  features_from_direct_feature_bases = true /\ fixexport_shape = true /\
  add_accessible_registers_final_export = true /\ finish_reexports_constant = true /\
  main_unit_after_cfg_and_dollar_replace = true /\ export_properties_nondefault_rule = true /\
  property_export_table = true /\ for_export_shapes = true /\ export_accessibles_shape = true /\
  change_path_shape = true /\ read_path_shape = true /\ do_path_shape = true /\ activate_path_shape = true /\
  announce_update_shape = true /\ access_wrappers_use_instance_datatype = true /\ auto_props_after_cfg = true /\
  interface_classes_limit = 1%nat /\ finish_calls_class_constant = 3%nat /\
  description_built_per_call = true /\ startup_order = true /\ register_input_extends_enum = true.
Proof. repeat split; reflexivity. Qed.

(* lists_module mc e: e is named like mc, the list of its accessible keys equals the list of wire names of the accessibles of
   mc (cfg_wires: configured export over class export, fixExport) which has no duplicates, implementation /
   interface_classes / features are those computed from the class *)
Theorem C06_lists_exactly : forall n s,
  build n = Ok s -> Forall2 lists_module (filter mc_export n) (describe s).
Proof. exact lists_exactly. Qed.

Theorem C06_wire_name_rules : forall attr,
  fix_export attr ExFalse = None /\ fix_export attr (ExName []) = None /\
  (forall c s, fix_export attr (ExName (c :: s)) = Some (c :: s)) /\
  (is_predefined attr = true -> fix_export attr ExTrue = Some attr) /\
  (is_predefined attr = false -> fix_export attr ExTrue = Some (underscore :: attr)).
Proof. unfold fix_export. repeat split; auto; intros H; rewrite H; auto. Qed.

Theorem C06_wire_of_spec : forall me a,
  wire_of me a = if me then fix_export (ac_attr a) (match ac_cfg_export a with Some e => e | None => ac_export a end)
                 else None.
Proof. reflexivity. Qed.

Theorem C06_duplicate_export_rejected : forall n mc s,
  In mc n -> build n = Ok s -> NoDup (cfg_wires (mc_export mc) (mc_accs mc)).
Proof.
  intros n mc s Hin H. destruct (Forall2_in_l _ _ _ _ (proj1 (build_mods _ _ H)) Hin) as (md & _ & Hb).
  destruct (build_mod_static _ _ Hb) as (_ & _ & _ & _ & _ & Ha & Hd).
  rewrite <- (wires_forall2 _ _ _ _ Ha). apply dup_free_nodup. auto.
Qed.

Theorem C06_stable : forall E s ops, describe (run E s ops) = describe s.
Proof. exact stable. Qed.

Theorem C06_nothing_undescribed : forall n s0 E ops m w,
  build n = Ok s0 -> well_configured n ->
  let s := run E s0 ops in
  described s m w = None ->
  (forall tok, exists r, do_read s m w tok = (s, r, []) /\ refused r) /\
  (forall j, exists r, do_change E s m w j = (s, r, []) /\ refused r) /\
  (forall arg, refused (do_do E s m w arg)) /\
  (exists r, do_activate s (Some (m, Some w)) = (s, r, []) /\ refused r) /\
  (assoc_str m (describe s) = None -> do_activate s (Some (m, None)) = (s, RpErr RNoMod, [])).
Proof. intros n s0 E ops m w H W. apply undescribed_refused. eapply reachable_consistent; eauto. Qed.

Theorem C06_datainfo_same_object : forall n s0 E ops m w,
  build n = Ok s0 -> well_configured n ->
  let s := run E s0 ops in
  (forall g v pd j, described s m w = Some (DP g v pd) -> pd_readonly pd = false -> pd_constant pd = None ->
     exists prev,
       match verdict E (pd_dt pd) j prev with
       | Err e => do_change E s m w j = (s, RpErr (RExc e), [])
       | Ok nv => exists s' us, do_change E s m w j =
                    (s', reply_of (dt_export (pd_dt pd) nv >>= fun x => Ok (with_qualifiers x)), us)
       end) /\
  (forall g v x r arg, described s m w = Some (DC g v x r) ->
     exists ret, do_do E s m w arg =
       reply_of (run_cmd E {| c_arg := x; c_res := r; c_ret := ret |} arg >>= fun y => Ok (with_qualifiers y))).
Proof. intros n s0 E ops m w H W. apply described_datainfo. eapply reachable_consistent; eauto. Qed.

Theorem C06_flags_predict : forall n s0 E ops m w g v pd,
  build n = Ok s0 -> well_configured n ->
  let s := run E s0 ops in
  described s m w = Some (DP g v pd) ->
  ((pd_readonly pd = true \/ pd_constant pd <> None) -> forall j, do_change E s m w j = (s, RpErr RReadOnly, [])) /\
  (pd_readonly pd = false -> pd_constant pd = None -> forall j, snd (fst (do_change E s m w j)) <> RpErr RReadOnly).
Proof. intros n s0 E ops m w g v pd H W. apply described_flags. eapply reachable_consistent; eauto. Qed.

Theorem C06_constant_is_readonly : forall n s0 E ops m w g v pd c,
  build n = Ok s0 -> well_configured n ->
  described (run E s0 ops) m w = Some (DP g v pd) -> pd_constant pd = Some c -> pd_readonly pd = true.
Proof.
  intros n s0 E ops m w g v pd c H W D C. rewrite described_run in D.
  destruct (described_param _ _ _ _ _ _ (build_consistent _ _ H W) D) as (md & a & p & F & L & B & _ & Hr & Hc & _).
  apply find_some in F. apply lookup0_in in L. rewrite <- Hr.
  apply (built_constant_readonly n s0 md a p H (proj1 F) (proj1 L) B). congruence.
Qed.

(* param_at s m w: the Parameter object of the instance behind the described name; value_reply d x = the reply [export d x, {}];
   value_body d x = the body of a value update (export d x).  For a parameter whose class has a read method (p_hw = the
   hardware register) the converter is pd_dt pd, the datatype the report shows - not the datatype of the class. *)
Theorem C06_read_described : forall n s0 E ops m w g v pd tok,
  build n = Ok s0 -> well_configured n ->
  let s := run E s0 ops in
  described s m w = Some (DP g v pd) ->
  (pd_constant pd = None ->
     exists p, param_at s m w = Some p /\ p_dt p = pd_dt pd /\
       match p_hw p with
       | None => do_read s m w tok = (s, value_reply (pd_dt pd) (p_value p), [])
       | Some hw =>
           match dt_call (pd_dt pd) hw with
           | Ok nv => exists s' us, do_read s m w tok = (s', value_reply (pd_dt pd) nv, us) /\
                                    Forall (fun u => u_body u = value_body (pd_dt pd) nv) us
           | Err e => exists s' us, do_read s m w tok = (s', RpErr (RExc e), us) /\ Forall (fun u => u_body u = UE) us
           end
       end) /\
  (forall c, pd_constant pd = Some c -> do_read s m w tok = (s, RpData (with_qualifiers c), [])).
Proof. intros n s0 E ops m w g v pd tok H W. apply described_read. eapply reachable_consistent; eauto. Qed.

(* attrs_distinct n: attribute names are distinct within a class (keys of the python dict cls.accessibles).
   produced_by d y: y is an output of dt_call d (the datatype's __call__) or of dt_validate d (its validate). *)
Theorem C06_cached_values_converted : forall n s0 E ops m w g v pd,
  build n = Ok s0 -> well_configured n -> attrs_distinct n ->
  let s := run E s0 ops in
  described s m w = Some (DP g v pd) ->
  exists p, param_at s m w = Some p /\ p_dt p = pd_dt pd /\
            (p_err p = None -> produced_by (pd_dt pd) (p_value p)).
Proof.
  intros n s0 E ops m w g v pd H W AD s D.
  destruct (described_param_at _ _ _ _ _ _ (reachable_consistent _ _ E ops H W) D) as (p & P & Hd & _).
  exists p. rewrite Hd. repeat split; auto. eapply param_at_ok; eauto.
  apply run_preserves; eauto using step_ok, build_ok.
Qed.

Theorem C06_emitted_values_converted : forall n s0 E ops o,
  build n = Ok s0 -> well_configured n -> attrs_distinct n ->
  let s := run E s0 ops in
  let s' := fst (fst (step E s o)) in
  Forall (fun u => exists w g v pd p,
            u_wire u = Some w /\ described s' (u_mod u) w = Some (DP g v pd) /\ param_at s' (u_mod u) w = Some p /\
            p_dt p = pd_dt pd /\
            u_body u = match p_err p with Some _ => UE | None => value_body (pd_dt pd) (p_value p) end /\
            (p_err p = None -> produced_by (pd_dt pd) (p_value p)))
         (snd (step E s o)).
Proof. exact emitted_values_converted. Qed.

(* first part: n ranges over all configurations, mc_cfg_auto mc (what the configuration of the module says about
   implementation / interface_classes / features) is arbitrary and does not occur in the conclusion; E ops: any history *)
Theorem C06_interface_and_features :
  (forall n s0 E ops, build n = Ok s0 ->
     Forall2 (fun mc e => md_impl (snd e) = mc_impl mc /\ md_ifaces (snd e) = interface_classes (mc_mro mc) /\
                          md_features (snd e) = features_of (mc_mro mc))
             (filter mc_export n) (describe (run E s0 ops))) /\
  forall mro,
  length (interface_classes mro) <= 1 /\
  (forall c, In c (interface_classes mro) -> mem_str c secop_base_classes = true /\ In c (map fst mro)) /\
  (interface_classes mro = [] <-> forall c, In c (map fst mro) -> mem_str c secop_base_classes = false) /\
  (forall c, interface_classes mro = [c] ->
     exists pre post, map fst mro = pre ++ c :: post /\ forall x, In x pre -> mem_str x secop_base_classes = false) /\
  (forall f, In f (features_of mro) <-> In (f, true) mro).
Proof.
  split.
  { intros n s0 E ops H. rewrite stable. induction (lists_exactly _ _ H) as [|mc e l l' L _ IH]; constructor; auto. apply L. }
  intros mro. destruct (interface_classes_spec mro) as (H1 & H2 & H3).
  split; [exact H1|]. split; [exact H2|]. split; [exact H3|].
  split; [intros c; apply interface_class_is_first|intros f; apply features_spec].
Qed.

Theorem C06_main_unit_substituted : forall u unit mu p r,
  no_dollar u -> build_par mu p = Ok r -> pc_unit p = unit ->
  (mu = Some u -> no_dollar (p_unit r)) /\ (no_dollar unit -> p_unit r = unit).
Proof.
  intros u unit mu p r Hu Hb Hp. destruct (build_par_unit _ _ _ Hb) as [H _]. rewrite H, Hp. split.
  - intros X. subst mu. apply replace_dollar_clean; auto.
  - intros X. destruct mu; auto. apply replace_dollar_id; auto.
Qed.

(* genuine defect of the pinned code still open (Refuted.v) *)
Theorem C06_refuted_nan_constant_described :
  built n_nan = true /\ desc_constant (described (state_of n_nan) s_m s_ufoo) = Some (PFloat fnan).
Proof. exact refuted_nan_constant_described. Qed.

(* regression examples: the configurations that witnessed the repaired defects now behave as the property demands *)
Example C06_repaired_constant_read :
  built n_const = true /\
  reply_eq_data (reply3 (do_read (state_of n_const) s_m s_ufoo tok1)) (with_qualifiers (PFloat two_half)) = true.
Proof. vm_compute. split; reflexivity. Qed.
Example C06_repaired_cfg_export :
  built n_hidden = true /\ described (state_of n_hidden) s_m s_ufoo = None /\
  rerr_is (reply3 (do_read (state_of n_hidden) s_m s_ufoo tok1)) RNoPar = true /\
  rerr_is (reply3 (do_activate (state_of n_hidden) (Some (s_m, Some s_ufoo)))) RNoPar = true /\
  built n_renamed = true /\ is_some (described (state_of n_renamed) s_m s_baz) = true /\
  is_data (reply3 (do_read (state_of n_renamed) s_m s_baz tok1)) = true /\
  rerr_is (reply3 (do_read (state_of n_renamed) s_m [95; 98; 97; 114]%N tok1)) RNoPar = true.
Proof. vm_compute. repeat apply conj; reflexivity. Qed.
Example C06_repaired_collision : built n_collision = false.
Proof. vm_compute; reflexivity. Qed.

(* non-vacuity: a well configured node in which a described writable parameter accepts and rejects payloads *)
Definition demo : list mcfg :=
  [mk_mod [mk_par s_foo (TInt 0 10) ExTrue None false None (Some (PInt 3));
           mk_par s_bar dbl (ExName s_baz) None true None (Some (PInt 1))]].
Example C06_demo_well_configured : built demo = true /\ well_configured demo /\ attrs_distinct demo.
Proof.
  split; [vm_compute; reflexivity|]. split; [|constructor; [|constructor]]; apply dup_free_nodup; reflexivity.
Qed.
Example C06_demo_run :
  is_data (reply3 (do_change E0 (state_of demo) s_m s_ufoo (PInt 7))) = true /\
  rerr_is (reply3 (do_change E0 (state_of demo) s_m s_ufoo (PInt 11))) (RExc ERange) = true /\
  rerr_is (reply3 (do_change E0 (state_of demo) s_m s_baz (PInt 1))) RReadOnly = true /\
  rerr_is (reply3 (do_read (state_of demo) s_m s_bar tok1)) RNoPar = true /\
  is_some (described (state_of demo) s_m s_ufoo) = true /\ described (state_of demo) s_m s_bar = None.
Proof. vm_compute. repeat apply conj; reflexivity. Qed.

(* non-vacuity of the read clause: the class declares StringType(maxchars=32), the configuration says maxchars=8 (so the
   instance datatype and the report say 8); the hardware delivers 3 characters, then 16 *)
Definition s_lbl : str := [108; 98; 108]%N.
Definition s_ulbl : str := [95; 108; 98; 108]%N.
Definition str16 : pyval := PStr [115; 101; 110; 115; 111; 114; 45; 104; 101; 97; 100; 45; 48; 56; 49; 53]%N.
Definition n_narrow : list mcfg :=
  [mk_mod [{| ac_attr := s_lbl; ac_export := ExTrue; ac_cfg_export := None; ac_group := []; ac_vis := 1;
              ac_body := BParam {| pc_dt := TString 0 8 false; pc_dtdefault := PStr []; pc_unit := []; pc_readonly := true;
                                   pc_const_cls := None; pc_const_cfg := None; pc_default := Some (PStr []);
                                   pc_hw := Some (PStr [111; 107]%N) |} |}]].
Definition all_active (s : state) : state := state3 (do_activate s None).
Example C06_demo_read_narrowed :
  built n_narrow = true /\
  reply_eq_data (reply3 (do_read (all_active (state_of n_narrow)) s_m s_ulbl tok1)) (with_qualifiers (PStr [111; 107]%N)) = true /\
  (let s1 := state3 (do_hw_set (all_active (state_of n_narrow)) s_m s_lbl str16) in
   rerr_is (reply3 (do_read s1 s_m s_ulbl tok1)) (RExc ERange) = true /\
   map u_body (upds3 (do_read s1 s_m s_ulbl tok1)) = [UE] /\
   (* the same error again: error reply, no second update *)
   upds3 (do_read (state3 (do_read s1 s_m s_ulbl tok1)) s_m s_ulbl tok1) = []).
Proof. vm_compute. repeat apply conj; reflexivity. Qed.

(* non-vacuity of the automatic properties: the configuration claims Drivable / a feature / another implementation *)
Definition s_drivable : str := [68; 114; 105; 118; 97; 98; 108; 101]%N.
Definition s_readable : str := [82; 101; 97; 100; 97; 98; 108; 101]%N.
Definition n_claims : list mcfg :=
  [{| mc_name := s_m; mc_export := true; mc_group := []; mc_vis := 1; mc_impl := s_foo;
      mc_mro := [(s_foo, false); (s_readable, false)]; mc_accs := [];
      mc_cfg_auto := [(KIfaces, MPList [s_drivable]); (KFeatures, MPList [s_bar]); (KImpl, MPStr s_baz)] |}].
Example C06_demo_claims_ignored :
  match build n_claims with
  | Ok s => match describe s with
            | [(_, e)] => list_eqb str_eqb (md_ifaces e) [s_readable] && list_eqb str_eqb (md_features e) [] &&
                          str_eqb (md_impl e) s_foo
            | _ => false
            end
  | Err _ => false
  end = true.
Proof. vm_compute; reflexivity. Qed.

Print Assumptions C06_source_facts.
Print Assumptions C06_lists_exactly.
Print Assumptions C06_wire_name_rules.
Print Assumptions C06_wire_of_spec.
Print Assumptions C06_duplicate_export_rejected.
Print Assumptions C06_stable.
Print Assumptions C06_nothing_undescribed.
Print Assumptions C06_datainfo_same_object.
Print Assumptions C06_flags_predict.
Print Assumptions C06_constant_is_readonly.
Print Assumptions C06_read_described.
Print Assumptions C06_cached_values_converted.
Print Assumptions C06_emitted_values_converted.
Print Assumptions C06_interface_and_features.
Print Assumptions C06_main_unit_substituted.
Print Assumptions C06_refuted_nan_constant_described.

(* The started node: the description is current.
   Startup.v models Server._processCfg: create_modules (build), then the start-up call of get_descriptive_data which
   initialises and describes the exported modules one by one (its result is dropped), then the remaining modules.
   initModule of a control loop (mixins.HasOutputModule) registers the loop at its output module (HasControlledBy), which
   replaces the datatype of that module's controlled_by - possibly AFTER the output module was described at start-up.
   lk ranges over ALL attachment lists (control loop, output module), n over all configurations, ops over all histories.

   C06_description_is_current: in every state the started node reaches, the report is the image of the module objects of
   THAT state (no memo: describe has no other input, translator fact description_built_per_call), every described
   parameter is described with datatype, unit, readonly, constant of the live Parameter object behind its name, every
   described command with the argument / result of the live Command object, and every exported parameter object of the
   state is described with its present datatype. *)
Theorem C06_description_is_current : forall n lk s0 E ops,
  build n = Ok s0 -> well_configured n ->
  let s := run E (startup lk s0) ops in
  describe s = map (fun m => (m_name m, describe_mod m)) (filter m_export (s_mods s)) /\
  (forall m w g v pd, described s m w = Some (DP g v pd) ->
     exists p, param_at s m w = Some p /\ pd_dt pd = p_dt p /\ pd_unit pd = p_unit p /\
               pd_readonly pd = p_readonly p /\ pd_constant pd = p_constant p) /\
  (forall m w g v x r, described s m w = Some (DC g v x r) ->
     exists md a c, find_mod s m = Some md /\ lookup0 md w = Some a /\ a_body a = AC c /\ c_arg c = x /\ c_res c = r) /\
  (forall md a p w, In md (s_mods s) -> In a (m_accs md) -> a_body a = AP p -> a_wire a = Some w ->
     exists g v pd, described s (m_name md) w = Some (DP g v pd) /\ pd_dt pd = p_dt p).
Proof.
  intros n lk s0 E ops H W s. assert (HC : consistent s) by (eapply started_consistent; eauto).
  split; [reflexivity|]. split; [|split].
  - intros m w g v pd. apply described_param_at, HC.
  - intros m w g v x r. apply described_command, HC.
  - intros md a p w Hmd Ha B Hw.
    destruct (exported_is_described _ _ _ _ _ HC (started_wires_ok _ lk _ E ops H) Hmd Ha B Hw) as [_ D].
    eexists _, _, _. split; [exact D|]. reflexivity.
Qed.
Print Assumptions C06_description_is_current.

(* two states with the same module objects have the same report, whatever was described before *)
Theorem C06_description_function_of_modules : forall s1 s2, s_mods s1 = s_mods s2 -> describe s1 = describe s2.
Proof. exact describe_function_of_modules. Qed.
Print Assumptions C06_description_function_of_modules.

(* a later change of an accessible is reflected: in ANY state with the invariants of a started node (consistent, distinct
   wire names), after <md>.register_input(ctrl) the exported controlled_by of md is described with the extended enum, which is
   the datatype of the live parameter object (reg_par: only the datatype is replaced) *)
Theorem C06_register_input_reflected : forall s ctrl md a p w,
  consistent s -> wires_ok s ->
  In md (s_mods s) -> In a (m_accs md) -> a_attr a = cb_attr -> a_body a = AP p -> a_wire a = Some w ->
  let s' := register_input s ctrl (m_name md) in
  exists g v pd, described s' (m_name md) w = Some (DP g v pd) /\ pd_dt pd = extend_dt (p_dt p) ctrl /\
                 param_at s' (m_name md) w = Some (reg_par ctrl p).
Proof.
  intros s ctrl md a p w HC WO Hmd Ha At B Hw s'.
  destruct (exported_is_described s' (reg_mod (m_name md) ctrl md) (reg_acc ctrl a) (reg_par ctrl p) w) as [P D].
  - apply register_input_consistent, HC.
  - apply register_input_wires_ok, WO.
  - simpl. apply in_map, Hmd.
  - unfold reg_mod. rewrite str_eqb_refl. simpl. apply in_map, Ha.
  - unfold reg_acc. rewrite At, str_eqb_refl, B. auto.
  - rewrite (proj1 (proj2 (reg_acc_static ctrl a))). exact Hw.
  - rewrite (proj1 (reg_mod_static (m_name md) ctrl md)) in P, D.
    eexists _, _, _. split; [exact D|]. split; [reflexivity|exact P].
Qed.
Print Assumptions C06_register_input_reflected.

(* the clauses above for the node as it serves (built, started with any attachments, any history); with lk = [] these are
   the statements C06_nothing_undescribed, C06_datainfo_same_object, C06_flags_predict, C06_read_described *)
Theorem C06_started_nothing_undescribed : forall n lk s0 E ops m w,
  build n = Ok s0 -> well_configured n ->
  let s := run E (startup lk s0) ops in
  described s m w = None ->
  (forall tok, exists r, do_read s m w tok = (s, r, []) /\ refused r) /\
  (forall j, exists r, do_change E s m w j = (s, r, []) /\ refused r) /\
  (forall arg, refused (do_do E s m w arg)) /\
  (exists r, do_activate s (Some (m, Some w)) = (s, r, []) /\ refused r) /\
  (assoc_str m (describe s) = None -> do_activate s (Some (m, None)) = (s, RpErr RNoMod, [])).
Proof. intros n lk s0 E ops m w H W. apply undescribed_refused. eapply started_consistent; eauto. Qed.
Print Assumptions C06_started_nothing_undescribed.

Theorem C06_started_datainfo_same_object : forall n lk s0 E ops m w,
  build n = Ok s0 -> well_configured n ->
  let s := run E (startup lk s0) ops in
  (forall g v pd j, described s m w = Some (DP g v pd) -> pd_readonly pd = false -> pd_constant pd = None ->
     exists prev,
       match verdict E (pd_dt pd) j prev with
       | Err e => do_change E s m w j = (s, RpErr (RExc e), [])
       | Ok nv => exists s' us, do_change E s m w j =
                    (s', reply_of (dt_export (pd_dt pd) nv >>= fun x => Ok (with_qualifiers x)), us)
       end) /\
  (forall g v x r arg, described s m w = Some (DC g v x r) ->
     exists ret, do_do E s m w arg =
       reply_of (run_cmd E {| c_arg := x; c_res := r; c_ret := ret |} arg >>= fun y => Ok (with_qualifiers y))).
Proof. intros n lk s0 E ops m w H W. apply described_datainfo. eapply started_consistent; eauto. Qed.
Print Assumptions C06_started_datainfo_same_object.

Theorem C06_started_flags_predict : forall n lk s0 E ops m w g v pd,
  build n = Ok s0 -> well_configured n ->
  let s := run E (startup lk s0) ops in
  described s m w = Some (DP g v pd) ->
  ((pd_readonly pd = true \/ pd_constant pd <> None) -> forall j, do_change E s m w j = (s, RpErr RReadOnly, [])) /\
  (pd_readonly pd = false -> pd_constant pd = None -> forall j, snd (fst (do_change E s m w j)) <> RpErr RReadOnly).
Proof. intros n lk s0 E ops m w g v pd H W. apply described_flags. eapply started_consistent; eauto. Qed.
Print Assumptions C06_started_flags_predict.

Theorem C06_started_read_described : forall n lk s0 E ops m w g v pd tok,
  build n = Ok s0 -> well_configured n ->
  let s := run E (startup lk s0) ops in
  described s m w = Some (DP g v pd) ->
  (pd_constant pd = None ->
     exists p, param_at s m w = Some p /\ p_dt p = pd_dt pd /\
       match p_hw p with
       | None => do_read s m w tok = (s, value_reply (pd_dt pd) (p_value p), [])
       | Some hw =>
           match dt_call (pd_dt pd) hw with
           | Ok nv => exists s' us, do_read s m w tok = (s', value_reply (pd_dt pd) nv, us) /\
                                    Forall (fun u => u_body u = value_body (pd_dt pd) nv) us
           | Err e => exists s' us, do_read s m w tok = (s', RpErr (RExc e), us) /\ Forall (fun u => u_body u = UE) us
           end
       end) /\
  (forall c, pd_constant pd = Some c -> do_read s m w tok = (s, RpData (with_qualifiers c), [])).
Proof. intros n lk s0 E ops m w g v pd tok H W. apply described_read. eapply started_consistent; eauto. Qed.
Print Assumptions C06_started_read_described.

(* every update any operation of the started node emits belongs to a parameter the report (of the state after the operation)
   describes, and carries the error mark or the export of the cached value BY THE DESCRIBED DATATYPE, which is the datatype of
   the live parameter object.  (That the cached value was produced by that datatype - C06_emitted_values_converted - is proved
   for nodes without attachments only: register_input keeps the value converted by the former enum.) *)
Theorem C06_started_updates_described : forall n lk s0 E ops o,
  build n = Ok s0 -> well_configured n ->
  let s := run E (startup lk s0) ops in
  let s' := fst (fst (step E s o)) in
  Forall (fun u => exists w g v pd p,
            u_wire u = Some w /\ described s' (u_mod u) w = Some (DP g v pd) /\ param_at s' (u_mod u) w = Some p /\
            p_dt p = pd_dt pd /\
            u_body u = match p_err p with Some _ => UE | None => value_body (pd_dt pd) (p_value p) end)
         (snd (step E s o)).
Proof.
  intros n lk s0 E ops o H W. apply step_updates_described; [eapply started_consistent|eapply started_wires_ok]; eauto.
Qed.
Print Assumptions C06_started_updates_described.

Theorem C06_started_stable : forall lk s0 E ops, describe (run E (startup lk s0) ops) = describe (startup lk s0).
Proof. intros. apply stable. Qed.
Print Assumptions C06_started_stable.

(* non-vacuity: the output module `m` (controlled_by: enum self=0, exported) is configured BEFORE the control loop `bar`
   attached to it.  The description computed during start-up (dropped by the real code) still shows the enum {self: 0};
   the node as it serves describes {self: 0, bar: 1}, accepts the driver assignment controlled_by = 1 and emits 1. *)
Definition enum_self : dtype := TEnum [([115; 101; 108; 102]%N, 0%Z)].
Definition n_heater_loop : list mcfg :=
  [mk_mod [mk_par cb_attr enum_self ExTrue None true None (Some (PInt 0))];
   {| mc_name := s_bar; mc_export := true; mc_group := []; mc_vis := 1; mc_impl := []; mc_mro := []; mc_accs := [];
      mc_cfg_auto := [] |}].
Definition lk_demo : links := [(s_bar, s_m)].
Definition desc_dt (d : option adesc) : option dtype := match d with Some (DP _ _ pd) => Some (pd_dt pd) | _ => None end.
Definition startup_desc_dt (n : list mcfg) (lk : links) (m w : str) : option dtype :=
  match assoc_str m (snd (startup_trace lk (state_of n))) with
  | Some md => desc_dt (assoc_str w (md_accs md))
  | None => None
  end.
Example C06_demo_startup_description_not_final :
  built n_heater_loop = true /\
  opt_eqb dtype_eqb (startup_desc_dt n_heater_loop lk_demo s_m cb_attr) (Some enum_self) = true /\
  opt_eqb dtype_eqb (desc_dt (described (startup lk_demo (state_of n_heater_loop)) s_m cb_attr))
          (Some (TEnum [([115; 101; 108; 102]%N, 0%Z); (s_bar, 1%Z)])) = true /\
  (let s1 := all_active (startup lk_demo (state_of n_heater_loop)) in
   map u_body (upds3 (do_driver_set s1 s_m cb_attr (PInt 1) tok1)) = [UV (PInt 1)]) /\
  (* without the attachment the same assignment is refused by the datatype *)
  (let s1 := all_active (startup [] (state_of n_heater_loop)) in
   map u_body (upds3 (do_driver_set s1 s_m cb_attr (PInt 1) tok1)) = [UE]).
Proof. vm_compute. repeat apply conj; reflexivity. Qed.
