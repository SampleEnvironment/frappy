(* C06 -- non-vacuity audit: every premise of the property theorems of Properties.v is satisfied at once by a concrete,
   non-trivial instance: a node of three modules (two exported, one hidden) with a writable integer parameter, a renamed
   read-only string parameter behind a hardware read method, a class constant, a parameter hidden by the configuration, an
   enum parameter, a float value with a main unit, a parameter whose unit uses the dollar sign, and a command;  a history of
   ten operations of every kind; a non-empty python environment.  Each theorem is APPLIED at that instance. *)
From Coq Require Import ZArith NArith Bool List.
Import ListNotations.
Require Import FV.Gen.C06 FV.Base.Util FV.Base.F64 FV.Base.PyVal FV.C01.Model FV.C06.Model FV.C06.Lemmas FV.C06.LemmasBuild
  FV.C06.LemmasMain FV.C06.LemmasValues FV.C06.Refuted FV.C06.Run FV.C06.Properties.

Definition s_n : str := [110]%N.                                   (* "n" *)
Definition s_h : str := [104]%N.                                   (* "h" *)
Definition s_cst : str := [99; 115; 116]%N.                        (* "cst" *)
Definition s_ucst : str := [95; 99; 115; 116]%N.                   (* "_cst" *)
Definition s_hid : str := [104; 105; 100]%N.                       (* "hid" *)
Definition s_uhid : str := [95; 104; 105; 100]%N.                  (* "_hid" *)
Definition s_go : str := [103; 111]%N.                             (* "go", predefined command *)
Definition s_mode : str := [109; 111; 100; 101]%N.                 (* "mode", predefined parameter *)
Definition s_value : str := [118; 97; 108; 117; 101]%N.            (* "value" *)
Definition s_ramp : str := [114; 97; 109; 112]%N.                  (* "ramp" *)
Definition s_K : str := [75]%N.                                    (* "K" *)
Definition s_dpm : str := [36; 47; 109; 105; 110]%N.               (* "$/min" *)
Definition s_Kpm : str := [75; 47; 109; 105; 110]%N.               (* "K/min" *)
Definition s_off : str := [111; 102; 102]%N.
Definition s_on : str := [111; 110]%N.
Definition s_ok : str := [111; 107]%N.
Definition s_cls : str := [120; 46; 67]%N.                         (* "x.C" *)
Definition s_Drivable : str := [68; 114; 105; 118; 97; 98; 108; 101]%N.
Definition s_Readable : str := [82; 101; 97; 100; 97; 98; 108; 101]%N.
Definition s_HasOffset : str := [72; 97; 115; 79]%N.
Definition long16 : pyval := PStr [115; 101; 110; 115; 111; 114; 45; 104; 101; 97; 100; 45; 48; 56; 49; 53]%N.

Definition pc (d : dtype) (unit : str) (ro : bool) (ccls ccfg dflt hw : option pyval) : pcfg :=
  {| pc_dt := d; pc_dtdefault := PInt 0; pc_unit := unit; pc_readonly := ro; pc_const_cls := ccls;
     pc_const_cfg := ccfg; pc_default := dflt; pc_hw := hw |}.
Definition par (attr : str) (d : dtype) (unit : str) (e : export_t) (ce : option export_t) (ro : bool)
  (ccls ccfg dflt hw : option pyval) : acfg :=
  {| ac_attr := attr; ac_export := e; ac_cfg_export := ce; ac_group := []; ac_vis := 1;
     ac_body := BParam (pc d unit ro ccls ccfg dflt hw) |}.
Definition a_foo := par s_foo (TInt 0 10) [] ExTrue None false None None (Some (PInt 3)) None.
Definition a_bar := par s_bar (TString 0 8 false) [] (ExName s_baz) None true None None (Some (PStr [])) (Some (PStr s_ok)).
Definition a_cst := par s_cst (TInt 0 100) [] ExTrue None false (Some (PInt 42)) None None None.
Definition a_hid := par s_hid TBool [] ExTrue (Some ExFalse) false None None (Some (PBool true)) None.
Definition a_mode := par s_mode (TEnum [(s_off, 0%Z); (s_on, 1%Z)]) [] ExTrue None false None None (Some (PInt 0)) None.
Definition a_go : acfg :=
  {| ac_attr := s_go; ac_export := ExTrue; ac_cfg_export := None; ac_group := s_foo; ac_vis := 3;
     ac_body := BCmd {| cc_arg := Some (TInt 0 5); cc_res := Some TBool; cc_ret := PInt 1 |} |}.
Definition a_value := par s_value dbl s_K ExTrue None true None None (Some (PInt 1)) None.
Definition a_ramp := par s_ramp dbl s_dpm ExTrue None false None None (Some (PInt 2)) None.

Definition mc_m : mcfg :=
  {| mc_name := s_m; mc_export := true; mc_group := []; mc_vis := 1; mc_impl := s_cls;
     mc_mro := [(s_foo, false); (s_HasOffset, true); (s_Drivable, false); (s_Readable, false)];
     mc_accs := [a_foo; a_bar; a_cst; a_hid; a_mode; a_go];
     mc_cfg_auto := [(KIfaces, MPList [s_Readable]); (KImpl, MPStr s_baz)] |}.
Definition mc_h : mcfg :=
  {| mc_name := s_h; mc_export := false; mc_group := []; mc_vis := 1; mc_impl := s_cls; mc_mro := [];
     mc_accs := [a_foo]; mc_cfg_auto := [] |}.
Definition mc_n : mcfg :=
  {| mc_name := s_n; mc_export := true; mc_group := s_bar; mc_vis := 2; mc_impl := s_cls; mc_mro := [(s_Readable, false)];
     mc_accs := [a_value; a_ramp]; mc_cfg_auto := [] |}.
Definition nv : list mcfg := [mc_m; mc_h; mc_n].

(* a python environment with entries, as the harness supplies them (finite tables; no theorem of C06 asks a law of it) *)
Definition E1 : pyenv := {| int_of := [(true, [55]%N, 7%Z)]; b64_of := [(true, [65; 65; 61; 61]%N, [0]%N)] |}.

Definition ops1 : list op :=
  [OActivate None; OChange s_m s_ufoo (PInt 7); ORead s_m s_baz 1; OHwSet s_m s_bar long16; ORead s_m s_baz 1;
   ODriverSet s_m s_foo (PInt 5) 2; ODo s_m s_go (PInt 2); ODescribe; OChange s_m s_ufoo (PInt 11);
   OActivate (Some (s_n, Some s_value))].
(* the same history stopped before the hardware register is spoilt: the next read succeeds *)
Definition ops0 : list op := [OActivate None; OChange s_m s_ufoo (PInt 7)].

Definition s0 : state := state_of nv.
Notation s1 := (run E1 s0 ops1).
Notation sA := (run E1 s0 ops0).

Example C06_nv_built : build nv = Ok s0.
Proof. apply built_state_of. vm_compute. reflexivity. Qed.
Example C06_nv_well_configured : well_configured nv.
Proof. apply dup_free_nodup. reflexivity. Qed.
Example C06_nv_attrs_distinct : attrs_distinct nv.
Proof. repeat (constructor; [apply dup_free_nodup; reflexivity|]). constructor. Qed.
(* the harness-side guard of check_case holds too *)
Example C06_nv_kind_ok : forallb (fun m => forallb kind_ok (mc_accs m)) nv = true.
Proof. vm_compute. reflexivity. Qed.
(* the instance is not degenerate: two described modules, 5 + 2 described names, the history changes the state and emits updates *)
Example C06_nv_sizes :
  map (fun e => length (md_accs (snd e))) (describe s0) = [5; 2]%nat /\
  length (filter mc_export nv) = 2%nat /\
  map (fun x => length (snd x)) (model_steps E1 s0 ops1) = [6; 1; 1; 0; 1; 1; 0; 0; 0; 1]%nat /\
  map (fun x => reply_code (fst x)) (model_steps E1 s0 ops1) = [1; 0; 0; 3; 20; 3; 0; 2; 20; 1]%nat.
Proof.
  (* the conjunction is evaluated as one term: checking it again computes the built node s0 once, not once a conjunct *)
  vm_compute. repeat apply conj; reflexivity.
Qed.

Example C06_lists_exactly_applies : Forall2 lists_module [mc_m; mc_n] (describe s0).
Proof. exact (C06_lists_exactly nv s0 C06_nv_built). Qed.
Example C06_nv_listed_names :
  map (fun e => map fst (md_accs (snd e))) (describe s0) = [[s_ufoo; s_baz; s_ucst; s_mode; s_go]; [s_value; s_ramp]].
Proof. vm_compute. reflexivity. Qed.
Example C06_duplicate_export_rejected_applies : NoDup (cfg_wires (mc_export mc_m) (mc_accs mc_m)).
Proof. apply (C06_duplicate_export_rejected nv mc_m s0); [simpl; auto | exact C06_nv_built]. Qed.
(* the contrapositive has an instance as well: Properties.C06_repaired_collision, built n_collision = false *)

(* C06_wire_name_rules: both guards occur *)
Example C06_nv_predefined_both : is_predefined s_go = true /\ is_predefined s_foo = false.
Proof. vm_compute. split; reflexivity. Qed.

Example C06_stable_applies : describe s1 = describe s0 /\ length (describe s0) = 2%nat.
Proof. split; [apply C06_stable | vm_compute; reflexivity]. Qed.

(* a name hidden by the configuration, in the state reached by the history *)
Example C06_nothing_undescribed_applies :
  (forall tok, exists r, do_read s1 s_m s_uhid tok = (s1, r, []) /\ refused r) /\
  (forall j, exists r, do_change E1 s1 s_m s_uhid j = (s1, r, []) /\ refused r) /\
  (forall arg, refused (do_do E1 s1 s_m s_uhid arg)) /\
  (exists r, do_activate s1 (Some (s_m, Some s_uhid)) = (s1, r, []) /\ refused r).
Proof.
  destruct (C06_nothing_undescribed nv s0 E1 ops1 s_m s_uhid C06_nv_built C06_nv_well_configured) as (A & B & C & D & _).
  - rewrite described_run. vm_compute. reflexivity.
  - repeat split; assumption.
Qed.
(* a module that is not exported: also the premise of the last conjunct holds *)
Example C06_nothing_undescribed_hidden_module :
  do_activate s1 (Some (s_h, None)) = (s1, RpErr RNoMod, []) /\
  (forall j, exists r, do_change E1 s1 s_h s_ufoo j = (s1, r, []) /\ refused r).
Proof.
  destruct (C06_nothing_undescribed nv s0 E1 ops1 s_h s_ufoo C06_nv_built C06_nv_well_configured) as (_ & B & _ & _ & D).
  - rewrite described_run. vm_compute. reflexivity.
  - split; [apply D; rewrite C06_stable; vm_compute; reflexivity | exact B].
Qed.

Definition pd_foo : pdesc := {| pd_dt := TInt 0 10; pd_unit := []; pd_readonly := false; pd_constant := None |}.
Definition pd_baz : pdesc := {| pd_dt := TString 0 8 false; pd_unit := []; pd_readonly := true; pd_constant := None |}.
Definition pd_cst : pdesc := {| pd_dt := TInt 0 100; pd_unit := []; pd_readonly := true; pd_constant := Some (PInt 42) |}.
(* the report is that of the built node (stability): it is evaluated there, without the history *)
Example d_foo : described s1 s_m s_ufoo = Some (DP None None pd_foo).
Proof. rewrite described_run. vm_compute. reflexivity. Qed.
Example d_baz : described s1 s_m s_baz = Some (DP None None pd_baz).
Proof. rewrite described_run. vm_compute. reflexivity. Qed.
Example d_cst : described s1 s_m s_ucst = Some (DP None None pd_cst).
Proof. rewrite described_run. vm_compute. reflexivity. Qed.
Example d_go : described s1 s_m s_go = Some (DC (Some s_foo) (Some 3%Z) (Some (TInt 0 5)) (Some TBool)).
Proof. rewrite described_run. vm_compute. reflexivity. Qed.
Example d_bazA : described sA s_m s_baz = Some (DP None None pd_baz).
Proof. rewrite described_run. vm_compute. reflexivity. Qed.

Example C06_datainfo_same_object_param_applies : forall j,
  exists prev,
    match verdict E1 (TInt 0 10) j prev with
    | Err e => do_change E1 s1 s_m s_ufoo j = (s1, RpErr (RExc e), [])
    | Ok nv0 => exists s' us, do_change E1 s1 s_m s_ufoo j =
                  (s', reply_of (dt_export (TInt 0 10) nv0 >>= fun x => Ok (with_qualifiers x)), us)
    end.
Proof.
  intros j.
  exact (proj1 (C06_datainfo_same_object nv s0 E1 ops1 s_m s_ufoo C06_nv_built C06_nv_well_configured)
           None None pd_foo j d_foo eq_refl eq_refl).
Qed.
(* both branches of the verdict are taken by payloads *)
Example C06_nv_verdict_both :
  is_data (reply3 (do_change E1 s1 s_m s_ufoo (PInt 9))) = true /\
  rerr_is (reply3 (do_change E1 s1 s_m s_ufoo (PInt 11))) (RExc ERange) = true /\
  length (upds3 (do_change E1 s1 s_m s_ufoo (PInt 9))) = 1%nat.
Proof. vm_compute. repeat apply conj; reflexivity. Qed.
Example C06_datainfo_same_object_command_applies : forall arg,
  exists ret, do_do E1 s1 s_m s_go arg =
    reply_of (run_cmd E1 {| c_arg := Some (TInt 0 5); c_res := Some TBool; c_ret := ret |} arg >>= fun y => Ok (with_qualifiers y)).
Proof.
  intros arg.
  exact (proj2 (C06_datainfo_same_object nv s0 E1 ops1 s_m s_go C06_nv_built C06_nv_well_configured)
           (Some s_foo) (Some 3%Z) (Some (TInt 0 5)) (Some TBool) arg d_go).
Qed.
Example C06_nv_command_both :
  is_data (do_do E1 s1 s_m s_go (PInt 2)) = true /\ rerr_is (do_do E1 s1 s_m s_go (PInt 6)) (RExc ERange) = true.
Proof. vm_compute. split; reflexivity. Qed.

(* C06_flags_predict: all three guards *)
Example C06_flags_predict_writable_applies : forall j, snd (fst (do_change E1 s1 s_m s_ufoo j)) <> RpErr RReadOnly.
Proof.
  exact (proj2 (C06_flags_predict nv s0 E1 ops1 s_m s_ufoo None None pd_foo C06_nv_built C06_nv_well_configured d_foo)
           eq_refl eq_refl).
Qed.
Example C06_flags_predict_readonly_applies : forall j, do_change E1 s1 s_m s_baz j = (s1, RpErr RReadOnly, []).
Proof.
  exact (proj1 (C06_flags_predict nv s0 E1 ops1 s_m s_baz None None pd_baz C06_nv_built C06_nv_well_configured d_baz)
           (or_introl eq_refl)).
Qed.
Example C06_flags_predict_constant_applies : forall j, do_change E1 s1 s_m s_ucst j = (s1, RpErr RReadOnly, []).
Proof.
  assert (H : pd_constant pd_cst <> None) by discriminate.
  exact (proj1 (C06_flags_predict nv s0 E1 ops1 s_m s_ucst None None pd_cst C06_nv_built C06_nv_well_configured d_cst)
           (or_intror H)).
Qed.

(* C06_constant_is_readonly: the class says readonly = false *)
Example C06_constant_is_readonly_applies : pd_readonly pd_cst = true.
Proof.
  exact (C06_constant_is_readonly nv s0 E1 ops1 s_m s_ucst None None pd_cst (PInt 42) C06_nv_built C06_nv_well_configured
           d_cst eq_refl).
Qed.
Example C06_nv_constant_class_says_writable :
  match ac_body a_cst with BParam p => pc_readonly p | BCmd _ => true end = false.
Proof. reflexivity. Qed.

(* C06_read_described: all four cases *)
Definition read_concl (s : state) (m w : str) (pd : pdesc) (tok : N) : Prop :=
  (pd_constant pd = None ->
     exists p, param_at s m w = Some p /\ p_dt p = pd_dt pd /\
       match p_hw p with
       | None => do_read s m w tok = (s, value_reply (pd_dt pd) (p_value p), [])
       | Some hw =>
           match dt_call (pd_dt pd) hw with
           | Ok nv0 => exists s' us, do_read s m w tok = (s', value_reply (pd_dt pd) nv0, us) /\
                                    Forall (fun u => u_body u = value_body (pd_dt pd) nv0) us
           | Err e => exists s' us, do_read s m w tok = (s', RpErr (RExc e), us) /\ Forall (fun u => u_body u = UE) us
           end
       end) /\
  (forall c, pd_constant pd = Some c -> do_read s m w tok = (s, RpData (with_qualifiers c), [])).
(* hardware value accepted by the described datatype (state sA: register holds "ok") *)
Example C06_read_described_hw_ok_applies : read_concl sA s_m s_baz pd_baz 1.
Proof.
  exact (C06_read_described nv s0 E1 ops0 s_m s_baz None None pd_baz 1%N C06_nv_built C06_nv_well_configured d_bazA).
Qed.
(* hardware value refused by the described datatype (state s1: register holds 16 characters, maxchars 8) *)
Example C06_read_described_hw_err_applies : read_concl s1 s_m s_baz pd_baz 2.
Proof.
  exact (C06_read_described nv s0 E1 ops1 s_m s_baz None None pd_baz 2%N C06_nv_built C06_nv_well_configured d_baz).
Qed.
Example C06_read_described_cached_applies : read_concl s1 s_m s_ufoo pd_foo 1.
Proof.
  exact (C06_read_described nv s0 E1 ops1 s_m s_ufoo None None pd_foo 1%N C06_nv_built C06_nv_well_configured d_foo).
Qed.
Example C06_read_described_constant_applies : read_concl s1 s_m s_ucst pd_cst 1.
Proof.
  exact (C06_read_described nv s0 E1 ops1 s_m s_ucst None None pd_cst 1%N C06_nv_built C06_nv_well_configured d_cst).
Qed.
(* the branches really are the ones named: data + one value update / error + one error update / data, no update / constant *)
Example C06_nv_read_branches :
  reply_eq_data (reply3 (do_read sA s_m s_baz 1)) (with_qualifiers (PStr s_ok)) = true /\
  map u_body (upds3 (do_read sA s_m s_baz 1)) = [UV (PStr s_ok)] /\
  rerr_is (reply3 (do_read s1 s_m s_baz 2)) (RExc ERange) = true /\
  map u_body (upds3 (do_read s1 s_m s_baz 2)) = [UE] /\
  reply_eq_data (reply3 (do_read s1 s_m s_ufoo 1)) (with_qualifiers (PInt 5)) = true /\
  reply_eq_data (reply3 (do_read s1 s_m s_ucst 1)) (with_qualifiers (PInt 42)) = true.
Proof. vm_compute. repeat apply conj; reflexivity. Qed.

Example C06_cached_values_converted_applies :
  exists p, param_at s1 s_m s_ufoo = Some p /\ p_dt p = TInt 0 10 /\ (p_err p = None -> produced_by (TInt 0 10) (p_value p)).
Proof.
  exact (C06_cached_values_converted nv s0 E1 ops1 s_m s_ufoo None None pd_foo C06_nv_built C06_nv_well_configured
           C06_nv_attrs_distinct d_foo).
Qed.
(* the inner premise p_err p = None holds there (and fails for baz, whose read error is stored) *)
Example C06_nv_cached_inner_premise :
  option_map p_err (param_at s1 s_m s_ufoo) = Some None /\ option_map p_value (param_at s1 s_m s_ufoo) = Some (PInt 5) /\
  option_map p_err (param_at s1 s_m s_baz) = Some (Some 1%N).
Proof. vm_compute. repeat apply conj; reflexivity. Qed.

Definition emitted_concl (s : state) (o : op) : Prop :=
  let s' := fst (fst (step E1 s o)) in
  Forall (fun u => exists w g v pd p,
            u_wire u = Some w /\ described s' (u_mod u) w = Some (DP g v pd) /\ param_at s' (u_mod u) w = Some p /\
            p_dt p = pd_dt pd /\
            u_body u = match p_err p with Some _ => UE | None => value_body (pd_dt pd) (p_value p) end /\
            (p_err p = None -> produced_by (pd_dt pd) (p_value p)))
         (snd (step E1 s o)).
Example C06_emitted_values_converted_change_applies : emitted_concl s1 (OChange s_m s_ufoo (PInt 8)).
Proof.
  exact (C06_emitted_values_converted nv s0 E1 ops1 (OChange s_m s_ufoo (PInt 8)) C06_nv_built C06_nv_well_configured
           C06_nv_attrs_distinct).
Qed.
Example C06_emitted_values_converted_activate_applies : emitted_concl s1 (OActivate None).
Proof.
  exact (C06_emitted_values_converted nv s0 E1 ops1 (OActivate None) C06_nv_built C06_nv_well_configured
           C06_nv_attrs_distinct).
Qed.
(* the lists the Forall ranges over are not empty: 1 update for the change, 6 for the activation (one of them an error update) *)
Example C06_nv_emitted_nonempty :
  map u_body (snd (step E1 s1 (OChange s_m s_ufoo (PInt 8)))) = [UV (PInt 8)] /\
  length (snd (step E1 s1 (OActivate None))) = 6%nat /\
  existsb (fun u => match u_body u with UE => true | _ => false end) (snd (step E1 s1 (OActivate None))) = true.
Proof. vm_compute. repeat apply conj; reflexivity. Qed.

Example C06_interface_and_features_applies :
  Forall2 (fun mc e => md_impl (snd e) = mc_impl mc /\ md_ifaces (snd e) = interface_classes (mc_mro mc) /\
                       md_features (snd e) = features_of (mc_mro mc))
          [mc_m; mc_n] (describe s1).
Proof. destruct C06_interface_and_features as (A & _). exact (A nv s0 E1 ops1 C06_nv_built). Qed.
(* the configuration of module m claims Readable and another implementation; the MRO has two base classes and a feature *)
Example C06_nv_auto_props :
  map (fun e => md_ifaces (snd e)) (describe s1) = [[s_Drivable]; [s_Readable]] /\
  map (fun e => md_features (snd e)) (describe s1) = [[s_HasOffset]; []] /\
  map (fun e => md_impl (snd e)) (describe s1) = [s_cls; s_cls] /\
  interface_classes (mc_mro mc_h) = [].
Proof. rewrite C06_stable. vm_compute. repeat apply conj; reflexivity. Qed.

Definition no_dollarb (s : str) : bool := forallb (fun c => negb (N.eqb c dollar)) s.
Lemma no_dollarb_ok s : no_dollarb s = true -> no_dollar s.
Proof.
  unfold no_dollarb, no_dollar. intros H c Hc. rewrite forallb_forall in H. apply H in Hc.
  destruct (N.eqb c dollar); [discriminate | reflexivity].
Qed.
Definition p_ramp : pcfg := pc dbl s_dpm false None None (Some (PInt 2)) None.
Definition p_value0 : pcfg := pc dbl s_K true None None (Some (PInt 1)) None.
(* module n: the main unit is the unit of its value parameter, "K"; ramp is declared with "$/min" *)
Example C06_nv_main_unit : main_unit (mc_accs mc_n) = Some s_K.
Proof. vm_compute. reflexivity. Qed.
Example C06_main_unit_substituted_applies :
  exists r, build_par (Some s_K) p_ramp = Ok r /\ no_dollar (p_unit r) /\ p_unit r = s_Kpm.
Proof.
  assert (B : match build_par (Some s_K) p_ramp with Ok r => str_eqb (p_unit r) s_Kpm | Err _ => false end = true)
    by (vm_compute; reflexivity).
  destruct (build_par (Some s_K) p_ramp) as [r|e] eqn:H; [|discriminate].
  exists r. split; [reflexivity|].
  destruct (C06_main_unit_substituted s_K s_dpm (Some s_K) p_ramp r) as (A & _).
  - apply no_dollarb_ok. vm_compute. reflexivity.
  - exact H.
  - reflexivity.
  - split; [apply A; reflexivity | apply str_eqb_eq; exact B].
Qed.
(* second conjunct: a unit without the dollar sign stays as written *)
Example C06_main_unit_substituted_second_applies :
  exists r, build_par (Some s_K) p_value0 = Ok r /\ p_unit r = s_K.
Proof.
  assert (B : match build_par (Some s_K) p_value0 with Ok r => true | Err _ => false end = true) by (vm_compute; reflexivity).
  destruct (build_par (Some s_K) p_value0) as [r|e] eqn:H; [|discriminate].
  exists r. split; [reflexivity|].
  destruct (C06_main_unit_substituted s_K s_K (Some s_K) p_value0 r) as (_ & A).
  - apply no_dollarb_ok. vm_compute. reflexivity.
  - exact H.
  - reflexivity.
  - apply A. apply no_dollarb_ok. vm_compute. reflexivity.
Qed.
(* and the node really describes the substituted unit *)
Example C06_nv_described_unit :
  match described s1 s_n s_ramp with Some (DP _ _ pd) => str_eqb (pd_unit pd) s_Kpm | _ => false end = true.
Proof. rewrite described_run. vm_compute. reflexivity. Qed.

(* the harness view: the correspondence check of Run.v accepts
   the instance when the observations are what the model answers (so it is an instance the harness can build; the guard
   on predefined names is C06_nv_kind_ok above).  Stated with check_steps: the other fields of the case record play no part. *)
Example C06_nv_check_steps :
  check_steps E1 s0 ops1 (map (fun x => {| o_reply := fst x; o_upds := snd x |}) (model_steps E1 s0 ops1)) = true.
Proof. vm_compute. reflexivity. Qed.
