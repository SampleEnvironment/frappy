(* C06 -- the start-up of the node (Startup.v): register_input, and with it the whole start-up and every later history,
   keeps the invariants of a built node (consistency, distinct wire names, module names) *)
From Coq Require Import ZArith NArith Bool List.
Import ListNotations.
Require Import FV.Base.Util FV.Base.F64 FV.Base.PyVal FV.C01.Model FV.Gen.C06 FV.C06.Model FV.C06.Startup FV.C06.Lemmas
  FV.C06.LemmasBuild FV.C06.LemmasMain FV.C06.LemmasValues.

Lemma reg_acc_static name a :
  a_attr (reg_acc name a) = a_attr a /\ a_wire (reg_acc name a) = a_wire a /\ a_group (reg_acc name a) = a_group a /\
  a_vis (reg_acc name a) = a_vis a.
Proof. unfold reg_acc. destruct (str_eqb cb_attr (a_attr a)); auto. destruct (a_body a); auto. Qed.

Lemma reg_mod_static out name : static (reg_mod out name).
Proof.
  intros md. unfold reg_mod. destruct (str_eqb out (m_name md)); auto. simpl. repeat split.
  rewrite map_map. apply map_ext. intros a. apply reg_acc_static.
Qed.

Lemma register_input_consistent s c o : consistent s -> consistent (register_input s c o).
Proof. apply (static_consistent (reg_mod o c)); auto using reg_mod_static. Qed.

Lemma register_input_wires_ok s c o : wires_ok s -> wires_ok (register_input s c o).
Proof. apply (static_wires_ok (reg_mod o c)); auto using reg_mod_static. Qed.

Lemma fold_left_pres {A B} (Q : B -> Prop) (f : B -> A -> B) :
  (forall b x, Q b -> Q (f b x)) -> forall l b, Q b -> Q (fold_left f l b).
Proof. intros HQ. induction l; simpl; auto. Qed.

(* whatever register_input keeps, the start-up keeps: it is three nested folds of register_input *)
Section Preserve.
  Variable P : state -> Prop.
  Hypothesis HP : forall s c o, P s -> P (register_input s c o).

  Lemma init_module_pres lk m s : P s -> P (init_module lk s m).
  Proof. apply fold_left_pres. intros st l H. destruct (str_eqb m (fst l)); auto. Qed.

  Lemma startup_pres lk s0 : P s0 -> P (startup lk s0).
  Proof.
    intros H. unfold startup, startup_trace. simpl. apply fold_left_pres; [intros; apply init_module_pres; auto|].
    apply (fold_left_pres (fun acc => P (fst acc))); auto. intros acc m Ha. unfold startup_visit.
    destruct (find_mod _ (m_name m)); apply init_module_pres, Ha.
  Qed.
End Preserve.

Lemma startup_names lk s0 : map m_name (s_mods (startup lk s0)) = map m_name (s_mods s0).
Proof.
  apply (startup_pres (fun s => map m_name (s_mods s) = map m_name (s_mods s0))); auto.
  intros s c o H. simpl. rewrite static_names; auto using reg_mod_static.
Qed.

Lemma started_consistent n lk s0 E ops :
  build n = Ok s0 -> well_configured n -> consistent (run E (startup lk s0) ops).
Proof.
  intros H W. apply run_consistent, startup_pres; [exact register_input_consistent|]. eapply build_consistent; eauto.
Qed.

Lemma started_wires_ok n lk s0 E ops : build n = Ok s0 -> wires_ok (run E (startup lk s0) ops).
Proof.
  intros H. apply run_preserves, startup_pres; eauto using step_wires_ok, register_input_wires_ok, build_wires_ok.
Qed.

Lemma reg_acc_in name a accs : In a accs -> In (reg_acc name a) (map (reg_acc name) accs).
Proof. apply in_map. Qed.
