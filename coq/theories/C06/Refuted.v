(* C06 -- genuine defects of the pinned code, reproduced by the faithful model (witnesses checked by vm_compute) *)
From Coq Require Import ZArith NArith Bool List.
Import ListNotations.
Require Import FV.Base.Util FV.Base.F64 FV.Base.PyVal FV.C01.Model FV.Gen.C06 FV.C06.Model FV.C06.Lemmas FV.C06.LemmasBuild.

Definition E0 : pyenv := {| int_of := []; b64_of := [] |}.
Definition dbl : dtype := TFloat (fopp fmaxval) fmaxval fzero (fmk 4533471823554859 (-75)).
Definition s_m : str := [109]%N.                       (* "m" *)
Definition s_foo : str := [102; 111; 111]%N.            (* "foo" *)
Definition s_ufoo : str := [95; 102; 111; 111]%N.       (* "_foo" *)
Definition s_bar : str := [98; 97; 114]%N.              (* "bar" *)
Definition s_baz : str := [98; 97; 122]%N.              (* "baz" *)
Definition two_half : f64 := fmk 5 (-1).

Definition mk_par (attr : str) (d : dtype) (e : export_t) (ce : option export_t) (ro : bool) (cc : option pyval)
  (dflt : option pyval) : acfg :=
  {| ac_attr := attr; ac_export := e; ac_cfg_export := ce; ac_group := []; ac_vis := 1;
     ac_body := BParam {| pc_dt := d; pc_dtdefault := PInt 0; pc_unit := []; pc_readonly := ro; pc_const_cls := cc;
                          pc_const_cfg := None; pc_default := dflt; pc_hw := None |} |}.
Definition mk_mod (accs : list acfg) : mcfg :=
  {| mc_name := s_m; mc_export := true; mc_group := []; mc_vis := 1; mc_impl := []; mc_mro := []; mc_accs := accs;
     mc_cfg_auto := [] |}.

Definition state_of (n : list mcfg) : state :=
  match build n with Ok s => s | Err _ => {| s_mods := []; s_active := false; s_subs := [] |} end.

Definition is_data (r : reply) : bool := match r with RpData _ => true | _ => false end.
Definition built (n : list mcfg) : bool := match build n with Ok _ => true | Err _ => false end.
Definition reply3 (x : state * reply * list upd) : reply := snd (fst x).
Definition tok1 : N := 1%N.
Definition upds3 (x : state * reply * list upd) : list upd := snd x.
Definition state3 (x : state * reply * list upd) : state := fst (fst x).
Definition desc_constant (d : option adesc) : option pyval :=
  match d with Some (DP _ _ pd) => pd_constant pd | _ => None end.
Definition reply_eq_data (r : reply) (v : pyval) : bool := match r with RpData x => pv_same x v | _ => false end.
Definition is_some {A} (o : option A) : bool := match o with Some _ => true | None => false end.
Definition rerr_is (r : reply) (e : rerr) : bool :=
  match r, e with
  | RpErr RNoPar, RNoPar | RpErr RNoMod, RNoMod | RpErr RNoCmd, RNoCmd | RpErr RReadOnly, RReadOnly => true
  | RpErr (RExc a), RExc b => exc_eqb a b
  | _, _ => false
  end.

Lemma built_state_of n : built n = true -> build n = Ok (state_of n).
Proof. unfold built, state_of. destruct (build n); auto. discriminate. Qed.

(* a node that describes a constant has been built: state_of of a refused configuration has no modules *)
Lemma described_constant_built n m w c : desc_constant (described (state_of n) m w) = Some c -> built n = true.
Proof. unfold built, state_of. destruct (build n); [reflexivity|discriminate]. Qed.

(* observation: a ScaledInteger(0.1) constant 2.5 given in the class is exported once per Parameter.finish call and described
   (and, since 0f999c0, read) as 2500 instead of 25 -- description and behaviour agree, so this is not a violation of C06 *)
Definition sc01 : dtype := TScaled (fmk 3602879701896397 (-55)) fzero (of_Z 100).
Definition n_scaled : list mcfg := [mk_mod [mk_par s_foo sc01 ExTrue None true (Some (PFloat two_half)) None]].
Theorem observed_scaled_constant_reexported :
  built n_scaled = true /\ desc_constant (described (state_of n_scaled) s_m s_ufoo) = Some (PInt 2500) /\
  finish_const sc01 (PFloat two_half) = Ok (PInt 25).
Proof.
  assert (H : desc_constant (described (state_of n_scaled) s_m s_ufoo) = Some (PInt 2500)) by (vm_compute; reflexivity).
  split; [exact (described_constant_built _ _ _ _ H)|]. split; [exact H|vm_compute; reflexivity].
Qed.

(* finding C06/nan-constant-not-strict-json (open): FloatRange()(nan) is nan, and it is put into the report as it is *)
Definition n_nan : list mcfg := [mk_mod [mk_par s_foo dbl ExTrue None true (Some (PFloat fnan)) None]].
Theorem refuted_nan_constant_described :
  built n_nan = true /\ desc_constant (described (state_of n_nan) s_m s_ufoo) = Some (PFloat fnan).
Proof.
  assert (H : desc_constant (described (state_of n_nan) s_m s_ufoo) = Some (PFloat fnan)) by (vm_compute; reflexivity).
  split; [exact (described_constant_built _ _ _ _ H)|exact H].
Qed.

(* the configurations that witnessed the repaired defects (kept as regression examples) *)
Definition n_const : list mcfg := [mk_mod [mk_par s_foo dbl ExTrue None true (Some (PFloat two_half)) None]].
Definition n_hidden : list mcfg :=
  [mk_mod [mk_par s_foo dbl ExTrue (Some ExFalse) false None (Some (PFloat two_half))]].
Definition n_renamed : list mcfg :=
  [mk_mod [mk_par s_bar dbl ExTrue (Some (ExName s_baz)) false None (Some (PFloat two_half))]].
Definition n_collision : list mcfg :=
  [mk_mod [mk_par s_foo dbl ExTrue None false None (Some (PFloat two_half));
           mk_par s_bar (TString 0 8 false) (ExName s_ufoo) None false None (Some (PStr [116; 120; 116]%N))]].
