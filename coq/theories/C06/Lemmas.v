(* C06 -- lemmas: dictionaries, the structure report, what a request does to the state (effect), the read wrapper, and
   what the report says of the behaviour of any consistent state *)
From Coq Require Import ZArith NArith Bool List.
Import ListNotations.
Require Import FV.Base.Util FV.Base.F64 FV.Base.PyVal FV.C01.Model FV.Gen.C06 FV.C06.Model.

Lemma str_eqb_refl (s : str) : str_eqb s s = true.
Proof. unfold str_eqb. induction s; simpl; auto. rewrite N.eqb_refl. auto. Qed.

Lemma str_eqb_eq (a b : str) : str_eqb a b = true -> a = b.
Proof.
  unfold str_eqb. revert b. induction a; destruct b; simpl; intros H; try discriminate; auto.
  apply andb_true_iff in H. destruct H as [H1 H2]. apply N.eqb_eq in H1. subst. f_equal. auto.
Qed.

Lemma str_eqb_neq (a b : str) : str_eqb a b = false -> a <> b.
Proof. intros H E. subst. rewrite str_eqb_refl in H. discriminate. Qed.

Lemma str_eqb_spec (a b : str) : reflect (a = b) (str_eqb a b).
Proof. apply iff_reflect. split; [intros ->; apply str_eqb_refl|apply str_eqb_eq]. Qed.

Lemma str_eqb_sym (a b : str) : str_eqb a b = str_eqb b a.
Proof. destruct (str_eqb_spec a b) as [->|N]; [rewrite str_eqb_refl|destruct (str_eqb_spec b a)]; congruence. Qed.

Lemma assoc_dict_set {A} (k k2 : str) (v : A) (l : list (str * A)) :
  assoc_str k (dict_set k2 v l) = if str_eqb k2 k then Some v else assoc_str k l.
Proof.
  induction l as [|[k' v'] r IH]; simpl.
  - rewrite str_eqb_sym. reflexivity.
  - destruct (str_eqb_spec k2 k') as [->|N]; simpl.
    + rewrite (str_eqb_sym k' k). destruct (str_eqb k k'); auto.
    + rewrite IH. destruct (str_eqb_spec k2 k) as [->|]; auto. destruct (str_eqb_spec k k'); congruence.
Qed.

Lemma keys_dict_set {A} (k : str) (v : A) (l : list (str * A)) (x : str) :
  In x (map fst (dict_set k v l)) <-> x = k \/ In x (map fst l).
Proof.
  induction l as [|[k' v'] r IH]; simpl.
  - split; intros [<-|[]]; auto.
  - destruct (str_eqb_spec k k') as [->|N]; simpl.
    + split; [auto|intros [->|H]; auto].
    + rewrite IH. split; intros [H|[H|H]]; auto.
Qed.

Lemma nodup_dict_set {A} (k : str) (v : A) (l : list (str * A)) :
  NoDup (map fst l) -> NoDup (map fst (dict_set k v l)).
Proof.
  induction l as [|[k' v'] r IH]; simpl; intros H.
  - repeat constructor. simpl. auto.
  - inversion H as [|? ? Hk' Hr]; subst. destruct (str_eqb_spec k k') as [->|N]; simpl; constructor; auto.
    rewrite keys_dict_set. intros [X|X]; auto.
Qed.

Lemma assoc_in_keys {A} (k : str) (l : list (str * A)) : assoc_str k l = None <-> ~ In k (map fst l).
Proof.
  induction l as [|[k' v'] r IH]; simpl.
  - split; auto.
  - destruct (str_eqb_spec k k') as [->|N].
    + split; [discriminate|intros H; destruct H; auto].
    + rewrite IH. split; intros H; [intros [X|X]; auto|auto].
Qed.

Lemma find_app {A} (f : A -> bool) (l1 l2 : list A) :
  find f (l1 ++ l2) = match find f l1 with Some x => Some x | None => find f l2 end.
Proof. induction l1; simpl; auto. destruct (f a); auto. Qed.

Lemma find_none_iff {A} (f : A -> bool) (l : list A) : find f l = None <-> forall x, In x l -> f x = false.
Proof.
  split; [apply find_none|]. induction l; simpl; intros H; auto.
  rewrite (H a); auto.
Qed.

Lemma wire_is_true w a : wire_is w a = true <-> a_wire a = Some w.
Proof.
  unfold wire_is. destruct (a_wire a) as [x|]; simpl; [|split; discriminate].
  destruct (str_eqb_spec x w); split; congruence.
Qed.

(* the entry of a wire name is the description of the LAST accessible exported under it *)
Lemma export_fold_assoc (w : str) (accs : list acc) (r : list (str * adesc)) :
  assoc_str w (fold_left export_step accs r) =
  match find (wire_is w) (rev accs) with
  | Some a => Some (describe_acc a)
  | None => assoc_str w r
  end.
Proof.
  revert r. induction accs as [|a l IH]; intros r; simpl; auto.
  rewrite IH, find_app. destruct (find (wire_is w) (rev l)); auto. simpl.
  unfold export_step, wire_is. destruct (a_wire a) as [x|]; simpl; auto.
  rewrite assoc_dict_set. destruct (str_eqb x w); auto.
Qed.

Lemma export_assoc (w : str) (accs : list acc) :
  assoc_str w (export_accessibles accs) = option_map describe_acc (find (wire_is w) (rev accs)).
Proof. unfold export_accessibles. rewrite export_fold_assoc. destruct (find _ _); auto. Qed.

Lemma export_fold_keys (accs : list acc) (r : list (str * adesc)) (x : str) :
  In x (map fst (fold_left export_step accs r)) <-> In x (map fst r) \/ exists a, In a accs /\ a_wire a = Some x.
Proof.
  revert r. induction accs as [|a l IH]; intros r; simpl.
  - split; [auto|]. intros [H|[a [[] _]]]; auto.
  - rewrite IH. unfold export_step. destruct (a_wire a) as [w|] eqn:E; [rewrite keys_dict_set|]; split.
    + intros [[H|H]|[b [H1 H2]]]; [subst; right; exists a; auto|auto|right; exists b; auto].
    + intros [H|[b [[H1|H1] H2]]]; [auto| subst b; rewrite E in H2; inversion H2; auto |right; exists b; auto].
    + intros [H|[b [H1 H2]]]; [auto|right; exists b; auto].
    + intros [H|[b [[H1|H1] H2]]]; [auto|subst b; rewrite E in H2; discriminate|right; exists b; auto].
Qed.

Lemma export_keys (accs : list acc) (x : str) :
  In x (map fst (export_accessibles accs)) <-> exists a, In a accs /\ a_wire a = Some x.
Proof. unfold export_accessibles. rewrite export_fold_keys. simpl. tauto. Qed.

Lemma export_fold_nodup (accs : list acc) (r : list (str * adesc)) :
  NoDup (map fst r) -> NoDup (map fst (fold_left export_step accs r)).
Proof.
  revert r. induction accs as [|a l IH]; intros r H; simpl; auto.
  apply IH. unfold export_step. destruct (a_wire a); auto. apply nodup_dict_set; auto.
Qed.

Lemma export_nodup (accs : list acc) : NoDup (map fst (export_accessibles accs)).
Proof. apply export_fold_nodup. constructor. Qed.

Definition described (s : state) (m w : str) : option adesc :=
  match assoc_str m (describe s) with
  | Some md => assoc_str w (md_accs md)
  | None => None
  end.

Lemma assoc_describe (mods : list modl) (m : str) :
  assoc_str m (map (fun x => (m_name x, describe_mod x)) (filter m_export mods)) =
  option_map describe_mod (find (fun x => str_eqb m (m_name x) && m_export x) mods).
Proof.
  induction mods as [|x l IH]; simpl; auto.
  destruct (m_export x) eqn:E; simpl.
  - destruct (str_eqb m (m_name x)); simpl; auto.
  - rewrite andb_false_r. auto.
Qed.

(* describe has no other input than the module objects of the state *)
Lemma describe_function_of_modules s1 s2 : s_mods s1 = s_mods s2 -> describe s1 = describe s2.
Proof. unfold describe. intros H. rewrite H. auto. Qed.

Lemma describe_subscribe s sp : describe (subscribe s sp) = describe s.
Proof. auto. Qed.

(* set_val replaces value, read error and hardware register of one parameter object: names, export flags and the
   description of every accessible stay *)
Lemma set_val_acc_static attr v e h a :
  a_attr (set_val_acc attr v e h a) = a_attr a /\
  a_wire (set_val_acc attr v e h a) = a_wire a /\ describe_acc (set_val_acc attr v e h a) = describe_acc a.
Proof.
  unfold set_val_acc. destruct (str_eqb attr (a_attr a)); auto. destruct (a_body a) eqn:E; auto.
  repeat split; auto. unfold describe_acc. simpl. rewrite E. auto.
Qed.

Lemma export_fold_set_val attr v e h accs r :
  fold_left export_step (map (set_val_acc attr v e h) accs) r = fold_left export_step accs r.
Proof.
  revert r. induction accs as [|a l IH]; intros r; simpl; auto. rewrite IH. f_equal.
  unfold export_step. destruct (set_val_acc_static attr v e h a) as (_ & Hw & Hd). rewrite Hw, Hd. auto.
Qed.

Lemma set_val_mod_static m attr v e h md :
  m_name (set_val_mod m attr v e h md) = m_name md /\ m_export (set_val_mod m attr v e h md) = m_export md /\
  describe_mod (set_val_mod m attr v e h md) = describe_mod md.
Proof.
  unfold set_val_mod. destruct (str_eqb m (m_name md)); auto. repeat split; auto.
  unfold describe_mod, export_accessibles. simpl. rewrite export_fold_set_val. auto.
Qed.

Lemma describe_set_val s m attr v e h : describe (set_val s m attr v e h) = describe s.
Proof.
  unfold describe, set_val. simpl. induction (s_mods s) as [|md l IH]; simpl; auto.
  destruct (set_val_mod_static m attr v e h md) as (Hn & He & Hd). rewrite He.
  destruct (m_export md); simpl; auto. rewrite Hn, Hd, IH. auto.
Qed.

(* an unexported module exports nothing *)
Definition acc_consistent (mod_export : bool) (a : acc) : Prop := mod_export = false -> a_wire a = None.
Definition mod_consistent (md : modl) : Prop := Forall (acc_consistent (m_export md)) (m_accs md).
Definition consistent (s : state) : Prop :=
  Forall mod_consistent (s_mods s) /\ NoDup (map m_name (s_mods s)).

Lemma consistent_wire s md a : consistent s -> In md (s_mods s) -> In a (m_accs md) -> m_export md = false -> a_wire a = None.
Proof.
  intros [H _] Hmd Ha. rewrite Forall_forall in H. specialize (H md Hmd). unfold mod_consistent in H.
  rewrite Forall_forall in H. exact (H a Ha).
Qed.

(* g rewrites module objects and leaves module name, export flag and the wire names of the accessibles alone *)
Definition static (g : modl -> modl) : Prop :=
  forall md, m_name (g md) = m_name md /\ m_export (g md) = m_export md /\
             map a_wire (m_accs (g md)) = map a_wire (m_accs md).

Lemma static_names g l : static g -> map m_name (map g l) = map m_name l.
Proof. intros Hg. rewrite map_map. apply map_ext. intros md. apply Hg. Qed.

Lemma static_consistent g s s' : static g -> s_mods s' = map g (s_mods s) -> consistent s -> consistent s'.
Proof.
  intros Hg Hs [H ND]. unfold consistent. rewrite Hs, static_names by auto. split; auto.
  apply Forall_map. eapply Forall_impl; [|exact H]. intros md Hm. destruct (Hg md) as (_ & He & Hw).
  unfold mod_consistent in *. rewrite He.
  apply (Forall_map a_wire (fun w => m_export md = false -> w = None)). rewrite Hw. apply Forall_map. exact Hm.
Qed.

Lemma set_val_static m attr v e h : static (set_val_mod m attr v e h).
Proof.
  intros md. unfold set_val_mod. destruct (str_eqb m (m_name md)); auto. simpl. repeat split.
  rewrite map_map. apply map_ext. intros a. apply set_val_acc_static.
Qed.

(* what a request stores in a parameter object: a converted or validated value, an error mark beside the old value,
   or value and error as they were (the hardware register alone changes) *)
Inductive written (p : par) : pyval -> option N -> Prop :=
| WrCall x v : dt_call (p_dt p) x = Ok v -> written p v None
| WrValid x prev v : dt_validate (p_dt p) x prev = Ok v -> written p v None
| WrErr tok : written p (p_value p) (Some tok)
| WrKeep : written p (p_value p) (p_err p).

(* u is the update of an exported parameter object of s *)
Definition from_state (s : state) (u : upd) : Prop :=
  exists md a p w, In md (s_mods s) /\ In a (m_accs md) /\ a_body a = AP p /\ a_wire a = Some w /\
                   u = make_update (m_name md) (Some w) p.

(* every operation keeps the module objects and sends updates of parameter objects as they are, or stores into one
   parameter object and sends nothing or the announcement of that object *)
Inductive effect (s : state) : state * reply * list upd -> Prop :=
| EfKeep s' r us : s_mods s' = s_mods s -> Forall (from_state s) us -> effect s (s', r, us)
| EfSet m md a p v e h r us :
    find_mod s m = Some md -> In a (m_accs md) -> a_body a = AP p -> written p v e ->
    us = [] \/ us = announce s m a (with_value p v e h) ->
    effect s (set_val s m (a_attr a) v e h, r, us).

Lemma lookup0_in md w a : lookup0 md w = Some a -> In a (m_accs md) /\ a_wire a = Some w.
Proof. unfold lookup0. intros H. apply find_some in H. rewrite <- in_rev, wire_is_true in H. exact H. Qed.

Lemma find_attr_in md attr a : find_attr md attr = Some a -> In a (m_accs md) /\ a_attr a = attr.
Proof.
  unfold find_attr. intros H. apply find_some in H. destruct H as [H1 H2]. split; auto.
  apply str_eqb_eq in H2. auto.
Qed.

Lemma module_updates_from_state s md : In md (s_mods s) -> Forall (from_state s) (module_updates md).
Proof.
  intros Hmd. apply Forall_flat_map, Forall_forall. intros a Ha.
  destruct (a_body a) as [p|c] eqn:B; auto. destruct (a_wire a) as [w|] eqn:W; auto.
  constructor; auto. exists md, a, p, w. auto.
Qed.

Lemma step_effect E s o : effect s (step E s o).
Proof.
  assert (K : forall r, effect s (s, r, [])) by (intros r; apply EfKeep; auto).
  destruct o; simpl; auto.
  - (* read: a converted hardware value or an error mark is stored *)
    unfold do_read. destruct (find_mod s m) as [md|] eqn:F; auto. destruct (lookup0 md w) as [a|] eqn:L; auto.
    apply lookup0_in in L. destruct L as [Ha _]. destruct (a_body a) as [p|c] eqn:B; auto. destruct (p_constant p); auto.
    destruct (p_hw p) as [hw|]; auto. unfold read_hw. destruct (dt_call (p_dt p) hw) as [nv|e] eqn:C.
    + apply (EfSet s m md a p); auto. exact (WrCall p hw nv C).
    + destruct (err_is (p_err p) tok); auto. apply (EfSet s m md a p); auto. apply WrErr.
  - (* change: the validated value is stored *)
    unfold do_change. destruct (find_mod s m) as [md|] eqn:F; auto. destruct (lookup0 md w) as [a|] eqn:L; auto.
    apply lookup0_in in L. destruct L as [Ha _]. destruct (a_body a) as [p|c] eqn:B; auto. destruct (p_constant p); auto.
    destruct (p_readonly p); auto. destruct (wire E (p_dt p) j (p_value p)) as [x|]; simpl; auto.
    destruct (dt_validate (p_dt p) x PNone) as [nv|] eqn:C; auto.
    apply (EfSet s m md a p); auto. exact (WrValid p x PNone nv C).
  - (* activate: a subscription is registered, the updates are those of parameter objects as they are *)
    unfold do_activate. destruct spec as [[m ow]|].
    + destruct (find _ (s_mods s)) as [md|] eqn:F; auto. apply find_some in F. destruct F as [Hmd Nm].
      apply andb_true_iff in Nm. destruct Nm as [Nm _]. apply str_eqb_eq in Nm. subst m.
      destruct ow as [w|]; [|apply EfKeep; auto using module_updates_from_state].
      destruct (lookup0 md w) as [a|] eqn:L; auto. apply lookup0_in in L. destruct L as [Ha W].
      destruct (a_body a) as [p|c] eqn:B; apply EfKeep; auto.
      constructor; auto. exists md, a, p, w. rewrite W. auto.
    + apply EfKeep; auto. apply Forall_flat_map, Forall_forall. intros md Hmd. apply filter_In in Hmd.
      apply module_updates_from_state, Hmd.
  - (* driver assignment: as for a read *)
    unfold do_driver_set. destruct (find_mod s m) as [md|] eqn:F; auto. destruct (find_attr md attr) as [a|] eqn:L; auto.
    apply find_attr_in in L. destruct L as [Ha <-]. destruct (a_body a) as [p|c] eqn:B; auto.
    destruct (dt_call (p_dt p) v) as [nv|e] eqn:C.
    + apply (EfSet s m md a p); auto. exact (WrCall p v nv C).
    + destruct (err_is (p_err p) tok); auto. apply (EfSet s m md a p); auto. apply WrErr.
  - (* the hardware register alone changes *)
    unfold do_hw_set. destruct (find_mod s m) as [md|] eqn:F; auto. destruct (find_attr md attr) as [a|] eqn:L; auto.
    apply find_attr_in in L. destruct L as [Ha <-]. destruct (a_body a) as [p|c] eqn:B; auto.
    destruct (p_hw p); auto. apply (EfSet s m md a p); auto. apply WrKeep.
Qed.

Lemma run_preserves (P : state -> Prop) E :
  (forall s o, P s -> P (fst (fst (step E s o)))) -> forall ops s, P s -> P (run E s ops).
Proof. intros HP. induction ops; intros s H; simpl; auto. Qed.

Lemma describe_step E s o : describe (fst (fst (step E s o))) = describe s.
Proof. destruct (step_effect E s o); simpl; auto using describe_function_of_modules, describe_set_val. Qed.

Lemma describe_run E ops s : describe (run E s ops) = describe s.
Proof.
  apply (run_preserves (fun s' => describe s' = describe s)); auto. intros s' o H. rewrite describe_step. auto.
Qed.

Lemma step_consistent E s o : consistent s -> consistent (fst (fst (step E s o))).
Proof.
  destruct (step_effect E s o) as [s' r us H _|]; simpl.
  - unfold consistent. rewrite H. auto.
  - apply (static_consistent (set_val_mod m (a_attr a) v e h)); auto using set_val_static.
Qed.

Lemma run_consistent E ops s : consistent s -> consistent (run E s ops).
Proof. apply run_preserves, step_consistent. Qed.

Lemma find_ext_in {A} (f g : A -> bool) (l : list A) : (forall x, In x l -> f x = g x) -> find f l = find g l.
Proof.
  induction l; simpl; intros H; auto. rewrite (H a); auto. destruct (g a); auto.
Qed.

Lemma find_mod_unique (mods : list modl) (m : str) :
  NoDup (map m_name mods) ->
  find (fun x => str_eqb m (m_name x) && m_export x) mods =
  match find (fun x => str_eqb m (m_name x)) mods with
  | Some md => if m_export md then Some md else None
  | None => None
  end.
Proof.
  induction mods as [|x l IH]; simpl; intros ND; auto.
  inversion ND as [|? ? Hx Hl]; subst. destruct (str_eqb_spec m (m_name x)) as [->|N]; simpl; auto.
  destruct (m_export x); auto. rewrite IH by auto. clear IH.
  destruct (find _ l) as [y|] eqn:F; auto. apply find_some in F. destruct F as [Hy E].
  apply str_eqb_eq in E. exfalso. apply Hx. rewrite E. apply in_map. auto.
Qed.

Lemma described_run E s ops m w : described (run E s ops) m w = described s m w.
Proof. unfold described. rewrite describe_run. reflexivity. Qed.

(* the accessible a request reaches under a name is the one the report describes under that name, and vice versa *)
Lemma described_lookup s m w : consistent s ->
  described s m w =
  match find_mod s m with
  | Some md => if m_export md then option_map describe_acc (lookup0 md w) else None
  | None => None
  end.
Proof.
  intros [_ ND]. unfold described, describe, find_mod. rewrite assoc_describe, (find_mod_unique _ _ ND).
  destruct (find _ (s_mods s)) as [md|]; auto. destruct (m_export md); simpl; auto. apply export_assoc.
Qed.

Definition refused (r : reply) : Prop := r = RpErr RNoMod \/ r = RpErr RNoPar \/ r = RpErr RNoCmd.

Theorem undescribed_refused E s m w : consistent s -> described s m w = None ->
  (forall tok, exists r, do_read s m w tok = (s, r, []) /\ refused r) /\
  (forall j, exists r, do_change E s m w j = (s, r, []) /\ refused r) /\
  (forall arg, refused (do_do E s m w arg)) /\
  (exists r, do_activate s (Some (m, Some w)) = (s, r, []) /\ refused r) /\
  (assoc_str m (describe s) = None -> do_activate s (Some (m, None)) = (s, RpErr RNoMod, [])).
Proof.
  intros HC D. unfold refused.
  assert (L : forall md, find_mod s m = Some md -> lookup0 md w = None).
  { (* the name is not registered; or the module is not exported and then registers nothing *)
    intros md F. rewrite (described_lookup _ _ _ HC), F in D.
    destruct (m_export md) eqn:X; [destruct (lookup0 md w); auto; discriminate|].
    apply find_none_iff. intros a Ha. apply in_rev in Ha. apply find_some in F.
    unfold wire_is. rewrite (consistent_wire s md a HC (proj1 F) Ha X). auto. }
  pose proof (find_mod_unique _ m (proj2 HC)) as A. fold (find_mod s m) in A.
  repeat split.
  - intros tok. unfold do_read. destruct (find_mod s m) as [md|]; [rewrite (L md eq_refl)|]; eauto.
  - intros j. unfold do_change. destruct (find_mod s m) as [md|]; [rewrite (L md eq_refl)|]; eauto.
  - intros arg. unfold do_do. destruct (find_mod s m) as [md|]; [rewrite (L md eq_refl)|]; auto.
  - unfold do_activate. rewrite A. destruct (find_mod s m) as [md|]; eauto.
    destruct (m_export md); [rewrite (L md eq_refl)|]; eauto.
  - unfold do_activate, describe. rewrite assoc_describe, A. destruct (find_mod s m) as [md|]; auto.
    destruct (m_export md); auto. discriminate.
Qed.

Lemma described_acc s m w d : consistent s -> described s m w = Some d ->
  exists md a, find_mod s m = Some md /\ lookup0 md w = Some a /\ describe_acc a = d.
Proof.
  intros HC D. rewrite (described_lookup _ _ _ HC) in D.
  destruct (find_mod s m) as [md|]; [|discriminate]. destruct (m_export md); [|discriminate].
  destruct (lookup0 md w) as [a|] eqn:L; inversion D. exists md, a. auto.
Qed.

Lemma described_param s m w g v pd : consistent s -> described s m w = Some (DP g v pd) ->
  exists md a p, find_mod s m = Some md /\ lookup0 md w = Some a /\ a_body a = AP p /\
                 p_dt p = pd_dt pd /\ p_readonly p = pd_readonly pd /\ p_constant p = pd_constant pd /\ p_unit p = pd_unit pd.
Proof.
  intros HC D. destruct (described_acc _ _ _ _ HC D) as (md & a & F & L & A). unfold describe_acc in A.
  destruct (a_body a) as [p|c] eqn:B; inversion A; subst. exists md, a, p. simpl. auto 10.
Qed.

Lemma described_command s m w g v x r : consistent s -> described s m w = Some (DC g v x r) ->
  exists md a c, find_mod s m = Some md /\ lookup0 md w = Some a /\ a_body a = AC c /\ c_arg c = x /\ c_res c = r.
Proof.
  intros HC D. destruct (described_acc _ _ _ _ HC D) as (md & a & F & L & A). unfold describe_acc in A.
  destruct (a_body a) as [p|c] eqn:B; inversion A; subst. exists md, a, c. auto 10.
Qed.

(* what a client computes with the datatype it rebuilt from the report, for a change request *)
Definition verdict (E : pyenv) (d : dtype) (j prev : pyval) : res pyval :=
  wire E d j prev >>= fun v => dt_validate d v PNone.

Theorem described_datainfo E s m w : consistent s ->
  (forall g v pd j, described s m w = Some (DP g v pd) -> pd_readonly pd = false -> pd_constant pd = None ->
     exists prev,
       match verdict E (pd_dt pd) j prev with
       | Err e => do_change E s m w j = (s, RpErr (RExc e), [])
       | Ok nv => exists s' us, do_change E s m w j =
                    (s', reply_of (dt_export (pd_dt pd) nv >>= fun x => Ok (with_qualifiers x)), us)
       end) /\
  (forall g v x r arg, described s m w = Some (DC g v x r) ->
     exists ret, do_do E s m w arg =
       reply_of (run_cmd E {| c_arg := x; c_res := r; c_ret := ret |} arg >>= fun y => Ok (with_qualifiers y))).
Proof.
  intros HC. split.
  - intros g v pd j D RO CO. destruct (described_param _ _ _ _ _ _ HC D) as (md & a & p & F & L & B & Hd & Hr & Hc & _).
    exists (p_value p). unfold do_change, verdict. rewrite F, L, B, Hc, CO, Hr, RO, Hd.
    destruct (wire E (pd_dt pd) j (p_value p) >>= _); eauto.
  - intros g v x r arg D. destruct (described_command _ _ _ _ _ _ _ HC D) as (md & a & c & F & L & B & Ha & Hr).
    exists (c_ret c). unfold do_do. rewrite F, L, B. subst. destruct c; auto.
Qed.

Theorem described_flags E s m w g v pd : consistent s -> described s m w = Some (DP g v pd) ->
  ((pd_readonly pd = true \/ pd_constant pd <> None) -> forall j, do_change E s m w j = (s, RpErr RReadOnly, [])) /\
  (pd_readonly pd = false -> pd_constant pd = None -> forall j, snd (fst (do_change E s m w j)) <> RpErr RReadOnly).
Proof.
  intros HC D. split.
  - intros H j. destruct (described_param _ _ _ _ _ _ HC D) as (md & a & p & F & L & B & Hd & Hr & Hc & _).
    unfold do_change. rewrite F, L, B, Hc, Hr. destruct (pd_constant pd); auto.
    destruct H as [H|H]; [rewrite H; auto|congruence].
  - intros RO CO j. destruct (proj1 (described_datainfo E _ _ _ HC) _ _ _ j D RO CO) as [prev H].
    destruct (verdict E (pd_dt pd) j prev).
    + destruct H as (s' & us & H). rewrite H. simpl. unfold reply_of. destruct (_ >>= _); discriminate.
    + rewrite H. simpl. discriminate.
Qed.

(* the parameter object a described name stands for *)
Definition param_at (s : state) (m w : str) : option par :=
  match find_mod s m with
  | Some md => match lookup0 md w with
               | Some a => match a_body a with AP p => Some p | AC _ => None end
               | None => None
               end
  | None => None
  end.

Lemma param_at_spec s m w p :
  param_at s m w = Some p <-> exists md a, find_mod s m = Some md /\ lookup0 md w = Some a /\ a_body a = AP p.
Proof.
  unfold param_at. split.
  - destruct (find_mod s m) as [md|]; [|discriminate]. destruct (lookup0 md w) as [a|] eqn:L; [|discriminate].
    destruct (a_body a) eqn:B; intros [= <-]. exists md, a. auto.
  - intros (md & a & F & L & B). rewrite F, L, B. reflexivity.
Qed.

Lemma described_param_at s m w g v pd : consistent s -> described s m w = Some (DP g v pd) ->
  exists p, param_at s m w = Some p /\ pd_dt pd = p_dt p /\ pd_unit pd = p_unit p /\
            pd_readonly pd = p_readonly p /\ pd_constant pd = p_constant p.
Proof.
  intros HC D. destruct (described_param _ _ _ _ _ _ HC D) as (md & a & p & F & L & B & H1 & H2 & H3 & H4).
  exists p. split; [apply param_at_spec; eauto|auto].
Qed.

(* the reply to a read and the body of an update for a value x: its export by d *)
Definition value_reply (d : dtype) (x : pyval) : reply := reply_of (dt_export d x >>= fun y => Ok (with_qualifiers y)).
Definition value_body (d : dtype) (x : pyval) : ubody := match dt_export d x with Ok y => UV y | Err _ => UX end.

(* what an update of a parameter object carries: the error mark, or the export of its cached value *)
Lemma make_update_body m w p :
  u_body (make_update m w p) = match p_err p with Some _ => UE | None => value_body (p_dt p) (p_value p) end.
Proof. unfold make_update, value_body. simpl. destruct (p_err p); auto. Qed.

Lemma announce_body s m a p :
  Forall (fun u => u_body u = match p_err p with Some _ => UE | None => value_body (p_dt p) (p_value p) end)
         (announce s m a p).
Proof.
  unfold announce. destruct (a_wire a) as [w|]; auto. destruct (listening s m w); auto.
Qed.

(* the generated read wrapper: reply and updates carry what the hardware delivered, converted by the datatype of the
   parameter object; a value that datatype does not accept gives an error reply and error updates only *)
Lemma read_hw_spec s m a p hw tok :
  match dt_call (p_dt p) hw with
  | Ok nv => exists s' us, read_hw s m a p hw tok = (s', value_reply (p_dt p) nv, us) /\
                           Forall (fun u => u_body u = value_body (p_dt p) nv) us
  | Err e => exists s' us, read_hw s m a p hw tok = (s', RpErr (RExc e), us) /\ Forall (fun u => u_body u = UE) us
  end.
Proof.
  unfold read_hw. destruct (dt_call (p_dt p) hw) as [nv|e]; [|destruct (err_is (p_err p) tok)];
    eexists; eexists; (split; [reflexivity|]).
  - exact (announce_body s m a (with_value p nv None (p_hw p))).
  - constructor.
  - exact (announce_body s m a (with_value p (p_value p) (Some tok) (p_hw p))).
Qed.

(* a read of a described parameter: the constant; or the cached value; or - when the class has a read method - the read
   wrapper run with the DESCRIBED datatype *)
Theorem described_read s m w g v pd tok : consistent s -> described s m w = Some (DP g v pd) ->
  (pd_constant pd = None ->
     exists p, param_at s m w = Some p /\ p_dt p = pd_dt pd /\
       match p_hw p with
       | None => do_read s m w tok = (s, value_reply (pd_dt pd) (p_value p), [])
       | Some hw =>
           match dt_call (pd_dt pd) hw with
           | Ok nv => exists s' us, do_read s m w tok = (s', value_reply (pd_dt pd) nv, us) /\
                                    Forall (fun u => u_body u = value_body (pd_dt pd) nv) us
           | Err e => exists s' us, do_read s m w tok = (s', RpErr (RExc e), us) /\ Forall (fun u => u_body u = UE) us
           end
       end) /\
  (forall c, pd_constant pd = Some c -> do_read s m w tok = (s, RpData (with_qualifiers c), [])).
Proof.
  intros HC D. destruct (described_param _ _ _ _ _ _ HC D) as (md & a & p & F & L & B & Hd & Hr & Hc & _).
  unfold param_at, do_read. rewrite F, L, B, Hc. split; [|intros c CO; rewrite CO; auto].
  intros CO. exists p. rewrite CO. repeat split; auto.
  rewrite <- Hd. destruct (p_hw p) as [hw|]; auto. apply read_hw_spec.
Qed.
