(* C06 -- the values a node holds (and therefore emits) for a parameter were produced by the datatype the report shows:
   invariant over all histories of requests, hardware reads and driver assignments.  Wire names stay distinct, so an
   exported parameter object is the one the report describes under its wire name, and every update of a step belongs to one *)
From Coq Require Import ZArith NArith Bool List.
Import ListNotations.
Require Import FV.Base.Util FV.Base.F64 FV.Base.PyVal FV.C01.Model FV.Gen.C06 FV.C06.Model FV.C06.Lemmas FV.C06.LemmasBuild
  FV.C06.LemmasMain.

(* y is an output of the conversion (__call__) or of the validation (validate) of the datatype d *)
Definition produced_by (d : dtype) (y : pyval) : Prop :=
  (exists x, dt_call d x = Ok y) \/ (exists x prev, dt_validate d x prev = Ok y).

Definition par_ok (p : par) : Prop := p_err p = None -> produced_by (p_dt p) (p_value p).
Definition acc_ok (a : acc) : Prop := forall p, a_body a = AP p -> par_ok p.
Definition mod_ok (md : modl) : Prop := Forall acc_ok (m_accs md) /\ NoDup (map a_attr (m_accs md)).
Definition state_ok (s : state) : Prop := Forall mod_ok (s_mods s) /\ NoDup (map m_name (s_mods s)).

(* attribute names are the keys of the python dict cls.accessibles *)
Definition attrs_distinct (n : list mcfg) : Prop := Forall (fun mc => NoDup (map ac_attr (mc_accs mc))) n.

Lemma nodup_map_inj {A B} (f : A -> B) (l : list A) x y :
  NoDup (map f l) -> In x l -> In y l -> f x = f y -> x = y.
Proof.
  induction l as [|a l IH]; simpl; intros ND Hx Hy E; [tauto|].
  inversion ND as [|? ? Ha Hl]; subst. destruct Hx as [Hx|Hx], Hy as [Hy|Hy]; subst; auto.
  - exfalso. apply Ha. rewrite E. apply in_map. auto.
  - exfalso. apply Ha. rewrite <- E. apply in_map. auto.
Qed.

(* module and attribute names being distinct, set_val reaches the one parameter object <m>.<attr> *)
Lemma set_val_ok s m md a p v e h :
  state_ok s -> find_mod s m = Some md -> In a (m_accs md) -> a_body a = AP p -> par_ok (with_value p v e h) ->
  state_ok (set_val s m (a_attr a) v e h).
Proof.
  intros [OK ND] F Ha B P. apply find_some in F. destruct F as [Hmd Nm]. apply str_eqb_eq in Nm. subst m.
  split; [|simpl; rewrite static_names; auto using set_val_static].
  unfold set_val. simpl. apply Forall_map. rewrite Forall_forall in *.
  intros md' Hmd'. specialize (OK md' Hmd'). unfold set_val_mod.
  destruct (str_eqb_spec (m_name md) (m_name md')) as [N|]; auto.
  assert (md' = md) by (eapply (nodup_map_inj m_name); eauto). subst md'. destruct OK as [OKa NDa]. split; simpl.
  - apply Forall_map. rewrite Forall_forall in *. intros a' Ha'. specialize (OKa a' Ha'). unfold set_val_acc.
    destruct (str_eqb_spec (a_attr a) (a_attr a')) as [N'|]; auto.
    assert (a' = a) by (eapply (nodup_map_inj a_attr); eauto). subst a'. rewrite B. intros p' [= <-]. exact P.
  - rewrite map_map. rewrite (map_ext _ a_attr); auto. intros a'. apply set_val_acc_static.
Qed.

Lemma target_ok s m md a p : state_ok s -> find_mod s m = Some md -> In a (m_accs md) -> a_body a = AP p -> par_ok p.
Proof.
  intros [OK _] F Ha B. apply find_some in F. rewrite Forall_forall in OK. destruct (OK md (proj1 F)) as [OKa _].
  rewrite Forall_forall in OKa. exact (OKa a Ha p B).
Qed.

Lemma param_at_ok s m w p : state_ok s -> param_at s m w = Some p -> par_ok p.
Proof.
  intros OK H. apply param_at_spec in H. destruct H as (md & a & F & L & B). apply lookup0_in in L.
  exact (target_ok _ _ _ _ _ OK F (proj1 L) B).
Qed.

Lemma step_ok E s o : state_ok s -> state_ok (fst (fst (step E s o))).
Proof.
  intros OK. destruct (step_effect E s o) as [s' r us H _|m md a p v e h r us F Ha B Wr _]; simpl.
  - unfold state_ok. rewrite H. exact OK.
  - eapply set_val_ok; eauto. pose proof (target_ok _ _ _ _ _ OK F Ha B) as P.
    unfold par_ok in *. destruct Wr; simpl; auto; [left|right|discriminate]; eauto.
Qed.

Lemma iter_res_last {A} (k : nat) (f : A -> res A) (x y : A) : iter_res (S k) f x = Ok y -> exists x', f x' = Ok y.
Proof.
  revert x. induction k as [|k IH]; intros x H; simpl in H.
  - destruct (f x) eqn:E; simpl in H; [|discriminate]. inversion H; subst. eauto.
  - destruct (f x) as [x1|] eqn:E; simpl in H; [|discriminate]. apply (IH x1). simpl. auto.
Qed.

(* the initial value is the default converted by the datatype; without a default the read error is set *)
Lemma build_par_ok mu pc r : build_par mu pc = Ok r -> par_ok r.
Proof.
  unfold build_par. intros H. apply bind_ok in H. destruct H as (c & _ & H). apply bind_ok in H.
  destruct H as (ve & Hv & H). inversion H; subst. unfold par_ok. simpl.
  destruct (pc_default pc) as [v|].
  - apply bind_ok in Hv. destruct Hv as (v' & Hi & Hv). inversion Hv; subst. simpl. intros _. left.
    eapply iter_res_last; eauto.
  - inversion Hv; subst. simpl. discriminate.
Qed.

Lemma build_ok n s : build n = Ok s -> well_configured n -> attrs_distinct n -> state_ok s.
Proof.
  intros H W AD. split; [|rewrite (build_names _ _ H); exact W]. unfold mod_ok.
  apply Forall_and; [apply (built_pars par_ok _ _ H), build_par_ok|].
  eapply Forall2_Forall_r; [apply build_mods, H|]. intros mc md Hin Hb.
  unfold attrs_distinct in AD. rewrite Forall_forall in AD.
  replace (map a_attr (m_accs md)) with (map ac_attr (mc_accs mc)); auto.
  eapply Forall2_map_eq; [apply (build_mod_static _ _ Hb)|]. intros a b Hab. symmetry. apply (build_acc_wires _ _ _ _ Hab).
Qed.

(* wire names are distinct in every module *)
Definition wires_ok (s : state) : Prop := Forall (fun md => NoDup (wires (m_accs md))) (s_mods s).

Lemma wires_map l : wires l = flat_map (fun o => match o with Some w => [w] | None => [] end) (map a_wire l).
Proof. unfold wires. induction l; simpl; congruence. Qed.

Lemma static_wires_ok g s s' : static g -> s_mods s' = map g (s_mods s) -> wires_ok s -> wires_ok s'.
Proof.
  unfold wires_ok. intros Hg Hs H. rewrite Hs. apply Forall_map. eapply Forall_impl; [|exact H]. intros md.
  rewrite !wires_map. destruct (Hg md) as (_ & _ & Hw). rewrite Hw. auto.
Qed.

Lemma step_wires_ok E s o : wires_ok s -> wires_ok (fst (fst (step E s o))).
Proof.
  destruct (step_effect E s o) as [s' r us H _|]; simpl.
  - unfold wires_ok. rewrite H. auto.
  - apply (static_wires_ok (set_val_mod m (a_attr a) v e h)); auto using set_val_static.
Qed.

Lemma build_wires_ok n s : build n = Ok s -> wires_ok s.
Proof.
  intros H. eapply Forall2_Forall_r; [apply build_mods, H|]. intros mc md _ Hb.
  apply dup_free_nodup, (build_mod_static _ _ Hb).
Qed.

Lemma wires_rev l : wires (rev l) = rev (wires l).
Proof.
  unfold wires. induction l as [|a l IH]; simpl; auto. rewrite flat_map_app, IH. simpl.
  destruct (a_wire a); simpl; rewrite ?app_nil_r; auto.
Qed.

Lemma find_unique_wire l a w : NoDup (wires l) -> In a l -> a_wire a = Some w -> find (wire_is w) l = Some a.
Proof.
  unfold wires. induction l as [|x r IH]; simpl; intros ND Ha Hw; [tauto|].
  destruct (wire_is w x) eqn:E.
  - destruct Ha as [Ha|Ha]; [subst; auto|]. exfalso. apply wire_is_true in E.
    rewrite E in ND. inversion ND as [|? ? Hnew _]; subst. apply Hnew. apply in_flat_map. exists a. rewrite Hw. simpl. auto.
  - destruct Ha as [Ha|Ha].
    + subst x. apply wire_is_true in Hw. congruence.
    + apply IH; auto. destruct (a_wire x); auto. inversion ND; auto.
Qed.

Lemma lookup0_unique md w a : NoDup (wires (m_accs md)) -> In a (m_accs md) -> a_wire a = Some w -> lookup0 md w = Some a.
Proof.
  intros ND Ha Hw. apply find_unique_wire; auto.
  - rewrite wires_rev. apply NoDup_rev. auto.
  - apply in_rev. rewrite rev_involutive. auto.
Qed.

Lemma find_mod_unique_in s md : NoDup (map m_name (s_mods s)) -> In md (s_mods s) -> find_mod s (m_name md) = Some md.
Proof.
  unfold find_mod. induction (s_mods s) as [|x l IH]; simpl; intros ND H; [tauto|].
  inversion ND as [|? ? Hx Hl]; subst. destruct H as [H|H].
  - subst. rewrite str_eqb_refl. auto.
  - destruct (str_eqb_spec (m_name md) (m_name x)) as [E|]; auto.
    exfalso. apply Hx. rewrite <- E. apply in_map. auto.
Qed.

(* an exported parameter object of the state is what the report describes under its wire name *)
Lemma exported_is_described s md a p w :
  consistent s -> wires_ok s -> In md (s_mods s) -> In a (m_accs md) -> a_body a = AP p -> a_wire a = Some w ->
  param_at s (m_name md) w = Some p /\
  described s (m_name md) w =
    Some (DP (nondefault_str (a_group a)) (nondefault_vis (a_vis a))
             {| pd_dt := p_dt p; pd_unit := p_unit p; pd_readonly := p_readonly p; pd_constant := p_constant p |}).
Proof.
  intros HC WO Hmd Ha B Hw. pose proof HC as [_ ND].
  assert (F : find_mod s (m_name md) = Some md) by (apply find_mod_unique_in; auto).
  assert (L : lookup0 md w = Some a).
  { apply lookup0_unique; auto. unfold wires_ok in WO. rewrite Forall_forall in WO. auto. }
  split.
  - apply param_at_spec. eauto.
  - rewrite (described_lookup _ _ _ HC), F.
    destruct (m_export md) eqn:X; [|rewrite (consistent_wire s md a HC Hmd Ha X) in Hw; discriminate].
    rewrite L. simpl. unfold describe_acc. rewrite B. auto.
Qed.

Lemma announce_from_state s m md a p v e h :
  find_mod s m = Some md -> In a (m_accs md) -> a_body a = AP p ->
  Forall (from_state (set_val s m (a_attr a) v e h)) (announce s m a (with_value p v e h)).
Proof.
  intros F Ha B. unfold announce. destruct (a_wire a) as [w|] eqn:W; auto. destruct (listening s m w); auto.
  constructor; auto. apply find_some in F. destruct F as [Hmd Nm].
  exists (set_val_mod m (a_attr a) v e h md), (set_val_acc (a_attr a) v e h a), (with_value p v e h), w.
  destruct (set_val_mod_static m (a_attr a) v e h md) as (Hn & _). rewrite Hn.
  apply str_eqb_eq in Nm. subst m. repeat split.
  - unfold set_val. simpl. apply in_map. auto.
  - unfold set_val_mod. rewrite str_eqb_refl. simpl. apply in_map. auto.
  - unfold set_val_acc. rewrite str_eqb_refl, B. auto.
  - destruct (set_val_acc_static (a_attr a) v e h a) as (_ & Hw & _). rewrite Hw. auto.
Qed.

Lemma step_updates_from_state E s o : Forall (from_state (fst (fst (step E s o)))) (snd (step E s o)).
Proof.
  destruct (step_effect E s o) as [s' r us H Hus|m md a p v e h r us F Ha B _ [->| ->]]; simpl;
    eauto using announce_from_state.
  eapply Forall_impl; [|exact Hus]. unfold from_state. rewrite H. auto.
Qed.

Lemma step_updates_described E s o : consistent s -> wires_ok s ->
  let s' := fst (fst (step E s o)) in
  Forall (fun u => exists w g v pd p,
            u_wire u = Some w /\ described s' (u_mod u) w = Some (DP g v pd) /\ param_at s' (u_mod u) w = Some p /\
            p_dt p = pd_dt pd /\
            u_body u = match p_err p with Some _ => UE | None => value_body (pd_dt pd) (p_value p) end)
         (snd (step E s o)).
Proof.
  intros HC WO s'. apply (step_consistent E s o) in HC. apply (step_wires_ok E s o) in WO.
  eapply Forall_impl; [|apply step_updates_from_state]. fold s' in HC, WO |- *.
  intros u (md & a & p & w & Hmd & Ha & B & Hw & ->).
  destruct (exported_is_described _ _ _ _ _ HC WO Hmd Ha B Hw) as [P D].
  eexists w, _, _, _, p. repeat split; [exact D|exact P|reflexivity|apply make_update_body].
Qed.

(* every update any operation emits belongs to a described parameter and carries the error mark or the export, by the
   described datatype, of a value that this datatype produced *)
Theorem emitted_values_converted n s0 E ops o :
  build n = Ok s0 -> well_configured n -> attrs_distinct n ->
  let s := run E s0 ops in
  let s' := fst (fst (step E s o)) in
  Forall (fun u => exists w g v pd p,
            u_wire u = Some w /\ described s' (u_mod u) w = Some (DP g v pd) /\ param_at s' (u_mod u) w = Some p /\
            p_dt p = pd_dt pd /\
            u_body u = match p_err p with Some _ => UE | None => value_body (pd_dt pd) (p_value p) end /\
            (p_err p = None -> produced_by (pd_dt pd) (p_value p)))
         (snd (step E s o)).
Proof.
  intros H W AD s s'.
  assert (OK : state_ok s') by (apply step_ok, run_preserves; eauto using step_ok, build_ok).
  eapply Forall_impl; [|apply step_updates_described].
  - intros u (w & g & v & pd & p & H1 & H2 & H3 & H4 & H5). exists w, g, v, pd, p. repeat split; auto.
    rewrite <- H4. eapply param_at_ok; eauto.
  - eapply reachable_consistent; eauto.
  - apply run_preserves; eauto using step_wires_ok, build_wires_ok.
Qed.
