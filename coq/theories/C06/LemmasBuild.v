(* C06 -- building the node from classes + configuration: what build, build_mod, build_acc, build_par produce; wire names,
   one-to-one listing, consistency of a built node, automatic properties, main unit *)
From Coq Require Import ZArith NArith Bool List.
Import ListNotations.
Require Import FV.Base.Util FV.Base.F64 FV.Base.PyVal FV.C01.Model FV.Gen.C06 FV.C06.Model FV.C06.Lemmas.

Lemma bind_ok {A B} (r : res A) (f : A -> res B) b : r >>= f = Ok b -> exists a, r = Ok a /\ f a = Ok b.
Proof. destruct r; simpl; intros H; [eauto|discriminate]. Qed.

Lemma map_resA_forall2 {A B} (f : A -> res B) (l : list A) (l' : list B) :
  map_resA f l = Ok l' -> Forall2 (fun x y => f x = Ok y) l l'.
Proof.
  revert l'. induction l as [|x r IH]; simpl; intros l' H.
  - inversion H. constructor.
  - apply bind_ok in H. destruct H as (y & Hy & H). apply bind_ok in H. destruct H as (ys & Hys & H).
    inversion H; subst. constructor; auto.
Qed.

Lemma Forall2_in_l {A B} (R : A -> B -> Prop) l l' x : Forall2 R l l' -> In x l -> exists y, In y l' /\ R x y.
Proof.
  induction 1 as [|a b l l' Hab Hl IH]; intros []; [subst; exists b; simpl; auto|].
  destruct IH as (y & Hy & HR); auto. exists y. simpl. auto.
Qed.

Lemma Forall2_Forall_r {A B} (R : A -> B -> Prop) (Q : B -> Prop) l l' :
  Forall2 R l l' -> (forall x y, In x l -> R x y -> Q y) -> Forall Q l'.
Proof. induction 1 as [|a b l l' Hab Hl IH]; intros HQ; constructor; [|apply IH; intros]; simpl in *; eauto. Qed.

Lemma Forall2_map_eq {A B C} (R : A -> B -> Prop) (f : A -> C) (g : B -> C) l l' :
  Forall2 R l l' -> (forall x y, R x y -> f x = g y) -> map f l = map g l'.
Proof. induction 1; intros H'; simpl; f_equal; auto. Qed.

Lemma build_acc_wires me mu a b : build_acc me mu a = Ok b ->
  a_attr b = ac_attr a /\ a_wire b = wire_of me a.
Proof.
  unfold build_acc. intros H. apply bind_ok in H. destruct H as (x & _ & H). inversion H; subst. simpl. auto.
Qed.

Lemma mp_set_get k v r :
  (mp_impl (mp_set k v r) = match k with KImpl => Some v | _ => mp_impl r end) /\
  (mp_ifaces (mp_set k v r) = match k with KIfaces => Some v | _ => mp_ifaces r end) /\
  (mp_features (mp_set k v r) = match k with KFeatures => Some v | _ => mp_features r end).
Proof. destruct k; simpl; auto. Qed.

(* the automatic properties are assigned after the configured module properties: whatever the configuration says about
   implementation / interface_classes / features, the class-derived values are what the module object holds *)
Lemma auto_props_win mc :
  auto_props_after_cfg = true ->
  prop_str (mp_impl (module_props mc)) = mc_impl mc /\
  prop_list (mp_ifaces (module_props mc)) = interface_classes (mc_mro mc) /\
  prop_list (mp_features (module_props mc)) = features_of (mc_mro mc).
Proof. intros H. unfold module_props. rewrite H. unfold auto_props. simpl. auto. Qed.

Lemma build_mod_static mc md : build_mod mc = Ok md ->
  m_name md = mc_name mc /\ m_export md = mc_export mc /\ m_ifaces md = interface_classes (mc_mro mc) /\
  m_features md = features_of (mc_mro mc) /\ m_impl md = mc_impl mc /\
  Forall2 (fun a b => build_acc (mc_export mc) (main_unit (mc_accs mc)) a = Ok b) (mc_accs mc) (m_accs md) /\
  dup_free (wires (m_accs md)) = true.
Proof.
  unfold build_mod. intros H. apply bind_ok in H. destruct H as (accs & Ha & H).
  destruct (dup_free (wires accs)) eqn:D; simpl in H; [|discriminate].
  destruct (forallb prop_kind_ok (mc_cfg_auto mc)); simpl in H; [|discriminate]. inversion H; subst. simpl.
  destruct (auto_props_win mc) as (P1 & P2 & P3); [reflexivity|].
  repeat split; auto. apply map_resA_forall2; auto.
Qed.

Lemma build_mods n s : build n = Ok s ->
  Forall2 (fun mc md => build_mod mc = Ok md) n (s_mods s) /\ s_active s = false /\ s_subs s = [].
Proof.
  unfold build. intros H. apply bind_ok in H. destruct H as (ms & Hm & H). inversion H; subst. simpl.
  repeat split; auto. apply map_resA_forall2; auto.
Qed.

(* every parameter object of a built node comes out of build_par *)
Lemma build_acc_par me mu a b p : build_acc me mu a = Ok b -> a_body b = AP p -> exists pc, build_par mu pc = Ok p.
Proof.
  unfold build_acc. intros H B. apply bind_ok in H. destruct H as (x & Hx & H). inversion H; subst. simpl in B. subst x.
  destruct (ac_body a) as [pc|cc]; [|discriminate]. apply bind_ok in Hx. destruct Hx as (r & Hr & Hx).
  inversion Hx; subst. eauto.
Qed.

Lemma built_pars (Q : par -> Prop) n s : build n = Ok s -> (forall mu pc p, build_par mu pc = Ok p -> Q p) ->
  Forall (fun md => Forall (fun a => forall p, a_body a = AP p -> Q p) (m_accs md)) (s_mods s).
Proof.
  intros H HQ. eapply Forall2_Forall_r; [apply build_mods, H|]. intros mc md _ Hb.
  eapply Forall2_Forall_r; [apply (build_mod_static _ _ Hb)|]. intros a b _ Hab p B.
  destruct (build_acc_par _ _ _ _ _ Hab B) as [pc Hp]. eauto.
Qed.

Lemma build_names n s : build n = Ok s -> map m_name (s_mods s) = map mc_name n.
Proof.
  intros H. symmetry. eapply Forall2_map_eq; [apply build_mods, H|].
  intros mc md Hb. symmetry. apply (build_mod_static _ _ Hb).
Qed.

Lemma exists_wire_forall2 me mu (l : list acfg) (l' : list acc) (w : str) :
  Forall2 (fun a b => build_acc me mu a = Ok b) l l' ->
  ((exists b, In b l' /\ a_wire b = Some w) <-> (exists a, In a l /\ wire_of me a = Some w)).
Proof.
  induction 1 as [|a b l l' Hab Hl IH]; simpl.
  - split; intros [x [[] _]].
  - destruct (build_acc_wires _ _ _ _ Hab) as (_ & Hw). split.
    + intros [x [[Hx|Hx] H2]].
      * subst x. exists a. rewrite <- Hw. auto.
      * destruct IH as [IH _]. destruct IH as [y [Hy1 Hy2]]; eauto.
    + intros [x [[Hx|Hx] H2]].
      * subst x. exists b. rewrite Hw. auto.
      * destruct IH as [_ IH]. destruct IH as [y [Hy1 Hy2]]; eauto.
Qed.

(* wire names of the accessibles of a module as class + configuration define them, in order *)
Definition cfg_wires (me : bool) (l : list acfg) : list str :=
  flat_map (fun a => match wire_of me a with Some w => [w] | None => [] end) l.

Lemma wires_forall2 me mu (l : list acfg) (l' : list acc) :
  Forall2 (fun a b => build_acc me mu a = Ok b) l l' -> wires l' = cfg_wires me l.
Proof.
  induction 1 as [|a b l l' Hab Hl IH]; simpl; auto.
  destruct (build_acc_wires _ _ _ _ Hab) as (_ & Hw). unfold wires in *. simpl. rewrite Hw, IH. auto.
Qed.

Lemma mem_str_in x l : mem_str x l = true <-> In x l.
Proof.
  induction l; simpl; [split; [discriminate|tauto]|]. rewrite orb_true_iff, IHl.
  destruct (str_eqb_spec x a) as [->|N]; split; auto; intros [H|H]; auto; congruence.
Qed.

Lemma dup_free_nodup l : dup_free l = true -> NoDup l.
Proof.
  induction l; simpl; intros H; constructor; apply andb_true_iff in H; destruct H as [H1 H2]; auto.
  intros X. apply mem_str_in in X. rewrite X in H1. discriminate.
Qed.

Lemma dict_set_fresh {A} (k : str) (v : A) (l : list (str * A)) :
  ~ In k (map fst l) -> dict_set k v l = l ++ [(k, v)].
Proof.
  induction l as [|[k' v'] r IH]; simpl; intros H; auto.
  destruct (str_eqb_spec k k') as [->|]; [tauto|]. rewrite IH; auto.
Qed.

(* with distinct wire names the keys of the report are the wire names, in the order of the accessibles *)
Lemma export_fold_keys_list (accs : list acc) (r : list (str * adesc)) :
  NoDup (map fst r ++ wires accs) -> map fst (fold_left export_step accs r) = map fst r ++ wires accs.
Proof.
  revert r. induction accs as [|a l IH]; intros r H; simpl.
  - unfold wires. simpl. rewrite app_nil_r. auto.
  - unfold wires in *. simpl in *. unfold export_step at 2. destruct (a_wire a) as [w|]; simpl in *.
    + rewrite dict_set_fresh.
      * rewrite IH; rewrite map_app; simpl; rewrite <- app_assoc; simpl; auto.
      * apply NoDup_remove_2 in H. intros X. apply H. apply in_or_app. auto.
    + apply IH. auto.
Qed.

Lemma export_keys_list (accs : list acc) : NoDup (wires accs) -> map fst (export_accessibles accs) = wires accs.
Proof. intros H. unfold export_accessibles. rewrite export_fold_keys_list; auto. Qed.

(* the entry e of the report for the configured module mc *)
Definition lists_module (mc : mcfg) (e : str * mdesc) : Prop :=
  fst e = mc_name mc /\
  map fst (md_accs (snd e)) = cfg_wires true (mc_accs mc) /\
  NoDup (cfg_wires true (mc_accs mc)) /\
  md_impl (snd e) = mc_impl mc /\ md_ifaces (snd e) = interface_classes (mc_mro mc) /\
  md_features (snd e) = features_of (mc_mro mc).

Lemma lists_exactly n s : build n = Ok s -> Forall2 lists_module (filter mc_export n) (describe s).
Proof.
  intros H. destruct (build_mods _ _ H) as (F & _). unfold describe. clear H.
  induction F as [|mc md l l' Hb Hl IH]; simpl; [constructor|].
  destruct (build_mod_static _ _ Hb) as (Hn & He & Hi & Hf & Him & Ha & Hd). rewrite He.
  destruct (mc_export mc) eqn:E; [|exact IH]. constructor; [|exact IH].
  assert (W : wires (m_accs md) = cfg_wires true (mc_accs mc)) by (eapply wires_forall2; eauto).
  apply dup_free_nodup in Hd.
  unfold lists_module. simpl. repeat split; auto.
  - rewrite export_keys_list; auto.
  - rewrite <- W. auto.
Qed.

(* an unexported module lists nothing, whatever its configuration says *)
Lemma cfg_wires_unexported l : cfg_wires false l = [].
Proof. induction l; simpl; auto. Qed.

Lemma build_consistent n s : build n = Ok s -> NoDup (map mc_name n) -> consistent s.
Proof.
  intros H ND. split; [|rewrite (build_names _ _ H); auto].
  eapply Forall2_Forall_r; [apply build_mods, H|]. intros mc md _ Hb.
  destruct (build_mod_static _ _ Hb) as (_ & He & _ & _ & _ & Ha & _). unfold mod_consistent. rewrite He.
  eapply Forall2_Forall_r; [exact Ha|]. intros a b _ Hab. destruct (build_acc_wires _ _ _ _ Hab) as (_ & Hw).
  unfold acc_consistent. rewrite Hw. intros ->. auto.
Qed.

Lemma in_firstn {A} k (l : list A) x : In x (firstn k l) -> In x l.
Proof. revert l. induction k; destruct l; simpl; intros H; try tauto. destruct H; auto. Qed.

Lemma interface_classes_spec mro :
  length (interface_classes mro) <= 1 /\
  (forall c, In c (interface_classes mro) -> mem_str c secop_base_classes = true /\ In c (map fst mro)) /\
  (interface_classes mro = [] <-> forall c, In c (map fst mro) -> mem_str c secop_base_classes = false).
Proof.
  unfold interface_classes. replace interface_classes_limit with 1%nat by reflexivity.
  split; [apply firstn_le_length|]. split; [|split].
  - intros c H. apply in_firstn in H. apply filter_In in H. tauto.
  - intros H c Hc. destruct (mem_str c secop_base_classes) eqn:E; auto.
    assert (X : In c (filter (fun n => mem_str n secop_base_classes) (map fst mro))) by (apply filter_In; auto).
    destruct (filter _ (map fst mro)); simpl in *; [tauto|discriminate].
  - intros H. destruct (filter (fun n => mem_str n secop_base_classes) (map fst mro)) as [|c r] eqn:E; auto.
    assert (X : In c (filter (fun n => mem_str n secop_base_classes) (map fst mro))) by (rewrite E; simpl; auto).
    apply filter_In in X. destruct X as [X1 X2]. rewrite (H c X1) in X2. discriminate.
Qed.

(* the first base class in MRO order: nothing before it in the MRO is a base class *)
Lemma firstn1_filter_first {A} (f : A -> bool) (l : list A) (c : A) : firstn 1 (filter f l) = [c] ->
  exists pre post, l = pre ++ c :: post /\ forall x, In x pre -> f x = false.
Proof.
  induction l as [|x l IH]; [discriminate|]. cbn [filter]. destruct (f x) eqn:E.
  - cbn [firstn]. intros H. inversion H; subst. exists [], l. simpl. tauto.
  - intros H. destruct (IH H) as (pre & post & H1 & H2). exists (x :: pre), post. rewrite H1. split; auto.
    intros y [Hy|Hy]; subst; auto.
Qed.

Lemma interface_class_is_first mro c : interface_classes mro = [c] ->
  exists pre post, map fst mro = pre ++ c :: post /\ forall x, In x pre -> mem_str x secop_base_classes = false.
Proof.
  unfold interface_classes. replace interface_classes_limit with 1%nat by reflexivity.
  apply (firstn1_filter_first (fun n => mem_str n secop_base_classes)).
Qed.

Lemma features_spec mro f : In f (features_of mro) <-> In (f, true) mro.
Proof.
  unfold features_of. rewrite in_map_iff. split.
  - intros [[n b] [H1 H2]]. apply filter_In in H2. simpl in *. destruct H2 as [H2 H3]. subst. auto.
  - intros H. exists (f, true). split; auto. apply filter_In. auto.
Qed.

Definition no_dollar (s : str) : Prop := forall c, In c s -> N.eqb c dollar = false.

Lemma replace_dollar_clean u s : no_dollar u -> no_dollar (replace_dollar u s).
Proof.
  intros Hu. induction s as [|c r IH]; simpl; [intros x []|].
  destruct (N.eqb c dollar) eqn:E.
  - intros x Hx. apply in_app_or in Hx. destruct Hx; auto.
  - intros x [Hx|Hx]; subst; auto.
Qed.

Lemma replace_dollar_id u s : no_dollar s -> replace_dollar u s = s.
Proof.
  induction s as [|c r IH]; simpl; auto. intros H. rewrite (H c); simpl; auto. f_equal. apply IH.
  intros x Hx. apply H. simpl. auto.
Qed.

Lemma build_par_unit mu p r : build_par mu p = Ok r ->
  p_unit r = match mu with Some u => replace_dollar u (pc_unit p) | None => pc_unit p end /\ p_dt r = pc_dt p.
Proof.
  unfold build_par. intros H. apply bind_ok in H. destruct H as (c & _ & H). apply bind_ok in H.
  destruct H as (ve & _ & H). inversion H; subst. simpl. auto.
Qed.

(* a constant forces the readonly flag; without a constant the declared flag is kept *)
Lemma build_par_flags mu p r : build_par mu p = Ok r ->
  (p_constant r <> None -> p_readonly r = true) /\ (p_constant r = None -> p_readonly r = pc_readonly p) /\
  (p_constant r = None <-> pc_const_cfg p = None /\ pc_const_cls p = None).
Proof.
  unfold build_par. intros H. apply bind_ok in H. destruct H as (c & Hc & H). apply bind_ok in H.
  destruct H as (ve & _ & H). inversion H; subst. simpl. split; [|split].
  - intros X. destruct c; auto; congruence.
  - intros X. subst c. auto.
  - destruct (pc_const_cfg p) as [cc|].
    + apply bind_ok in Hc. destruct Hc as (x & _ & Hc). apply bind_ok in Hc. destruct Hc as (y & _ & Hc).
      inversion Hc; subst. split; [discriminate|intros [X _]; discriminate].
    + destruct (pc_const_cls p) as [cc|].
      * apply bind_ok in Hc. destruct Hc as (x & _ & Hc). inversion Hc; subst.
        split; [discriminate|intros [_ X]; discriminate].
      * inversion Hc; subst. tauto.
Qed.
