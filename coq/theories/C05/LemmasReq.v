(* C05 -- request threads (ModelReq.v): what a step does to the shared state, by whether it builds a reply *)
From Coq Require Import List Arith ZArith Bool Lia.
Import ListNotations.
Require Import FV.C05.Model FV.C05.ModelReq FV.C05.Lemmas.

(* a reply step touches the request bookkeeping of the stepping thread only *)
Lemma rstep_reply : forall G F s i, is_reply s i = true ->
  r_cs (rstep G F s i) = r_cs s /\ forall j, j <> i -> nth_error (r_req (rstep G F s i)) j = nth_error (r_req s) j.
Proof.
  intros G F s i H. unfold is_reply in H. unfold rstep.
  destruct (nth_error (r_req s) i) as [rt|]; [|discriminate].
  destruct (rt_pend rt); [discriminate|]. split; [reflexivity|]. intros j N. apply nth_set_nth_neq; auto.
Qed.

Lemma rstep_real : forall G F s i, is_reply s i = false -> r_cs (rstep G F s i) = cstep G F (r_cs s) i.
Proof.
  intros G F s i H. unfold is_reply in H. unfold rstep.
  destruct (nth_error (r_req s) i) as [rt|]; [|reflexivity].
  destruct (rt_pend rt); [|discriminate]. simpl.
  destruct (Nat.ltb _ _); reflexivity.
Qed.

Lemma erase_length : forall G F sched s, length (erase G F s sched) <= length sched.
Proof.
  intros G F sched. induction sched as [|i r IH]; intros s; simpl; [lia|].
  rewrite app_length. specialize (IH (rstep G F s i)). destruct (is_reply s i); simpl; lia.
Qed.
