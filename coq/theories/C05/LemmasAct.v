(* C05 -- coherence under concurrency: what the threads of handle_activate still have ahead of them, what a
   connection has been told, and the facts about subscriptions, locks and the snapshot loop that the invariant of
   LemmasRef.v (the sequential reading of a schedule is coherent up to what activations have ahead) is proved from *)
From Coq Require Import ZArith NArith Bool List Arith Lia.
Import ListNotations.
Require Import FV.Base.Util FV.Base.F64 FV.Base.PyVal FV.C01.Model FV.C05.Model FV.C05.Lemmas FV.C05.LemmasConc.

Definition wf_config (G : config) : Prop :=
  forall p P, nth_error (g_params G) p = Some P -> p_mod P < g_nmods G.

Definition pend_msg (t : thread) : option msg :=
  match t_pk t with KSend m _ | KSnap m _ _ => Some m | _ => None end.

(* thread t, inside handle_activate for connection k, has the initial value of parameter p still ahead of it *)
Definition owes (G : config) (t : thread) (k p : nat) : Prop :=
  match t_pk t with
  | KAcqS ms => exists sc r, t_ops t = JConn k (AActivate sc) :: r /\ covers G sc p = true /\
                  exists mo, in_mod G mo p = true /\ In mo ms
  | KSnap _ ps ms => exists sc r, t_ops t = JConn k (AActivate sc) :: r /\
                  (In p ps \/ (covers G sc p = true /\ exists mo, in_mod G mo p = true /\ In mo ms))
  | _ => False
  end.
Definition owed (G : config) (thr : list thread) (k p : nat) : Prop :=
  exists i t, nth_error thr i = Some t /\ owes G t k p.
(* the newest message about parameter p that the stream log holds for connection k reports the entry c *)
Definition told (G : config) (log : list (nat * msg)) (k p : nat) (P : pcfg) (c : cell) : Prop :=
  exists m, latest k p log = Some m /\ reports G None P p c m.

Lemma idle_quiet k : idle_pk k = true -> quiet_pk k = true.
Proof. destruct k; simpl; auto. Qed.
Lemma owes_quiet G t k p : quiet_pk (t_pk t) = true -> ~ owes G t k p.
Proof. unfold owes. destruct (t_pk t); simpl; auto; discriminate. Qed.

(* a thread with a message in hand holds the lock of the module the message is about *)
Lemma pend_holds G t m P :
  wf_thread G t -> pend_msg t = Some m -> nth_error (g_params G) (m_p m) = Some P ->
  holds_U G FK (Some (p_mod P)) t = true.
Proof.
  unfold wf_thread, pend_msg, holds_U. destruct (t_pk t); try discriminate; intros W E EP; inversion E; subst; simpl.
  - destruct W as ((o & r & P' & O & Q & _) & _). unfold cur_mod, op_mod. rewrite O, <- Q, EP. simpl. apply Nat.eqb_refl.
  - unfold msg_mod. rewrite EP. simpl. apply Nat.eqb_refl.
Qed.

Lemma latest_cons k p k0 m log :
  latest k p ((k0, m) :: log) = if Nat.eqb k0 k && Nat.eqb (m_p m) p then Some m else latest k p log.
Proof. reflexivity. Qed.

Lemma sub_del_in G ss k0 a k scs' sc :
  nth_error (sub_del G ss k0 a) k = Some scs' -> In sc scs' ->
  exists scs, nth_error ss k = Some scs /\ In sc scs.
Proof.
  unfold sub_del. destruct (nth_error ss k0) as [l|] eqn:E0; [|eauto].
  destruct a as [sc0|sc0|]; [eauto| |];
    (destruct (Nat.eq_dec k0 k) as [<-|N];
     [rewrite (nth_set_nth_eq _ _ _ _ E0); intros Q; inversion Q; subst
     |rewrite nth_set_nth_neq by auto; eauto]).
  - intros H. apply filter_In in H. exists l; tauto.
  - intros [].
Qed.
Lemma sub_add_in ss k0 sc0 k scs' sc :
  nth_error (sub_add ss k0 sc0) k = Some scs' -> In sc scs' ->
  (k = k0 /\ sc = sc0) \/ exists scs, nth_error ss k = Some scs /\ In sc scs.
Proof.
  unfold sub_add. destruct (nth_error ss k0) as [l|] eqn:E0; [|eauto].
  destruct (Nat.eq_dec k0 k) as [<-|N].
  - rewrite (nth_set_nth_eq _ _ _ _ E0). intros Q; inversion Q; subst. intros [<-|H]; eauto.
  - rewrite nth_set_nth_neq by auto. eauto.
Qed.

Lemma scope_mods_covers G sc p P :
  wf_config G -> covers G sc p = true -> nth_error (g_params G) p = Some P -> In (p_mod P) (scope_mods G sc).
Proof.
  intros W C EP. unfold covers in C. rewrite EP in C. apply andb_prop in C. destruct C as [_ C].
  destruct sc as [|m|q|]; simpl; try discriminate.
  - apply in_seq. specialize (W p P EP). lia.
  - apply Nat.eqb_eq in C. left; auto.
  - apply Nat.eqb_eq in C. subst q. rewrite EP. left; auto.
Qed.

Lemma op_mod_some G o P : nth_error (g_params G) (o_p o) = Some P -> op_mod G o = Some (p_mod P).
Proof. unfold op_mod. intros ->; reflexivity. Qed.

(* the thread that commits an announce region is the only one holding the lock of that module *)
Lemma fun_sole G ts i t o r inp P :
  exclusive G ts -> nth_error ts i = Some t -> t_ops t = JOp o :: r -> nth_error (g_params G) (o_p o) = Some P ->
  (t_pk t = KClock inp \/ (t_pk t = KAcqU inp /\ other_has (holds_U G FK (op_mod G o)) i 0 ts = false)) ->
  sole G ts i (p_mod P).
Proof.
  intros X Et O EP [K|(K & Oth)].
  - apply (exclusive_sole G ts i t _ X Et). unfold holds_U. rewrite K. simpl. unfold cur_mod. rewrite O, (op_mod_some G o P EP).
    simpl. apply Nat.eqb_refl.
  - apply other_sole. rewrite <- (op_mod_some G o P EP). exact Oth.
Qed.

Lemma snap_params_intro G sc m p : covers G sc p = true -> in_mod G m p = true -> In p (snap_params G sc m).
Proof.
  intros C I. unfold snap_params. apply filter_In. split; [|rewrite C, I; reflexivity].
  apply in_seq. apply in_mod_spec in I. destruct I as (P & E & _).
  assert (p < length (g_params G)) by (apply nth_error_Some; congruence). lia.
Qed.

(* One step of thread i, seen from connection k and parameter p: what the thread had ahead it still has ahead or has
   told; what was told is still told, or ahead of the thread now (c, c': the entry before and after). *)
Lemma due_step G thr i t t' lq lq' k p P c c' :
  nth_error thr i = Some t ->
  owed G thr k p \/ told G lq k p P c ->
  (owes G t k p -> owes G t' k p \/ told G lq' k p P c') ->
  (told G lq k p P c -> owes G t' k p \/ told G lq' k p P c') ->
  owed G (set_nth i t' thr) k p \/ told G lq' k p P c'.
Proof.
  intros Et D L1 L2.
  assert (Self : owes G t' k p \/ told G lq' k p P c' -> owed G (set_nth i t' thr) k p \/ told G lq' k p P c').
  { intros [Ow|T]; auto. left. exists i, t'. split; auto. eapply nth_set_nth_eq; eauto. }
  destruct D as [(j & tj & Ej & Ow)|T]; auto.
  destruct (Nat.eq_dec i j) as [<-|N].
  - rewrite Et in Ej; inversion Ej; subst; auto.
  - left. exists j, tj. rewrite nth_set_nth_neq by auto. auto.
Qed.

(* the initial condition, and what holds at every quiescent point: every registration is served *)
Definition served (G : config) (st : state) (ss : subs) : Prop :=
  forall k scs sc p P c, nth_error ss k = Some scs -> In sc scs -> covers G sc p = true ->
    nth_error (g_params G) p = Some P -> nth_error (s_cells st) p = Some c -> told G (s_log st) k p P c.

Lemma served_activate G s0 : served G (activate_all G s0) (subs0 G).
Proof.
  intros k scs sc p P c Hk Hsc Hc HP Hcell. unfold subs0 in Hk. rewrite nth_error_map in Hk.
  destruct (nth_error (g_conns G) k) as [sc0|] eqn:E; inversion Hk; subst scs.
  destruct Hsc as [<-|[]]. exact (activate_coherent G s0 k sc0 p P c E Hc HP Hcell).
Qed.
Lemma activate_all_cells G s0 : s_cells (activate_all G s0) = s_cells s0.
Proof. unfold activate_all. destruct (activate_from_spec G (g_conns G) 0 s0) as (A & _). exact A. Qed.
