(* C05 -- refinement: for every schedule, the concurrent run and the sequential reading of its committed actions
   (announce regions and initial values delivered atomically, in the order of their commit points) agree on the
   cache, the clock, the heap, the subscriptions and on every per-(connection, parameter) stream; the only
   difference are the messages threads inside a region still have in hand.  The sequential reading needs neither locks
   nor fresh messages in hand to be coherent (it delivers what it renders at once), so coherence at the quiescent points of
   the concurrent run is proved on it, along the same simulation. *)
From Coq Require Import ZArith NArith Bool List Arith Lia.
Import ListNotations.
Require Import FV.Base.Util FV.Base.F64 FV.Base.PyVal FV.C01.Model FV.C05.Model FV.C05.Lemmas FV.C05.LemmasConc
  FV.C05.LemmasAct.

(* the stream of connection k about parameter p, newest first *)
Definition plog (k p : nat) (log : list (nat * msg)) : list (nat * msg) :=
  filter (fun e => Nat.eqb (fst e) k && Nat.eqb (m_p (snd e)) p) log.

(* what thread t still has to hand to connection k about parameter p *)
Definition pend_t (k p : nat) (t : thread) : list (nat * msg) :=
  match t_pk t with
  | KSend m rest => if Nat.eqb (m_p m) p && existsb (Nat.eqb k) rest then [(k, m)] else []
  | KSnap m _ _ =>
      match t_ops t with
      | JConn k' (AActivate _) :: _ => if Nat.eqb k' k && Nat.eqb (m_p m) p then [(k, m)] else []
      | _ => []
      end
  | _ => []
  end.
Definition pend (k p : nat) (thr : list thread) : list (nat * msg) := flat_map (pend_t k p) thr.

(* the sequential reading is coherent up to what the activations in progress have ahead *)
Definition scoh (G : config) (thr : list thread) (cells : list cell) (ss : subs) (lq : list (nat * msg)) : Prop :=
  forall k scs sc p P c,
    nth_error ss k = Some scs -> In sc scs -> covers G sc p = true ->
    nth_error (g_params G) p = Some P -> nth_error cells p = Some c ->
    owed G thr k p \/ told G lq k p P c.

(* q is the sequential reading of s: same cache, clock, heap and subscriptions; its stream log lq is that of s plus
   what the threads of s have in hand.  S stands for "the run began served, in a well-formed configuration": then lq is
   coherent as well (S := False gives the refinement alone, from any state). *)
Definition sim (G : config) (S : Prop) (s : cstate) (q : state * subs) : Prop :=
  exists lq, q = (set_log (cs_st s) lq, cs_subs s) /\
    (forall k p, plog k p lq = pend k p (cs_thr s) ++ plog k p (s_log (cs_st s))) /\
    (S -> scoh G (cs_thr s) (s_cells (cs_st s)) (cs_subs s) lq).

Lemma filter_rev {A} (f : A -> bool) l : filter f (rev l) = rev (filter f l).
Proof.
  induction l as [|x l IH]; simpl; auto. rewrite filter_app, IH. simpl. destruct (f x); simpl; auto. apply app_nil_r.
Qed.

Lemma plog_app k p a b : plog k p (a ++ b) = plog k p a ++ plog k p b.
Proof. apply filter_app. Qed.
Lemma plog_rev k p l : plog k p (rev l) = rev (plog k p l).
Proof. apply filter_rev. Qed.
Lemma plog_other k p new : (forall k' m, In (k', m) new -> m_p m <> p) -> plog k p new = [].
Proof.
  induction new as [|[k' m] r IH]; intros H; simpl; auto.
  assert (N : m_p m <> p) by (apply (H k'); left; auto). apply Nat.eqb_neq in N. rewrite N, andb_false_r.
  apply IH. intros; eapply H; right; eauto.
Qed.

(* what is left of a fan-out of m to the connections ks, for connection k about parameter p: the form [pend_t] has
   at KSend.  Handing m to a connection k0 not among ks takes its entry off, at either end *)
Definition hand (k p : nat) (m : msg) (ks : list nat) : list (nat * msg) :=
  if Nat.eqb (m_p m) p && existsb (Nat.eqb k) ks then [(k, m)] else [].

Lemma hand_nil k p m : hand k p m [] = [].
Proof. unfold hand. simpl. rewrite andb_false_r. reflexivity. Qed.
Lemma hand_rev k p m ks : rev (hand k p m ks) = hand k p m ks.
Proof. unfold hand. destruct (_ && _); reflexivity. Qed.
Lemma hand_cons k p m k0 ks :
  ~ In k0 ks ->
  hand k p m (k0 :: ks) = plog k p [(k0, m)] ++ hand k p m ks /\
  hand k p m (k0 :: ks) = hand k p m ks ++ plog k p [(k0, m)].
Proof.
  intros N. unfold hand, plog. simpl. rewrite (Nat.eqb_sym k k0).
  destruct (Nat.eqb (m_p m) p); simpl; [|rewrite andb_false_r; auto].
  rewrite andb_true_r. destruct (Nat.eqb k0 k) eqn:E; simpl; [|rewrite app_nil_r; split; reflexivity].
  apply Nat.eqb_eq in E. subst k0.
  destruct (existsb (Nat.eqb k) ks) eqn:Ex; auto.
  apply existsb_exists in Ex. destruct Ex as (x & I & Q). apply Nat.eqb_eq in Q. subst x. contradiction.
Qed.
Lemma plog_fanout k p m ks : NoDup ks -> plog k p (map (fun k' => (k', m)) ks) = hand k p m ks.
Proof.
  induction ks as [|k0 ks IH]; intros ND.
  - rewrite hand_nil. reflexivity.
  - inversion ND; subst. change (plog k p ([(k0, m)] ++ map (fun k' => (k', m)) ks) = hand k p m (k0 :: ks)).
    rewrite plog_app, IH by auto. symmetry. apply hand_cons; auto.
Qed.

Lemma pend_split (thr : list thread) i t :
  nth_error thr i = Some t ->
  exists l1 l2, thr = l1 ++ t :: l2 /\ length l1 = i /\
    forall t', set_nth i t' thr = l1 ++ t' :: l2.
Proof.
  revert i; induction thr as [|x r IH]; intros [|i] E; simpl in *; try discriminate.
  - inversion E; subst. exists [], r. auto.
  - destruct (IH i E) as (l1 & l2 & -> & L & S). exists (x :: l1), l2. simpl. repeat split; auto.
    intros t'. rewrite S. reflexivity.
Qed.

Lemma pend_same k p thr i t t' :
  nth_error thr i = Some t -> pend_t k p t' = pend_t k p t -> pend k p (set_nth i t' thr) = pend k p thr.
Proof.
  intros E Q. destruct (pend_split thr i t E) as (l1 & l2 & -> & _ & Hs). rewrite Hs.
  unfold pend. rewrite !flat_map_app. simpl. rewrite Q. reflexivity.
Qed.

Lemma flat_map_nil {A B} (f : A -> list B) l : (forall x, In x l -> f x = []) -> flat_map f l = [].
Proof. induction l; simpl; intros H; auto. rewrite (H a), IHl; auto. Qed.

Lemma pend_only k p thr i t t' :
  nth_error thr i = Some t ->
  (forall j tj, j <> i -> nth_error thr j = Some tj -> pend_t k p tj = []) ->
  pend k p thr = pend_t k p t /\ pend k p (set_nth i t' thr) = pend_t k p t'.
Proof.
  intros E O. destruct (pend_split thr i t E) as (l1 & l2 & -> & L & Hs). rewrite Hs.
  assert (E1 : flat_map (pend_t k p) l1 = []).
  { apply flat_map_nil. intros x I. apply In_nth_error in I. destruct I as (j & Ej).
    apply (O j x).
    - assert (j < length l1) by (apply nth_error_Some; congruence). lia.
    - rewrite nth_error_app1; auto. apply nth_error_Some; congruence. }
  assert (E2 : flat_map (pend_t k p) l2 = []).
  { apply flat_map_nil. intros x I. apply In_nth_error in I. destruct I as (j & Ej).
    apply (O (length l1 + S j) x); [lia|].
    rewrite nth_error_app2 by lia. replace (length l1 + S j - length l1) with (S j) by lia. exact Ej. }
  unfold pend. rewrite !flat_map_app. simpl. rewrite E1, E2. simpl. rewrite !app_nil_r. auto.
Qed.

Lemma pend_t_quiet k p t : quiet_pk (t_pk t) = true -> pend_t k p t = [].
Proof. unfold pend_t. destruct (t_pk t); simpl; auto; discriminate. Qed.
Lemma pend_t_noparam k p t : (forall m, pend_msg t = Some m -> m_p m <> p) -> pend_t k p t = [].
Proof.
  unfold pend_t, pend_msg. destruct (t_pk t); auto; intros H.
  - specialize (H m eq_refl). apply Nat.eqb_neq in H. rewrite H. reflexivity.
  - specialize (H m eq_refl). apply Nat.eqb_neq in H. rewrite H.
    destruct (t_ops t) as [|[o|k' [sc|sc|]] r]; auto. rewrite andb_false_r. reflexivity.
Qed.
Lemma pend_t_park_quiet k p t pk : quiet_pk pk = true -> pend_t k p (park_at t pk) = [].
Proof. intros Q. apply pend_t_quiet. exact Q. Qed.
Lemma pend_t_finish G k p t : pend_t k p (finish_op G FK t) = [].
Proof. apply pend_t_quiet, idle_quiet, finish_idle. Qed.

Lemma pend_t_send k p t m ks : t_pk t = KSend m ks -> pend_t k p t = hand k p m ks.
Proof. unfold pend_t. intros ->. reflexivity. Qed.
(* the thread after a fan-out step with ks still to serve *)
Lemma pend_t_sent G k p t m ks :
  pend_t k p (match ks with [] => finish_op G FK t | _ :: _ => park_at t (KSend m ks) end) = hand k p m ks.
Proof. destruct ks; [rewrite pend_t_finish, hand_nil|]; reflexivity. Qed.
Lemma pend_t_snap k p t k0 sc r m ps ms :
  t_ops t = JConn k0 (AActivate sc) :: r -> t_pk t = KSnap m ps ms -> pend_t k p t = plog k p [(k0, m)].
Proof.
  unfold pend_t, plog. intros -> ->. simpl. destruct (Nat.eqb k0 k) eqn:E; auto.
  apply Nat.eqb_eq in E. subst k0. reflexivity.
Qed.

(* a thread that has something in hand for parameter p holds the lock of p's module *)
Lemma pend_t_holds G k p t P :
  wf_thread G t -> pend_t k p t <> [] -> nth_error (g_params G) p = Some P -> holds_U G FK (Some (p_mod P)) t = true.
Proof.
  intros W N EP. destruct (pend_msg t) as [m|] eqn:Pm.
  - destruct (Nat.eq_dec (m_p m) p) as [<-|Q]; [eapply pend_holds; eauto|].
    destruct N. apply pend_t_noparam. intros m0 E. congruence.
  - destruct N. apply pend_t_noparam. intros m0 E. congruence.
Qed.

Lemma others_empty G s i mo k p :
  wf_cstate G s -> sole G (cs_thr s) i mo -> in_mod G mo p = true ->
  forall j tj, j <> i -> nth_error (cs_thr s) j = Some tj -> pend_t k p tj = [].
Proof.
  intros (_ & W) S I j tj N E. apply in_mod_spec in I. destruct I as (P & EP & <-).
  destruct (pend_t k p tj) eqn:Q; auto. exfalso.
  assert (H : holds_U G FK (Some (p_mod P)) tj = true).
  { apply pend_t_holds with (k := k) (p := p); eauto. rewrite Q. discriminate. }
  rewrite (S j tj E N) in H. discriminate.
Qed.

Lemma ann_region_set_log G ks P o inp st lq :
  ann_region G ks P o inp (set_log st lq) =
  (set_log (fst (fst (ann_region G ks P o inp st))) lq, snd (fst (ann_region G ks P o inp st)),
   snd (ann_region G ks P o inp st)).
Proof.
  unfold ann_region, apply_funnel_with, tick, set_log. simpl.
  destruct (Z.eqb (explicit_ts o) 0); simpl;
    (destruct (nth_error (s_cells st) (o_p o)); [|reflexivity]);
    (destruct (funnel _ _ _ _ _) as [c' emit]); destruct (emit && exported P); reflexivity.
Qed.

Lemma heap_acts_sim G acts st lq ss :
  acts = [] \/ (exists P o, acts = [AHeap P o]) ->
  arun G acts (set_log st lq, ss) = (set_log (fst (eff G acts (st, ss))) lq, snd (eff G acts (st, ss))).
Proof. intros [->|(P & o & ->)]; reflexivity. Qed.

(* One step of thread i, seen from connection k and parameter p: the sequential reading appends Xs, the concurrent
   run Ys, and the thread's hand changes by the difference.  Either the step is not about (k, p) at all, or no other
   thread has anything in hand for (k, p). *)
Lemma sim_step k p thr i t t' lq ls Xs Ys :
  nth_error thr i = Some t ->
  plog k p lq = pend k p thr ++ plog k p ls ->
  plog k p Xs ++ pend_t k p t = pend_t k p t' ++ plog k p Ys ->
  (plog k p Xs = [] /\ plog k p Ys = []) \/
  (forall j tj, j <> i -> nth_error thr j = Some tj -> pend_t k p tj = []) ->
  plog k p (Xs ++ lq) = pend k p (set_nth i t' thr) ++ plog k p (Ys ++ ls).
Proof.
  intros Et PL E [(A & B)|O]; rewrite !plog_app, PL.
  - rewrite A, B in *. simpl in E. rewrite app_nil_r in E. rewrite (pend_same k p thr i t t' Et); auto.
  - destruct (pend_only k p thr i t t' Et O) as (-> & ->). rewrite app_assoc, E, <- app_assoc. reflexivity.
Qed.

(* a step that sends nothing and leaves the thread's hand as it is *)
Lemma sim_same k p thr i t t' lq ls :
  nth_error thr i = Some t -> plog k p lq = pend k p thr ++ plog k p ls -> pend_t k p t' = pend_t k p t ->
  plog k p lq = pend k p (set_nth i t' thr) ++ plog k p ls.
Proof. intros Et PL E. rewrite (pend_same k p thr i t t' Et E). exact PL. Qed.

(* a step of the thread that holds (or takes) the lock of module mo, all of whose messages are about that module *)
Lemma sim_step_mod G s i t t' mo lq Xs Ys :
  wf_cstate G s -> nth_error (cs_thr s) i = Some t -> sole G (cs_thr s) i mo ->
  (forall k p, plog k p lq = pend k p (cs_thr s) ++ plog k p (s_log (cs_st s))) ->
  (forall k m, In (k, m) (Xs ++ Ys) -> in_mod G mo (m_p m) = true) ->
  (forall k p, plog k p Xs ++ pend_t k p t = pend_t k p t' ++ plog k p Ys) ->
  forall k p, plog k p (Xs ++ lq) = pend k p (set_nth i t' (cs_thr s)) ++ plog k p (Ys ++ s_log (cs_st s)).
Proof.
  intros W Et So PL M E k p. apply sim_step with (t := t); auto.
  destruct (in_mod G mo p) eqn:I; [right; eapply others_empty; eauto|left].
  split; apply plog_other; intros k' m H <-; rewrite (M k' m) in I; try discriminate; apply in_or_app; auto.
Qed.

(* coherence of the sequential reading, by kind of step *)
Lemma scoh_same G thr i t t' cells ss ss' lq :
  nth_error thr i = Some t -> (forall k p, owes G t k p -> owes G t' k p) ->
  (forall k scs' sc, nth_error ss' k = Some scs' -> In sc scs' -> exists scs, nth_error ss k = Some scs /\ In sc scs) ->
  scoh G thr cells ss lq -> scoh G (set_nth i t' thr) cells ss' lq.
Proof.
  intros Et Ow Sub Co k scs' sc p P c Hk Hsc Hc HP Hcell. destruct (Sub k scs' sc Hk Hsc) as (scs & Hk0 & Hs0).
  apply (due_step G thr i t t' lq lq k p P c c Et); auto. eapply Co; eauto.
Qed.

(* an announce region commits: the listeners are told the new entry at once; an entry stored without a message
   changed in a way no client can see *)
Lemma scoh_fun G thr i t t' cells cells' ss lq lq' h o P c c' emit inp ts :
  nth_error thr i = Some t -> quiet_pk (t_pk t) = true ->
  nth_error (g_params G) (o_p o) = Some P -> nth_error cells (o_p o) = Some c ->
  funnel P c inp (o_cx o) ts = (c', emit) -> scoh G thr cells ss lq ->
  cells' = set_nth (o_p o) c' cells ->
  lq' = (if emit && exported P then rev (map (fun k => (k, render G h P (o_p o) c')) (dlisteners G ss (o_p o))) else []) ++ lq ->
  scoh G (set_nth i t' thr) cells' ss lq'.
Proof.
  intros Et Q EP EC EF Co -> -> k scs sc p P1 c1 Hk Hsc Hc HP Hcell.
  assert (Other : forall m k', In (k', m) (if emit && exported P
              then rev (map (fun k => (k, render G h P (o_p o) c')) (dlisteners G ss (o_p o))) else []) -> m_p m = o_p o).
  { intros m k' Hin. destruct (emit && exported P); [|destruct Hin].
    rewrite <- in_rev, in_map_iff in Hin. destruct Hin as (x & E & _). inversion E; reflexivity. }
  destruct (Nat.eq_dec (o_p o) p) as [<-|N].
  - rewrite EP in HP; inversion HP; subst P1. rewrite (nth_set_nth_eq _ _ _ _ EC) in Hcell; inversion Hcell; subst c1.
    rewrite (covers_exported _ _ _ _ Hc EP), andb_true_r. destruct emit.
    + right. eexists; split; [apply latest_deliveries_in; [eapply dlisteners_in; eauto|reflexivity]|].
      apply reports_weaken with (h := h), reports_render.
    + apply (due_step G thr i t t' lq _ k (o_p o) P c c' Et); [eapply Co; eauto|intros Ow; destruct (owes_quiet G t _ _ Q Ow)|].
      intros (m & L & R). right. exists m. split; auto. eapply reports_quiet; eauto. eapply funnel_quiet; eauto.
  - rewrite nth_set_nth_neq in Hcell by auto.
    apply (due_step G thr i t t' lq _ k p P1 c1 c1 Et); [eapply Co; eauto|intros Ow; destruct (owes_quiet G t _ _ Q Ow)|].
    intros (m & L & R). right. exists m. split; auto. rewrite latest_app_other; auto.
    intros k' m' Hin. right. rewrite (Other m' k' Hin). exact N.
Qed.

(* an initial value is built and, in the sequential reading, delivered at once *)
Lemma told_render_cons G st lq k0 q P0 c0 k p P c :
  nth_error (g_params G) q = Some P0 -> nth_error (s_cells st) q = Some c0 ->
  nth_error (g_params G) p = Some P -> nth_error (s_cells st) p = Some c ->
  (k0 = k /\ q = p) \/ told G lq k p P c -> told G ((k0, render G (s_heap st) P0 q c0) :: lq) k p P c.
Proof.
  intros EP0 EC0 EP EC H. unfold told. simpl. destruct (Nat.eqb k0 k && Nat.eqb q p) eqn:Q.
  - apply andb_prop in Q. destruct Q as [_ Q]. apply Nat.eqb_eq in Q. subst q.
    rewrite EP0 in EP. rewrite EC0 in EC. inversion EP; inversion EC; subst.
    eexists; split; eauto. apply reports_weaken with (h := s_heap st), reports_render.
  - destruct H as [(<- & <-)|T]; auto. rewrite !Nat.eqb_refl in Q. discriminate.
Qed.

(* the three outcomes of snap_next, seen from both readings; Ys is what the step has handed over before (the
   message the thread had in hand, if any), st1 the state after that.  What the thread has ahead (the parameters ps
   of the module in progress, the modules ms) it has ahead afterwards, or has told. *)
Lemma sim_snap_next G s i t k0 sc r mo ps ms Ys lq st1 :
  wf_cstate G s -> nth_error (cs_thr s) i = Some t -> t_ops t = JConn k0 (AActivate sc) :: r ->
  Forall (fun q => in_mod G mo q = true) ps -> sole G (cs_thr s) i mo ->
  (forall k p, plog k p lq = pend k p (cs_thr s) ++ plog k p (s_log (cs_st s))) ->
  (forall k m, In (k, m) Ys -> in_mod G mo (m_p m) = true) ->
  (forall k p, pend_t k p t = plog k p Ys) ->
  s_cells st1 = s_cells (cs_st s) -> s_heap st1 = s_heap (cs_st s) ->
  let t' := snd (snap_next G FK st1 t k0 ps ms) in
  exists lq', arun G (fst (snap_next G FK st1 t k0 ps ms)) (set_log (cs_st s) lq, cs_subs s)
              = (set_log (cs_st s) lq', cs_subs s) /\
    (forall k p, plog k p lq' = pend k p (set_nth i t' (cs_thr s)) ++ plog k p (Ys ++ s_log (cs_st s))) /\
    forall k p P c, nth_error (g_params G) p = Some P -> nth_error (s_cells (cs_st s)) p = Some c ->
      (told G lq k p P c -> told G lq' k p P c) /\
      (k = k0 -> In p ps \/ (covers G sc p = true /\ exists m', in_mod G m' p = true /\ In m' ms) ->
       owes G t' k p \/ told G lq' k p P c).
Proof.
  intros W Et O Fa So PL MY HY EC1 EH1.
  destruct (snap_next_cases G st1 t k0 ps ms) as [(q & ps' & P & c & -> & EP & EC & ->)|[(-> & N & ->)|(-> & Q)]]; simpl.
  - (* the next initial value is built: the sequential reading delivers it now *)
    rewrite EC1 in EC. rewrite EH1. unfold arun; simpl. unfold render_at. simpl. rewrite EC. simpl.
    set (m := render G (s_heap (cs_st s)) P q c).
    exists ([(k0, m)] ++ lq). split; [reflexivity|]. split.
    + apply sim_step_mod with (G := G) (t := t) (mo := mo); auto.
      * intros k m' [E|H]; [inversion E; subst m'; inversion Fa; auto|eauto].
      * intros k p. rewrite HY, (pend_t_snap k p (park_at t (KSnap m ps' ms)) k0 sc r m ps' ms O eq_refl). reflexivity.
    + intros k p P1 c1 EP1 EC1'. split.
      * intros T. apply told_render_cons; auto.
      * intros -> [[<-|H]|H]; [right; apply told_render_cons; auto|left|left]; unfold owes; simpl; eauto.
  - exists ([] ++ lq). split; [reflexivity|]. split.
    + apply sim_step_mod with (G := G) (t := t) (mo := mo); auto.
    + intros k p P1 c1 _ _. split; auto. intros -> [[]|H]. left. unfold owes; simpl. destruct H. eauto.
  - exists ([] ++ lq). split; [reflexivity|]. split.
    + apply sim_step_mod with (G := G) (t := t) (mo := mo); auto. intros k p. rewrite pend_t_finish. apply HY.
    + intros k p P1 c1 _ _. split; auto. intros _ H. exfalso. destruct Q as [(-> & ->)|(q & ps' & -> & Q)].
      * destruct H as [[]|(_ & m' & _ & [])].
      * inversion Fa as [|? ? Iq]; subst. apply in_mod_spec in Iq. destruct Iq as (P & EP & _).
        destruct W as (L & _). rewrite <- EC1 in L. destruct (cell_of_param G st1 q P L EP). destruct Q; congruence.
Qed.

(* S as in [sim]: with S := False the hypothesis on the configuration and the coherence clause are void, and the lemma is
   the refinement step alone *)
Lemma cstep_sim G (S : Prop) s q i :
  (S -> wf_config G) -> wf_cstate G s -> exclusive G (cs_thr s) ->
  sim G S s q -> sim G S (cstep G FK s i) (arun G (cacts G FK s i) q).
Proof.
  intros WS W X (lq & -> & PL & Co).
  destruct (cstep_cases G s i W) as [(A & B & C & D)|(t & acts & t' & Et & K & Wt & Thr & St & Ss & Ca)].
  { rewrite D. exists lq. rewrite A, B, C. auto. }
  rewrite Ca. unfold sim. rewrite Thr, St, Ss. clear Thr St Ss Ca. pose proof Wt as Wt'. unfold wf_thread in Wt'.
  assert (Same : forall k scs' sc, nth_error (cs_subs s) k = Some scs' -> In sc scs' ->
                   exists scs, nth_error (cs_subs s) k = Some scs /\ In sc scs) by eauto.
  destruct K as [acts t' HA HI HQ | o r inp O K Oth | o r inp P c O EP EC HK | m k0 rest K | k0 a r O K | k0 sc r O K
                 | k0 sc r m ms O K Oth | k0 sc r m ps ms O K]; try rewrite K in Wt'.
  - (* heap only *)
    rewrite heap_acts_sim by auto. exists lq. split; auto.
    destruct (heap_acts_frame G acts (cs_st s, cs_subs s) HA) as (A & B & _ & D). simpl in A, B, D. rewrite A, B, D.
    split.
    + intros k p. apply sim_same with (t := t); auto. rewrite !pend_t_quiet; auto. apply idle_quiet; auto.
    + intros HS. apply scoh_same with (t := t) (ss := cs_subs s); auto. intros k p Ow. destruct (owes_quiet G t k p HQ Ow).
  - exists lq. split; auto. split.
    + intros k p. apply sim_same with (t := t); auto. rewrite !pend_t_quiet; auto. rewrite K; auto.
    + intros HS. apply scoh_same with (t := t) (ss := cs_subs s); auto. unfold owes at 1. rewrite K. tauto.
  - (* an announce region commits: the sequential reading serves every listener at once *)
    unfold arun, eff; simpl. unfold ann_atomic, do_funnel. rewrite ann_region_set_log. simpl.
    assert (Q : quiet_pk (t_pk t) = true) by (destruct HK as [Q|(Q & _)]; rewrite Q; reflexivity).
    pose proof (ann_region_spec G (dlisteners G (cs_subs s) (o_p o)) P o inp (cs_st s)) as R. rewrite EC in R.
    destruct R as (ts0 & c' & emit & s' & EF & A & _ & L & ->). simpl.
    assert (SF : forall t1 lq', lq' = (if emit && exported P
                   then rev (map (fun k => (k, render G (s_heap (cs_st s)) P (o_p o) c')) (dlisteners G (cs_subs s) (o_p o)))
                   else []) ++ lq -> S -> scoh G (set_nth i t1 (cs_thr s)) (s_cells s') (cs_subs s) lq').
    { intros t1 lq' E HS. exact (scoh_fun G _ i t t1 _ _ _ lq lq' _ o P c c' emit inp ts0 Et Q EP EC EF (Co HS) A E). }
    destruct (emit && exported P).
    + rewrite deliver_all_eq. eexists; split; [reflexivity|]. simpl. split; [|apply SF; reflexivity].
      rewrite <- (app_nil_l (s_log s')), L.
      apply sim_step_mod with (G := G) (t := t) (mo := p_mod P); auto.
      * eapply fun_sole; eauto.
      * intros k m H. rewrite app_nil_r, <- in_rev, in_map_iff in H. destruct H as (x & E & _).
        inversion E; subst m. apply in_mod_spec. eauto.
      * intros k p. rewrite plog_rev, plog_fanout, hand_rev, (pend_t_quiet k p t Q), !app_nil_r by apply dlisteners_nodup.
        destruct (dlisteners G (cs_subs s) (o_p o)); [rewrite pend_t_finish, hand_nil|]; reflexivity.
    + eexists; split; [reflexivity|]. rewrite L. split; [|apply SF; reflexivity]. intros k p. apply sim_same with (t := t); auto.
      rewrite pend_t_finish, pend_t_quiet; auto.
  - (* one send_reply: nothing happens in the sequential reading *)
    unfold arun, eff; simpl. exists lq. split; [reflexivity|].
    destruct Wt' as ((o & r & P & O & Q & EP) & ND). inversion ND; subst. split.
    + apply (sim_step_mod G s i t _ (p_mod P) lq [] [(k0, m)]); auto.
      * apply (exclusive_sole G _ i t _ X Et). apply pend_holds with (m := m); [auto|unfold pend_msg; rewrite K; auto|congruence].
      * intros k m' [E|[]]. inversion E; subst m'. apply in_mod_spec. exists P. split; congruence.
      * intros k p. rewrite pend_t_sent, (pend_t_send k p t m _ K). apply hand_cons; auto.
    + intros HS. apply scoh_same with (t := t) (ss := cs_subs s); auto. unfold owes at 1. rewrite K. tauto.
  - (* deactivation / removal *)
    exists lq. split; auto. split.
    + intros k p. apply sim_same with (t := t); auto. rewrite pend_t_finish, pend_t_quiet; auto. rewrite K; auto.
    + intros HS. apply scoh_same with (t := t) (ss := cs_subs s); auto; [unfold owes at 1; rewrite K; tauto|].
      intros k scs' sc0. apply sub_del_in.
  - (* registration: every covered parameter is ahead *)
    exists lq. split; auto. split.
    + intros k p. apply sim_same with (t := t); auto.
      rewrite (pend_t_quiet k p t) by (rewrite K; auto).
      destruct (scope_mods G sc); [apply pend_t_finish|reflexivity].
    + intros HS k scs' sc1 p P c Hk Hsc Hc HP Hcell. unfold eff in Hk; simpl in Hk, Hcell |- *.
      destruct (sub_add_in _ _ _ _ _ _ Hk Hsc) as [(-> & ->)|(scs0 & Hk0 & Hsc0)].
      * left. exists i. eexists. split; [eapply nth_set_nth_eq; eauto|].
        pose proof (scope_mods_covers G sc p P (WS HS) Hc HP) as I.
        destruct (scope_mods G sc) as [|m0 ms]; [destruct I|].
        unfold owes; simpl. exists sc, r. repeat split; auto.
        exists (p_mod P). split; auto. apply in_mod_spec. eauto.
      * apply (due_step G _ i t _ lq lq k p P c c Et); auto; [eapply Co; eauto|]. unfold owes at 1. rewrite K. tauto.
  - (* handle_activate takes the lock of a module *)
    rewrite eff_snap_next. simpl.
    destruct (sim_snap_next G s i t k0 sc r m (snap_params G sc m) ms [] lq (cs_st s)) as (lq' & E1 & E2 & E3);
      auto using snap_params_mod, other_sole.
    + intros k' p. unfold pend_t. rewrite K. reflexivity.
    + exists lq'. split; auto. split; auto. intros HS k scs sc1 p P c Hk Hsc Hc HP Hcell.
      destruct (E3 k p P c HP Hcell) as (T & Ow).
      apply (due_step G _ i t _ lq lq' k p P c c Et); auto; [eapply Co; eauto|].
      unfold owes at 1. rewrite K, O. intros (sc2 & r2 & O2 & Cv & mo & Im & [<-|I]); inversion O2; subst; apply Ow; auto.
      * left. apply snap_params_intro; auto.
      * right. eauto.
  - (* send_reply of an initial value, then the next one is built *)
    rewrite eff_snap. simpl. unfold arun; simpl. change (fold_left (fun x a => aeff G a x) ?a ?x) with (arun G a x).
    rewrite O in Wt'. destruct Wt' as (k1 & sc1 & r1 & mo & _ & Im & Fa).
    destruct (sim_snap_next G s i t k0 sc r mo ps ms [(k0, m)] lq (deliver (cs_st s) k0 m)) as (lq' & E1 & E2 & E3); auto.
    + apply (exclusive_sole G _ i t _ X Et). unfold holds_U. rewrite K. simpl. rewrite (in_mod_msg_mod G mo m Im). simpl.
      apply Nat.eqb_refl.
    + intros k' m' [E|[]]. inversion E; subst m'. exact Im.
    + intros k' p. eapply pend_t_snap; eauto.
    + exists lq'. split; auto. split; auto. intros HS k scs sc2 p P c Hk Hsc Hc HP Hcell.
      destruct (E3 k p P c HP Hcell) as (T & Ow).
      apply (due_step G _ i t _ lq lq' k p P c c Et); auto; [eapply Co; eauto|].
      unfold owes at 1. rewrite K, O. intros (sc3 & r3 & O3 & H). inversion O3; subst. apply Ow; auto.
Qed.

Lemma arun_app G a b x : arun G (a ++ b) x = arun G b (arun G a x).
Proof. unfold arun. apply fold_left_app. Qed.

Theorem crun_sim G (S : Prop) sched : forall s q,
  (S -> wf_config G) -> wf_cstate G s -> exclusive G (cs_thr s) -> sim G S s q ->
  sim G S (crun G FK s sched) (arun G (ctrace G FK s sched) q).
Proof.
  induction sched as [|i r IH]; intros s q WS W X Sm; simpl; auto.
  rewrite arun_app. apply IH; [auto|apply cstep_wf|apply cstep_exclusive|apply cstep_sim]; auto.
Qed.

Lemma sim_init G (S : Prop) st ss progs : (S -> served G st ss) -> sim G S (cinit st ss progs) (st, ss).
Proof.
  intros Sv. exists (s_log st). split; [destruct st; reflexivity|]. split.
  - intros k p. simpl.
    assert (E : pend k p (map (fun ops => {| t_ops := ops; t_pk := KStart |}) progs) = []).
    { unfold pend. apply flat_map_nil. intros x I. apply in_map_iff in I. destruct I as (ops & <- & _). reflexivity. }
    rewrite E. reflexivity.
  - intros HS k scs sc p P c Hk Hsc Hc HP Hcell. right. eapply (Sv HS); eauto.
Qed.

(* the stream of connection k about parameter p, oldest first *)
Definition pstream (k p : nat) (s : state) : list msg := filter (fun m => Nat.eqb (m_p m) p) (msgs_of k s).

Lemma pstream_plog k p s : pstream k p s = rev (map snd (plog k p (s_log s))).
Proof.
  unfold pstream, msgs_of, plog. rewrite filter_rev. f_equal.
  induction (s_log s) as [|[k' m] l IH]; simpl; auto.
  destruct (Nat.eqb k' k); simpl; auto. destruct (Nat.eqb (m_p m) p); simpl; auto. f_equal; auto.
Qed.
Lemma latest_plog k p log : latest k p log = option_map snd (hd_error (plog k p log)).
Proof.
  induction log as [|[k' m] l IH]; simpl; auto. destruct (Nat.eqb k' k && Nat.eqb (m_p m) p); simpl; auto.
Qed.

Lemma quiet_pend s k p : quiet s = true -> pend k p (cs_thr s) = [].
Proof. intros Q. apply flat_map_nil. intros t I. eapply pend_t_quiet, quiet_thread; eauto. Qed.

(* at every quiescent point of every schedule: every registration of every connection is served.  The sequential
   reading is coherent up to what activations have ahead, no activation is in progress, and the streams are those of
   the sequential reading *)
Theorem concurrent_coherent G st ss progs sched :
  wf_config G -> length (s_cells st) = length (g_params G) -> served G st ss ->
  let r := crun G FK (cinit st ss progs) sched in
  quiet r = true -> served G (cs_st r) (cs_subs r).
Proof.
  intros WG L Sv r Q k scs sc p P c Hk Hsc Hc HP Hcell.
  destruct (crun_sim G True sched _ _ (fun _ => WG) (cinit_wf G st ss progs L) (cinit_exclusive G st ss progs)
              (sim_init G True st ss progs (fun _ => Sv))) as (lq & _ & PL & Co).
  fold r in PL, Co. destruct (Co I k scs sc p P c Hk Hsc Hc HP Hcell) as [(i & t & E & Ow)|(m & Lm & R)].
  - exfalso. apply (owes_quiet G t k p); auto. apply (quiet_thread r); auto. apply (nth_error_In _ _ E).
  - exists m. split; auto. specialize (PL k p). rewrite (quiet_pend r k p Q) in PL. simpl in PL.
    rewrite latest_plog, <- PL, <- latest_plog. exact Lm.
Qed.
