(* C05 -- the property theorems, proved from the invariants and step lemmas of Lemmas.v / LemmasConc.v / LemmasAct.v /
   LemmasRef.v / LemmasCb.v / LemmasReq.v and the witnesses of Refuted.v; at the end two examples showing that the
   callback and the concurrent theorems are not vacuous.
   G ranges over every configuration (parameters of any datatype, any omit interval, any export setting, any set
   of subscribed connections), s over every cache state, ops over every history of wrapped reads / writes /
   assignments / announceUpdate calls with any driver behaviour and any clock; in the concurrent theorems progs
   ranges over any number of threads with any programs (driver operations, handle_activate / handle_deactivate /
   remove_connection requests of any connection) and sched over every schedule. *)
From Coq Require Import List Arith ZArith Bool.
Import ListNotations.
Require Import FV.Base.F64 FV.Base.PyVal FV.Gen.C05 FV.C05.Model FV.C05.ModelCb FV.C05.Lemmas FV.C05.LemmasConc FV.C05.LemmasAct
  FV.C05.LemmasRef FV.C05.LemmasCb FV.C05.Refuted FV.C05.ModelReq FV.C05.LemmasReq.

(* the shapes read off the source, as the flags of the concurrent model *)
Definition src_flags : flags :=
  {| f_locked := announce_in_updateLock; f_reg_first := activate_registers_first;
     f_snap_locked := snapshot_in_updateLock; f_private := broadcast_iterates_private_copy |}.

(* obligations on the facts regenerated from /repo (Gen/C05.v) *)
Theorem C05_source_facts :
  announce_in_updateLock = true /\ updateLock_is_rlock_per_module = true /\ store_then_notify = true /\
  notify_only_if_exported = true /\ changed_includes_readerror = true /\ repeated_error_test = true /\
  omit_test = true /\ read_wrapper_routes = true /\ write_wrapper_routes = true /\ assignment_routes = true /\
  make_update_reads_cache = true /\ announce_update_broadcasts = true /\ omit_resolution = true /\
  error_eq_ignores_methods = true /\ update_unchanged_codes = (0, 999999999, -1)%Z /\
  activate_registers_first = true /\ snapshot_in_updateLock = true /\ broadcast_iterates_private_copy = true /\
  callback_except_class = s_exception /\ callback_loop_shape = true /\ callback_registration_shape = true /\
  export_value_pure = true /\ reply_built_from_cache = true /\
  src_flags = flags_ok.
Proof. repeat split; reflexivity. Qed.
Print Assumptions C05_source_facts.

(* activation: the snapshot a connection gets reports, for every parameter it covers, the cached entry *)
Theorem C05_activation_coherent : forall G s, coherent G (activate_all G s).
Proof. exact activate_coherent. Qed.
Print Assumptions C05_activation_coherent.

(* replaying the stream reproduces the cache, after any history.
   Full statement (refuted on the pinned tree, see C05_refuted_error_text_stable):
     ... replay p (msgs_of k s') = Some m /\ reports G (Some (s_heap s')) P p c m      (error text exactly as cached)
   Proved: the same with [reports G None]: the message has the timestamp of the cached entry and either the value
   (up to python ==, the comparison the funnel itself uses) or the SECoP name of the cached error object and the
   text of that very object, rendered with some state of its raising-method list (the part finding
   C05/error-text-changes-after-announce is about). *)
Theorem C05_coherent_except_error_text : forall G s0 ops,
  let s' := run G (activate_all G s0) ops in
  forall k sc p P c,
    nth_error (g_conns G) k = Some sc -> covers G sc p = true ->
    nth_error (g_params G) p = Some P -> nth_error (s_cells s') p = Some c ->
    exists m, replay p (msgs_of k s') = Some m /\ reports G None P p c m.
Proof.
  intros G s0 ops s' k sc p P c Hk Hc HP Hcell. rewrite replay_latest.
  exact (run_coherent G ops _ (activate_coherent G s0) k sc p P c Hk Hc HP Hcell).
Qed.
Print Assumptions C05_coherent_except_error_text.

(* order / no phantom state / nothing lost, for every operation from every state: what the operation appends to the
   stream is built from the entry the cache holds right after it, and a covered parameter it is silent about did not
   change for a client (same error object, same timestamp, value equal by ==) *)
Theorem C05_order_no_phantom : forall G s o,
  let s' := step G s o in
  exists new, s_log s' = new ++ s_log s /\
    (forall k m, In (k, m) new -> exists P c', m_p m = o_p o /\ nth_error (g_params G) (o_p o) = Some P /\
        nth_error (s_cells s') (o_p o) = Some c' /\ m = render G (s_heap s') P (o_p o) c') /\
    (forall k sc p c, nth_error (g_conns G) k = Some sc -> covers G sc p = true -> nth_error (s_cells s) p = Some c ->
        (forall m, In (k, m) new -> m_p m <> p) ->
        exists c', nth_error (s_cells s') p = Some c' /\ quiet_change c c').
Proof.
  intros G s o s'. unfold s'. destruct (step_is_rel G s o) as [EC EL | P0 c0 c' emit inp ts EP EC0 EF ECs EL].
  - exists []. rewrite EL, EC. repeat split; auto; [intros ? ? []|].
    intros. eexists; split; eauto. unfold quiet_change; auto.
  - exists (new_entries G (s_heap (step G s o)) P0 (o_p o) c' emit). repeat split; auto.
    + intros k m Hin. apply new_entries_param in Hin. exists P0, c'. subst m; simpl. repeat split; auto.
      rewrite ECs. eapply nth_set_nth_eq; eauto.
    + intros k sc p c Hk Hc Hcell Hno. rewrite ECs.
      destruct (Nat.eq_dec (o_p o) p) as [E|N].
      * subst p. rewrite EC0 in Hcell; inversion Hcell; subst c0.
        rewrite (nth_set_nth_eq _ _ _ _ EC0). exists c'; split; auto.
        destruct emit; [|eapply funnel_quiet; eauto].
        exfalso. unfold new_entries in Hno. rewrite (covers_exported _ _ _ _ Hc EP) in Hno; simpl in Hno.
        apply (Hno (render G (s_heap (step G s o)) P0 (o_p o) c')); [|reflexivity].
        rewrite <- in_rev. apply in_map_iff. eexists; split; eauto. eapply listeners_in; eauto.
      * rewrite nth_set_nth_neq by auto. exists c; split; auto. unfold quiet_change; auto.
Qed.
Print Assumptions C05_order_no_phantom.

(* a recovery from an error is always announced, whatever the value, the time and the omit interval *)
Theorem C05_recovery_announced : forall G s o k sc p P c e c',
  nth_error (g_conns G) k = Some sc -> covers G sc p = true -> nth_error (g_params G) p = Some P ->
  nth_error (s_cells s) p = Some c -> c_err c = Some e ->
  nth_error (s_cells (step G s o)) p = Some c' -> c_err c' = None ->
  latest k p (s_log (step G s o)) = Some (render G (s_heap (step G s o)) P p c') /\
  m_pay (render G (s_heap (step G s o)) P p c') = PVal (dt_export (p_dt P) (c_val c')) /\
  In (k, render G (s_heap (step G s o)) P p c')
     (firstn (length (s_log (step G s o)) - length (s_log s)) (s_log (step G s o))).
Proof.
  intros G s o k sc p P c e c' Hk Hc HP Hcell He Hcell' He'.
  destruct (step_is_rel G s o) as [EC EL | P0 c0 c1 emit inp ts EP EC0 EF ECs EL].
  - rewrite EC in Hcell'. congruence.
  - rewrite ECs in Hcell'. destruct (Nat.eq_dec (o_p o) p) as [E|N].
    2:{ rewrite nth_set_nth_neq in Hcell' by auto. congruence. }
    subst p. rewrite EP in HP; inversion HP; subst P0. rewrite EC0 in Hcell; inversion Hcell; subst c0.
    rewrite (nth_set_nth_eq _ _ _ _ EC0) in Hcell'; inversion Hcell'; subst c1.
    destruct emit.
    2:{ apply funnel_quiet in EF. destruct EF as (A & _). congruence. }
    rewrite EL. unfold new_entries. rewrite (covers_exported _ _ _ _ Hc EP); simpl.
    assert (Hin : In k (listeners G (o_p o))) by (eapply listeners_in; eauto).
    split; [apply latest_deliveries_in; auto|]. split; [unfold render; simpl; rewrite He'; reflexivity|].
    rewrite app_length, Nat.add_sub, firstn_app, Nat.sub_diag, firstn_all; simpl. rewrite app_nil_r.
    rewrite <- in_rev. apply in_map_iff. eexists; split; eauto.
Qed.
Print Assumptions C05_recovery_announced.

(* any number of threads, every schedule.  Threads: driver threads (wrapped read_ / write_, assignment,
   announceUpdate) and connection threads (the real handle_activate for the whole node, a module or one parameter;
   handle_deactivate; remove_connection).  The hypotheses on the flags are the source facts of C05_source_facts. *)

(* the regions of one module -- announceUpdate from the clock read to the last send_reply, handle_activate while it
   builds and sends the initial values of the module -- are never executed by two threads at once *)
Theorem C05_update_region_exclusive : forall G s ss progs sched,
  src_flags = flags_ok -> length (s_cells s) = length (g_params G) ->
  exclusive G (cs_thr (crun G src_flags (cinit s ss progs) sched)).
Proof. intros G s ss progs sched -> L. apply crun_exclusive; [apply cinit_wf; auto|apply cinit_exclusive]. Qed.
Print Assumptions C05_update_region_exclusive.

(* ... and a thread outside (before the lock) changes neither the cache nor any stream nor the subscriptions *)
Theorem C05_outside_region_frame : forall G F st ss ts i t acts t',
  tstep G F st ss ts i t = Some (acts, t') ->
  match t_pk t with KStart | KAcqA | KDrv => True | _ => False end ->
  let x := fold_left (fun x a => ceff G a x) acts (st, ss) in
  s_cells (fst x) = s_cells st /\ s_log (fst x) = s_log st /\ snd x = ss.
Proof.
  intros G F st ss ts i t acts t' E K.
  destruct (tstep_outside _ _ _ _ _ _ _ _ K E) as [Q|[Q|(o & Q)]]; try (inversion Q; simpl; auto; fail).
  revert Q. unfold drv_step. destruct (nth_error _ _) as [P|]; [destruct (snd (pre P (s_heap st) o))|];
    intros Q; inversion Q; simpl; auto.
Qed.
Print Assumptions C05_outside_region_frame.

(* activation coherence under concurrency.  Start: any cache, every connection activated as the configuration says
   (possibly not at all).  After any schedule of any threads, at every point at which no thread is inside the body
   of announceUpdate or inside handle_activate after its registration ([quiet]): every connection, for every scope
   it is registered for at that point and every parameter the scope covers, holds as newest message of the
   parameter a report of the cached entry -- no lost update, no stale initial value.  ([reports G None]: as in
   C05_coherent_except_error_text.) *)
Theorem C05_concurrent_activation_coherent : forall G s0 progs sched,
  src_flags = flags_ok -> wf_config G -> length (s_cells s0) = length (g_params G) ->
  let r := crun G src_flags (cinit (activate_all G s0) (subs0 G) progs) sched in
  quiet r = true ->
  forall k scs sc p P c,
    nth_error (cs_subs r) k = Some scs -> In sc scs -> covers G sc p = true ->
    nth_error (g_params G) p = Some P -> nth_error (s_cells (cs_st r)) p = Some c ->
    exists m, replay p (msgs_of k (cs_st r)) = Some m /\ reports G None P p c m.
Proof.
  intros G s0 progs sched -> WG L r Q k scs sc p P c Hk Hsc Hc HP Hcell. rewrite replay_latest.
  refine (concurrent_coherent G (activate_all G s0) (subs0 G) progs sched WG _ (served_activate G s0) Q
            k scs sc p P c Hk Hsc Hc HP Hcell).
  rewrite activate_all_cells; auto.
Qed.
Print Assumptions C05_concurrent_activation_coherent.

(* refinement.  [ctrace] lists what the threads commit, in the order of the commit points: the wrapper prologue of
   an operation (bookkeeping of raising_methods), its announce region (at the clock read right after updateLock is
   taken: for one module that is the order in which the threads acquired the lock), every initial value of
   handle_activate (when it is built, inside the lock), registrations and deregistrations.  [arun] executes that
   list sequentially with every region atomic: an announce region serves all its listeners at once, an initial
   value is delivered when it is built.  For every schedule the concurrent run has the cache, the clock, the heap
   and the subscriptions of that sequential run; the stream of every connection about every parameter is the
   sequential one minus what threads inside a region still have in hand ([pend]); at a quiescent point the streams
   (and what a client replays from them) are equal.  Streams are compared per (connection, parameter): messages
   about parameters of different modules are sent by threads holding different locks and may reach two connections
   in different orders -- the property orders messages per parameter only. *)
Theorem C05_concurrent_refinement : forall G st ss progs sched,
  src_flags = flags_ok -> length (s_cells st) = length (g_params G) ->
  let r := crun G src_flags (cinit st ss progs) sched in
  let q := arun G (ctrace G src_flags (cinit st ss progs) sched) (st, ss) in
  s_cells (cs_st r) = s_cells (fst q) /\ s_heap (cs_st r) = s_heap (fst q) /\ s_now (cs_st r) = s_now (fst q) /\
  cs_subs r = snd q /\
  (forall k p, plog k p (s_log (fst q)) = pend k p (cs_thr r) ++ plog k p (s_log (cs_st r))) /\
  (quiet r = true -> forall k p, pstream k p (cs_st r) = pstream k p (fst q) /\
                                 replay p (msgs_of k (cs_st r)) = replay p (msgs_of k (fst q))).
Proof.
  intros G st ss progs sched -> L r q.
  destruct (crun_sim G False sched _ _ (False_ind _) (cinit_wf G st ss progs L) (cinit_exclusive G st ss progs)
              (sim_init G False st ss progs (False_ind _))) as (lq & E & PL & _).
  fold r in E, PL. fold q in E. rewrite E. simpl.
  split; [|split; [|split; [|split; [|split]]]]; auto.
  intros Q k p. specialize (PL k p). rewrite (quiet_pend r k p Q) in PL. simpl in PL.
  rewrite !pstream_plog, !replay_latest, !latest_plog. simpl. rewrite PL. auto.
Qed.
Print Assumptions C05_concurrent_refinement.

(* ... and the sequential reading is the sequential model: the two actions of a driver operation, executed one after
   the other with the subscriptions of the configuration, are one [step] (so C05_order_no_phantom and
   C05_recovery_announced speak about every announce region of every schedule) *)
Theorem C05_sequential_reading_is_step : forall G s o P,
  nth_error (g_params G) (o_p o) = Some P ->
  arun G (AHeap P o :: match snd (pre P (s_heap s) o) with Some inp => [AFun P o inp] | None => [] end) (s, subs0 G)
  = (step G s o, subs0 G).
Proof.
  intros G s o P EP. unfold step. rewrite EP. destruct (pre P (s_heap s) o) as [h1 [inp|]] eqn:E; unfold arun; simpl; auto.
  - rewrite dlisteners_subs0, E. reflexivity.
  - rewrite E. reflexivity.
Qed.
Print Assumptions C05_sequential_reading_is_step.

(* parameter callbacks (Module.addCallback / registerCallbacks).  An operation comes with a script c : cbs, the
   tree of what the callbacks registered on its parameter do in this invocation: return, raise an exception of any
   class, or call announceUpdate of a module (whose own callbacks run in turn; <follower>.announceUpdate registered
   by registerCallbacks(autoupdate) included), for strict callables (update_<p>(self, value)) python's own
   TypeError when the entry is an error.  [step_cb] is the operation with the callback loop between the store and
   the notification; the hypothesis on the except clause is a source fact (C05_source_facts). *)

(* no callback behaviour suppresses, alters or duplicates the update of the operation that triggered it:
   (1) callbacks that return or raise -- whatever they raise -- leave the operation exactly as it is without callbacks
       (whole state: cache, clock, raising-method lists, every stream);
   (2) for any tree of nested announcements that are not about the operation's own parameter, the cache entry of that
       parameter and what every connection is sent about it are those of the operation without callbacks -- so
       C05_order_no_phantom and C05_recovery_announced hold for it as they stand. *)
Theorem C05_callbacks_cannot_suppress_update : forall G s o c,
  callback_except_class = s_exception ->
  (cbs_flat c = true -> step_cb G callback_except_class s (o, c) = step G s o) /\
  (cbs_avoid (o_p o) c = true ->
   nth_error (s_cells (step_cb G callback_except_class s (o, c))) (o_p o) = nth_error (s_cells (step G s o)) (o_p o) /\
   forall k, plog k (o_p o) (s_log (step_cb G callback_except_class s (o, c))) = plog k (o_p o) (s_log (step G s o))).
Proof.
  intros G s o c ->. split; [apply step_cb_flat|]. intros AV.
  change (same_at (o_p o) (step G s o) (step_cb G s_exception s (o, c))).
  unfold step_cb, ann_k, step; simpl.
  destruct (nth_error (g_params G) (o_p o)) as [P|]; [|apply same_at_refl].
  destruct (pre P (s_heap s) o) as [h1 [inp|]]; simpl; [|apply same_at_refl].
  unfold ann_atomic. rewrite region_store_spec.
  destruct (region_store G P o inp (set_heap s h1)) as [s3 [c'|]] eqn:RS; [|apply same_at_refl].
  destruct (region_store_props _ _ _ _ _ _ _ RS) as (HH & _ & _ & HC).
  pose proof (run_cbs_no_escape G c c' s3) as A. destruct (run_cbs_frame G c c' s3) as (B & C). specialize (C _ AV).
  destruct (run_cbs G s_exception c c' s3) as [s4 esc]; simpl in *. subst esc.
  destruct (exported P); [|exact C].
  destruct C as [C1 C2].
  pose proof (notify_spec G P (o_p o) s4) as N. rewrite C1, HC in N. destruct N as (N1 & _ & N3).
  rewrite deliver_all_eq. split; simpl.
  - rewrite N1. auto.
  - intros k. rewrite N3, !plog_app, C2, B, HH. reflexivity.
Qed.
Print Assumptions C05_callbacks_cannot_suppress_update.

(* frame of nested announcements: running any callback tree (for any entry pc handed to the callbacks, from any
   state) lets no exception out of the loop, leaves the raising-method lists alone, and for every parameter p that no
   announcement of the tree is about: the cache entry of p and the stream of every connection about p are untouched *)
Theorem C05_nested_announcements_frame : forall G c pc s,
  callback_except_class = s_exception ->
  let r := run_cbs G callback_except_class c pc s in
  snd r = None /\ s_heap (fst r) = s_heap s /\
  forall p, cbs_avoid p c = true ->
    nth_error (s_cells (fst r)) p = nth_error (s_cells s) p /\
    forall k, plog k p (s_log (fst r)) = plog k p (s_log s).
Proof. intros G c pc s -> r. split; [apply run_cbs_no_escape|apply run_cbs_frame]. Qed.
Print Assumptions C05_nested_announcements_frame.

(* ... and coherence itself needs no restriction on the tree (announcements about the operation's own parameter, about
   parameters of the same module, chains of followers): after any history of operations with any callback scripts
   every connection's newest message of every parameter it covers reports the cached entry (as in
   C05_coherent_except_error_text, which is the case of empty scripts) *)
Theorem C05_coherent_with_callbacks : forall G s0 ocs,
  callback_except_class = s_exception ->
  let s' := run_cb G callback_except_class (activate_all G s0) ocs in
  forall k sc p P c,
    nth_error (g_conns G) k = Some sc -> covers G sc p = true ->
    nth_error (g_params G) p = Some P -> nth_error (s_cells s') p = Some c ->
    exists m, replay p (msgs_of k s') = Some m /\ reports G None P p c m.
Proof.
  intros G s0 ocs -> s' k sc p P c Hk Hc HP Hcell. rewrite replay_latest.
  exact (run_cb_coherent G ocs _ (activate_coherent G s0) k sc p P c Hk Hc HP Hcell).
Qed.
Print Assumptions C05_coherent_with_callbacks.

(* request threads (read / change requests through the dispatcher).  A request is the wrapped read_ / write_ method
   (a job of the concurrent model) followed by the construction of the reply -- pobj.export_value() and
   pobj.timestamp, read WITHOUT the module's updateLock, with park points inside the conversion ([rstep],
   ModelReq.v).  Source facts export_value_pure (Parameter.export_value is `return
   self.datatype.export_value(self.value)`, nothing is stored) and reply_built_from_cache (the reply is built after
   the wrapper call from these two reads only) are obligations of C05_source_facts. *)

(* frame: a step of a thread that is building a reply, from any state, for any flags, changes nothing that is shared:
   cache, clock, raising-method lists, the stream of every connection, the subscription table and the park points
   (hence the locks) of all threads are the same; the other threads' request bookkeeping is untouched *)
Theorem C05_reply_building_is_pure : forall G F s i,
  is_reply s i = true ->
  let s' := rstep G F s i in
  r_cs s' = r_cs s /\
  s_cells (cs_st (r_cs s')) = s_cells (cs_st (r_cs s)) /\
  (forall k, msgs_of k (cs_st (r_cs s')) = msgs_of k (cs_st (r_cs s))) /\
  cs_subs (r_cs s') = cs_subs (r_cs s) /\
  (forall j, j <> i -> nth_error (r_req s') j = nth_error (r_req s) j).
Proof.
  intros G F s i H s'. destruct (rstep_reply G F s i H) as (E & O). fold s' in E, O.
  split; [exact E|]. rewrite E. repeat split; auto.
Qed.
Print Assumptions C05_reply_building_is_pure.

(* every schedule of the system with request threads is, once the reply steps are erased, a schedule of the
   concurrent model with the same shared state: request threads add no behaviour *)
Theorem C05_request_threads_add_nothing : forall G F s sched,
  r_cs (rrun G F s sched) = crun G F (r_cs s) (erase G F s sched).
Proof.
  intros G F s sched. revert s. induction sched as [|i r IH]; intros s; [reflexivity|].
  simpl. unfold rrun in *. simpl. rewrite IH.
  destruct (is_reply s i) eqn:E; simpl.
  - rewrite (proj1 (rstep_reply G F s i E)). reflexivity.
  - unfold crun. simpl. rewrite rstep_real by exact E. reflexivity.
Qed.
Print Assumptions C05_request_threads_add_nothing.

(* ... so coherence at quiescent points holds with any number of request threads, replies under construction or not
   (marks: any number of reply park points after any job of any thread), under every schedule: in particular a
   connection activated after (or while) replies were built holds the cached entries *)
Theorem C05_coherent_with_request_threads : forall G s0 progs marks sched,
  src_flags = flags_ok -> wf_config G -> length (s_cells s0) = length (g_params G) ->
  let r := r_cs (rrun G src_flags (rinit (activate_all G s0) (subs0 G) progs marks) sched) in
  quiet r = true ->
  forall k scs sc p P c,
    nth_error (cs_subs r) k = Some scs -> In sc scs -> covers G sc p = true ->
    nth_error (g_params G) p = Some P -> nth_error (s_cells (cs_st r)) p = Some c ->
    exists m, replay p (msgs_of k (cs_st r)) = Some m /\ reports G None P p c m.
Proof.
  intros G s0 progs marks sched HF WG L r. subst r. rewrite C05_request_threads_add_nothing. simpl r_cs.
  exact (C05_concurrent_activation_coherent G s0 progs _ HF WG L).
Qed.
Print Assumptions C05_coherent_with_request_threads.

Print Assumptions C05_refuted_error_text_stable.
Print Assumptions C05_refuted_without_update_lock.
Print Assumptions C05_refuted_registration_after_snapshot.
Print Assumptions C05_refuted_snapshot_outside_lock.
Print Assumptions C05_refuted_live_listener_set.
Print Assumptions C05_refuted_callback_exception_escapes.

(* non-vacuity of the callback theorems: a script with a raising callback, a nested announcement about another
   parameter and one about the operation's own parameter; the operation ends with both connections' streams coherent *)
Example C05_callbacks_nonvacuous :
  let c := CRaise false s_zerodiv (CAnn false 0 (PFloat (fmk 3 0)) None 0%Z 1%Z wcx CNil (Some s_zerodiv) CNil) in
  let s' := step_cb wG s_exception wS ({| o_p := 0; o_k := KAssign (PFloat (fmk 1 0)); o_dt := 1%Z; o_cx := wcx |}, c) in
  cbs_avoid 0 c = false /\ length (msgs_of 0 s') = 3 /\
  match nth_error (s_cells s') 0, replay 0 (msgs_of 0 s') with
  | Some e, Some m => Z.eqb (m_ts m) (c_ts e) && Z.eqb (c_ts e) 8002%Z = true
  | _, _ => False
  end.
Proof. vm_compute. repeat split; reflexivity. Qed.

(* non-vacuity: a run in which an activation races with two updates reaches a quiescent state with a registered,
   covered, served connection *)
Example C05_concurrent_nonvacuous :
  let r := crun aG flags_ok (cinit aS (subs0 aG) a_progs) [1; 1; 0; 0; 0; 0; 1; 1] in
  cs_ok r && quiescent r && quiet r && Nat.eqb (length (msgs_of 0 (cs_st r))) 2 = true.
Proof. vm_compute. reflexivity. Qed.
