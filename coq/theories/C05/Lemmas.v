(* C05 -- the sequential funnel model: the newest message per (connection, parameter) and what it means that it reports
   a cache entry; the funnel and one operation in relational form; who is told (the listeners, also of the dynamic
   subscription table); the invariant [coherent], and that activation establishes it.  That operations preserve it is
   proved in LemmasCb.v, for operations with any callback scripts (run_cb_coherent; run_coherent is the case of none). *)
From Coq Require Import ZArith NArith Bool List Arith Lia.
Import ListNotations.
Require Import FV.Base.Util FV.Base.F64 FV.Base.PyVal FV.C01.Model FV.C05.Model.

Lemma nth_set_nth_eq {A} n (x : A) l y : nth_error l n = Some y -> nth_error (set_nth n x l) n = Some x.
Proof. revert n; induction l; intros [|n] H; simpl in *; try discriminate; auto. Qed.
Lemma nth_set_nth_neq {A} n m (x : A) l : n <> m -> nth_error (set_nth n x l) m = nth_error l m.
Proof. revert n m; induction l; intros [|n] [|m] H; simpl; auto; try congruence. Qed.
Lemma set_nth_length {A} n (x : A) l : length (set_nth n x l) = length l.
Proof. revert n; induction l; intros [|n]; simpl; auto. Qed.

Fixpoint latest (k p : nat) (log : list (nat * msg)) : option msg :=
  match log with
  | [] => None
  | (k', m) :: r => if Nat.eqb k' k && Nat.eqb (m_p m) p then Some m else latest k p r
  end.

Lemma last_msg_app p l a acc :
  last_msg p (l ++ [a]) acc = if Nat.eqb (m_p a) p then Some a else last_msg p l acc.
Proof. revert acc; induction l; intros; simpl; auto. Qed.

Lemma replay_latest k p s : replay p (msgs_of k s) = latest k p (s_log s).
Proof.
  unfold replay, msgs_of. induction (s_log s) as [|[k' m] r IH]; simpl; auto.
  destruct (Nat.eqb k' k) eqn:E; simpl; auto.
  rewrite last_msg_app. destruct (Nat.eqb (m_p m) p); auto.
Qed.

Lemma latest_app_other k p new log :
  (forall k' m, In (k', m) new -> k' <> k \/ m_p m <> p) -> latest k p (new ++ log) = latest k p log.
Proof.
  induction new as [|[k' m] r IH]; intros H; simpl; auto.
  destruct (H k' m (or_introl eq_refl)) as [N|N].
  - apply Nat.eqb_neq in N. rewrite N; simpl. apply IH; intros; apply H; right; auto.
  - apply Nat.eqb_neq in N. rewrite N, andb_false_r. apply IH; intros; apply H; right; auto.
Qed.

Definition set_log (s : state) (l : list (nat * msg)) : state :=
  {| s_cells := s_cells s; s_heap := s_heap s; s_now := s_now s; s_log := l |}.

(* a sequence of deliveries touches the log only, and prepends its entries to it *)
Lemma fold_deliver {A} (fk : A -> nat) (fm : A -> msg) l : forall s,
  fold_left (fun s x => deliver s (fk x) (fm x)) l s = set_log s (rev (map (fun x => (fk x, fm x)) l) ++ s_log s).
Proof.
  induction l as [|x l IH]; intros s; simpl; [destruct s; reflexivity|].
  rewrite IH, <- app_assoc. reflexivity.
Qed.
Lemma deliver_all_eq s ks m : deliver_all s ks m = set_log s (rev (map (fun k => (k, m)) ks) ++ s_log s).
Proof. apply (fold_deliver (fun k => k) (fun _ => m)). Qed.

(* the newest message of (k, p) among freshly delivered entries, when they hold only one such message *)
Lemma latest_rev_in k p m0 new log :
  In (k, m0) new -> m_p m0 = p -> (forall m, In (k, m) new -> m_p m = p -> m = m0) ->
  latest k p (rev new ++ log) = Some m0.
Proof.
  induction new as [|[k' a] L IH] using rev_ind; intros I E U; [destruct I|].
  rewrite rev_app_distr; simpl.
  destruct (Nat.eqb k' k && Nat.eqb (m_p a) p) eqn:Q.
  - apply andb_prop in Q. destruct Q as [Q1 Q2]. apply Nat.eqb_eq in Q1, Q2. subst k'.
    f_equal. apply U; auto. apply in_or_app; right; left; auto.
  - apply IH; auto.
    + apply in_app_or in I. destruct I as [I|[I|[]]]; auto. inversion I; subst.
      rewrite !Nat.eqb_refl in Q; discriminate.
    + intros; apply U; auto. apply in_or_app; auto.
Qed.
Lemma latest_deliveries_in k p m ks log :
  In k ks -> m_p m = p -> latest k p (rev (map (fun k => (k, m)) ks) ++ log) = Some m.
Proof.
  intros I E. apply latest_rev_in; auto; [apply in_map_iff; eauto|].
  intros m' H _. apply in_map_iff in H. destruct H as (x & Q & _). congruence.
Qed.

(* values the funnel judged unchanged (python ==) since the value that was sent *)
Inductive vchain : pyval -> pyval -> Prop :=
| vc_refl v : vchain v v
| vc_step a b c : vchain a b -> py_neq b c = false -> vchain a c.

(* the client-visible part of a cache entry did not change: same error object, same timestamp, value equal by == *)
Definition quiet_change (c c' : cell) : Prop :=
  c_err c' = c_err c /\ c_ts c' = c_ts c /\ (c_val c' = c_val c \/ py_neq (c_val c) (c_val c') = false).

(* message m reports cache entry c of parameter p: same parameter, same timestamp, same error (class name and
   the text of this very error object, rendered with some state rm of its raising-method list), or a value which the
   funnel compared equal to the cached one.  [h] given: rm is the current list (text exactly as cached). *)
Definition reports (G : config) (h : option heap) (P : pcfg) (p : nat) (c : cell) (m : msg) : Prop :=
  m_p m = p /\ m_ts m = c_ts c /\
  match c_err c with
  | Some e => exists rm, m_pay m = PErr (e_name (g_tab G) (e_cls e)) (fmt_text (g_tab G) e rm) /\
                         (forall h', h = Some h' -> rm = heap_get h' (e_oid e))
  | None => exists v, m_pay m = PVal (dt_export (p_dt P) v) /\ vchain v (c_val c)
  end.

Lemma reports_render G h P p c : reports G (Some h) P p c (render G h P p c).
Proof.
  unfold reports, render; simpl. repeat split; auto.
  destruct (c_err c).
  - eexists; split; eauto. intros h' E; inversion E; auto.
  - eexists; split; eauto. constructor.
Qed.
Lemma reports_weaken G h P p c m : reports G (Some h) P p c m -> reports G None P p c m.
Proof.
  unfold reports. intros (A & B & C); repeat split; auto. destruct (c_err c); auto.
  destruct C as (rm & C & _). exists rm; split; auto. discriminate.
Qed.
Lemma reports_quiet G P p c c' m : reports G None P p c m -> quiet_change c c' -> reports G None P p c' m.
Proof.
  unfold reports, quiet_change. intros (A & B & C) (E & T & V). repeat split; auto; try congruence.
  rewrite E. destruct (c_err c); auto.
  destruct C as (v & C & Ch). exists v; split; auto.
  destruct V as [V|V]; [rewrite V; auto|]. econstructor; eauto.
Qed.

Lemma funnel_err_quiet c x ts c' : funnel_err c x ts = (c', false) -> c' = c.
Proof.
  unfold funnel_err. destruct (c_err c); [destruct (eobj_eqb _ _)|]; intros H; inversion H; auto.
Qed.
Lemma funnel_val_quiet P c v ts c' : funnel_val P c v ts = (c', false) -> quiet_change c c' /\ c_err c = None.
Proof.
  unfold funnel_val, quiet_change. destruct (negb _ && _) eqn:E; intros H; inversion H; subst; simpl.
  apply andb_prop in E. destruct E as [E _]. apply negb_true_iff, orb_false_iff in E. destruct E as [E1 E2].
  destruct (c_err c); [discriminate|]. auto.
Qed.
Lemma funnel_quiet P c inp cx ts c' : funnel P c inp cx ts = (c', false) -> quiet_change c c'.
Proof.
  unfold funnel. destruct inp as [v [|]|x].
  - destruct (dt_call _ _); intros H.
    + apply funnel_val_quiet in H; tauto.
    + apply funnel_err_quiet in H; subst; unfold quiet_change; auto.
  - intros H; apply funnel_val_quiet in H; tauto.
  - intros H; apply funnel_err_quiet in H; subst; unfold quiet_change; auto.
Qed.

(* recovery: an accepted value on an entry in error state is always passed on *)
Lemma funnel_val_recovery P c v ts e : c_err c = Some e -> funnel_val P c v ts = ({| c_val := v; c_err := None; c_ts := ts |}, true).
Proof. unfold funnel_val; intros ->; simpl. rewrite orb_true_r; reflexivity. Qed.

Definition new_entries (G : config) (h : heap) (P : pcfg) (p : nat) (c' : cell) (emit : bool) : list (nat * msg) :=
  if emit && exported P then rev (map (fun k => (k, render G h P p c')) (listeners G p)) else [].

Inductive step_rel (G : config) (s : state) (o : op) (s' : state) : Prop :=
| sr_silent : s_cells s' = s_cells s -> s_log s' = s_log s -> step_rel G s o s'
| sr_funnel P c c' emit inp ts :
    nth_error (g_params G) (o_p o) = Some P -> nth_error (s_cells s) (o_p o) = Some c ->
    funnel P c inp (o_cx o) ts = (c', emit) ->
    s_cells s' = set_nth (o_p o) c' (s_cells s) ->
    s_log s' = new_entries G (s_heap s') P (o_p o) c' emit ++ s_log s ->
    step_rel G s o s'.

(* reading the clock (when no timestamp is given) changes the clock only *)
Lemma clock_frame o s :
  let s2 := if Z.eqb (explicit_ts o) 0 then tick s (o_dt o) else s in
  s_cells s2 = s_cells s /\ s_heap s2 = s_heap s /\ s_log s2 = s_log s.
Proof. destruct (Z.eqb _ _); auto. Qed.

(* the announce region, for any listener list *)
Lemma ann_region_spec G ks P o inp s :
  match nth_error (s_cells s) (o_p o) with
  | None => exists s', ann_region G ks P o inp s = (s', [], None) /\
              s_cells s' = s_cells s /\ s_heap s' = s_heap s /\ s_log s' = s_log s
  | Some c => exists ts c' emit s', funnel P c inp (o_cx o) ts = (c', emit) /\
       s_cells s' = set_nth (o_p o) c' (s_cells s) /\ s_heap s' = s_heap s /\ s_log s' = s_log s /\
       ann_region G ks P o inp s =
         (s', (if emit && exported P then ks else []),
          (if emit && exported P then Some (render G (s_heap s) P (o_p o) c') else None))
  end.
Proof.
  unfold ann_region. destruct (clock_frame o s) as (C2 & H2 & L2).
  set (s2 := if Z.eqb (explicit_ts o) 0 then tick s (o_dt o) else s) in *.
  set (ts := if Z.eqb (explicit_ts o) 0 then s_now s2 else explicit_ts o).
  unfold apply_funnel_with. rewrite C2.
  destruct (nth_error (s_cells s) (o_p o)) as [c|] eqn:EC.
  - destruct (funnel P c inp (o_cx o) ts) as [c' emit] eqn:EF.
    exists ts, c', emit. rewrite H2.
    exists {| s_cells := set_nth (o_p o) c' (s_cells s); s_heap := s_heap s; s_now := s_now s2; s_log := s_log s2 |}.
    split; [exact EF|]. simpl. repeat split; auto. destruct (emit && exported P); reflexivity.
  - exists s2. repeat split; auto.
Qed.

Lemma step_is_rel G s o : step_rel G s o (step G s o).
Proof.
  unfold step. destruct (nth_error (g_params G) (o_p o)) as [P|] eqn:EP; [|apply sr_silent; auto].
  destruct (pre P (s_heap s) o) as [h1 [inp|]] eqn:Epre; [|apply sr_silent; auto].
  unfold ann_atomic.
  pose proof (ann_region_spec G (listeners G (o_p o)) P o inp (set_heap s h1)) as R.
  change (s_cells (set_heap s h1)) with (s_cells s) in R.
  destruct (nth_error (s_cells s) (o_p o)) as [c|] eqn:EC.
  2:{ destruct R as (s' & -> & A & B & C). apply sr_silent; simpl; auto. }
  destruct R as (ts & c' & emit & s' & EF & A & B & C & ->).
  destruct (emit && exported P) eqn:EE.
  - rewrite deliver_all_eq. apply (sr_funnel G s o _ P c c' emit inp ts); auto.
    simpl. unfold new_entries. rewrite EE, B, C. reflexivity.
  - apply (sr_funnel G s o _ P c c' emit inp ts); auto.
    unfold new_entries. rewrite EE. simpl. exact C.
Qed.

Lemma covers_exported G sc p P : covers G sc p = true -> nth_error (g_params G) p = Some P -> exported P = true.
Proof. unfold covers; intros H E; rewrite E in H. apply andb_prop in H; tauto. Qed.

(* who is told: the registered connections; those of the configuration are the case of one scope each *)
Lemma dlisteners_from_in G p k0 ss k scs sc :
  nth_error ss k = Some scs -> In sc scs -> covers G sc p = true -> In (k0 + k) (dlisteners_from G p k0 ss).
Proof.
  revert k0 k; induction ss as [|l r IH]; intros k0 [|k] E I C; simpl in *; try discriminate.
  - inversion E; subst. assert (Q : sub_covers G scs p = true) by (apply existsb_exists; eauto).
    rewrite Q. left; lia.
  - specialize (IH (S k0) k E I C). replace (k0 + S k) with (S k0 + k) by lia.
    destruct (sub_covers G l p); simpl; auto.
Qed.
Lemma dlisteners_in G ss p k scs sc :
  nth_error ss k = Some scs -> In sc scs -> covers G sc p = true -> In k (dlisteners G ss p).
Proof. intros. unfold dlisteners. change k with (0 + k). eapply dlisteners_from_in; eauto. Qed.

Lemma dlisteners_subs0 G p : dlisteners G (subs0 G) p = listeners G p.
Proof.
  unfold dlisteners, listeners, subs0. generalize 0. induction (g_conns G) as [|sc r IH]; intros k; simpl; auto.
  unfold sub_covers; simpl. rewrite orb_false_r, IH. reflexivity.
Qed.
Lemma listeners_in G p k sc : nth_error (g_conns G) k = Some sc -> covers G sc p = true -> In k (listeners G p).
Proof.
  intros E C. rewrite <- dlisteners_subs0. apply dlisteners_in with (scs := [sc]) (sc := sc); simpl; auto.
  unfold subs0. rewrite nth_error_map, E. reflexivity.
Qed.

Lemma new_entries_param G h P p c' emit k m : In (k, m) (new_entries G h P p c' emit) -> m = render G h P p c'.
Proof.
  unfold new_entries. destruct (emit && exported P); [|intros []].
  rewrite <- in_rev, in_map_iff. intros (x & E & _); inversion E; auto.
Qed.

(* every subscribed connection's newest message of every parameter it covers reports the cached entry *)
Definition coherent (G : config) (s : state) : Prop :=
  forall k sc p P c,
    nth_error (g_conns G) k = Some sc -> covers G sc p = true ->
    nth_error (g_params G) p = Some P -> nth_error (s_cells s) p = Some c ->
    exists m, latest k p (s_log s) = Some m /\ reports G None P p c m.

Lemma snapshot_from_in G h sc p0 ps cs j P c :
  nth_error ps j = Some P -> nth_error cs j = Some c -> covers G sc (p0 + j) = true ->
  In (render G h P (p0 + j) c) (snapshot_from G h sc p0 ps cs).
Proof.
  revert p0 cs j; induction ps as [|P' ps IH]; intros p0 [|c' cs] [|j] EP EC Cv; simpl in *; try discriminate.
  - inversion EP; inversion EC; subst. replace (p0 + 0) with p0 in * by lia. rewrite Cv. left; auto.
  - replace (p0 + S j) with (S p0 + j) in * by lia.
    destruct (covers G sc p0); [right|]; apply IH; auto.
Qed.
Lemma snapshot_from_only G h sc p0 ps cs m :
  In m (snapshot_from G h sc p0 ps cs) ->
  exists j P c, nth_error ps j = Some P /\ nth_error cs j = Some c /\ m = render G h P (p0 + j) c.
Proof.
  revert p0 cs; induction ps as [|P' ps IH]; intros p0 [|c' cs] H; simpl in *; try tauto.
  assert (R : In m (snapshot_from G h sc (S p0) ps cs) ->
              exists j P c, nth_error (P' :: ps) j = Some P /\ nth_error (c' :: cs) j = Some c /\ m = render G h P (p0 + j) c).
  { intros H'. destruct (IH _ _ H') as (j & P & c & A & B & C). exists (S j), P, c. simpl. repeat split; auto.
    replace (p0 + S j) with (S p0 + j) by lia; auto. }
  destruct (covers G sc p0); auto. destruct H as [H|H]; auto.
  exists 0, P', c'. simpl. replace (p0 + 0) with p0 by lia. auto.
Qed.

Lemma activate_from_spec G : forall cs k0 s,
  let s' := activate_from G s k0 cs in
  s_cells s' = s_cells s /\ s_heap s' = s_heap s /\
  (exists new, s_log s' = new ++ s_log s /\ forall k' m, In (k', m) new -> k0 <= k') /\
  forall j sc p P c, nth_error cs j = Some sc -> covers G sc p = true ->
    nth_error (g_params G) p = Some P -> nth_error (s_cells s) p = Some c ->
    latest (k0 + j) p (s_log s') = Some (render G (s_heap s) P p c).
Proof.
  induction cs as [|sc0 r IH]; intros k0 s; simpl.
  - repeat split; auto. { exists []; split; auto. intros ? ? []. } intros [|j]; discriminate.
  - rewrite (fold_deliver (fun _ => k0) (fun m => m) (snapshot G s sc0) s).
    destruct (IH (S k0) (set_log s (rev (map (fun m => (k0, m)) (snapshot G s sc0)) ++ s_log s)))
      as (A & B & (new & D & Dk) & F).
    cbn [set_log s_cells s_heap s_log] in A, B, D, F. repeat split; auto.
    + exists (new ++ rev (map (fun m => (k0, m)) (snapshot G s sc0))). split.
      * rewrite D, app_assoc; reflexivity.
      * intros k' m Hin. apply in_app_or in Hin. destruct Hin as [Hin|Hin]; [apply Dk in Hin; lia|].
        rewrite <- in_rev, in_map_iff in Hin. destruct Hin as (x & E & _); inversion E; lia.
    + intros [|j] sc p P c Ej Cv EP EC; simpl in Ej.
      * inversion Ej; subst sc0. replace (k0 + 0) with k0 by lia. rewrite D, latest_app_other.
        2:{ intros k' m Hin; left. apply Dk in Hin; lia. }
        apply latest_rev_in; auto.
        -- apply in_map. unfold snapshot. change p with (0 + p). apply snapshot_from_in; auto.
        -- intros m Hin Hp. apply in_map_iff in Hin. destruct Hin as (m' & Q & Hin). inversion Q; subst m'.
           apply snapshot_from_only in Hin.
           destruct Hin as (j & P' & c' & X & Y & Z). subst m. simpl in Hp. subst j. simpl. congruence.
      * replace (k0 + S j) with (S k0 + j) by lia. apply (F j sc); auto.
Qed.

Theorem activate_coherent G s : coherent G (activate_all G s).
Proof.
  intros k sc p P c Hk Hc HP Hcell. unfold activate_all in *.
  destruct (activate_from_spec G (g_conns G) 0 s) as (A & B & _ & F).
  rewrite A in Hcell. specialize (F k sc p P c Hk Hc HP Hcell). simpl in F. rewrite F. eexists; split; eauto.
  apply reports_weaken with (h := s_heap s). apply reports_render.
Qed.
