(* C05 -- parameter callbacks cannot suppress, alter or reorder the update of the operation that triggered them;
   nested announcements are framed; the coherence invariant survives any callback tree (and so the plain history
   without callbacks).  LemmasRef.v is imported for [plog], the per-(connection, parameter) stream, and its list facts;
   LemmasAct.v for [told]. *)
From Coq Require Import ZArith NArith Bool List Arith Lia.
Import ListNotations.
Require Import FV.Base.Util FV.Base.F64 FV.Base.PyVal FV.C01.Model FV.C05.Model FV.C05.ModelCb FV.C05.Lemmas
  FV.C05.LemmasAct FV.C05.LemmasRef.

Lemma region_store_spec G ks P o inp s :
  ann_region G ks P o inp s =
  match region_store G P o inp s with
  | (s3, Some c') => if exported P then (s3, ks, Some (render G (s_heap s) P (o_p o) c')) else (s3, [], None)
  | (s3, None) => (s3, [], None)
  end.
Proof.
  unfold ann_region, region_store, apply_funnel_with. destruct (clock_frame o s) as (_ & H2 & _).
  set (s2 := if Z.eqb (explicit_ts o) 0 then tick s (o_dt o) else s) in *.
  destruct (nth_error (s_cells s2) (o_p o)) as [c|]; [|reflexivity].
  destruct (funnel P c inp (o_cx o) _) as [c' emit]. rewrite H2.
  destruct emit, (exported P); reflexivity.
Qed.

Lemma region_store_props G P o inp s s3 oc :
  region_store G P o inp s = (s3, oc) ->
  s_heap s3 = s_heap s /\ s_log s3 = s_log s /\
  (forall p, p <> o_p o -> nth_error (s_cells s3) p = nth_error (s_cells s) p) /\
  match oc with
  | Some c' => nth_error (s_cells s3) (o_p o) = Some c'
  | None => match nth_error (s_cells s) (o_p o) with
            | Some c => exists c', nth_error (s_cells s3) (o_p o) = Some c' /\ quiet_change c c'
            | None => nth_error (s_cells s3) (o_p o) = None
            end
  end.
Proof.
  unfold region_store. destruct (clock_frame o s) as (C2 & H2 & L2).
  set (s2 := if Z.eqb (explicit_ts o) 0 then tick s (o_dt o) else s) in *.
  rewrite C2. destruct (nth_error (s_cells s) (o_p o)) as [c|] eqn:EC.
  - destruct (funnel P c inp (o_cx o) _) as [c' emit] eqn:EF. intros H; inversion H; subst; clear H. simpl.
    repeat split; auto.
    + intros p N. apply nth_set_nth_neq; auto.
    + destruct emit.
      * eapply nth_set_nth_eq; eauto.
      * exists c'; split; [eapply nth_set_nth_eq; eauto|]. eapply funnel_quiet; eauto.
  - intros H; inversion H; subst; clear H. rewrite C2. repeat split; auto; congruence.
Qed.

Lemma notify_spec G P p s :
  match nth_error (s_cells s) p with
  | Some c => s_cells (notify G P p s) = s_cells s /\ s_heap (notify G P p s) = s_heap s /\
              s_log (notify G P p s) = rev (map (fun k => (k, render G (s_heap s) P p c)) (listeners G p)) ++ s_log s
  | None => notify G P p s = s
  end.
Proof.
  unfold notify. destruct (nth_error (s_cells s) p) as [c|]; auto. rewrite deliver_all_eq. auto.
Qed.

Lemma pre_announce P h q v x ts dt cx : fst (pre P h (ann_op q v x ts dt cx)) = h.
Proof. unfold pre, ann_op; simpl. destruct x; reflexivity. Qed.

(* under "except Exception" every callback is followed by the rest of the loop, whatever it raises; only the
   announcements it makes act on the state *)
Lemma run_cbs_step G c pc s :
  run_cbs G s_exception c pc s =
  match c with
  | CNil => (s, None)
  | CRet _ r | CRaise _ _ r => run_cbs G s_exception r pc s
  | CAnn st q v x ts dt cx sub _ r =>
      run_cbs G s_exception r pc
        (if st && is_some (c_err pc) then s else fst (ann_k G (run_cbs G s_exception sub) s (ann_op q v x ts dt cx)))
  | CAuto q dt cx sub r => run_cbs G s_exception r pc (fst (ann_k G (run_cbs G s_exception sub) s (auto_op pc q dt cx)))
  end.
Proof.
  destruct c as [|st r|st tn r|st q v x ts dt cx sub after r|q dt cx sub r]; simpl; auto.
  - rewrite andb_false_r. reflexivity.
  - destruct (st && _); auto. destruct (ann_k _ _ _ _) as [s' [tn|]]; [|destruct after]; reflexivity.
  - destruct (ann_k _ _ _ _) as [s' [tn|]]; reflexivity.
Qed.

Lemma run_cbs_no_escape G c : forall pc s, snd (run_cbs G s_exception c pc s) = None.
Proof. induction c; intros; rewrite run_cbs_step; auto. Qed.

Lemma run_cbs_flat G c : cbs_flat c = true -> forall pc s, run_cbs G s_exception c pc s = (s, None).
Proof. induction c; intros F pc s; rewrite run_cbs_step; try discriminate; auto. Qed.

Lemma ann_k_plain G s o K :
  (forall pc s0, K pc s0 = (s0, None)) -> fst (ann_k G K s o) = step G s o.
Proof.
  intros HK. unfold ann_k, step. destruct (nth_error (g_params G) (o_p o)) as [P|]; [|reflexivity].
  destruct (pre P (s_heap s) o) as [h1 [inp|]]; [|reflexivity].
  unfold ann_atomic. rewrite region_store_spec.
  destruct (region_store G P o inp (set_heap s h1)) as [s3 [c'|]] eqn:RS; [|reflexivity].
  rewrite HK. destruct (region_store_props _ _ _ _ _ _ _ RS) as (HH & _ & _ & HC).
  destruct (exported P); [|reflexivity]. simpl.
  unfold notify. rewrite HC, HH. reflexivity.
Qed.

Theorem step_cb_flat G s o c : cbs_flat c = true -> step_cb G s_exception s (o, c) = step G s o.
Proof. intros F. unfold step_cb; simpl. apply ann_k_plain. intros; apply run_cbs_flat; auto. Qed.

Theorem run_cb_flat G ocs : forall s,
  forallb (fun oc => cbs_flat (snd oc)) ocs = true -> run_cb G s_exception s ocs = run G s (map fst ocs).
Proof.
  unfold run_cb, run. induction ocs as [|[o c] r IH]; simpl; intros s F; auto.
  apply andb_prop in F. destruct F as [F1 F2]. rewrite step_cb_flat by auto. apply IH; auto.
Qed.

(* parameter p looks the same in s' as in s: same entry, same stream of every connection *)
Definition same_at (p : nat) (s s' : state) : Prop :=
  nth_error (s_cells s') p = nth_error (s_cells s) p /\ forall k, plog k p (s_log s') = plog k p (s_log s).
Lemma same_at_refl p s : same_at p s s.
Proof. split; auto. Qed.
Lemma same_at_trans p a b c : same_at p a b -> same_at p b c -> same_at p a c.
Proof. intros [A1 A2] [B1 B2]; split; [congruence|]. intros k; rewrite B2; auto. Qed.

Lemma same_at_set_heap p s h : same_at p s (set_heap s h).
Proof. split; reflexivity. Qed.

Lemma notify_frame G P q p s : q <> p -> same_at p s (notify G P q s).
Proof.
  intros N. pose proof (notify_spec G P q s) as H. destruct (nth_error (s_cells s) q) as [c|].
  - destruct H as (A & _ & L). split; [rewrite A; auto|]. intros k. rewrite L, plog_app, plog_other; auto.
    intros k' m Hin. rewrite <- in_rev, in_map_iff in Hin. destruct Hin as (x & E & _). inversion E; subst; simpl; auto.
  - rewrite H. apply same_at_refl.
Qed.

Lemma ann_k_frame G K s o p :
  (forall pc s0, same_at p s0 (fst (K pc s0))) -> o_p o <> p -> same_at p s (fst (ann_k G K s o)).
Proof.
  intros HK N. unfold ann_k. destruct (nth_error (g_params G) (o_p o)) as [P|]; [|apply same_at_refl].
  destruct (pre P (s_heap s) o) as [h1 [inp|]]; simpl; [|apply same_at_set_heap].
  destruct (region_store G P o inp (set_heap s h1)) as [s3 oc] eqn:RS.
  destruct (region_store_props _ _ _ _ _ _ _ RS) as (_ & HL & HC & _).
  assert (S3 : same_at p s s3).
  { split; [rewrite HC; auto|]. intros k; rewrite HL; reflexivity. }
  destruct oc as [c'|]; simpl; auto.
  specialize (HK c' s3). destruct (K c' s3) as [s4 [tn|]]; simpl in *.
  - eapply same_at_trans; eauto.
  - destruct (exported P); [|eapply same_at_trans; eauto].
    eapply same_at_trans; [eapply same_at_trans; eauto|]. apply notify_frame; auto.
Qed.

Lemma ann_k_heap G K s q v x ts dt cx :
  (forall pc s0, s_heap (fst (K pc s0)) = s_heap s0) ->
  s_heap (fst (ann_k G K s (ann_op q v x ts dt cx))) = s_heap s.
Proof.
  intros HK. unfold ann_k. set (o := ann_op q v x ts dt cx).
  destruct (nth_error (g_params G) (o_p o)) as [P|]; [|reflexivity].
  pose proof (pre_announce P (s_heap s) q v x ts dt cx) as HP. fold o in HP.
  destruct (pre P (s_heap s) o) as [h1 [inp|]]; simpl in HP; subst h1; simpl; auto.
  destruct (region_store G P o inp (set_heap s (s_heap s))) as [s3 oc] eqn:RS.
  destruct (region_store_props _ _ _ _ _ _ _ RS) as (HH & _).
  destruct oc as [c'|]; simpl; auto.
  specialize (HK c' s3). destruct (K c' s3) as [s4 [tn|]]; simpl in *; [congruence|].
  destruct (exported P); [|congruence].
  change (o_p o) with q. pose proof (notify_spec G P q s4) as H. destruct (nth_error (s_cells s4) q).
  - destruct H as (_ & B & _). congruence.
  - rewrite H. congruence.
Qed.

(* the raising-method lists are untouched, and a parameter no announcement of the tree is about keeps its entry and
   its streams *)
Lemma run_cbs_frame G c : forall pc s,
  s_heap (fst (run_cbs G s_exception c pc s)) = s_heap s /\
  forall p, cbs_avoid p c = true -> same_at p s (fst (run_cbs G s_exception c pc s)).
Proof.
  assert (Av : forall p q sub r, negb (Nat.eqb q p) && cbs_avoid p sub && cbs_avoid p r = true ->
                 q <> p /\ cbs_avoid p sub = true /\ cbs_avoid p r = true).
  { intros p q sub r H. apply andb_prop in H. destruct H as [H Hr]. apply andb_prop in H. destruct H as [N Hs].
    apply negb_true_iff, Nat.eqb_neq in N. auto. }
  induction c as [|st r IHr|st tn r IHr|st q v x ts dt cx sub IHsub after r IHr|q dt cx sub IHsub r IHr];
    intros pc s; rewrite run_cbs_step; [split; auto using same_at_refl|apply IHr|apply IHr| |].
  - split.
    + rewrite (proj1 (IHr _ _)). destruct (st && _); auto. apply ann_k_heap. intros; apply IHsub.
    + intros p Hp. apply Av in Hp. destruct Hp as (N & Hs & Hr).
      eapply same_at_trans; [|apply IHr; auto]. destruct (st && _); [apply same_at_refl|].
      apply ann_k_frame; auto. intros; apply IHsub; auto.
  - split.
    + rewrite (proj1 (IHr _ _)). apply ann_k_heap. intros; apply IHsub.
    + intros p Hp. apply Av in Hp. destruct Hp as (N & Hs & Hr).
      eapply same_at_trans; [|apply IHr; auto]. apply ann_k_frame; auto. intros; apply IHsub; auto.
Qed.

(* [coherent] for one connection and one parameter ... *)
Definition coh_at (G : config) (s : state) (k p : nat) : Prop :=
  forall sc P c,
    nth_error (g_conns G) k = Some sc -> covers G sc p = true ->
    nth_error (g_params G) p = Some P -> nth_error (s_cells s) p = Some c -> told G (s_log s) k p P c.
(* ... and for every parameter outside D (the parameters whose notification is still to come) *)
Definition coh_out (G : config) (D : nat -> Prop) (s : state) : Prop := forall k p, ~ D p -> coh_at G s k p.

Lemma coherent_coh_out G s : coherent G s <-> coh_out G (fun _ => False) s.
Proof.
  split.
  - intros H k p _ sc P c. apply H.
  - intros H k sc p P c. apply (H k p); auto.
Qed.

Lemma coh_at_same G s s' k p :
  nth_error (s_cells s') p = nth_error (s_cells s) p -> latest k p (s_log s') = latest k p (s_log s) ->
  coh_at G s k p -> coh_at G s' k p.
Proof. intros EC EL H sc P c Hk Hc HP Hcell. rewrite EC in Hcell. unfold told. rewrite EL. eapply H; eauto. Qed.

Lemma ann_k_coh G K :
  (forall D pc s0, coh_out G D s0 -> coh_out G D (fst (K pc s0))) ->
  (forall pc s0, snd (K pc s0) = None) ->
  forall D s o, coh_out G D s -> coh_out G D (fst (ann_k G K s o)).
Proof.
  intros HK HN D s o I. unfold ann_k.
  destruct (nth_error (g_params G) (o_p o)) as [P|] eqn:EP; [|exact I].
  destruct (pre P (s_heap s) o) as [h1 fi].
  assert (I1 : coh_out G D (set_heap s h1)) by exact I.
  destruct fi as [inp|]; simpl; [|exact I1].
  destruct (region_store G P o inp (set_heap s h1)) as [s3 oc] eqn:RS.
  destruct (region_store_props _ _ _ _ _ _ _ RS) as (_ & HL & HC & HO).
  destruct oc as [c'|]; simpl.
  - (* stored: parameter o_p o awaits its notification while the callbacks run *)
    assert (I3 : coh_out G (fun p => D p \/ p = o_p o) s3).
    { intros k p ND. apply coh_at_same with (s := set_heap s h1).
      - apply HC. intros E; apply ND; auto.
      - rewrite HL; auto.
      - apply I1. intros Dp; apply ND; auto. }
    specialize (HK _ c' s3 I3). specialize (HN c' s3).
    destruct (K c' s3) as [s4 esc]; simpl in *. subst esc.
    destruct (exported P) eqn:EX; simpl fst.
    + intros k p ND. pose proof (notify_spec G P (o_p o) s4) as N.
      destruct (nth_error (s_cells s4) (o_p o)) as [c4|] eqn:E4.
      * destruct N as (N1 & _ & N3). destruct (Nat.eq_dec p (o_p o)) as [E|NE].
        -- subst p. intros sc P' c Hk Hc HP Hcell. rewrite EP in HP; inversion HP; subst P'.
           rewrite N1, E4 in Hcell; inversion Hcell; subst c. rewrite N3. eexists; split.
           ++ apply latest_deliveries_in; [eapply listeners_in; eauto|reflexivity].
           ++ apply reports_weaken with (h := s_heap s4). apply reports_render.
        -- apply coh_at_same with (s := s4); [rewrite N1; auto| |apply HK; tauto].
           rewrite N3. apply latest_app_other. intros k' m Hin. right.
           rewrite <- in_rev, in_map_iff in Hin. destruct Hin as (y & E & _). inversion E; subst; simpl; auto.
      * rewrite N. destruct (Nat.eq_dec p (o_p o)) as [E|NE]; [|apply HK; tauto].
        subst p. intros sc P' c _ _ _ Hcell. congruence.
    + intros k p ND. destruct (Nat.eq_dec p (o_p o)) as [E|NE]; [|apply HK; tauto].
      subst p. intros sc P' c _ Hc HP _. pose proof (covers_exported _ _ _ _ Hc EP). congruence.
  - (* suppressed: the entry changed, if at all, in a way no client can see *)
    intros k p ND. destruct (Nat.eq_dec p (o_p o)) as [E|NE].
    + subst p. intros sc P' c Hk Hc HP Hcell. rewrite HL.
      destruct (nth_error (s_cells (set_heap s h1)) (o_p o)) as [c0|] eqn:E0; [|congruence].
      destruct HO as (c1 & E1 & Q). rewrite E1 in Hcell; inversion Hcell; subst c1.
      destruct (I1 k (o_p o) ND sc P' c0 Hk Hc HP E0) as (m & L & R).
      exists m; split; auto. eapply reports_quiet; eauto.
    + apply coh_at_same with (s := set_heap s h1); [apply HC; auto|rewrite HL; auto|apply I1; auto].
Qed.

Lemma run_cbs_coh G c : forall D pc s, coh_out G D s -> coh_out G D (fst (run_cbs G s_exception c pc s)).
Proof.
  induction c as [|st r IHr|st tn r IHr|st q v x ts dt cx sub IHsub after r IHr|q dt cx sub IHsub r IHr];
    intros D pc s I; rewrite run_cbs_step; auto; apply IHr.
  - destruct (st && _); auto. apply ann_k_coh; auto using run_cbs_no_escape.
  - apply ann_k_coh; auto using run_cbs_no_escape.
Qed.

Theorem step_cb_coherent G s oc : coherent G s -> coherent G (step_cb G s_exception s oc).
Proof.
  rewrite !coherent_coh_out. intros I. unfold step_cb. apply ann_k_coh; auto.
  - intros; apply run_cbs_coh; auto.
  - apply run_cbs_no_escape.
Qed.

Theorem run_cb_coherent G ocs : forall s, coherent G s -> coherent G (run_cb G s_exception s ocs).
Proof. unfold run_cb. induction ocs; simpl; intros; auto. apply IHocs, step_cb_coherent; auto. Qed.

(* no callbacks: the scripts are empty *)
Corollary run_coherent G ops s : coherent G s -> coherent G (run G s ops).
Proof.
  intros I. replace ops with (map fst (map (fun o => (o, CNil)) ops)) by (rewrite map_map; apply map_id).
  rewrite <- run_cb_flat; [apply run_cb_coherent, I|].
  apply forallb_forall. intros x Hx. apply in_map_iff in Hx. destruct Hx as (o & <- & _). reflexivity.
Qed.

(* nothing leaves announceUpdate except the KeyError of an unknown parameter name *)
Lemma step_cb_no_escape G s o c P :
  nth_error (g_params G) (o_p o) = Some P -> snd (ann_k G (run_cbs G s_exception c) s o) = None.
Proof.
  intros EP. unfold ann_k. rewrite EP. destruct (pre P (s_heap s) o) as [h1 [inp|]]; auto.
  destruct (region_store G P o inp (set_heap s h1)) as [s3 [c'|]]; auto.
  pose proof (run_cbs_no_escape G c c' s3) as H.
  destruct (run_cbs G s_exception c c' s3) as [s4 esc]; simpl in *. subst; auto.
Qed.
