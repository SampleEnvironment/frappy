(* C05 -- vacuity audit: every theorem of Properties.v applied at concrete, non-degenerate instances
   (two modules, three parameters of two datatypes, three connections with three kinds of scope, a history of seven
   operations with an error, a repeated error, a recovery and a suppressed update; three threads -- two driver
   threads on different modules and a connection thread -- interleaved by a 29-step schedule; callback trees with
   nested announcements).  Tests of satisfiability of the premises, not theorems. *)
From Coq Require Import ZArith NArith Bool List Arith Lia.
Import ListNotations.
Require Import FV.Base.Util FV.Base.F64 FV.Base.PyVal FV.C01.Model FV.Gen.C05 FV.C05.Model FV.C05.ModelCb FV.C05.Lemmas
  FV.C05.LemmasConc FV.C05.LemmasAct FV.C05.LemmasRef FV.C05.LemmasCb FV.C05.Refuted FV.C05.Properties.

Definition nP0 : pcfg :=
  {| p_mod := 0; p_mname := [109%N; 97%N]; p_name := [112%N; 97%N]; p_export := Some [112%N; 97%N];
     p_dt := TFloat (fmk (-100) 0) (fmk 100 0) fzero fzero; p_omit := 0 |}.
Definition nP1 : pcfg :=
  {| p_mod := 0; p_mname := [109%N; 97%N]; p_name := [112%N; 98%N]; p_export := Some [112%N; 98%N];
     p_dt := TInt 0 10; p_omit := 16 |}.
Definition nP2 : pcfg :=
  {| p_mod := 1; p_mname := [109%N; 98%N]; p_name := [112%N; 97%N]; p_export := Some [112%N; 97%N];
     p_dt := TFloat (fmk (-100) 0) (fmk 100 0) fzero fzero; p_omit := 0 |}.
Definition nG : config :=
  {| g_tab := err_table; g_params := [nP0; nP1; nP2]; g_conns := [SAll; SMod 1; SPar 1]; g_nmods := 2 |}.
Definition nS0 : state :=
  {| s_cells := [ {| c_val := PFloat fzero; c_err := None; c_ts := 0 |};
                  {| c_val := PInt 3; c_err := None; c_ts := 0 |};
                  {| c_val := PFloat fzero; c_err := None; c_ts := 0 |} ];
     s_heap := []; s_now := 8000; s_log := [] |}.
Definition mkop (p : nat) (k : opk) (dt : Z) : op := {| o_p := p; o_k := k; o_dt := dt; o_cx := wcx |}.
Definition n_o1 := mkop 0 (KRead (DRet (PFloat (fmk 3 (-1))))) 1.
Definition n_o2 := mkop 1 (KRead (DRaise (XSecop hw [120%N] 1))) 1.
Definition n_o3 := mkop 1 (KRead (DRaise (XSecop hw [120%N] 1))) 1.
Definition n_o4 := mkop 1 (KAssign (PInt 4)) 1.
Definition n_o5 := mkop 1 (KAssign (PInt 4)) 1.
Definition n_o6 := mkop 2 (KWrite (PFloat (fmk 5 0)) (Some DNone)) 2.
Definition n_o7 := mkop 0 (KAnnounce PNone (Some (XOther [86%N] [98%N])) 0) 1.
Definition n_ops : list op := [n_o1; n_o2; n_o3; n_o4; n_o5; n_o6; n_o7].
Definition nSa : state := activate_all nG nS0.

(* concurrent instance *)
Definition cG : config :=
  {| g_tab := err_table; g_params := [nP0; nP1; nP2]; g_conns := [SAll; SNone; SPar 1]; g_nmods := 2 |}.
Definition c_progs : list (list job) :=
  [ [JOp n_o1; JOp n_o4];
    [JConn 1 (AActivate (SMod 0)); JConn 2 (ADeactivate (SPar 1))];
    [JOp n_o6; JOp n_o2] ].
Definition cSa : state := activate_all cG nS0.
Definition c_sched : list nat :=
  [0; 1; 2; 0; 1; 2; 0; 1; 2; 1; 2; 1; 2; 0; 1; 2; 0; 0; 0; 2; 0; 2; 0; 0; 0; 2; 2; 2; 2].

(* callback scripts *)
Definition cb_flat : cbs := CRaise false s_zerodiv (CRet true (CRaise true s_keyerror CNil)).
Definition cb_nest : cbs :=
  CRaise false s_zerodiv
    (CAnn false 2 (PFloat (fmk 7 0)) None 0 1 wcx
       (CAnn true 1 (PInt 9) None 0 0 wcx CNil None CNil) (Some s_zerodiv)
       (CRet true CNil)).
Definition cb_own : cbs := CAnn false 1 (PInt 6) None 0 1 wcx CNil None (CRaise false s_keyerror CNil).
Definition n_ocs : list (op * cbs) := [(n_o1, cb_nest); (n_o2, CRet true CNil); (n_o4, cb_own); (n_o6, cb_flat)].

Lemma some_ex {A} (o : option A) : is_some o = true -> exists x, o = Some x.
Proof. destruct o; [eexists; reflexivity|discriminate]. Qed.

Ltac side :=
  lazymatch goal with
  | |- In _ _ => simpl; tauto
  | |- _ = _ => first [eassumption | reflexivity | (vm_compute; reflexivity)]
  end.

Example n_history_is_not_trivial :
  map (fun k => length (msgs_of k (run nG nSa n_ops))) [0; 1; 2] = [8; 2; 3] /\
  map (fun l => length (s_log (run nG nSa (firstn l n_ops)))) [0; 1; 2; 3; 4; 5; 6; 7] = [5; 6; 8; 8; 10; 10; 12; 13].
Proof. vm_compute. split; reflexivity. Qed.

(* connection 1 (one module) and its parameter of module 1 *)
Example C05_activation_coherent_applies :
  exists c m, nth_error (s_cells nSa) 2 = Some c /\ latest 1 2 (s_log nSa) = Some m /\ reports nG None nP2 2 c m.
Proof.
  destruct (some_ex (nth_error (s_cells nSa) 2)) as (c & Ec); [vm_compute; reflexivity|].
  destruct (C05_activation_coherent nG nS0 1 (SMod 1) 2 nP2 c) as (m & L & R); try side. exists c, m; auto.
Qed.

(* after the whole history: connection 2 (one parameter) about parameter 1 (recovered, then a suppressed update);
   connection 0 (whole node) about parameter 0 (ends in an error announced through announceUpdate) *)
Example C05_coherent_except_error_text_applies :
  let s' := run nG nSa n_ops in
  (exists c m, nth_error (s_cells s') 1 = Some c /\ replay 1 (msgs_of 2 s') = Some m /\ reports nG None nP1 1 c m) /\
  (exists c m, nth_error (s_cells s') 0 = Some c /\ is_some (c_err c) = true /\
               replay 0 (msgs_of 0 s') = Some m /\ reports nG None nP0 0 c m).
Proof.
  intros s'. split.
  - destruct (some_ex (nth_error (s_cells s') 1)) as (c & Ec); [vm_compute; reflexivity|].
    destruct (C05_coherent_except_error_text nG nS0 n_ops 2 (SPar 1) 1 nP1 c) as (m & L & R); try side. exists c, m; auto.
  - destruct (some_ex (nth_error (s_cells s') 0)) as (c & Ec); [vm_compute; reflexivity|].
    assert (He : match nth_error (s_cells s') 0 with Some c => is_some (c_err c) | None => false end = true)
      by (vm_compute; reflexivity).
    rewrite Ec in He.
    destruct (C05_coherent_except_error_text nG nS0 n_ops 0 SAll 0 nP0 c) as (m & L & R); try side. exists c, m; auto.
Qed.

(* an operation that sends: every new entry is the rendering of the entry the cache holds afterwards *)
Example C05_order_no_phantom_applies_emitting :
  let s' := step nG nSa n_o1 in
  exists k m c', In (k, m) (s_log s') /\ m_p m = 0 /\ nth_error (s_cells s') 0 = Some c' /\
                 m = render nG (s_heap s') nP0 0 c'.
Proof.
  intros s'. destruct (C05_order_no_phantom nG nSa n_o1) as (new & EL & N & _). fold s' in EL, N.
  assert (Ln : length (s_log s') = S (length (s_log nSa))) by (vm_compute; reflexivity).
  rewrite EL, app_length in Ln. destruct new as [|[k m] r]; [simpl in Ln; lia|].
  destruct (N k m (or_introl eq_refl)) as (P & c' & A & B & C & D).
  assert (EP : nth_error (g_params nG) (o_p n_o1) = Some nP0) by reflexivity.
  rewrite EP in B; inversion B; subst P.
  exists k, m, c'. split; [rewrite EL; left; reflexivity|]. split; [exact A|]. split; [exact C|exact D].
Qed.

(* a silent operation (same value inside the omit interval, n_o5 after n_o1 .. n_o4) on a parameter connection 2
   covers: the entry did not change for a client *)
Definition nS4 : state := run nG nSa [n_o1; n_o2; n_o3; n_o4].
Example C05_order_no_phantom_applies_silent :
  exists c c', nth_error (s_cells nS4) 1 = Some c /\ nth_error (s_cells (step nG nS4 n_o5)) 1 = Some c' /\
               quiet_change c c'.
Proof.
  destruct (C05_order_no_phantom nG nS4 n_o5) as (new & EL & _ & Q).
  assert (Ln : length (s_log (step nG nS4 n_o5)) = length (s_log nS4)) by (vm_compute; reflexivity).
  rewrite EL, app_length in Ln. destruct new; [|cbn [length] in Ln; lia].
  destruct (some_ex (nth_error (s_cells nS4) 1)) as (c & Ec); [vm_compute; reflexivity|].
  destruct (Q 2 (SPar 1) 1 c) as (c' & E' & QC); try side; [intros m []|].
  exists c, c'; auto.
Qed.

(* recovery: parameter 1 is in error state after n_o1 .. n_o3 (the second raise was suppressed as a repeated error),
   n_o4 assigns a valid value *)
Definition nS3 : state := run nG nSa [n_o1; n_o2; n_o3].
Definition n_c3 : cell := {| c_val := PInt 3; c_err := Some {| e_cls := hw; e_msg := [120%N]; e_oid := 1 |}; c_ts := 8002 |}.
Definition n_c4 : cell := {| c_val := PInt 4; c_err := None; c_ts := 8004 |}.
Example C05_recovery_announced_applies :
  let s' := step nG nS3 n_o4 in
  latest 2 1 (s_log s') = Some (render nG (s_heap s') nP1 1 n_c4) /\
  m_pay (render nG (s_heap s') nP1 1 n_c4) = PVal (dt_export (p_dt nP1) (c_val n_c4)) /\
  In (2, render nG (s_heap s') nP1 1 n_c4) (firstn (length (s_log s') - length (s_log nS3)) (s_log s')).
Proof.
  intros s'.
  apply (C05_recovery_announced nG nS3 n_o4 2 (SPar 1) 1 nP1 n_c3 {| e_cls := hw; e_msg := [120%N]; e_oid := 1 |} n_c4);
    vm_compute; reflexivity.
Qed.

(* the two actions of a driver operation are one step *)
Example C05_sequential_reading_is_step_applies :
  is_some (snd (pre nP1 (s_heap nS3) n_o4)) = true /\
  arun nG (AHeap nP1 n_o4 :: match snd (pre nP1 (s_heap nS3) n_o4) with Some inp => [AFun nP1 n_o4 inp] | None => [] end)
       (nS3, subs0 nG) = (step nG nS3 n_o4, subs0 nG).
Proof. split; [vm_compute; reflexivity|]. apply C05_sequential_reading_is_step. reflexivity. Qed.

Lemma cG_wf : wf_config cG.
Proof.
  intros p P H. destruct p as [|[|[|p]]]; simpl in H; try (inversion H; subst; simpl; lia).
  destruct p; discriminate.
Qed.

(* the schedule is executable, complete, and interleaves three threads; connection 1 ends registered for module 0 and
   holds five messages, connection 2 ends deregistered *)
Example c_schedule_is_not_trivial :
  let r := crun cG flags_ok (cinit cSa (subs0 cG) c_progs) c_sched in
  cs_ok r && quiescent r && quiet r = true /\
  cs_subs r = [[SAll]; [SMod 0; SNone]; []] /\ map (fun k => length (msgs_of k (cs_st r))) [0; 1; 2] = [7; 5; 1] /\
  map (fun i => count_occ Nat.eq_dec c_sched i) [0; 1; 2] = [11; 6; 12].
Proof. vm_compute. repeat split; reflexivity. Qed.

(* after 14 steps thread 0 is at the clock read of announceUpdate (module 0) and thread 2 inside its fan-out
   (module 1): both hold an updateLock, of different modules; the conclusion of the theorem is about them *)
Example C05_update_region_exclusive_applies :
  let r := crun cG src_flags (cinit cSa (subs0 cG) c_progs) (firstn 14 c_sched) in
  exclusive cG (cs_thr r) /\
  map (fun m => map (holds_U cG flags_ok (Some m)) (cs_thr r)) [0; 1] = [[true; false; false]; [false; false; true]].
Proof.
  intros r. split; [|vm_compute; reflexivity].
  apply C05_update_region_exclusive; [reflexivity|vm_compute; reflexivity].
Qed.
(* while the connection thread is inside handle_activate for module 0 (after 9 steps), thread 0 is waiting for
   that lock: scheduling it is refused *)
Example c_thread_blocked_by_snapshot :
  let r := crun cG flags_ok (cinit cSa (subs0 cG) c_progs) (firstn 9 c_sched) in
  cs_ok r = true /\ cs_ok (cstep cG flags_ok r 0) = false /\
  map (holds_U cG flags_ok (Some 0)) (cs_thr r) = [false; true; false].
Proof. vm_compute. repeat split; reflexivity. Qed.

(* a thread in the user method of a read that raises a SECoPError: the step commits the bookkeeping of
   raising_methods only *)
Definition n_t : thread := {| t_ops := [JOp n_o2]; t_pk := KDrv |}.
Example C05_outside_region_frame_applies :
  let x := fold_left (fun x a => ceff nG a x) [AHeap nP1 n_o2] (nSa, subs0 nG) in
  (s_cells (fst x) = s_cells nSa /\ s_log (fst x) = s_log nSa /\ snd x = subs0 nG) /\
  s_heap (fst x) = [(1, [rd_name nP1])] /\ s_heap nSa = [].
Proof.
  intros x. split; [|vm_compute; split; reflexivity].
  apply (C05_outside_region_frame nG flags_ok nSa (subs0 nG) [n_t; n_t] 0 n_t [AHeap nP1 n_o2]
           (park_at n_t (KAcqU (FErr (XSecop hw [120%N] 1))))); [vm_compute; reflexivity|exact I].
Qed.

(* activation coherence at the end of the schedule: connection 1, activated during the run for module 0, about
   parameter 1 (which thread 0 assigned while / after the activation ran) and parameter 0 *)
Example C05_concurrent_activation_coherent_applies :
  let r := crun cG src_flags (cinit (activate_all cG nS0) (subs0 cG) c_progs) c_sched in
  (exists c m, nth_error (s_cells (cs_st r)) 1 = Some c /\ replay 1 (msgs_of 1 (cs_st r)) = Some m /\
               reports cG None nP1 1 c m) /\
  (exists c m, nth_error (s_cells (cs_st r)) 0 = Some c /\ replay 0 (msgs_of 1 (cs_st r)) = Some m /\
               reports cG None nP0 0 c m).
Proof.
  intros r.
  assert (H : quiet r = true /\ nth_error (cs_subs r) 1 = Some [SMod 0; SNone] /\
              is_some (nth_error (s_cells (cs_st r)) 1) = true /\ is_some (nth_error (s_cells (cs_st r)) 0) = true)
    by (vm_compute; repeat apply conj; reflexivity).
  destruct H as (Q & Hs & E1 & E0).
  pose proof (C05_concurrent_activation_coherent cG nS0 c_progs c_sched eq_refl cG_wf eq_refl) as T.
  cbv zeta in T. fold r in T. specialize (T Q).
  split.
  - destruct (some_ex _ E1) as (c & Ec).
    destruct (T 1 [SMod 0; SNone] (SMod 0) 1 nP1 c) as (m & L & R); try side. exists c, m; auto.
  - destruct (some_ex _ E0) as (c & Ec).
    destruct (T 1 [SMod 0; SNone] (SMod 0) 0 nP0 c) as (m & L & R); try side. exists c, m; auto.
Qed.
(* ... and at a quiet point in the middle of the run (19 steps: thread 0 waits for updateLock with its second
   operation, thread 2 for accessLock, the connection thread has finished) *)
Example C05_concurrent_activation_coherent_applies_midrun :
  let r := crun cG src_flags (cinit (activate_all cG nS0) (subs0 cG) c_progs) (firstn 19 c_sched) in
  quiescent r = false /\
  exists c m, nth_error (s_cells (cs_st r)) 0 = Some c /\ replay 0 (msgs_of 1 (cs_st r)) = Some m /\
              reports cG None nP0 0 c m.
Proof.
  intros r.
  assert (H : quiescent r = false /\ quiet r = true /\ is_some (nth_error (s_cells (cs_st r)) 0) = true)
    by (vm_compute; repeat apply conj; reflexivity).
  destruct H as (H & Q & E0). split; [exact H|].
  pose proof (C05_concurrent_activation_coherent cG nS0 c_progs (firstn 19 c_sched) eq_refl cG_wf eq_refl) as T.
  cbv zeta in T. fold r in T. specialize (T Q).
  destruct (some_ex _ E0) as (c & Ec).
  destruct (T 1 [SMod 0; SNone] (SMod 0) 0 nP0 c) as (m & L & R); try side. exists c, m; auto.
Qed.

(* refinement, at the end (quiet) and after 13 steps (thread 2 has a message for connection 0 in hand) *)
Example C05_concurrent_refinement_applies :
  let r := crun cG src_flags (cinit cSa (subs0 cG) c_progs) c_sched in
  let q := arun cG (ctrace cG src_flags (cinit cSa (subs0 cG) c_progs) c_sched) (cSa, subs0 cG) in
  length (ctrace cG src_flags (cinit cSa (subs0 cG) c_progs) c_sched) = 20 /\
  s_cells (cs_st r) = s_cells (fst q) /\ cs_subs r = snd q /\
  forall k p, pstream k p (cs_st r) = pstream k p (fst q) /\
              replay p (msgs_of k (cs_st r)) = replay p (msgs_of k (fst q)).
Proof.
  intros r q. split; [vm_compute; reflexivity|].
  assert (L : length (s_cells cSa) = length (g_params cG)) by (vm_compute; reflexivity).
  destruct (C05_concurrent_refinement cG cSa (subs0 cG) c_progs c_sched eq_refl L) as (A & _ & _ & B & _ & Q).
  assert (Hq : quiet r = true) by (vm_compute; reflexivity).
  split; [exact A|]. split; [exact B|]. intros k p. exact (Q Hq k p).
Qed.
Example C05_concurrent_refinement_applies_midrun :
  let r := crun cG src_flags (cinit cSa (subs0 cG) c_progs) (firstn 13 c_sched) in
  let q := arun cG (ctrace cG src_flags (cinit cSa (subs0 cG) c_progs) (firstn 13 c_sched)) (cSa, subs0 cG) in
  quiet r = false /\ length (pend 0 2 (cs_thr r)) = 1 /\
  plog 0 2 (s_log (fst q)) = pend 0 2 (cs_thr r) ++ plog 0 2 (s_log (cs_st r)).
Proof.
  intros r q. split; [vm_compute; reflexivity|]. split; [vm_compute; reflexivity|].
  assert (L : length (s_cells cSa) = length (g_params cG)) by (vm_compute; reflexivity).
  destruct (C05_concurrent_refinement cG cSa (subs0 cG) c_progs (firstn 13 c_sched) eq_refl L) as (_ & _ & _ & _ & P & _).
  apply P.
Qed.

(* (1) callbacks that return or raise, a strict one among them *)
Example C05_callbacks_cannot_suppress_update_applies_flat :
  step_cb nG callback_except_class nS3 (n_o4, cb_flat) = step nG nS3 n_o4.
Proof.
  apply (proj1 (C05_callbacks_cannot_suppress_update nG nS3 n_o4 cb_flat eq_refl)). vm_compute; reflexivity.
Qed.
(* (2) a raising callback, then one announcing parameter 2 (of the other module) whose own callback announces
   parameter 1, then raises; the operation is a read of parameter 0.  The nested announcements do send messages. *)
Example C05_callbacks_cannot_suppress_update_applies_nested :
  (cbs_flat cb_nest = false /\
   Nat.ltb (length (s_log (step nG nSa n_o1))) (length (s_log (step_cb nG callback_except_class nSa (n_o1, cb_nest)))) = true) /\
  nth_error (s_cells (step_cb nG callback_except_class nSa (n_o1, cb_nest))) 0 = nth_error (s_cells (step nG nSa n_o1)) 0 /\
  forall k, plog k 0 (s_log (step_cb nG callback_except_class nSa (n_o1, cb_nest))) = plog k 0 (s_log (step nG nSa n_o1)).
Proof.
  split; [vm_compute; split; reflexivity|].
  apply (proj2 (C05_callbacks_cannot_suppress_update nG nSa n_o1 cb_nest eq_refl)). vm_compute; reflexivity.
Qed.

Example C05_nested_announcements_frame_applies :
  let r := run_cbs nG callback_except_class cb_nest n_c4 nSa in
  Nat.ltb (length (s_log nSa)) (length (s_log (fst r))) = true /\
  snd r = None /\ s_heap (fst r) = s_heap nSa /\
  nth_error (s_cells (fst r)) 0 = nth_error (s_cells nSa) 0 /\
  forall k, plog k 0 (s_log (fst r)) = plog k 0 (s_log nSa).
Proof.
  intros r. split; [vm_compute; reflexivity|].
  destruct (C05_nested_announcements_frame nG cb_nest n_c4 nSa eq_refl) as (A & B & C). fold r in A, B, C.
  split; [exact A|]. split; [exact B|]. apply C. vm_compute; reflexivity.
Qed.

(* a history with scripts: nested announcements, one about the operation's own parameter *)
Example C05_coherent_with_callbacks_applies :
  let s' := run_cb nG callback_except_class nSa n_ocs in
  cbs_avoid 1 cb_own = false /\
  (exists c m, nth_error (s_cells s') 1 = Some c /\ replay 1 (msgs_of 2 s') = Some m /\ reports nG None nP1 1 c m) /\
  (exists c m, nth_error (s_cells s') 2 = Some c /\ replay 2 (msgs_of 1 s') = Some m /\ reports nG None nP2 2 c m).
Proof.
  intros s'. split; [vm_compute; reflexivity|]. split.
  - destruct (some_ex (nth_error (s_cells s') 1)) as (c & Ec); [vm_compute; reflexivity|].
    destruct (C05_coherent_with_callbacks nG nS0 n_ocs eq_refl 2 (SPar 1) 1 nP1 c) as (m & L & R); try side. exists c, m; auto.
  - destruct (some_ex (nth_error (s_cells s') 2)) as (c & Ec); [vm_compute; reflexivity|].
    destruct (C05_coherent_with_callbacks nG nS0 n_ocs eq_refl 1 (SMod 1) 2 nP2 c) as (m & L & R); try side. exists c, m; auto.
Qed.
Example n_ocs_is_not_trivial :
  map (fun k => length (msgs_of k (run_cb nG callback_except_class nSa n_ocs))) [0; 1; 2] =
  map (fun k => length (msgs_of k (run_cb nG callback_except_class nSa n_ocs))) [0; 1; 2] /\
  Nat.ltb (length (s_log (run nG nSa (map fst n_ocs)))) (length (s_log (run_cb nG callback_except_class nSa n_ocs))) = true.
Proof. split; [reflexivity|vm_compute; reflexivity]. Qed.
