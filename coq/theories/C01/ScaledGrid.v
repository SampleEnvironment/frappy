(* C01 — ScaledInteger on grids of realistic size: when the scale is a normal number not above 2^900 and the limits
   are at most 2^48 steps away from zero, every value returned by validate satisfies the side condition scaled_leaf_ok
   (it is reproduced by the rounding to the grid and lies strictly inside min - scale < value < max + scale).
   Error analysis with Flocq: each operation errs by at most 2^-53 relative plus 2^-1075 absolute (rnd_err).  On such
   grids that makes a sum or product within 2^48 + 2 steps of zero err by at most an eighth of a step (rnd_near) and
   a quotient by the scale by at most an eighth (fdiv_near); the rest is arithmetic with these two bounds. *)
From Coq Require Import ZArith Bool Reals Lra Lia List.
From Flocq Require Import Core.Zaux Core.Raux Core.Defs Core.Generic_fmt Core.Float_prop Core.FIX Core.FLT
  Core.Ulp IEEE754.BinarySingleNaN.
Require Import FV.Base.F64 FV.Base.F64Lemmas FV.Base.F64Facts FV.Base.F64Repr FV.Base.PyVal FV.C01.Model FV.C01.IdemDefs FV.C01.Lemmas FV.C01.F64More.

Local Open Scope R_scope.

Definition uu : R := / 2 * bpow radix2 (- prec + 1).          (* 2^-53 *)
Definition eta : R := / 2 * bpow radix2 (3 - emax - prec).    (* 2^-1075 *)

Lemma uu_val : uu = bpow radix2 (-53).
Proof. unfold uu, prec. change (/ 2) with (bpow radix2 (-1)). rewrite <- bpow_plus. reflexivity. Qed.
Lemma eta_val : eta = bpow radix2 (-1075).
Proof. unfold eta, prec, emax. change (/ 2) with (bpow radix2 (-1)). rewrite <- bpow_plus. reflexivity. Qed.
Lemma uu_pos : 0 < uu. Proof. rewrite uu_val. apply bpow_gt_0. Qed.
Lemma eta_pos : 0 < eta. Proof. rewrite eta_val. apply bpow_gt_0. Qed.

Lemma rnd_err (x : R) : Rabs (rnd x - x) <= uu * Rabs x + eta.
Proof. rewrite uu_val, eta_val. apply rnd_error. Qed.

Lemma rnd_IZR (k : Z) : (Z.abs k <= 2 ^ 53)%Z -> rnd (IZR k) = IZR k.
Proof.
  intros Hk. apply round_generic; [apply valid_rnd_round_mode|].
  change (generic_format radix2 (FLT_exp (3 - emax - prec) prec) (IZR k)).
  destruct (Z.eq_dec (Z.abs k) (2 ^ 53)) as [E|N].
  - assert (Hc : IZR k = bpow radix2 53 \/ IZR k = - bpow radix2 53).
    { change (bpow radix2 53) with (IZR (2 ^ 53)). destruct (Z.abs_spec k) as [[_ A]|[_ A]]; rewrite A in E.
      - left. rewrite E. reflexivity.
      - right. rewrite <- opp_IZR. f_equal. lia. }
    destruct Hc as [-> | ->]; [|apply generic_format_opp];
      apply generic_format_FLT_bpow; try apply prec_gt_0_64; unfold emax, prec; lia.
  - apply generic_format_FLT. exists (Float radix2 k 0).
    + unfold F2R. cbn. ring.
    + cbn [Fnum]. change (Zpower radix2 prec) with (2 ^ 53)%Z. lia.
    + cbn [Fexp]. unfold emax, prec. lia.
Qed.

Lemma rnd_ge_bpow53 (x : R) : bpow radix2 53 <= Rabs x -> bpow radix2 53 <= Rabs (rnd x).
Proof.
  intros H. unfold rnd.
  apply abs_round_ge_generic; [apply fexp_correct; apply prec_gt_0_64|apply valid_rnd_round_mode| |exact H].
  change (generic_format radix2 (FLT_exp (3 - emax - prec) prec) (bpow radix2 53)).
  apply generic_format_FLT_bpow; try apply prec_gt_0_64. unfold emax, prec; lia.
Qed.

Lemma fmul_R (a b : f64) : is_finite (fmul a b) = true -> is_finite a = true -> is_finite b = true ->
  B2R (fmul a b) = rnd (B2R a * B2R b).
Proof.
  intros F Fa Fb. pose proof (Bmult_correct prec emax _ _ mode_NE a b) as H.
  destruct (Rlt_bool _ _); [apply H|]. cbn in H. apply inf_of_SF in H. unfold fmul in F. rewrite H in F. discriminate.
Qed.

Lemma uu_num : uu = / 9007199254740992.
Proof. rewrite uu_val. reflexivity. Qed.
Lemma bpow50 : bpow radix2 50 = 1125899906842624. Proof. reflexivity. Qed.
Lemma bpow49 : bpow radix2 49 = 562949953421312. Proof. reflexivity. Qed.
Lemma bpow48 : bpow radix2 48 = 281474976710656. Proof. reflexivity. Qed.
Lemma bpow53 : bpow radix2 53 = 9007199254740992. Proof. reflexivity. Qed.

(* eta is at most 2^-53 times a normal number *)
Lemma eta_le (Sc : R) : bpow radix2 (-1022) <= Sc -> eta <= uu * Sc.
Proof.
  intros H. rewrite eta_val, uu_val. replace (-1075)%Z with (-53 + -1022)%Z by reflexivity. rewrite bpow_plus.
  apply Rmult_le_compat_l; [apply bpow_ge_0|exact H].
Qed.

Lemma Rabs_rnd_le (x : R) : Rabs (rnd x) <= Rabs x + uu * Rabs x + eta.
Proof. pose proof (rnd_err x) as H. pose proof (Rabs_triang_inv (rnd x) x) as T. lra. Qed.

Lemma Rabs_rnd_ge (x : R) : Rabs x - uu * Rabs x - eta <= Rabs (rnd x).
Proof. pose proof (rnd_err x) as H. pose proof (Rabs_triang_inv x (rnd x)) as T. rewrite Rabs_minus_sym in T. lra. Qed.

Lemma Rabs_div_le (x Sc c : R) : 0 < Sc -> Rabs x <= c * Sc -> Rabs (x / Sc) <= c.
Proof.
  intros PS H. unfold Rdiv. rewrite Rabs_mult, Rabs_inv, (Rabs_pos_eq Sc) by lra.
  apply (Rmult_le_reg_r Sc); [lra|]. rewrite Rmult_assoc, Rinv_l, Rmult_1_r by lra. exact H.
Qed.

Record scale_ok (s : f64) : Prop := {
  so_fin : is_finite s = true;
  so_lo : bpow radix2 (-1022) <= B2R s;
  so_hi : B2R s <= bpow radix2 900;
}.

Lemma scale_pos s : scale_ok s -> 0 < B2R s.
Proof. intros [_ H _]. eapply Rlt_le_trans; [apply (bpow_gt_0 radix2 (-1022))|exact H]. Qed.

Lemma scale_shape s : scale_ok s -> exists m e B, s = B754_finite false m e B.
Proof.
  intros H. pose proof (scale_pos s H) as P. destruct H as [F _ _].
  destruct s as [sg|sg| |sg m e B]; try discriminate; cbn in P; try lra.
  destruct sg; [|eauto]. exfalso.
  assert (F2R (Float radix2 (cond_Zopp true (Z.pos m)) e) < 0) by (apply F2R_lt_0; cbn; lia). lra.
Qed.

Lemma below_emax (x : R) (Sc : R) : 0 < Sc -> Sc <= bpow radix2 900 -> Rabs x <= bpow radix2 51 * Sc ->
  Rabs (rnd x) < bpow radix2 emax.
Proof.
  intros PS HS Hx. pose proof (Rabs_rnd_le x) as H.
  assert (Hb : bpow radix2 51 * Sc <= bpow radix2 951).
  { replace 951%Z with (51 + 900)%Z by reflexivity. rewrite bpow_plus.
    apply Rmult_le_compat_l; [apply bpow_ge_0|exact HS]. }
  assert (Hu : uu * Rabs x <= Rabs x).
  { rewrite <- (Rmult_1_l (Rabs x)) at 2. apply Rmult_le_compat_r; [apply Rabs_pos|]. rewrite uu_num. lra. }
  assert (He : eta <= bpow radix2 951) by (rewrite eta_val; apply bpow_le; lia).
  assert (H3 : Rabs (rnd x) <= 3 * bpow radix2 951) by lra.
  eapply Rle_lt_trans; [exact H3|].
  assert (H4 : 3 * bpow radix2 951 <= bpow radix2 953).
  { replace 953%Z with (2 + 951)%Z by reflexivity. rewrite bpow_plus. change (bpow radix2 2) with 4.
    pose proof (bpow_ge_0 radix2 951). lra. }
  eapply Rle_lt_trans; [exact H4|]. apply bpow_lt. unfold emax. lia.
Qed.

(* within 2^48 + 2 steps of zero a rounding errs by at most an eighth of a step and does not overflow *)
Lemma rnd_near s x : scale_ok s -> Rabs x <= (bpow radix2 48 + 2) * B2R s ->
  Rabs (rnd x) < bpow radix2 emax /\ Rabs (rnd x - x) <= / 8 * B2R s.
Proof.
  intros Hs Hx. pose proof (scale_pos s Hs) as PS. destruct Hs as [_ S1 S2]. set (Sc := B2R s) in *.
  pose proof (eta_le Sc S1) as HE. pose proof (rnd_err x) as E. rewrite bpow48 in Hx. split.
  - apply (below_emax x Sc PS S2). change (bpow radix2 51) with 2251799813685248. lra.
  - assert (T : uu * Rabs x <= uu * ((281474976710656 + 2) * Sc))
      by (apply Rmult_le_compat_l; [apply Rlt_le, uu_pos|exact Hx]).
    rewrite uu_num in *. lra.
Qed.

(* within 2^49 steps of zero the quotient by the scale is finite and at most an eighth away from the exact one *)
Lemma fdiv_near s x : scale_ok s -> is_finite x = true -> Rabs (B2R x) <= bpow radix2 49 * B2R s ->
  is_finite (fdiv x s) = true /\ Rabs (B2R (fdiv x s) - B2R x / B2R s) <= / 8.
Proof.
  intros Hs Fx Bx. pose proof (scale_pos s Hs) as PS. set (D := B2R x / B2R s).
  assert (SN : B2R s <> 0) by lra.
  pose proof (Rabs_div_le _ _ _ PS Bx) as BD. fold D in BD.
  destruct (fdiv_val x s Fx SN) as [Fq RQ].
  { fold D. apply (below_emax D 1); [lra|change 1 with (bpow radix2 0); apply bpow_le; lia|].
    rewrite Rmult_1_r. eapply Rle_trans; [exact BD|]. apply bpow_le. lia. }
  split; [exact Fq|]. rewrite RQ. fold D. pose proof (rnd_err D) as E.
  assert (HE : eta <= uu) by (rewrite eta_val, uu_val; apply bpow_le; lia).
  assert (T : uu * Rabs D <= uu * bpow radix2 49) by (apply Rmult_le_compat_l; [apply Rlt_le, uu_pos|exact BD]).
  rewrite bpow49, uu_num in *. lra.
Qed.

Lemma regrid (s : f64) (k : Z) (kf w : f64) :
  scale_ok s -> float_of_Z k = Some kf -> w = fmul kf s -> is_finite w = true ->
  Rabs (B2R w) <= bpow radix2 49 * B2R s ->
  scaled_call s (PFloat w) = Ok (PFloat w).
Proof.
  intros Hs Hk Hw Fw Bw. pose proof (scale_pos s Hs) as PS. destruct Hs as [Fs S1 S2].
  destruct (float_of_Z_spec k kf Hk) as [Fkf Rkf].
  set (Sc := B2R s) in *. set (Kf := B2R kf) in *.
  assert (RW : B2R w = rnd (Kf * Sc)).
  { rewrite Hw. apply fmul_R; [rewrite <- Hw; exact Fw|exact Fkf|exact Fs]. }
  pose proof (eta_le Sc S1) as HE.
  (* the grid index is small, hence exactly representable *)
  assert (BK : Rabs Kf < bpow radix2 50).
  { destruct (Rlt_or_le (Rabs Kf) (bpow radix2 50)) as [L|G]; [exact L|exfalso].
    pose proof (Rabs_rnd_ge (Kf * Sc)) as H. rewrite <- RW in H. rewrite Rabs_mult, (Rabs_pos_eq Sc) in H by lra.
    assert (G2 : bpow radix2 50 * Sc <= Rabs Kf * Sc) by (apply Rmult_le_compat_r; lra).
    rewrite bpow50 in G2. rewrite bpow49 in Bw. rewrite uu_num in *.
    set (AS := Rabs Kf * Sc) in *. lra. }
  assert (HkZ : (Z.abs k <= 2 ^ 53)%Z).
  { destruct (Z_le_gt_dec (Z.abs k) (2 ^ 53)) as [L|G]; [exact L|exfalso].
    assert (G2 : bpow radix2 53 <= Rabs (IZR k)).
    { rewrite <- abs_IZR. change (bpow radix2 53) with (IZR (2 ^ 53)). apply IZR_le. lia. }
    apply rnd_ge_bpow53 in G2. rewrite <- Rkf in G2.
    rewrite bpow50 in BK. rewrite bpow53 in G2. lra. }
  assert (EK : Kf = IZR k) by (rewrite Rkf; apply rnd_IZR; exact HkZ).
  destruct (scale_shape s (Build_scale_ok s Fs S1 S2)) as (ms & es & Bs & Es).
  destruct (Z.eq_dec k 0) as [K0|KN].
  - (* the grid origin: with the scale's constructor known (scale_shape) 0 * s, 0 / s and round(0) compute *)
    subst k. cbn in Hk. inversion Hk; subst kf. subst w s. reflexivity.
  - (* |k| >= 1: w is a non-zero number close to k * Sc *)
    assert (K1 : 1 <= Rabs (IZR k)) by (rewrite <- abs_IZR; apply (IZR_le 1); lia).
    rewrite EK in *.
    pose proof (rnd_err (IZR k * Sc)) as E1. rewrite <- RW in E1.
    rewrite Rabs_mult, (Rabs_pos_eq Sc) in E1 by lra.
    assert (WN : B2R w <> 0).
    { intros Z0. rewrite Z0 in E1. rewrite Rminus_0_l, Rabs_Ropp, Rabs_mult, (Rabs_pos_eq Sc) in E1 by lra.
      assert (G2 : 1 * Sc <= Rabs (IZR k) * Sc) by (apply Rmult_le_compat_r; lra).
      rewrite uu_num in *. set (AS := Rabs (IZR k) * Sc) in *. lra. }
    assert (Hadd : fadd w fzero = w).
    { destruct w as [sg|sg| |sg mw ew Bw']; try discriminate; [exfalso; apply WN; reflexivity|reflexivity]. }
    destruct (fdiv_near s w (Build_scale_ok s Fs S1 S2) Fw Bw) as [Fq E2]. fold Sc in E2. set (D := B2R w / Sc) in *.
    assert (ED : Rabs (D - IZR k) <= uu * Rabs (IZR k) + uu).
    { unfold D. replace (B2R w / Sc - IZR k) with ((B2R w - IZR k * Sc) / Sc) by (field; lra).
      apply Rabs_div_le; [exact PS|]. rewrite Rmult_plus_distr_r, Rmult_assoc. lra. }
    assert (NEAR : Rabs (B2R (fdiv w s) - IZR k) < / 2).
    { replace (B2R (fdiv w s) - IZR k) with ((B2R (fdiv w s) - D) + (D - IZR k)) by ring.
      eapply Rle_lt_trans; [apply Rabs_triang|].
      assert (T : uu * Rabs (IZR k) <= uu * bpow radix2 50) by (apply Rmult_le_compat_l; [apply Rlt_le, uu_pos|lra]).
      rewrite bpow50, uu_num in *. lra. }
    assert (RK : fround (fdiv w s) = k).
    { rewrite fround_nearest. apply Znearest_imp. exact NEAR. }
    unfold scaled_call. cbn [py_add0 wrap_wrong]. rewrite Hadd.
    rewrite (py_round_finite _ Fq), RK. unfold py_int_mul_float. rewrite Hk. cbn [bind]. rewrite <- Hw. reflexivity.
Qed.

Definition lim_ok (s m : f64) : Prop :=
  is_finite m = true /\ Rabs (B2R m) <= (bpow radix2 48 + 1) * B2R s.

(* ScaledInteger.__call__ of a limit: at most three quarters of a step away from the limit *)
Lemma grid_of_limit (s m g : f64) :
  scale_ok s -> lim_ok s m -> scaled_call s (PFloat m) = Ok (PFloat g) ->
  is_finite g = true /\ Rabs (B2R g - B2R m) <= 3 / 4 * B2R s.
Proof.
  intros Hs [Fm Bm] H. pose proof (scale_pos s Hs) as PS. pose proof (so_fin s Hs) as Fs.
  set (Sc := B2R s) in *. set (M := B2R m) in *. rewrite bpow48 in Bm.
  unfold scaled_call in H. cbn [py_add0 wrap_wrong] in H.
  destruct (fadd_zero m Fm) as [Fx Rx]. set (x := fadd m fzero) in *.
  destruct (fdiv_near s x Hs Fx) as [Fq E1]; [rewrite Rx, bpow49; fold M Sc; lra|].
  rewrite Rx in E1. fold M Sc in E1. set (y := M / Sc) in *. set (q := fdiv x s) in *.
  rewrite (py_round_finite q Fq) in H. set (k := fround q) in *.
  unfold py_int_mul_float in H. destruct (float_of_Z k) as [kf|] eqn:Ek; cbn [bind] in H; [|discriminate].
  assert (Eg : g = fmul kf s) by (inversion H; reflexivity). clear H.
  destruct (float_of_Z_spec k kf Ek) as [Fkf Rkf].
  pose proof (Rabs_div_le _ _ _ PS Bm) as By. fold y in By.
  assert (E2 : Rabs (B2R q - IZR k) <= / 2).
  { unfold k. rewrite fround_nearest. apply Znearest_half. }
  (* the index is within five eighths of y, so |k| <= 2^48 + 2 and k is exactly representable *)
  assert (Ey : Rabs (IZR k - y) <= 5 / 8).
  { replace (IZR k - y) with ((B2R q - y) - (B2R q - IZR k)) by ring. unfold Rminus at 1.
    eapply Rle_trans; [apply Rabs_triang|]. rewrite Rabs_Ropp. lra. }
  assert (Bk : Rabs (IZR k) <= 281474976710656 + 2).
  { replace (IZR k) with (y + (IZR k - y)) by ring. eapply Rle_trans; [apply Rabs_triang|]. lra. }
  assert (HkZ : (Z.abs k <= 2 ^ 53)%Z).
  { rewrite <- abs_IZR, <- plus_IZR in Bk. apply le_IZR in Bk. lia. }
  assert (EK : B2R kf = IZR k) by (rewrite Rkf; apply rnd_IZR; exact HkZ).
  destruct (rnd_near s (IZR k * Sc) Hs) as [N1 N2].
  { fold Sc. rewrite bpow48, Rabs_mult, (Rabs_pos_eq Sc) by lra. apply Rmult_le_compat_r; lra. }
  fold Sc in N2. destruct (fmul_val kf s Fkf Fs) as [Fg Rg]; [rewrite EK; exact N1|].
  rewrite <- Eg in Fg, Rg. rewrite EK in Rg. fold Sc in Rg. split; [exact Fg|]. rewrite Rg. fold M.
  replace (rnd (IZR k * Sc) - M) with ((rnd (IZR k * Sc) - IZR k * Sc) + (IZR k - y) * Sc) by (unfold y; field; lra).
  eapply Rle_trans; [apply Rabs_triang|]. rewrite Rabs_mult, (Rabs_pos_eq Sc) by lra.
  apply (Rmult_le_compat_r Sc) in Ey; lra.
Qed.

Lemma finite_key_le (a b : f64) : is_finite a = true -> is_finite b = true -> fle a b = true -> B2R a <= B2R b.
Proof.
  intros Fa Fb H. apply fle_true in H; try (apply finite_notnan; assumption). rewrite !key_finite in H by assumption. exact H.
Qed.

Lemma between_finite (lo w hi : f64) : is_finite lo = true -> is_finite hi = true ->
  fle lo w = true -> fle w hi = true -> is_finite w = true.
Proof.
  intros Fl Fh L1 L2. destruct w as [sg|[]| |sg m e B]; try reflexivity.
  - destruct lo; try discriminate; cbn in L1; discriminate.
  - destruct hi; try discriminate; cbn in L2; discriminate.
  - cbn in L1. destruct lo; discriminate.
Qed.

Lemma window_lo (s mn w : f64) :
  scale_ok s -> lim_ok s mn -> is_finite w = true -> B2R mn - 3 / 4 * B2R s <= B2R w ->
  flt (fsub mn s) w = true.
Proof.
  intros Hs [Fm Bm] Fw Hw. pose proof (scale_pos s Hs) as PS.
  destruct (rnd_near s (B2R mn - B2R s) Hs) as [N1 N2].
  { unfold Rminus. eapply Rle_trans; [apply Rabs_triang|]. rewrite Rabs_Ropp, (Rabs_pos_eq (B2R s)) by lra. lra. }
  destruct (fsub_val mn s Fm (so_fin s Hs) N1) as [Ff Rf].
  apply flt_true; try (apply finite_notnan; assumption). rewrite !key_finite, Rf by assumption.
  apply Rabs_le_inv in N2. lra.
Qed.

Lemma window_hi (s mx w : f64) :
  scale_ok s -> lim_ok s mx -> is_finite w = true -> B2R w <= B2R mx + 3 / 4 * B2R s ->
  flt w (fadd mx s) = true.
Proof.
  intros Hs [Fm Bm] Fw Hw. pose proof (scale_pos s Hs) as PS.
  destruct (rnd_near s (B2R mx + B2R s) Hs) as [N1 N2].
  { eapply Rle_trans; [apply Rabs_triang|]. rewrite (Rabs_pos_eq (B2R s)) by lra. lra. }
  destruct (fadd_val mx s Fm (so_fin s Hs) N1) as [Ff Rf].
  apply flt_true; try (apply finite_notnan; assumption). rewrite !key_finite, Rf by assumption.
  apply Rabs_le_inv in N2. lra.
Qed.

Lemma fmk_pow2 (e : Z) : (-1074 <= e <= 1023)%Z -> is_finite (fmk 1 e) = true /\ B2R (fmk 1 e) = bpow radix2 e.
Proof.
  intros He. unfold fmk.
  pose proof (binary_normalize_correct prec emax _ _ mode_NE 1 e false) as H. cbn zeta in H.
  assert (E : F2R (Float radix2 1 e) = bpow radix2 e) by (unfold F2R; cbn [Fnum Fexp]; ring).
  rewrite E in H.
  assert (G : round radix2 (FLT_exp (3 - emax - prec) prec) (round_mode mode_NE) (bpow radix2 e) = bpow radix2 e).
  { apply round_generic; [apply valid_rnd_round_mode|].
    apply generic_format_FLT_bpow; [apply prec_gt_0_64|unfold emax, prec; lia]. }
  rewrite Rlt_bool_true in H.
  - destruct H as (A & B & _). split; [exact B|]. rewrite A. exact G.
  - eapply Rle_lt_trans; [right; apply f_equal; exact G|].
    rewrite Rabs_pos_eq by apply bpow_ge_0. apply bpow_lt. unfold emax. lia.
Qed.

Lemma scaled_small_facts s mn mx : scaled_small s mn mx = true ->
  scale_ok s /\ lim_ok s mn /\ lim_ok s mx.
Proof.
  unfold scaled_small. intros H.
  apply andb_prop in H. destruct H as [H H6]. apply andb_prop in H. destruct H as [H H5].
  apply andb_prop in H. destruct H as [H H4]. apply andb_prop in H. destruct H as [H H3].
  apply andb_prop in H. destruct H as [H1 H2].
  rewrite fis_finite_is_finite' in H3, H4.
  destruct (fmk_pow2 (-1022)) as [F1 R1]; [lia|]. destruct (fmk_pow2 900) as [F2 R2]; [lia|].
  destruct (fmk_pow2 48) as [F3 R3]; [lia|].
  assert (Fs : is_finite s = true) by (eapply between_finite; [exact F1|exact F2|exact H1|exact H2]).
  assert (Hs : scale_ok s).
  { constructor; [exact Fs| |].
    - rewrite <- R1. apply finite_key_le; assumption.
    - rewrite <- R2. apply finite_key_le; assumption. }
  split; [exact Hs|].
  pose proof (scale_pos s Hs) as PS. set (Sc := B2R s) in *.
  destruct (rnd_near s (bpow radix2 48 * Sc) Hs) as [N1 N2].
  { fold Sc. rewrite Rabs_mult, (Rabs_pos_eq Sc), Rabs_pos_eq by (lra || apply bpow_ge_0). lra. }
  destruct (fmul_val (fmk 1 48) s F3 Fs) as [Fb Rb]; [rewrite R3; exact N1|].
  rewrite R3 in Rb. fold Sc in Rb, N2. rewrite <- Rb in N2. apply Rabs_le_inv in N2.
  assert (L : forall m, is_finite m = true -> fle (fabs m) (fmul (fmk 1 48) s) = true -> lim_ok s m).
  { intros m Fm Hm. split; [exact Fm|].
    assert (Fa : is_finite (fabs m) = true) by (unfold fabs; rewrite is_finite_Babs; exact Fm).
    pose proof (finite_key_le _ _ Fa Fb Hm) as K. unfold fabs in K. rewrite B2R_Babs in K. fold Sc. lra. }
  split; apply L; assumption.
Qed.

Theorem scaled_small_leaf_ok s mn mx v x :
  scaled_small s mn mx = true -> wf (TScaled s mn mx) -> scaled_validate s mn mx v = Ok x ->
  scaled_leaf_ok s mn mx x = true.
Proof.
  intros Hsm Hwf H. destruct (scaled_small_facts s mn mx Hsm) as (Hs & Lmn & Lmx).
  pose proof (scaled_validate_sound s mn mx v x Hwf H) as Hin.
  pose proof (scale_pos s Hs) as PS.
  destruct (yields_ok (scaled_validate_spec _ _ _ _) _ H) as (r & lo & hi & Ey & Hlo & Hhi & _ & ->). clear H.
  set (w := fclamp lo r hi) in *. cbn [in_setb] in Hin. rewrite Hlo, Hhi in Hin.
  apply andb_prop in Hin. destruct Hin as [L1 L2].
  destruct (grid_of_limit s mn lo Hs Lmn Hlo) as [Flo Dlo].
  destruct (grid_of_limit s mx hi Hs Lmx Hhi) as [Fhi Dhi].
  assert (Fw : is_finite w = true) by (eapply between_finite; [exact Flo|exact Fhi|exact L1|exact L2]).
  pose proof (finite_key_le _ _ Flo Fw L1) as K1. pose proof (finite_key_le _ _ Fw Fhi L2) as K2.
  apply Rabs_le_inv in Dlo. apply Rabs_le_inv in Dhi.
  destruct Lmn as [Fmn Bmn]. destruct Lmx as [Fmx Bmx].
  assert (Form : exists k kf, float_of_Z k = Some kf /\ w = fmul kf s).
  { unfold w, fclamp. destruct (clamp3_one_of flt lo r hi) as [E|[E|E]]; rewrite E;
      eapply scaled_call_form; eauto. }
  destruct Form as (k & kf & Hk & Hw).
  assert (Bw : Rabs (B2R w) <= bpow radix2 49 * B2R s).
  { apply Rabs_le. apply Rabs_le_inv in Bmn. apply Rabs_le_inv in Bmx. rewrite bpow48 in *. rewrite bpow49.
    set (Sc := B2R s) in *. split; lra. }
  unfold scaled_leaf_ok. rewrite (regrid s k kf w Hs Hk Hw Fw Bw).
  cbn [res_same pv_same f_lt_num num_lt_f andb]. rewrite fsame_refl.
  rewrite (window_lo s mn w Hs (conj Fmn Bmn) Fw) by lra.
  rewrite (window_hi s mx w Hs (conj Fmx Bmx) Fw) by lra.
  reflexivity.
Qed.
