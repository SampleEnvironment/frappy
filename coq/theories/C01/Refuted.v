(* C01 — witnesses (vm_compute) for the clause that does not hold on the pinned tree.

   Idempotence at a scaled leaf whose grid index exceeds 2^52: ScaledInteger(scale=0.1, min=4324572605243166.5,
   max=8649145210486333.0).validate(4324572605243167.0) returns 4324572605243166.5 (the lower limit; the offered
   value passes the window test "min - scale < value" only because it is one ulp above min, and is then rounded
   to the grid), and validating this result again raises RangeError: at this magnitude min - scale rounds to min,
   so "min - scale < min" is false.  Reproduced on the real implementation (notes/C01.md). *)
From Coq Require Import ZArith NArith Bool List.
Import ListNotations.
Require Import FV.Base.F64 FV.Base.PyVal FV.C01.Model FV.C01.IdemDefs FV.C01.Lemmas.

Definition huge_scale : f64 := fmk 3602879701896397 (-55).          (* 0.1 *)
Definition huge_min : f64 := fmk 8649145210486333 (-1).              (* 4324572605243166.5 *)
Definition huge_max : f64 := fmk 8649145210486333 0.                 (* 8649145210486333.0 *)
Definition huge_d : dtype := TScaled huge_scale huge_min huge_max.
Definition huge_v : pyval := PFloat (fmk 4324572605243167 0).        (* one ulp above min *)
Definition huge_w : pyval := PFloat huge_min.

Theorem C01_refuted_idempotent_scaled_huge : exists d v w,
  wf d /\ idem_dt d = true /\
  res_same (dt_validate d v PNone) (Ok w) = true /\
  res_same (dt_validate d w PNone) (Err ERange) = true /\
  scaled_ok d w = false.
Proof. exists huge_d, huge_v, huge_w. vm_compute. repeat apply conj; reflexivity. Qed.

(* which half of the side condition fails: the value is reproduced by the grid rounding, the strict window test fails *)
Example C01_scaled_huge_which :
  res_same (scaled_call huge_scale huge_w) (Ok huge_w) = true /\
  f_lt_num (fsub huge_min huge_scale) huge_w = false.
Proof. vm_compute. split; reflexivity. Qed.
