(* C01 — property theorems.  d ranges over ALL datatype trees (any depth and width), v/j over all modelled Python
   values, prev over None and every value of the type.  Clauses of the property and what is proved (for the tree
   with the eight "fix:" commits of known_findings.json applied):

   (sound)      validation never returns a value outside the declared value set (limits, lengths, membership,
                element-wise, mandatory struct members present)                           -- C01_validate_sound, C01_wire_sound
   (total)      import_value answers with a value, RangeError or WrongTypeError only     -- C01_import_total (unconditional)
                validate likewise                                                         -- C01_validate_total, under
                validate_guard: a struct's previous value is None/empty/a dict (always so for a parameter of that
                type); the int*float product of ScaledInteger can not overflow (Base/F64Repr.v)
   (canonical)  which JSON kinds denote a value of which type, lengths and leaf values preserved
                                                                                          -- C01_import_kinds, C01_array_length
                the returned value has the canonical representation kind of its type at every depth
                (double/scaled -> float, int -> int, bool -> bool, enum -> declared member, string -> str,
                blob -> bytes, array/tuple -> tuple of canonical members (tuple: right length), struct -> mapping
                with distinct declared keys)                                              -- C01_canonical_kind, C01_wire_canonical_kind
   (idempotent) validate(validate(v, prev)) = validate(v, prev), bit for bit, with previous None and with previous
                = the value itself, for every tree, every offered value and every stable previous value
                                                                                          -- C01_validate_idempotent_except_huge_grids,
                C01_wire_idempotent_except_huge_grids (all trees whose scaled leaves have at most 2^48 grid steps on
                either side of zero and a normal scale <= 2^900: small_grids d, a boolean on the datatype),
                C01_validate_idempotent_partial / C01_wire_idempotent_partial (all trees; at scaled leaves under the
                value-level side condition scaled_ok), C01_scaled_small_grid_regular (the side condition holds on
                small grids: Flocq error analysis), C01_stable_fixed_point,
                C01_refuted_idempotent_scaled_huge (Refuted.v: a grid beyond 2^52 steps where it fails)

   FULL STATEMENT of idempotence (false by Refuted.v, reproduced on the implementation):
     forall d, wf d -> idem_dt d = true -> forall v prev w, prev_st d prev -> dt_validate d v prev = Ok w ->
       res_same (dt_validate d w PNone) (Ok w) = true.
   Proved: the same with the extra hypothesis small_grids d = true (datatype level), and with the extra hypothesis
   scaled_ok d w = true (value level: at every scaled leaf of w the value is reproduced by ScaledInteger.__call__
   and lies strictly inside min - scale < value < max + scale).  Not proved: grids between 2^48 and 2^52 steps
   (covered only by the value-level statement); beyond 2^52 steps the statement is false.
   idem_dt d is what the constructors guarantee: limits of a double pass through FloatRange.__call__ (never the
   negative zero, never infinite), relative_resolution is a finite number, enum values are distinct; it is
   evaluated on every generated datatype by Run.check_case and pinned by two translator facts. *)
From Coq Require Import ZArith NArith Bool List.
Import ListNotations.
Require Import FV.Gen.C01 FV.Base.F64 FV.Base.PyVal FV.C01.Model FV.C01.IdemDefs FV.C01.Lemmas FV.C01.F64More FV.C01.Idem FV.C01.ScaledGrid FV.C01.IdemSmall FV.C01.Refuted FV.C01.FlavourDefs FV.C01.Flavour.

Theorem C01_source_facts :
  unlimited_is_2_64 = true /\ clamp_is_median_of_sorted = true /\ float_validate_shape = true /\
  int_validate_shape = true /\ scaled_validate_shape = true /\ generic_import_is_call = true /\
  containers_wrap_element_errors = true /\ sequences_check_before_import = true /\
  sequences_reject_str_bytes_dict = true /\ struct_requires_dict = true /\ blob_import_strict = true /\
  struct_checks_missing_after_merge = true /\ float_properties_pass_through_float_call = true /\
  enum_refuses_duplicates = true /\ containers_validate_no_shortcut = true.
Proof. repeat split; reflexivity. Qed.

Theorem C01_validate_sound : forall d, wf d -> forall v prev r,
  prev_ok d prev -> dt_validate d v prev = Ok r -> in_setb d r = true.
Proof. exact validate_sound. Qed.

Theorem C01_wire_sound : forall E d, wf d -> forall j prev r,
  prev_ok d prev -> wire E d j prev = Ok r -> in_setb d r = true.
Proof. exact wire_sound. Qed.

Theorem C01_import_total : forall E d j, okbad (dt_import E d j) = true.
Proof. exact import_total. Qed.

Theorem C01_validate_total : forall d v prev,
  validate_guard d v prev = true -> okbad (dt_validate d v prev) = true.
Proof. exact validate_total. Qed.

Theorem C01_wire_total : forall E d j prev, wire_guard E d j prev = true -> okbad (wire E d j prev) = true.
Proof. exact wire_total. Qed.

(* no silent reinterpretation at the level of JSON kinds: whatever import_value accepts has the kind the type
   prescribes, at every depth (a string is never taken as a number or as a list of characters, a number never as a
   sequence, only a mapping as a struct) *)
Theorem C01_import_kinds : forall E d j v, dt_import E d j = Ok v -> kind_ok d j = true.
Proof. intros E d j v Hv. pose proof (import_spec E d j) as H. rewrite Hv in H. exact H. Qed.

(* the offered array is neither truncated nor extended, whatever value is currently held *)
Theorem C01_array_length : forall e a b v prev items ys,
  py_iter v = Some items -> dt_validate (TArray e a b) v prev = Ok (PTuple ys) -> length ys = length items.
Proof. exact array_length_preserved. Qed.

(* the median-of-three clamp used for the resolution tolerance stays between its bounds, for all binary64 numbers,
   and returns a value that is inside the limits unchanged *)
Theorem C01_clamp_between : forall lo v hi,
  F64Lemmas.notnan lo -> F64Lemmas.notnan v -> F64Lemmas.notnan hi -> fle lo hi = true ->
  fle lo (fclamp lo v hi) = true /\ fle (fclamp lo v hi) hi = true /\
  (fle lo v = true -> fle v hi = true -> fclamp lo v hi = v).
Proof. exact F64Lemmas.fclamp_between. Qed.

(* ---- idempotence.  prev_st d prev: the value currently held is None or itself stable (stable d w: canonical
   shape and every leaf returned bit-identically by its leaf validation - which is what every earlier result of
   validate is, by the third conjunct) *)
Theorem C01_validate_idempotent_partial : forall d, wf d -> idem_dt d = true -> forall v prev w,
  prev_st d prev -> dt_validate d v prev = Ok w -> scaled_ok d w = true ->
  res_same (dt_validate d w PNone) (Ok w) = true /\ res_same (dt_validate d w w) (Ok w) = true /\
  stable d w = true.
Proof. exact validate_idempotent. Qed.

(* the datatype-level statement: every scaled leaf has a grid of at most 2^48 steps on either side of zero *)
Theorem C01_validate_idempotent_except_huge_grids : forall d, wf d -> idem_dt d = true -> small_grids d = true ->
  forall v prev w, prev_st d prev -> dt_validate d v prev = Ok w ->
  res_same (dt_validate d w PNone) (Ok w) = true /\ res_same (dt_validate d w w) (Ok w) = true /\
  stable d w = true.
Proof. exact validate_idempotent_small. Qed.

Theorem C01_wire_idempotent_except_huge_grids : forall E d, wf d -> idem_dt d = true -> small_grids d = true ->
  forall j prev w, prev_st d prev -> wire E d j prev = Ok w ->
  res_same (dt_validate d w PNone) (Ok w) = true /\ res_same (dt_validate d w w) (Ok w) = true /\
  stable d w = true.
Proof. exact wire_idempotent_small. Qed.

(* on a small grid every value returned by ScaledInteger.validate is reproduced by the rounding to the grid and lies
   strictly inside the acceptance window *)
Theorem C01_scaled_small_grid_regular : forall s mn mx v x,
  scaled_small s mn mx = true -> wf (TScaled s mn mx) -> scaled_validate s mn mx v = Ok x ->
  scaled_leaf_ok s mn mx x = true.
Proof. exact scaled_small_leaf_ok. Qed.

Theorem C01_wire_idempotent_partial : forall E d, wf d -> idem_dt d = true -> forall j prev w,
  prev_st d prev -> wire E d j prev = Ok w -> scaled_ok d w = true ->
  res_same (dt_validate d w PNone) (Ok w) = true /\ res_same (dt_validate d w w) (Ok w) = true /\
  stable d w = true.
Proof.
  intros E d Hwf Hi j prev w Hp H G. destruct (wire_validate _ _ _ _ _ H) as [v Hv].
  exact (validate_idempotent d Hwf Hi v prev w Hp Hv G).
Qed.

(* a stable value is returned unchanged (no side condition, no assumption on the datatype) *)
Theorem C01_stable_fixed_point : forall d w, stable d w = true ->
  res_same (dt_validate d w PNone) (Ok w) = true /\ res_same (dt_validate d w w) (Ok w) = true.
Proof.
  intros d w H. destruct (stable_fix d w H) as [A B]. rewrite A, B. split; apply res_same_refl_ok.
Qed.

(* ---- canonical representation kinds, at every depth; prev_canon d prev: None or a canonical value *)
Theorem C01_canonical_kind : forall d v prev w,
  prev_canon d prev -> dt_validate d v prev = Ok w -> canon d w = true.
Proof. exact validate_canon. Qed.

Theorem C01_wire_canonical_kind : forall E d j prev w,
  prev_canon d prev -> wire E d j prev = Ok w -> canon d w = true.
Proof. intros E d j prev w Hp H. destruct (wire_validate _ _ _ _ _ H) as [v Hv]. exact (validate_canon d v prev w Hp Hv). Qed.

(* non-vacuity and regression: a nested well-formed type, a value that validates into the set, guards that hold,
   and the repaired behaviour on the inputs of the former findings *)
Definition E0 : pyenv := {| int_of := []; b64_of := [(false, [89%N; 87%N; 74%N; 113%N], [97%N; 98%N; 99%N])] |}.
Definition i05 := TInt 0 5.
Definition s01 := TScaled (fmk 1 (-1)) fzero (of_Z 10).      (* scale 0.5, 0 .. 10 *)
Definition sa := [97%N].
Definition demo_d : dtype :=
  TStruct [([97%N], TArray (TFloat fzero (of_Z 10) fzero (fmk 1 (-20))) 0 3); ([98%N], s01)] [[98%N]] false.
Example C01_demo_wf : wf demo_d.
Proof. cbn [demo_d wf snd]. vm_compute. repeat apply conj; try reflexivity; exact I. Qed.
Example C01_demo_run :
  res_same (dt_validate demo_d (PDict [([97%N], PList [PInt 3; PFloat (of_Z 10)])]) PNone)
           (Ok (PDict [([97%N], PTuple [PFloat (of_Z 3); PFloat (of_Z 10)])])) = true /\
  validate_guard demo_d (PDict [([97%N], PList [PInt 3])]) PNone = true /\
  wire_guard E0 demo_d (PDict [([98%N], PInt 4)]) PNone = true.
Proof. vm_compute. repeat apply conj; reflexivity. Qed.
Example C01_repaired_behaviour :
  res_same (wire E0 (TTuple [i05]) (PInt 5) PNone) (Err EWrongType) = true /\
  res_same (wire E0 (TTuple [i05]) (PList [PInt 1; PInt 2]) PNone) (Err EWrongType) = true /\
  res_same (wire E0 (TStruct [(sa, i05)] [] false) (PStr [97%N; 98%N]) PNone) (Err EWrongType) = true /\
  res_same (dt_validate s01 (PFloat (finf false)) PNone) (Err ERange) = true /\
  res_same (dt_validate s01 (PFloat fnan) PNone) (Err ERange) = true /\
  res_same (dt_import E0 s01 (PStr [53%N])) (Err EWrongType) = true /\
  res_same (dt_import E0 s01 (PFloat (fmk 5 (-1)))) (Err EWrongType) = true /\
  res_same (dt_import E0 s01 (PFloat (of_Z 2))) (dt_import E0 s01 (PInt 2)) = true /\
  res_same (wire E0 (TBlob 0 10) (PStr [33%N; 33%N; 33%N; 33%N]) PNone) (Err EWrongType) = true /\
  res_same (wire E0 (TBlob 0 10) (PStr [89%N; 87%N; 74%N; 113%N]) PNone) (Ok (PBytes [97%N; 98%N; 99%N])) = true /\
  res_same (dt_validate (TArray i05 0 5) (PList [PInt 1; PInt 2; PInt 3]) (PTuple [PInt 1; PInt 2]))
           (Ok (PTuple [PInt 1; PInt 2; PInt 3])) = true /\
  res_same (wire E0 (TArray (TString 0 10 false) 0 5) (PStr [97%N; 98%N]) PNone) (Err EWrongType) = true /\
  res_same (dt_validate (TStruct [(sa, i05)] [] false) (PDict [(sa, PNone)]) PNone) (Err EWrongType) = true /\
  res_same (dt_validate (TStruct [(sa, i05)] [] false) (PDict [(sa, PNone)]) (PDict [(sa, PInt 3)]))
           (Ok (PDict [(sa, PInt 3)])) = true.
Proof. vm_compute. repeat apply conj; reflexivity. Qed.

(* non-vacuity of the idempotence statements: the guards hold for the nested demo type (double, scaled leaf), a
   result of validate satisfies the scaled side condition and is stable, a complete previous value is stable;
   the negative zero as a limit (which the constructors never produce) is where bit identity would fail *)
Example C01_idem_nonvacuous :
  idem_dt demo_d = true /\
  match dt_validate demo_d (PDict [([97%N], PList [PInt 3; PFloat (fmk 19 (-1))]); ([98%N], PFloat (fmk 5 (-1)))]) PNone with
  | Ok w => scaled_ok demo_d w && stable demo_d w && canon demo_d w
  | Err _ => false
  end = true /\
  stable demo_d (PDict [([97%N], PTuple [PFloat (of_Z 3)])]) = true /\
  scaled_leaf_ok (fmk 1 (-1)) fzero (of_Z 10) (PFloat (fmk 5 (-1))) = true /\
  small_grids demo_d = true /\
  (* scale 0.001, limits -1e6 .. 1e6 (10^9 steps) *)
  scaled_small (fmk 1152921504606847 (-60)) (fmk (-1000000) 0) (fmk 1000000 0) = true /\
  small_grids (TArray (TTuple [TInt 0 5; TEnum [(sa, 1%Z); ([98%N], 2%Z)]]) 0 3) = true /\
  small_grids huge_d = false.
Proof. vm_compute. repeat apply conj; reflexivity. Qed.

Example C01_negzero_limit_is_outside_idem_dt :
  idem_dt (TFloat fnegzero (of_Z 1) (fmk 1 (-1)) fzero) = false /\
  res_same (dt_validate (TFloat fnegzero (of_Z 1) (fmk 1 (-1)) fzero) (PFloat (fmk (-1) (-2))) PNone) (Ok (PFloat fnegzero)) = true /\
  res_same (dt_validate (TFloat fnegzero (of_Z 1) (fmk 1 (-1)) fzero) (PFloat fnegzero) PNone) (Ok (PFloat fzero)) = true.
Proof. vm_compute. repeat apply conj; reflexivity. Qed.

(* (flavour) a candidate mapping may be a plain dict or a frozen mapping (ImmutableDict: what StructOf.__call__ -
   conversion, no limit check - and the validate of ANY struct type return, what a parameter holds).  cval
   (FlavourDefs.v) keeps the flavour of every mapping of a candidate at every depth; the shared model knows one
   mapping constructor only, so the flavoured model is the shared one after erase - the decision "the code does not
   look at the flavour" is checked on the implementation by the correspondence (frozen candidates, Run.v) and pinned by
   the fact containers_validate_no_shortcut.  thaw c1 = thaw c2: equal items, differing only in the flavour of
   mappings anywhere in the candidate (lists, tuples, members). *)
Theorem C01_validate_ignores_candidate_container_flavour : forall d c1 c2 prev,
  thaw c1 = thaw c2 -> cv_validate d c1 prev = cv_validate d c2 prev /\ cv_call d c1 = cv_call d c2.
Proof. exact validate_ignores_flavour. Qed.

(* in particular a frozen mapping gets no shortcut: what is returned for it has passed the member loop and lies in
   the declared value set, like for every other candidate *)
Theorem C01_validate_sound_any_flavour : forall d, wf d -> forall c prev r,
  prev_ok d prev -> cv_validate d c prev = Ok r -> in_setb d r = true.
Proof. intros d Hwf c prev r. exact (validate_sound d Hwf (erase c) prev r). Qed.

Example C01_flavour_nonvacuous :
  let d := TStruct [(sa, TFloat fzero (of_Z 10) fzero fzero); ([98%N], i05)] [] false in
  let conv b := CDict b [(sa, CLeaf (PFloat (of_Z 50))); ([98%N], CLeaf (PInt 1))] in      (* = d(dict p=50, i=1) *)
  has_frozen (conv true) = true /\ thaw (conv true) = thaw (conv false) /\
  res_same (cv_call d (conv true)) (Ok (erase (conv true))) = true /\
  res_same (cv_validate d (conv true) PNone) (Err ERange) = true /\
  res_same (cv_validate (TArray d 0 3) (CList [conv true]) PNone) (Err ERange) = true /\
  (* the validated value of an other struct type *)
  res_same (cv_validate d (CDict true [([120%N], CLeaf (PFloat (of_Z 1)))]) PNone) (Err EWrongType) = true /\
  res_same (cv_validate d (CDict true [(sa, CLeaf (PFloat (of_Z 5))); ([98%N], CLeaf (PInt 1))]) PNone)
           (Ok (PDict [(sa, PFloat (of_Z 5)); ([98%N], PInt 1)])) = true.
Proof.
  intros d conv. split; [vm_compute; reflexivity|]. split; [reflexivity|].
  vm_compute. repeat apply conj; reflexivity.
Qed.

Print Assumptions C01_source_facts.
Print Assumptions C01_validate_sound.
Print Assumptions C01_wire_sound.
Print Assumptions C01_import_total.
Print Assumptions C01_validate_total.
Print Assumptions C01_wire_total.
Print Assumptions C01_import_kinds.
Print Assumptions C01_array_length.
Print Assumptions C01_clamp_between.
Print Assumptions C01_validate_idempotent_partial.
Print Assumptions C01_validate_idempotent_except_huge_grids.
Print Assumptions C01_wire_idempotent_except_huge_grids.
Print Assumptions C01_scaled_small_grid_regular.
Print Assumptions C01_wire_idempotent_partial.
Print Assumptions C01_stable_fixed_point.
Print Assumptions C01_canonical_kind.
Print Assumptions C01_wire_canonical_kind.
Print Assumptions C01_refuted_idempotent_scaled_huge.
Print Assumptions C01_validate_ignores_candidate_container_flavour.
Print Assumptions C01_validate_sound_any_flavour.
