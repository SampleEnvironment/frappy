(* C01 — vacuity audit: every theorem of Properties.v that has premises is APPLIED here at one concrete, nested
   instance (a struct with an array of doubles, a scaled leaf, a tuple of int/enum/bool, a string and a blob; an
   offered value, a JSON value with the b64 environment the harness supplies, and a NON-None previous value), with
   every premise discharged by computation.  Goals of the form  f args = Ok r  over binary64 records are never
   proved by reflexivity: ok_ex turns the boolean is_ok (computed in the VM) into the existential. *)
From Coq Require Import ZArith NArith Bool List.
Import ListNotations.
Require Import FV.Gen.C01 FV.Base.F64 FV.Base.PyVal FV.C01.Model FV.C01.IdemDefs FV.C01.Lemmas FV.C01.F64More
  FV.C01.Idem FV.C01.ScaledGrid FV.C01.IdemSmall FV.C01.Refuted FV.C01.Properties.

Definition is_ok {A} (r : res A) : bool := match r with Ok _ => true | Err _ => false end.
Lemma ok_ex {A} (r : res A) : is_ok r = true -> exists x, r = Ok x.
Proof. destruct r; [eauto|discriminate]. Qed.

Definition ka := [97%N]. Definition kb := [98%N]. Definition kc := [99%N]. Definition kd := [100%N].
Definition ke := [101%N].
Definition nv_d : dtype :=
  TStruct [(ka, TArray (TFloat fzero (of_Z 10) fzero (fmk 1 (-20))) 0 3);
           (kb, s01);
           (kc, TTuple [TInt 0 5; TEnum [(ka, 1%Z); (kb, 2%Z)]; TBool]);
           (kd, TString 0 10 false);
           (ke, TBlob 0 10)] [kb; ke] false.
(* offered Python value *)
Definition nv_v : pyval :=
  PDict [(ka, PList [PInt 3; PFloat (fmk 19 (-1))]); (kb, PFloat (fmk 5 (-1)));
         (kc, PList [PInt 2; PStr kb; PBool true]); (kd, PStr [97%N; 98%N])].
(* JSON value of a change request (blob as base64 text, enum by name) *)
Definition nv_j : pyval :=
  PDict [(ka, PList [PInt 3; PFloat (fmk 19 (-1))]); (kb, PInt 4);
         (kc, PList [PInt 2; PStr kb; PBool true]); (kd, PStr [97%N; 98%N]);
         (ke, PStr [89%N; 87%N; 74%N; 113%N])].
(* the value currently held: complete, canonical, not None *)
Definition nv_prev : pyval :=
  PDict [(ka, PTuple [PFloat (of_Z 3)]); (kb, PFloat (fmk 1 (-1)));
         (kc, PTuple [PInt 1; PEnum ka 1%Z; PBool false]); (kd, PStr [97%N])].

Example nv_wf : wf nv_d.
Proof. cbn [nv_d wf snd]. vm_compute. repeat apply conj; try reflexivity; exact I. Qed.
Example nv_prev_ok : prev_ok nv_d nv_prev.
Proof. right. vm_compute. reflexivity. Qed.
Example nv_prev_st : prev_st nv_d nv_prev.
Proof. right. vm_compute. reflexivity. Qed.
Example nv_prev_canon : prev_canon nv_d nv_prev.
Proof. right. vm_compute. reflexivity. Qed.
Example nv_validate_ok : exists r, dt_validate nv_d nv_v nv_prev = Ok r.
Proof. apply ok_ex. vm_compute. reflexivity. Qed.
Example nv_wire_ok : exists r, wire E0 nv_d nv_j nv_prev = Ok r.
Proof. apply ok_ex. vm_compute. reflexivity. Qed.
Example nv_import_ok : exists r, dt_import E0 nv_d nv_j = Ok r.
Proof. apply ok_ex. vm_compute. reflexivity. Qed.
(* the instance is not a corner: the result differs from the previous value and from the offered value *)
Example nv_result_differs :
  res_same (dt_validate nv_d nv_v nv_prev) (Ok nv_prev) = false /\
  res_same (dt_validate nv_d nv_v nv_prev) (Ok nv_v) = false /\
  res_same (wire E0 nv_d nv_j nv_prev) (dt_validate nv_d nv_v nv_prev) = false.
Proof. vm_compute. repeat apply conj; reflexivity. Qed.

Example C01_validate_sound_applies : exists r, dt_validate nv_d nv_v nv_prev = Ok r /\ in_setb nv_d r = true.
Proof.
  destruct nv_validate_ok as [r Hr]. exists r. split; [exact Hr|].
  exact (C01_validate_sound nv_d nv_wf nv_v nv_prev r nv_prev_ok Hr).
Qed.

Example C01_wire_sound_applies : exists r, wire E0 nv_d nv_j nv_prev = Ok r /\ in_setb nv_d r = true.
Proof.
  destruct nv_wire_ok as [r Hr]. exists r. split; [exact Hr|].
  exact (C01_wire_sound E0 nv_d nv_wf nv_j nv_prev r nv_prev_ok Hr).
Qed.

Example C01_validate_total_applies :
  okbad (dt_validate nv_d nv_v nv_prev) = true /\
  (* an input that is refused, and the guard still holds *)
  okbad (dt_validate nv_d (PDict [(ka, PStr ka)]) nv_prev) = true /\
  res_same (dt_validate nv_d (PDict [(ka, PStr ka)]) nv_prev) (Err EWrongType) = true.
Proof.
  split; [|split].
  - apply C01_validate_total. vm_compute. reflexivity.
  - apply C01_validate_total. vm_compute. reflexivity.
  - vm_compute. reflexivity.
Qed.

Example C01_wire_total_applies : okbad (wire E0 nv_d nv_j nv_prev) = true.
Proof. apply C01_wire_total. vm_compute. reflexivity. Qed.

Example C01_import_kinds_applies : exists v, dt_import E0 nv_d nv_j = Ok v /\ kind_ok nv_d nv_j = true.
Proof.
  destruct nv_import_ok as [v Hv]. exists v. split; [exact Hv|]. exact (C01_import_kinds E0 nv_d nv_j v Hv).
Qed.

(* array with a non-empty previous value of a different length *)
Definition nv_arr := TArray (TInt 0 5) 0 5.
Example C01_array_length_applies : exists ys,
  dt_validate nv_arr (PList [PInt 1; PInt 2; PInt 3]) (PTuple [PInt 1; PInt 2]) = Ok (PTuple ys) /\ length ys = 3.
Proof.
  exists [PInt 1; PInt 2; PInt 3].
  assert (H : dt_validate nv_arr (PList [PInt 1; PInt 2; PInt 3]) (PTuple [PInt 1; PInt 2])
              = Ok (PTuple [PInt 1; PInt 2; PInt 3])) by (vm_compute; reflexivity).
  split; [exact H|].
  exact (C01_array_length (TInt 0 5) 0%Z 5%Z (PList [PInt 1; PInt 2; PInt 3]) (PTuple [PInt 1; PInt 2])
           [PInt 1; PInt 2; PInt 3] [PInt 1; PInt 2; PInt 3] eq_refl H).
Qed.

(* clamp: the three cases (below, inside, above); notnan is a Prop on the record, shown by computation *)
Example C01_clamp_between_applies :
  fle (of_Z 1) (fclamp (of_Z 1) (of_Z 7) (of_Z 5)) = true /\ fle (fclamp (of_Z 1) (of_Z 7) (of_Z 5)) (of_Z 5) = true.
Proof.
  assert (N1 : F64Lemmas.notnan (of_Z 1)) by reflexivity.
  assert (N7 : F64Lemmas.notnan (of_Z 7)) by reflexivity.
  assert (N5 : F64Lemmas.notnan (of_Z 5)) by reflexivity.
  destruct (C01_clamp_between (of_Z 1) (of_Z 7) (of_Z 5) N1 N7 N5 ltac:(vm_compute; reflexivity)) as (A & B & _).
  split; assumption.
Qed.

Example nv_idem_dt : idem_dt nv_d = true. Proof. vm_compute. reflexivity. Qed.
Example nv_small : small_grids nv_d = true. Proof. vm_compute. reflexivity. Qed.

Example C01_validate_idempotent_except_huge_grids_applies : exists w,
  dt_validate nv_d nv_v nv_prev = Ok w /\
  res_same (dt_validate nv_d w PNone) (Ok w) = true /\ res_same (dt_validate nv_d w w) (Ok w) = true /\
  stable nv_d w = true.
Proof.
  destruct nv_validate_ok as [w Hw]. exists w. split; [exact Hw|].
  exact (C01_validate_idempotent_except_huge_grids nv_d nv_wf nv_idem_dt nv_small nv_v nv_prev w nv_prev_st Hw).
Qed.

Example C01_wire_idempotent_except_huge_grids_applies : exists w,
  wire E0 nv_d nv_j nv_prev = Ok w /\
  res_same (dt_validate nv_d w PNone) (Ok w) = true /\ res_same (dt_validate nv_d w w) (Ok w) = true /\
  stable nv_d w = true.
Proof.
  destruct nv_wire_ok as [w Hw]. exists w. split; [exact Hw|].
  exact (C01_wire_idempotent_except_huge_grids E0 nv_d nv_wf nv_idem_dt nv_small nv_j nv_prev w nv_prev_st Hw).
Qed.

(* the value-level variants: the side condition scaled_ok is obtained for the concrete result by computation
   (is_ok_and), not from the small-grid theorem *)
Definition ok_and (r : res pyval) (p : pyval -> bool) : bool := match r with Ok w => p w | Err _ => false end.
Lemma ok_and_ex r p : ok_and r p = true -> exists w, r = Ok w /\ p w = true.
Proof. destruct r; cbn; [eauto|discriminate]. Qed.

Example C01_validate_idempotent_partial_applies : exists w,
  dt_validate nv_d nv_v nv_prev = Ok w /\ scaled_ok nv_d w = true /\
  res_same (dt_validate nv_d w PNone) (Ok w) = true /\ res_same (dt_validate nv_d w w) (Ok w) = true /\
  stable nv_d w = true.
Proof.
  destruct (ok_and_ex (dt_validate nv_d nv_v nv_prev) (scaled_ok nv_d) ltac:(vm_compute; reflexivity)) as (w & Hw & Hs).
  exists w. split; [exact Hw|]. split; [exact Hs|].
  exact (C01_validate_idempotent_partial nv_d nv_wf nv_idem_dt nv_v nv_prev w nv_prev_st Hw Hs).
Qed.

Example C01_wire_idempotent_partial_applies : exists w,
  wire E0 nv_d nv_j nv_prev = Ok w /\ scaled_ok nv_d w = true /\
  res_same (dt_validate nv_d w PNone) (Ok w) = true /\ res_same (dt_validate nv_d w w) (Ok w) = true /\
  stable nv_d w = true.
Proof.
  destruct (ok_and_ex (wire E0 nv_d nv_j nv_prev) (scaled_ok nv_d) ltac:(vm_compute; reflexivity)) as (w & Hw & Hs).
  exists w. split; [exact Hw|]. split; [exact Hs|].
  exact (C01_wire_idempotent_partial E0 nv_d nv_wf nv_idem_dt nv_j nv_prev w nv_prev_st Hw Hs).
Qed.

(* the partial theorem is also usable beyond small grids: a grid of 2^50 steps (scale 1, limits 0 .. 2^50), where
   small_grids is false and the value-level side condition still holds *)
Definition big_d : dtype := TScaled (of_Z 1) fzero (fmk 1 50).
Example C01_validate_idempotent_partial_beyond_small : exists w,
  small_grids big_d = false /\
  dt_validate big_d (PFloat (fmk 1 49)) PNone = Ok w /\
  res_same (dt_validate big_d w PNone) (Ok w) = true.
Proof.
  destruct (ok_and_ex (dt_validate big_d (PFloat (fmk 1 49)) PNone) (scaled_ok big_d) ltac:(vm_compute; reflexivity))
    as (w & Hw & Hs).
  exists w. split; [vm_compute; reflexivity|]. split; [exact Hw|].
  assert (Wf : wf big_d) by (vm_compute; reflexivity).
  exact (proj1 (C01_validate_idempotent_partial big_d Wf eq_refl (PFloat (fmk 1 49)) PNone w (or_introl eq_refl) Hw Hs)).
Qed.

(* scale 0.001, limits -1e6 .. 1e6 (10^9 steps), offered value 1234.5674 (off the grid) *)
Definition sg_s := fmk 1152921504606847 (-60).
Definition sg_mn := fmk (-1000000) 0.
Definition sg_mx := fmk 1000000 0.
Definition sg_v := PFloat (fmk 5429569945743837 (-42)).
Example C01_scaled_small_grid_regular_applies : exists x,
  scaled_validate sg_s sg_mn sg_mx sg_v = Ok x /\ scaled_leaf_ok sg_s sg_mn sg_mx x = true /\
  res_same (Ok x) (Ok sg_v) = false.
Proof.
  destruct (ok_and_ex (scaled_validate sg_s sg_mn sg_mx sg_v) (fun x => negb (res_same (Ok x) (Ok sg_v)))
              ltac:(vm_compute; reflexivity)) as (x & Hx & Hd).
  exists x. split; [exact Hx|]. split.
  - apply (C01_scaled_small_grid_regular sg_s sg_mn sg_mx sg_v x); [vm_compute; reflexivity|vm_compute; reflexivity|exact Hx].
  - apply negb_true_iff in Hd. exact Hd.
Qed.

Example C01_stable_fixed_point_applies :
  res_same (dt_validate nv_d nv_prev PNone) (Ok nv_prev) = true /\
  res_same (dt_validate nv_d nv_prev nv_prev) (Ok nv_prev) = true.
Proof. apply C01_stable_fixed_point. vm_compute. reflexivity. Qed.

Example C01_canonical_kind_applies : exists w, dt_validate nv_d nv_v nv_prev = Ok w /\ canon nv_d w = true.
Proof.
  destruct nv_validate_ok as [w Hw]. exists w. split; [exact Hw|].
  exact (C01_canonical_kind nv_d nv_v nv_prev w nv_prev_canon Hw).
Qed.

Example C01_wire_canonical_kind_applies : exists w, wire E0 nv_d nv_j nv_prev = Ok w /\ canon nv_d w = true.
Proof.
  destruct nv_wire_ok as [w Hw]. exists w. split; [exact Hw|].
  exact (C01_wire_canonical_kind E0 nv_d nv_j nv_prev w nv_prev_canon Hw).
Qed.
