(* C01 — totality and soundness of the datatype validation model.
   Each leaf operation and each container check has one lemma `yields P (op ...)`: it returns a value of which P
   holds, or raises a bad-value error (the *_spec lemmas); validate_total and the soundness of the leaves are read
   off them.  The container cases of soundness, and of the idempotence and canonical-kind theorems of Idem.v, are
   done once: lift is the scheme the value predicates share, validate_lift the theorem about it.  import_spec says
   both that import_value is total and that it accepts only the right JSON kinds. *)
From Coq Require Import ZArith NArith Bool List Lia.
Import ListNotations.
Require Import FV.Base.Util FV.Base.F64 FV.Base.F64Lemmas FV.Base.F64Repr FV.Base.PyVal FV.C01.Model FV.C01.IdemDefs.

Section DtypeInd.
  Variable P : dtype -> Prop.
  Hypothesis HFloat : forall a b c d, P (TFloat a b c d).
  Hypothesis HInt : forall a b, P (TInt a b).
  Hypothesis HScaled : forall s a b, P (TScaled s a b).
  Hypothesis HBool : P TBool.
  Hypothesis HEnum : forall ms, P (TEnum ms).
  Hypothesis HString : forall a b u, P (TString a b u).
  Hypothesis HBlob : forall a b, P (TBlob a b).
  Hypothesis HArray : forall e a b, P e -> P (TArray e a b).
  Hypothesis HTuple : forall es, Forall P es -> P (TTuple es).
  Hypothesis HStruct : forall ms o c, Forall (fun p => P (snd p)) ms -> P (TStruct ms o c).

  Fixpoint dtype_nested_ind (d : dtype) : P d :=
    match d with
    | TFloat a b c e => HFloat a b c e
    | TInt a b => HInt a b
    | TScaled s a b => HScaled s a b
    | TBool => HBool
    | TEnum ms => HEnum ms
    | TString a b u => HString a b u
    | TBlob a b => HBlob a b
    | TArray e a b => HArray e a b (dtype_nested_ind e)
    | TTuple es =>
        HTuple es ((fix go (l : list dtype) : Forall P l :=
                      match l with
                      | [] => Forall_nil P
                      | x :: r => Forall_cons x (dtype_nested_ind x) (go r)
                      end) es)
    | TStruct ms o c =>
        HStruct ms o c ((fix go (l : list (str * dtype)) : Forall (fun p => P (snd p)) l :=
                           match l with
                           | [] => Forall_nil _
                           | x :: r => Forall_cons x (dtype_nested_ind (snd x)) (go r)
                           end) ms)
    end.
End DtypeInd.

Definition okbad {A} (r : res A) : bool := match r with Ok _ => true | Err e => is_bad_value e end.

Lemma okbad_wrap_wrong {A} (r : res A) : okbad (wrap_wrong r) = true.
Proof. destruct r as [a|e]; reflexivity. Qed.
Lemma okbad_wrap_elem {A} (r : res A) : okbad (wrap_elem r) = true.
Proof. destruct r as [a|[]]; reflexivity. Qed.
Lemma okbad_bind_ok {A B} (r : res A) (f : A -> B) : okbad r = true -> okbad (r >>= fun a => Ok (f a)) = true.
Proof. destruct r; cbn; auto. Qed.
Lemma okbad_bind {A B} (r : res A) (f : A -> res B) :
  okbad r = true -> (forall a, okbad (f a) = true) -> okbad (r >>= f) = true.
Proof. destruct r; cbn; auto. Qed.

(* what an operation does: it returns a value, of which P holds, or raises a bad-value error *)
Definition yields {A} (P : A -> Prop) (r : res A) : Prop :=
  match r with Ok a => P a | Err e => is_bad_value e = true end.

Lemma yields_okbad {A} {P} {r : res A} : yields P r -> okbad r = true.
Proof. destruct r; intros H; [reflexivity|exact H]. Qed.
Lemma yields_ok {A} {P} {r : res A} (H : yields P r) a : r = Ok a -> P a.
Proof. intros ->. exact H. Qed.

Lemma float_call_spec v : yields (fun r => exists f, r = PFloat f) (float_call v).
Proof. unfold float_call. destruct (py_add0 v) as [f|e]; cbn [wrap_wrong yields]; eauto. Qed.

Lemma float_call_float v r : float_call v = Ok r -> exists f, r = PFloat f.
Proof. exact (yields_ok (float_call_spec v) r). Qed.

Lemma float_validate_spec mn mx a r v :
  yields (fun x => exists f, float_call v = Ok (PFloat f) /\
             fle (fsub mn (pymax (fabs (fmul f r)) a)) f && fle f (fadd mx (pymax (fabs (fmul f r)) a)) = true /\
             x = PFloat (fclamp mn f mx))
          (float_validate mn mx a r v).
Proof.
  unfold float_validate. pose proof (float_call_spec v) as H. destruct (float_call v) as [y|e]; [|exact H].
  destruct H as [f ->]. cbv zeta. destruct (fle _ f && fle f _) eqn:T; [|reflexivity]. cbn. eauto.
Qed.

Lemma int_call_spec v : yields (fun r => exists z, r = PInt z /\ py_int_num v = Ok z) (int_call v).
Proof.
  unfold int_call. destruct (py_add0 v) as [fv|e]; [|reflexivity]. destruct (py_int_num v) as [z|e]; [|reflexivity].
  cbn [bind wrap_wrong]. destruct (cmp_Z_f (fround fv) fv) as [[]|]; cbn; eauto.
Qed.

Lemma int_validate_spec mn mx v :
  yields (fun x => exists z, int_call v = Ok (PInt z) /\ (mn <=? z)%Z && (z <=? mx)%Z = true /\ x = PInt z)
          (int_validate mn mx v).
Proof.
  unfold int_validate. pose proof (int_call_spec v) as H. destruct (int_call v) as [y|e]; [|exact H].
  destruct H as (z & -> & _). destruct (_ && _) eqn:T; [|reflexivity]. cbn. eauto.
Qed.

Lemma bool_call_spec v : yields (fun x => exists b, x = PBool b) (bool_call v).
Proof.
  destruct v as [| | z | f | | | | | | n z |]; cbn [bool_call yields]; eauto.
  - destruct z as [|[]|]; cbn; eauto.
  - destruct (feq f fzero); [|destruct (feq f _)]; cbn; eauto.
  - destruct z as [|[]|]; cbn; eauto.
Qed.

Lemma enum_by_value_In z ms n v : enum_by_value z ms = Some (n, v) -> In (n, v) ms.
Proof.
  induction ms as [|[n' v'] ms IH]; cbn; [discriminate|].
  destruct (Z.eqb z v'); [intros H; inversion H; left; reflexivity|intros H; right; auto].
Qed.
Lemma enum_by_name_In s ms n v : enum_by_name s ms = Some (n, v) -> In (n, v) ms.
Proof.
  induction ms as [|[n' v'] ms IH]; cbn; [discriminate|].
  destruct (str_eqb s n'); [intros H; inversion H; left; reflexivity|intros H; right; auto].
Qed.

Lemma enum_call_spec ms v : yields (fun x => exists n z, x = PEnum n z /\ In (n, z) ms) (enum_call ms v).
Proof.
  assert (Hv : forall (z0 : Z) (b : bool),
    yields (fun x => exists n z, x = PEnum n z /\ In (n, z) ms)
      (match enum_by_value z0 ms with
       | Some (n, z) => Ok (PEnum n z)
       | None => if b then Err ERange else Err EWrongType
       end)).
  { intros z0 b. destruct (enum_by_value z0 ms) as [[n z]|] eqn:E; [|destruct b; reflexivity].
    cbn. eauto using enum_by_value_In. }
  destruct v as [| b | z | f | s | | | | | n z |]; cbn [enum_call]; try reflexivity.
  - apply (Hv _ true).
  - apply (Hv _ true).
  - destruct (fis_finite f); [|reflexivity]. destruct (cmp_Z_f (ftrunc f) f) as [[]|]; try reflexivity.
    apply (Hv _ false).
  - destruct (enum_by_name s ms) as [[n z]|] eqn:E; [|reflexivity]. cbn. eauto using enum_by_name_In.
  - apply (Hv _ false).
Qed.

Definition str_ok (minc maxc : Z) (utf8 : bool) (s : str) : bool :=
  (utf8 || forallb (fun c => N.ltb c 128) s) &&
  (minc <=? Z.of_nat (length s))%Z && (Z.of_nat (length s) <=? maxc)%Z &&
  negb (existsb (fun c => N.eqb c 0) s).

Lemma string_call_spec a b u v :
  yields (fun x => exists s, v = PStr s /\ x = PStr s /\ str_ok a b u s = true) (string_call a b u v).
Proof.
  destruct v; try reflexivity. cbn [string_call]. rewrite !Z.ltb_antisym.
  destruct (negb u && negb (forallb _ s)) eqn:E1; [reflexivity|].
  destruct (a <=? Z.of_nat (length s))%Z eqn:E2; [|reflexivity].
  destruct (Z.of_nat (length s) <=? b)%Z eqn:E3; [|reflexivity].
  destruct (existsb _ s) eqn:E4; [reflexivity|].
  exists s. repeat split. unfold str_ok. rewrite E2, E3, E4.
  destruct u; [reflexivity|]. destruct (forallb _ s); [reflexivity|discriminate].
Qed.

Lemma blob_call_spec a b v :
  yields (fun x => exists s, v = PBytes s /\ x = PBytes s /\
             (a <=? Z.of_nat (length s))%Z && (Z.of_nat (length s) <=? b)%Z = true) (blob_call a b v).
Proof.
  destruct v as [| | | | | s | | | | |]; try reflexivity. cbn [blob_call]. rewrite !Z.ltb_antisym.
  destruct (a <=? Z.of_nat (length s))%Z eqn:E2, (Z.of_nat (length s) <=? b)%Z eqn:E3; cbn; try reflexivity.
  exists s. rewrite E2, E3. auto.
Qed.

Lemma py_len_iter v items : py_iter v = Some items -> py_len v = Some (Z.of_nat (length items)).
Proof.
  destruct v; cbn; intros H; inversion H; subst; rewrite ?map_length; reflexivity.
Qed.

Lemma check_iter_some v : is_str_bytes_dict v = false -> py_len v <> None -> exists items, py_iter v = Some items.
Proof. destruct v; cbn; intros; try discriminate; try congruence; eauto. Qed.
Lemma check_is_seq v : is_str_bytes_dict v = false -> forall items, py_iter v = Some items ->
  v = PList items \/ v = PTuple items.
Proof. destruct v; cbn; intros Es items Hi; try discriminate; inversion Hi; auto. Qed.

Lemma seq_items v : is_str_bytes_dict v = false -> forall n, py_len v = Some n ->
  exists items, py_iter v = Some items /\ (v = PList items \/ v = PTuple items) /\ n = Z.of_nat (length items).
Proof.
  intros Es n El. destruct (check_iter_some v Es) as [items Hi]; [congruence|]. exists items.
  rewrite (py_len_iter v items Hi) in El. inversion El. auto using check_is_seq.
Qed.

Lemma array_check_spec a b v :
  yields (fun _ => exists items, py_iter v = Some items /\ (v = PList items \/ v = PTuple items) /\
             (a <=? Z.of_nat (length items))%Z = true /\ (Z.of_nat (length items) <=? b)%Z = true)
          (array_check a b v).
Proof.
  unfold array_check. destruct (is_str_bytes_dict v) eqn:Es; [reflexivity|].
  destruct (py_len v) as [n|] eqn:El; [|reflexivity].
  destruct (seq_items v Es n El) as (items & Hi & Ej & ->). rewrite !Z.ltb_antisym.
  destruct (a <=? _)%Z eqn:E1; [|reflexivity]. destruct (_ <=? b)%Z eqn:E2; [|reflexivity]. cbn. eauto 7.
Qed.

Lemma tuple_check_spec n v :
  yields (fun _ => exists items, py_iter v = Some items /\ (v = PList items \/ v = PTuple items) /\ length items = n)
          (tuple_check n v).
Proof.
  unfold tuple_check. destruct (is_str_bytes_dict v) eqn:Es; [reflexivity|].
  destruct (py_len v) as [k|] eqn:El; [|reflexivity].
  destruct (seq_items v Es k El) as (items & Hi & Ej & ->).
  destruct (Z.eqb _ _) eqn:E; [|reflexivity]. apply Z.eqb_eq, Nat2Z.inj in E. cbn. eauto.
Qed.

(* nan / inf / an overflowing quotient are answered with RangeError; the int * float product
   after round() can not overflow because the rounded quotient of a finite binary64 number is representable
   (Base/F64Repr.v, fround_representable) *)
Lemma scaled_call_spec s v :
  yields (fun r => exists k kf, float_of_Z k = Some kf /\ r = PFloat (fmul kf s)) (scaled_call s v).
Proof.
  unfold scaled_call. destruct (py_add0 v) as [f|e]; [|reflexivity]. cbn [wrap_wrong].
  unfold py_round. destruct (fis_nan (fdiv f s)) eqn:En; [reflexivity|].
  destruct (fis_inf (fdiv f s)) eqn:Ei; [reflexivity|].
  assert (Fq : fis_finite (fdiv f s) = true) by (destruct (fdiv f s); cbn in *; congruence).
  destruct (fround_representable _ Fq) as [zf Hz]. unfold py_int_mul_float. rewrite Hz. cbn. eauto.
Qed.

Lemma scaled_call_form s v r : scaled_call s v = Ok (PFloat r) ->
  exists k kf, float_of_Z k = Some kf /\ r = fmul kf s.
Proof.
  intros H. destruct (yields_ok (scaled_call_spec s v) _ H) as (k & kf & Hk & E). inversion E. eauto.
Qed.

Lemma scaled_call_float scale v r : scaled_call scale v = Ok r -> exists f, r = PFloat f.
Proof. intros H. destruct (yields_ok (scaled_call_spec scale v) _ H) as (k & kf & _ & ->). eauto. Qed.

Lemma scaled_validate_spec s mn mx v :
  yields (fun x => exists r lo hi, scaled_call s v = Ok (PFloat r) /\ scaled_call s (PFloat mn) = Ok (PFloat lo) /\
             scaled_call s (PFloat mx) = Ok (PFloat hi) /\
             f_lt_num (fsub mn s) v && num_lt_f v (fadd mx s) = true /\ x = PFloat (fclamp lo r hi))
          (scaled_validate s mn mx v).
Proof.
  unfold scaled_validate.
  pose proof (scaled_call_spec s v) as H1. pose proof (scaled_call_spec s (PFloat mn)) as H2.
  pose proof (scaled_call_spec s (PFloat mx)) as H3.
  destruct (scaled_call s v) as [y|e]; [|exact H1]. destruct H1 as (k & kf & _ & ->).
  destruct (_ && _) eqn:T; [|reflexivity].
  destruct (scaled_call s (PFloat mn)) as [y|e]; [|exact H2]. destruct H2 as (k2 & kf2 & _ & ->).
  destruct (scaled_call s (PFloat mx)) as [y|e]; [|exact H3]. destruct H3 as (k3 & kf3 & _ & ->).
  cbn. eauto 9.
Qed.

(* the only remaining precondition: for a struct, the value currently held (previous) is None/empty or a dict, as
   it always is for a parameter of that type *)
Definition validate_guard (d : dtype) (v prev : pyval) : bool :=
  match d with
  | TStruct _ _ _ => negb (py_truthy prev) || is_dict prev
  | _ => true
  end.

Lemma struct_check_spec names opt c a v :
  yields (fun _ => exists kv, v = PDict kv /\ forall k x, In (k, x) kv -> mem_str k names = true)
          (struct_check names opt c a v).
Proof.
  destruct v; try reflexivity. unfold struct_check. destruct (existsb _ kv) eqn:E; [reflexivity|].
  match goal with |- context [match ?m with [] => _ | _ => _ end] => destruct m end; [|reflexivity].
  exists kv. split; [reflexivity|]. intros k x Hin. destruct (mem_str k names) eqn:M; [reflexivity|].
  rewrite <- E. apply existsb_exists. exists (k, x). cbn. rewrite M. auto.
Qed.

Lemma check_missing_okbad names opt a kv : okbad (check_missing names opt a kv) = true.
Proof.
  unfold check_missing.
  match goal with |- context [match ?m with [] => _ | _ => _ end] => destruct m end; reflexivity.
Qed.

Theorem validate_total d v prev : validate_guard d v prev = true -> okbad (dt_validate d v prev) = true.
Proof.
  destruct d as [| | | | | | | | |members optional client]; cbn [dt_validate validate_guard]; intros G.
  - apply (yields_okbad (float_validate_spec _ _ _ _ _)).
  - apply (yields_okbad (int_validate_spec _ _ _)).
  - apply (yields_okbad (scaled_validate_spec _ _ _ _)).
  - apply (yields_okbad (bool_call_spec _)).
  - apply (yields_okbad (enum_call_spec _ _)).
  - apply (yields_okbad (string_call_spec _ _ _ _)).
  - apply (yields_okbad (blob_call_spec _ _ _)).
  - apply okbad_bind; [apply (yields_okbad (array_check_spec _ _ _))|intros _].
    destruct (py_iter v); [|reflexivity].
    destruct (py_truthy prev).
    + destruct (py_iter prev); [|reflexivity]. apply okbad_bind_ok, okbad_wrap_elem.
    + apply okbad_bind_ok, okbad_wrap_elem.
  - apply okbad_bind; [apply (yields_okbad (tuple_check_spec _ _))|intros _].
    destruct (py_iter v); [|reflexivity].
    destruct prev; try (destruct (py_iter _); [|reflexivity]); apply okbad_bind_ok, okbad_wrap_elem.
  - pose proof (struct_check_spec (map fst members) optional client true v) as Hc.
    destruct (struct_check _ _ _ _ v) as [[]|e]; [|exact Hc]. destruct Hc as (kv0 & -> & _). cbn [bind is_dict negb].
    assert (Hfin : forall r : res (list (str * pyval)),
      okbad (wrap_elem r >>= (fun kv => check_missing (map fst members) optional true kv >>= (fun _ => Ok (PDict kv)))) = true).
    { intros r. apply okbad_bind; [apply okbad_wrap_elem|intros kv].
      apply okbad_bind; [apply check_missing_okbad|reflexivity]. }
    destruct (py_truthy prev); cbn in G.
    + destruct prev; try discriminate. apply Hfin.
    + apply Hfin.
Qed.

(* the declared value set (specification side).  For a struct: every member present is a declared member with a
   value of its type, and every member that is not optional is present *)
Fixpoint in_setb (d : dtype) (r : pyval) {struct d} : bool :=
  match d, r with
  | TFloat mn mx _ _, PFloat f => fle mn f && fle f mx
  | TInt mn mx, PInt z => (mn <=? z)%Z && (z <=? mx)%Z
  | TScaled s mn mx, PFloat f =>
      match scaled_call s (PFloat mn), scaled_call s (PFloat mx) with
      | Ok (PFloat lo), Ok (PFloat hi) => fle lo f && fle f hi
      | _, _ => false
      end
  | TBool, PBool _ => true
  | TEnum ms, PEnum n z => existsb (fun p => str_eqb n (fst p) && Z.eqb z (snd p)) ms
  | TString a b u, PStr s => str_ok a b u s
  | TBlob a b, PBytes s => (a <=? Z.of_nat (length s))%Z && (Z.of_nat (length s) <=? b)%Z
  | TArray e a b, PTuple l =>
      (a <=? Z.of_nat (length l))%Z && (Z.of_nat (length l) <=? b)%Z && forallb (in_setb e) l
  | TTuple es, PTuple l =>
      (fix go (ds : list dtype) (l : list pyval) : bool :=
         match ds, l with
         | [], [] => true
         | d1 :: ds', x :: r => in_setb d1 x && go ds' r
         | _, _ => false
         end) es l
  | TStruct ms opt _, PDict kv =>
      forallb (fun p : str * pyval =>
                 (fix find (ms : list (str * dtype)) : bool :=
                    match ms with
                    | [] => false
                    | (n, d1) :: ms' => if str_eqb (fst p) n then in_setb d1 (snd p) else find ms'
                    end) ms) kv &&
      forallb (fun n => mem_str n opt || mem_str n (map fst kv)) (map fst ms)
  | _, _ => false
  end.

(* what the constructors guarantee / what the property assumes of a datatype *)
Fixpoint wf (d : dtype) : Prop :=
  match d with
  | TFloat mn mx _ _ => fle mn mx = true
  | TScaled s mn mx =>
      match scaled_call s (PFloat mn), scaled_call s (PFloat mx) with
      | Ok (PFloat lo), Ok (PFloat hi) => fle lo hi && fis_finite s
      | _, _ => false
      end = true
  | TArray e _ _ => wf e
  | TTuple es => (fix go (l : list dtype) : Prop := match l with [] => True | x :: r => wf x /\ go r end) es
  | TStruct ms _ _ =>
      (fix go (l : list (str * dtype)) : Prop := match l with [] => True | x :: r => wf (snd x) /\ go r end) ms
  | _ => True
  end.

(* the previous value is None or a value the parameter may hold *)
Definition prev_ok (d : dtype) (p : pyval) : Prop := p = PNone \/ in_setb d p = true.

Lemma fis_finite_is_finite (a : f64) : fis_finite a = BinarySingleNaN.is_finite a.
Proof. exact (fis_finite_is_finite' a). Qed.

Lemma fmul_finite_notnan (a b : f64) : fis_finite a = true -> fis_finite b = true -> notnan (fmul a b).
Proof.
  intros Fa Fb. rewrite fis_finite_is_finite in Fa. rewrite fis_finite_is_finite in Fb. unfold notnan, fmul.
  pose proof (BinarySingleNaN.Bmult_correct prec emax _ _ BinarySingleNaN.mode_NE a b) as H.
  destruct (Raux.Rlt_bool _ _).
  - destruct H as (_ & Hf & _). rewrite Fa, Fb in Hf.
    destruct (BinarySingleNaN.Bmult _ a b); cbn in *; try discriminate; reflexivity.
  - destruct (BinarySingleNaN.Bmult _ a b); cbn in *; try discriminate; reflexivity.
Qed.

Lemma float_of_Z_finite z f : float_of_Z z = Some f -> fis_finite f = true.
Proof. unfold float_of_Z. destruct (fis_finite (of_Z z)) eqn:E; intros H; inversion H; subst; exact E. Qed.

Lemma scaled_call_notnan s v f : fis_finite s = true -> scaled_call s v = Ok (PFloat f) -> notnan f.
Proof.
  intros Fs H. destruct (scaled_call_form _ _ _ H) as (k & kf & Hk & ->).
  apply fmul_finite_notnan; [eapply float_of_Z_finite; eauto|exact Fs].
Qed.

Definition container (d : dtype) : bool :=
  match d with TArray _ _ _ | TTuple _ | TStruct _ _ _ => true | _ => false end.

Lemma float_validate_sound mn mx a r v x :
  fle mn mx = true -> float_validate mn mx a r v = Ok x -> in_setb (TFloat mn mx a r) x = true.
Proof.
  intros Hw H. destruct (yields_ok (float_validate_spec _ _ _ _ _) _ H) as (f & _ & T & ->).
  apply andb_prop in T. destruct T as [T _].
  destruct (fle_true_notnan _ _ T) as [_ Hf]. destruct (fle_true_notnan _ _ Hw) as [Hmn Hmx].
  destruct (fclamp_between mn f mx Hmn Hf Hmx Hw) as (A & B & _). cbn. rewrite A, B. reflexivity.
Qed.

Lemma scaled_validate_sound s mn mx v x :
  wf (TScaled s mn mx) -> scaled_validate s mn mx v = Ok x -> in_setb (TScaled s mn mx) x = true.
Proof.
  intros Hw H. destruct (yields_ok (scaled_validate_spec _ _ _ _) _ H) as (f & lo & hi & Ef & Hlo & Hhi & _ & ->).
  cbn [wf in_setb] in *. rewrite Hlo, Hhi in *. apply andb_prop in Hw. destruct Hw as [Hle Fs].
  destruct (fle_true_notnan _ _ Hle) as [Nlo Nhi].
  destruct (fclamp_between lo f hi Nlo (scaled_call_notnan s v f Fs Ef) Nhi Hle) as (A & B & _).
  rewrite A, B. reflexivity.
Qed.

Lemma str_eqb_refl s : str_eqb s s = true.
Proof. unfold str_eqb. induction s as [|c s IH]; cbn; [reflexivity|]. rewrite N.eqb_refl. exact IH. Qed.

Lemma leaf_sound d v p r : wf d -> container d = false -> dt_validate d v p = Ok r -> in_setb d r = true.
Proof.
  intros Hwf. destruct d; try discriminate; intros _; cbn [dt_validate]; intros H.
  - exact (float_validate_sound _ _ _ _ _ _ Hwf H).
  - destruct (yields_ok (int_validate_spec _ _ _) _ H) as (z & _ & T & ->). exact T.
  - exact (scaled_validate_sound _ _ _ _ _ Hwf H).
  - destruct (yields_ok (bool_call_spec _) _ H) as [b ->]. reflexivity.
  - destruct (yields_ok (enum_call_spec _ _) _ H) as (n & z & -> & Hin). apply existsb_exists. exists (n, z).
    split; [exact Hin|]. cbn. rewrite str_eqb_refl, Z.eqb_refl. reflexivity.
  - destruct (yields_ok (string_call_spec _ _ _ _) _ H) as (s & _ & -> & Hs). exact Hs.
  - destruct (yields_ok (blob_call_spec _ _ _) _ H) as (s & _ & -> & Hs). exact Hs.
Qed.

Lemma wrap_elem_ok {A} (r : res A) a : wrap_elem r = Ok a -> r = Ok a.
Proof. destruct r as [x|[]]; cbn; intros H; try discriminate; exact H. Qed.

Lemma bind_ok {A B} (r : res A) (f : A -> res B) b : r >>= f = Ok b -> exists a, r = Ok a /\ f a = Ok b.
Proof. destruct r as [a|e]; cbn; [eauto|discriminate]. Qed.

(* the shape of every container result: the members' results, wrapped *)
Lemma wrap_bind_ok {A B} (r : res A) (f : A -> B) b :
  wrap_elem r >>= (fun a => Ok (f a)) = Ok b -> exists a, r = Ok a /\ b = f a.
Proof. destruct r as [a|[]]; cbn; intros H; inversion H; eauto. Qed.

(* one step of the iteration combinators *)
Lemma cons_ok {A} (r : res A) (rs : res (list A)) out :
  r >>= (fun y => rs >>= fun ys => Ok (y :: ys)) = Ok out -> exists y ys, r = Ok y /\ rs = Ok ys /\ out = y :: ys.
Proof. destruct r as [y|]; [|discriminate]. destruct rs as [ys|]; [|discriminate]. intros H; inversion H. eauto. Qed.

Lemma map_res_sound (f : pyval -> res pyval) (Q : pyval -> bool) :
  (forall x r, f x = Ok r -> Q r = true) ->
  forall items ys, map_res f items = Ok ys -> length ys = length items /\ forallb Q ys = true.
Proof.
  intros Hf. induction items as [|x items IH]; intros ys; cbn.
  - intros H; inversion H; auto.
  - intros H. destruct (cons_ok _ _ _ H) as (y & ys' & Hy & Hys & ->).
    destruct (IH ys' Hys) as [L F]. cbn. rewrite L, F, (Hf x y Hy). auto.
Qed.

Lemma map2_res_sound (f : pyval -> pyval -> res pyval) (Pp : pyval -> Prop) (Q : pyval -> bool) :
  (forall x p r, Pp p -> f x p = Ok r -> Q r = true) ->
  forall items ps ys, Forall Pp ps ->
  map2_res f items ps = Ok ys -> length ys = Nat.min (length items) (length ps) /\ forallb Q ys = true.
Proof.
  intros Hf. induction items as [|x items IH]; intros ps ys HP; cbn.
  - intros H; inversion H; auto.
  - destruct ps as [|p ps]; [intros H; inversion H; auto|].
    inversion HP as [|? ? Hp HP']; subst.
    intros H. destruct (cons_ok _ _ _ H) as (y & ys' & Hy & Hys & ->).
    destruct (IH ps ys' HP' Hys) as [L F]. cbn. rewrite L, F, (Hf x p y); auto.
Qed.

(* Forall2-like: the element types and the results, pairwise *)
Fixpoint all2 (Q : dtype -> pyval -> bool) (ds : list dtype) (l : list pyval) : bool :=
  match ds, l with
  | [], [] => true
  | d1 :: ds', x :: r => Q d1 x && all2 Q ds' r
  | _, _ => false
  end.

(* the value predicates are nested fixpoints and spell the same recursion out inside their tuple case; all2 takes the
   predicate as an argument of its fix, so the two are equal but not convertible *)
Lemma all2_fix (Q : dtype -> pyval -> bool) es l :
  (fix go (ds : list dtype) (l : list pyval) : bool :=
     match ds, l with
     | [], [] => true
     | d1 :: ds', x :: r => Q d1 x && go ds' r
     | _, _ => false
     end) es l = all2 Q es l.
Proof.
  revert l. induction es as [|d1 es IH]; destruct l as [|x l]; cbn; try reflexivity. rewrite IH. reflexivity.
Qed.

Lemma mapd_res_sound (f : dtype -> pyval -> res pyval) (Q : dtype -> pyval -> bool) :
  forall ds items ys, length items = length ds ->
  Forall (fun d1 => forall x r, f d1 x = Ok r -> Q d1 r = true) ds ->
  mapd_res f ds items = Ok ys -> all2 Q ds ys = true.
Proof.
  induction ds as [|d1 ds IH]; intros items ys L HF; cbn.
  - destruct items; [|discriminate]. intros H; inversion H; reflexivity.
  - destruct items as [|x items]; [discriminate|]. inversion HF as [|? ? H1 HF']; subst.
    intros H. destruct (cons_ok _ _ _ H) as (y & ys' & Hy & Hys & ->).
    cbn. rewrite (H1 x y Hy). cbn. eapply IH; eauto.
Qed.

Lemma mapd2_res_sound (f : dtype -> pyval -> pyval -> res pyval) (Qp Q : dtype -> pyval -> bool) :
  forall ds items ps ys, length items = length ds -> all2 Qp ds ps = true ->
  Forall (fun d1 => forall x p r, Qp d1 p = true -> f d1 x p = Ok r -> Q d1 r = true) ds ->
  mapd2_res f ds items ps = Ok ys -> all2 Q ds ys = true.
Proof.
  induction ds as [|d1 ds IH]; intros items ps ys L HP HF; cbn.
  - destruct items; [|discriminate]. intros H; inversion H; reflexivity.
  - destruct items as [|x items]; [discriminate|]. destruct ps as [|p ps]; [discriminate|].
    cbn in HP. apply andb_prop in HP. destruct HP as [Hp HP]. inversion HF as [|? ? H1 HF']; subst.
    intros H. destruct (cons_ok _ _ _ H) as (y & ys' & Hy & Hys & ->).
    cbn. rewrite (H1 x p y Hp Hy). cbn. eapply IH; eauto.
Qed.

(* membership of a struct entry in the declared members with a value of the member's type *)
Definition entry_ok (Q : dtype -> pyval -> bool) (ms : list (str * dtype)) (p : str * pyval) : bool :=
  (fix find (ms : list (str * dtype)) : bool :=
     match ms with
     | [] => false
     | (n, d1) :: ms' => if str_eqb (fst p) n then Q d1 (snd p) else find ms'
     end) ms.

Lemma entry_ok_cons (Q : dtype -> pyval -> bool) n d1 ms k y :
  entry_ok Q ((n, d1) :: ms) (k, y) = if str_eqb k n then Q d1 y else entry_ok Q ms (k, y).
Proof. reflexivity. Qed.
Lemma member_res_cons (f : dtype -> pyval -> res pyval) k x n d1 ms :
  member_res f k x ((n, d1) :: ms) = if str_eqb k n then f d1 x else member_res f k x ms.
Proof. reflexivity. Qed.

Lemma member_res_sound (f : dtype -> pyval -> res pyval) (Q : dtype -> pyval -> bool) k x :
  forall ms y, Forall (fun m => forall x r, f (snd m) x = Ok r -> Q (snd m) r = true) ms ->
  member_res f k x ms = Ok y -> entry_ok Q ms (k, y) = true.
Proof.
  induction ms as [|[n d1] ms IH]; intros y HF; [discriminate|].
  inversion HF as [|? ? H1 HF']; subst. rewrite member_res_cons, entry_ok_cons.
  destruct (str_eqb k n); [apply H1|apply IH; exact HF'].
Qed.

Lemma str_eqb_eq a b : str_eqb a b = true -> a = b.
Proof.
  unfold str_eqb. revert b. induction a as [|x a IH]; destruct b as [|y b]; cbn; try discriminate; auto.
  intros H. apply andb_prop in H. destruct H as [H1 H2]. apply N.eqb_eq in H1. subst. f_equal. auto.
Qed.

Lemma dict_set_ok (Q : dtype -> pyval -> bool) ms k y :
  forall acc, forallb (entry_ok Q ms) acc = true -> entry_ok Q ms (k, y) = true ->
  forallb (entry_ok Q ms) (dict_set k y acc) = true.
Proof.
  induction acc as [|[k' v'] acc IH]; cbn; intros Ha Hk.
  - rewrite Hk. reflexivity.
  - apply andb_prop in Ha. destruct Ha as [H1 H2].
    destruct (str_eqb k k'); cbn; [rewrite Hk, H2; reflexivity|rewrite H1; cbn; apply IH; assumption].
Qed.

(* what every member assignment preserves, the member loop preserves *)
Lemma struct_fold_inv (f : dtype -> pyval -> res pyval) skip ms (I : list (str * pyval) -> Prop) :
  (forall k x y acc, member_res f k x ms = Ok y -> I acc -> I (dict_set k y acc)) ->
  forall kv acc out, I acc -> struct_fold f skip ms kv acc = Ok out -> I out.
Proof.
  intros HI. induction kv as [|[k x] kv IH]; intros acc out Ha; cbn.
  - intros H; inversion H; subst; exact Ha.
  - assert (Hgen : member_res f k x ms >>= (fun y => struct_fold f skip ms kv (dict_set k y acc)) = Ok out -> I out).
    { intros H. apply bind_ok in H. destruct H as (y & Hy & H). eapply IH; [|exact H]. eapply HI; eauto. }
    destruct x; try exact Hgen. destruct skip; [apply IH; exact Ha|exact Hgen].
Qed.

Lemma in_setb_tuple es l : in_setb (TTuple es) (PTuple l) = all2 in_setb es l.
Proof. exact (all2_fix in_setb es l). Qed.

Lemma in_setb_struct ms o c kv :
  in_setb (TStruct ms o c) (PDict kv) =
  forallb (entry_ok in_setb ms) kv && forallb (fun n => mem_str n o || mem_str n (map fst kv)) (map fst ms).
Proof. reflexivity. Qed.

(* nothing is missing exactly when every member is optional or present *)
Lemma missing_nil names opt present :
  filter (fun n => negb (mem_str n opt)) (filter (fun n => negb (mem_str n present)) names) = [] <->
  forallb (fun n => mem_str n opt || mem_str n present) names = true.
Proof.
  induction names as [|n names IH]; cbn; [tauto|].
  destruct (mem_str n present); cbn; rewrite ?orb_true_r, ?orb_false_r; [exact IH|].
  destruct (mem_str n opt); cbn; [exact IH|]. split; discriminate.
Qed.

Lemma check_missing_present names opt kv :
  check_missing names opt true kv = Ok tt -> forallb (fun n => mem_str n opt || mem_str n (map fst kv)) names = true.
Proof.
  unfold check_missing. intros H. apply missing_nil. destruct (filter _ (filter _ names)); [reflexivity|discriminate].
Qed.

Lemma dict_set_keys {A} k (v : A) acc k0 :
  mem_str k0 (map fst (dict_set k v acc)) = mem_str k0 (map fst acc) || str_eqb k0 k.
Proof.
  induction acc as [|[k' v'] acc IH]; cbn; [apply orb_comm|].
  destruct (str_eqb k k') eqn:E; cbn.
  - apply str_eqb_eq in E. subst k'. destruct (str_eqb k0 k); cbn; [reflexivity|]. rewrite orb_false_r. reflexivity.
  - rewrite IH. rewrite orb_assoc. reflexivity.
Qed.

Lemma nodup_dict_set {A} k (v : A) acc :
  nodup_str (map fst acc) = true -> nodup_str (map fst (dict_set k v acc)) = true.
Proof.
  induction acc as [|[k' v'] acc IH]; cbn; [reflexivity|]. intros Hd.
  apply andb_prop in Hd. destruct Hd as [Hf Hd].
  destruct (str_eqb k k') eqn:E; cbn.
  - apply str_eqb_eq in E. subst k'. rewrite Hf, Hd. reflexivity.
  - rewrite (IH Hd). rewrite dict_set_keys.
    destruct (mem_str k' (map fst acc)); [discriminate|]. cbn.
    destruct (str_eqb k' k) eqn:E2; [|reflexivity].
    apply str_eqb_eq in E2. subst. rewrite str_eqb_refl in E. discriminate.
Qed.

(* in_setb above and canon, stable, scaled_ok of IdemDefs.v treat arrays, tuples and structs alike - every member
   satisfies the same predicate - and differ at the leaves (L) and in the shape checks they add (checks).  lift is
   that scheme and lift_intro shows a predicate to be an instance of it, so that what is proved of lift (lift_meet,
   validate_lift) is proved of all four. *)

(* array length within the bounds, keys distinct, mandatory members present *)
Record checks := { c_len : bool; c_dup : bool; c_mand : bool }.
Definition checks_le (c' c : checks) : bool :=
  implb (c_len c') (c_len c) && implb (c_dup c') (c_dup c) && implb (c_mand c') (c_mand c).

Definition mandatory (names opt keys : list str) : bool :=
  forallb (fun n => mem_str n opt || mem_str n keys) names.

Fixpoint lift (L : dtype -> pyval -> bool) (c : checks) (d : dtype) (w : pyval) {struct d} : bool :=
  match d with
  | TArray e a b =>
      match w with
      | PTuple l =>
          implb (c_len c) ((a <=? Z.of_nat (length l))%Z && (Z.of_nat (length l) <=? b)%Z) && forallb (lift L c e) l
      | _ => false
      end
  | TTuple es =>
      match w with
      | PTuple l =>
          (fix go (ds : list dtype) (l : list pyval) : bool :=
             match ds, l with
             | [], [] => true
             | d1 :: ds', x :: r => lift L c d1 x && go ds' r
             | _, _ => false
             end) es l
      | _ => false
      end
  | TStruct ms opt _ =>
      match w with
      | PDict kv =>
          implb (c_dup c) (nodup_str (map fst kv)) && implb (c_mand c) (mandatory (map fst ms) opt (map fst kv)) &&
          forallb (fun p : str * pyval =>
                     (fix find (ms : list (str * dtype)) : bool :=
                        match ms with
                        | [] => false
                        | (n, d1) :: ms' => if str_eqb (fst p) n then lift L c d1 (snd p) else find ms'
                        end) ms) kv
      | _ => false
      end
  | _ => L d w
  end.

Lemma lift_tuple L c es l : lift L c (TTuple es) (PTuple l) = all2 (lift L c) es l.
Proof. exact (all2_fix (lift L c) es l). Qed.

Lemma lift_struct L c ms o cl kv :
  lift L c (TStruct ms o cl) (PDict kv) =
  implb (c_dup c) (nodup_str (map fst kv)) && implb (c_mand c) (mandatory (map fst ms) o (map fst kv)) &&
  forallb (entry_ok (lift L c) ms) kv.
Proof. reflexivity. Qed.

Lemma forallb_meet {A} (f g h : A -> bool) l :
  (forall x, In x l -> f x = true -> g x = true -> h x = true) ->
  forallb f l = true -> forallb g l = true -> forallb h l = true.
Proof.
  intros H F G. apply forallb_forall. intros x Hx. rewrite forallb_forall in F, G. auto.
Qed.

Lemma all2_meet (Q1 Q2 Q3 : dtype -> pyval -> bool) ds :
  Forall (fun d => forall w, Q1 d w = true -> Q2 d w = true -> Q3 d w = true) ds ->
  forall l, all2 Q1 ds l = true -> all2 Q2 ds l = true -> all2 Q3 ds l = true.
Proof.
  induction 1 as [|d1 ds H1 _ IH]; destruct l as [|x l]; cbn; try discriminate; [reflexivity|].
  intros A B. apply andb_prop in A. apply andb_prop in B. rewrite (H1 x), IH; tauto.
Qed.

Lemma entry_ok_meet (Q1 Q2 Q3 : dtype -> pyval -> bool) ms :
  Forall (fun m => forall w, Q1 (snd m) w = true -> Q2 (snd m) w = true -> Q3 (snd m) w = true) ms ->
  forall p, entry_ok Q1 ms p = true -> entry_ok Q2 ms p = true -> entry_ok Q3 ms p = true.
Proof.
  intros HF [k y]. induction HF as [|[n d1] ms H1 _ IH]; [discriminate|]. rewrite !entry_ok_cons.
  destruct (str_eqb k n); [apply H1|exact IH].
Qed.

Lemma all2_ext (Q1 Q2 : dtype -> pyval -> bool) ds :
  Forall (fun d => forall w, Q1 d w = Q2 d w) ds -> forall l, all2 Q1 ds l = all2 Q2 ds l.
Proof.
  induction 1 as [|d1 ds H1 _ IH]; destruct l as [|x l]; cbn; try reflexivity. rewrite H1, IH. reflexivity.
Qed.

Lemma entry_ok_ext (Q1 Q2 : dtype -> pyval -> bool) ms :
  Forall (fun m => forall w, Q1 (snd m) w = Q2 (snd m) w) ms -> forall p, entry_ok Q1 ms p = entry_ok Q2 ms p.
Proof.
  intros HF [k y]. induction HF as [|[n d1] ms H1 _ IH]; [reflexivity|]. rewrite !entry_ok_cons, IH, H1. reflexivity.
Qed.

Lemma forallb_ext_in {A} (f g : A -> bool) l : (forall x, In x l -> f x = g x) -> forallb f l = forallb g l.
Proof.
  induction l as [|x l IH]; intros H; cbn; [reflexivity|]. rewrite (H x), IH; auto using in_eq, in_cons.
Qed.

(* a predicate that obeys the three container equations is the lift of itself *)
Lemma lift_intro (R : dtype -> pyval -> bool) c :
  (forall e a b w, R (TArray e a b) w =
     match w with
     | PTuple l => implb (c_len c) ((a <=? Z.of_nat (length l))%Z && (Z.of_nat (length l) <=? b)%Z) && forallb (R e) l
     | _ => false
     end) ->
  (forall es w, R (TTuple es) w = match w with PTuple l => all2 R es l | _ => false end) ->
  (forall ms o cl w, R (TStruct ms o cl) w =
     match w with
     | PDict kv => implb (c_dup c) (nodup_str (map fst kv)) &&
                   implb (c_mand c) (mandatory (map fst ms) o (map fst kv)) && forallb (entry_ok R ms) kv
     | _ => false
     end) ->
  forall d w, R d w = lift R c d w.
Proof.
  intros Ha Ht Hs. induction d as [ | | | | | | |e a b IHe|es IHes|ms o cl IHms] using dtype_nested_ind; intros w; try reflexivity.
  - rewrite Ha. destruct w; try reflexivity. cbn [lift]. f_equal. apply forallb_ext_in. intros; apply IHe.
  - rewrite Ht. destruct w; try reflexivity. rewrite lift_tuple. apply all2_ext, IHes.
  - rewrite Hs. destruct w; try reflexivity. rewrite lift_struct. f_equal. apply forallb_ext_in. intros; apply entry_ok_ext, IHms.
Qed.

(* a condition on datatypes that passes from a container type to its member types *)
Definition closed (W : dtype -> Prop) : Prop :=
  (forall e a b, W (TArray e a b) -> W e) /\
  (forall es, W (TTuple es) -> Forall W es) /\
  (forall ms o c, W (TStruct ms o c) -> Forall (fun m => W (snd m)) ms).

Lemma closed_wf : closed wf.
Proof.
  split; [auto|split].
  - induction es as [|d1 es IH]; constructor; [apply H|apply IH, H].
  - induction ms as [|m ms IH]; constructor; [apply H|apply (IH o c), H].
Qed.

Lemma closed_forallb (f : dtype -> bool) :
  (forall e a b, f (TArray e a b) = f e) -> (forall es, f (TTuple es) = forallb f es) ->
  (forall ms o c, f (TStruct ms o c) = forallb (fun m => f (snd m)) ms) -> closed (fun d => f d = true).
Proof.
  intros Ha Ht Hs. split; [|split].
  - intros e a b. rewrite Ha. auto.
  - intros es. rewrite Ht. intros H. apply Forall_forall, forallb_forall, H.
  - intros ms o c. rewrite Hs. intros H. apply Forall_forall, forallb_forall, H.
Qed.

Lemma closed_and (W1 W2 : dtype -> Prop) : closed W1 -> closed W2 -> closed (fun d => W1 d /\ W2 d).
Proof.
  intros (A1 & T1 & S1) (A2 & T2 & S2). split; [|split].
  - intros e a b [H1 H2]. eauto.
  - intros es [H1 H2]. apply Forall_and; auto.
  - intros ms o c [H1 H2]. apply Forall_and; eauto.
Qed.

Lemma implb_le a' a x : implb a' a = true -> implb a x = true -> implb a' x = true.
Proof. destruct a', a; auto; discriminate. Qed.

Section Lift.
  Variable W : dtype -> Prop.
  Hypothesis W_closed : closed W.

  (* what holds leaf by leaf holds of the lifted predicates; lift_mono below is the case La = Lb *)
  Lemma lift_meet La Lb Lc ca cb cc :
    (forall d w, W d -> container d = false -> La d w = true -> Lb d w = true -> Lc d w = true) ->
    checks_le cc ca = true ->
    forall d, W d -> forall w, lift La ca d w = true -> lift Lb cb d w = true -> lift Lc cc d w = true.
  Proof.
    intros HL Hc. destruct W_closed as (Wa & Wt & Ws).
    apply andb_prop in Hc. destruct Hc as [Hc Hm]. apply andb_prop in Hc. destruct Hc as [Hl Hd].
    induction d as [ | | | | | | |e a b IHe|es IHes|ms o cl IHms] using dtype_nested_ind; intros HW w; try (apply HL; [exact HW|reflexivity]).
    - destruct w; try discriminate. cbn [lift]. intros A B.
      apply andb_prop in A. destruct A as [A1 A2]. apply andb_prop in B. destruct B as [_ B2].
      rewrite (implb_le _ _ _ Hl A1). eapply forallb_meet; [|exact A2|exact B2]. intros x _. apply IHe. eauto.
    - destruct w; try discriminate. rewrite !lift_tuple. apply all2_meet.
      eapply Forall_impl; [|exact (Forall_and IHes (Wt _ HW))]. cbn. intros d1 [IH HW1] x. auto.
    - destruct w; try discriminate. rewrite !lift_struct. intros A B.
      apply andb_prop in A. destruct A as [A A3]. apply andb_prop in A. destruct A as [A1 A2].
      apply andb_prop in B. destruct B as [_ B3].
      rewrite (implb_le _ _ _ Hd A1), (implb_le _ _ _ Hm A2). eapply forallb_meet; [|exact A3|exact B3].
      intros p _. apply entry_ok_meet.
      eapply Forall_impl; [|exact (Forall_and IHms (Ws _ _ _ HW))]. cbn. intros m [IH HW1] x. auto.
  Qed.

  Lemma lift_mono L L' c c' :
    (forall d w, W d -> container d = false -> L d w = true -> L' d w = true) ->
    checks_le c' c = true ->
    forall d, W d -> forall w, lift L c d w = true -> lift L' c' d w = true.
  Proof. intros HL Hc d HW w H. exact (lift_meet L L L' c c c' (fun d0 w0 H0 Hd A _ => HL d0 w0 H0 Hd A) Hc d HW w H H). Qed.

  (* validate establishes a lifted predicate as soon as the leaf validations do.  The previous value, None or one that
     satisfies lift L c, hands its members down to the members of arrays and tuples and starts the member loop of a
     struct: there what satisfied L stays in the result, hence L -> L' at the leaves and c' <= c. *)
  Theorem validate_lift L L' c c' :
    (forall d w, W d -> container d = false -> L d w = true -> L' d w = true) ->
    (forall d v p r, W d -> container d = false -> dt_validate d v p = Ok r -> L' d r = true) ->
    checks_le c' c = true ->
    forall d, W d -> forall v prev r, prev = PNone \/ lift L c d prev = true ->
    dt_validate d v prev = Ok r -> lift L' c' d r = true.
  Proof.
    intros HL Hleaf Hc. pose proof (lift_mono L L' c c' HL Hc) as PQ.
    destruct W_closed as (Wa & Wt & Ws).
    induction d as [ | | | | | | |e a b IHe|es IHes|ms o cl IHms] using dtype_nested_ind; intros HW v prev r Hprev; try (apply Hleaf; [exact HW|reflexivity]);
      cbn [dt_validate]; intros Hr; apply bind_ok in Hr; destruct Hr as ([] & Hchk & Hr).
    - (* array: the previous elements, padded with None, are None or satisfy L *)
      destruct (yields_ok (array_check_spec a b v) _ Hchk) as (items & Hi & _ & La & Lb). rewrite Hi in Hr.
      assert (Hfin : forall ys, length ys = length items -> forallb (lift L' c' e) ys = true ->
                lift L' c' (TArray e a b) (PTuple ys) = true).
      { intros ys E F. cbn [lift]. rewrite E, La, Lb, F. apply andb_true_intro. split; [apply implb_true_r|reflexivity]. }
      destruct (py_truthy prev) eqn:Ht.
      + destruct Hprev as [->|Hp]; [discriminate|]. destruct prev; try discriminate.
        cbn [lift] in Hp. apply andb_prop in Hp. destruct Hp as [_ Hp].
        cbn [py_iter] in Hr. destruct (wrap_bind_ok _ _ _ Hr) as (ys & Hys & ->).
        assert (HP : Forall (fun p => p = PNone \/ lift L c e p = true) (l ++ repeat PNone (length items - length l))).
        { apply Forall_app. split; apply Forall_forall; intros p Hin.
          - right. rewrite forallb_forall in Hp. auto.
          - left. eapply repeat_spec, Hin. }
        destruct (map2_res_sound _ _ (lift L' c' e) (fun x p r => IHe (Wa _ _ _ HW) x p r) _ _ _ HP Hys) as [E F].
        apply Hfin; [|exact F]. rewrite E, app_length, repeat_length. lia.
      + destruct (wrap_bind_ok _ _ _ Hr) as (ys & Hys & ->).
        destruct (map_res_sound (fun x => dt_validate e x PNone) (lift L' c' e)) with (2 := Hys) as [E F];
          [intros x r; apply (IHe (Wa _ _ _ HW)); auto|]. apply Hfin; assumption.
    - destruct (yields_ok (tuple_check_spec _ v) _ Hchk) as (items & Hi & _ & E). rewrite Hi in Hr.
      pose proof (Forall_and IHes (Wt _ HW)) as IH.
      destruct prev; try (destruct Hprev; discriminate).
      + destruct (wrap_bind_ok _ _ _ Hr) as (ys & Hys & ->).
        rewrite lift_tuple. eapply mapd_res_sound; [exact E| |exact Hys].
        eapply Forall_impl; [|exact IH]. cbn. intros d1 [IH1 HW1] x r. apply IH1; auto.
      + destruct Hprev as [|Hp]; [discriminate|]. rewrite lift_tuple in Hp. cbn [py_iter] in Hr.
        destruct (wrap_bind_ok _ _ _ Hr) as (ys & Hys & ->).
        rewrite lift_tuple. eapply mapd2_res_sound; [exact E|exact Hp| |exact Hys].
        eapply Forall_impl; [|exact IH]. cbn. intros d1 [IH1 HW1] x p r Hpp. apply IH1; auto.
    - (* struct: the members held so far carry over, the keys stay distinct, check_missing has passed *)
      pose proof (Forall_and IHms (Ws _ _ _ HW)) as IH.
      assert (Hstart : forall start, (if py_truthy prev then match prev with PDict kv => Some kv | _ => None end else Some [])
                          = Some start ->
                implb (c_dup c') (nodup_str (map fst start)) = true /\ forallb (entry_ok (lift L' c' ) ms) start = true).
      { intros start. destruct (py_truthy prev).
        - destruct Hprev as [->|Hp]; [discriminate|]. destruct prev; try discriminate.
          intros Es; inversion Es; subst kv. pose proof (PQ _ HW _ Hp) as Hq. rewrite lift_struct in Hq.
          apply andb_prop in Hq. destruct Hq as [Hq Hq3]. apply andb_prop in Hq. destruct Hq as [Hq1 _]. auto.
        - intros Es; inversion Es. split; [apply implb_true_r|reflexivity]. }
      destruct (if py_truthy prev then _ else _) as [start|]; [|discriminate].
      destruct (Hstart start eq_refl) as [Hs1 Hs2].
      destruct (negb (is_dict v)); [discriminate|].
      apply bind_ok in Hr. destruct Hr as (kv & Hkv & Hr). apply wrap_elem_ok in Hkv.
      apply bind_ok in Hr. destruct Hr as ([] & Hmiss & Hr). inversion Hr; subst r.
      rewrite lift_struct. repeat (apply andb_true_intro; split).
      + destruct (c_dup c'); [|reflexivity].
        refine (struct_fold_inv _ _ _ (fun acc => nodup_str (map fst acc) = true) _ _ _ _ Hs1 Hkv).
        intros k x y acc _. apply nodup_dict_set.
      + unfold mandatory. rewrite (check_missing_present _ _ _ Hmiss). apply implb_true_r.
      + refine (struct_fold_inv _ _ _ (fun acc => forallb (entry_ok (lift L' c') ms) acc = true) _ _ _ _ Hs2 Hkv).
        intros k x y acc Hy Ha. apply dict_set_ok; [exact Ha|]. eapply member_res_sound; [|exact Hy].
        eapply Forall_impl; [|exact IH]. cbn. intros m [IH1 HW1] x0 r. apply IH1; auto.
  Qed.
End Lift.

Lemma closed_all : closed (fun _ => True).
Proof. split; [auto|split]; intros; apply Forall_forall; auto. Qed.

Definition sound_checks := {| c_len := true; c_dup := false; c_mand := true |}.
Lemma in_setb_lift d w : in_setb d w = lift in_setb sound_checks d w.
Proof.
  apply lift_intro.
  - reflexivity.
  - intros es []; try reflexivity. apply in_setb_tuple.
  - intros ms o cl []; try reflexivity. rewrite in_setb_struct. apply andb_comm.
Qed.

(* soundness: whatever is offered and whatever valid value is currently held, a value that validate returns lies in the
   declared value set.  Unbounded depth and width. *)
Theorem validate_sound : forall d, wf d -> forall v prev r,
  prev_ok d prev -> dt_validate d v prev = Ok r -> in_setb d r = true.
Proof.
  intros d Hwf v prev r Hp. rewrite in_setb_lift. unfold prev_ok in Hp. rewrite in_setb_lift in Hp.
  apply validate_lift with (W := wf) (L := in_setb) (c := sound_checks) (prev := prev);
    [exact closed_wf|auto|exact leaf_sound|reflexivity|exact Hwf|exact Hp].
Qed.

(* what wire returns, validate returns for the imported value *)
Lemma wire_validate E d j prev r : wire E d j prev = Ok r -> exists v, dt_validate d v prev = Ok r.
Proof. intros H. apply bind_ok in H. destruct H as (v & _ & H). eauto. Qed.

Corollary wire_sound E d : wf d -> forall j prev r, prev_ok d prev -> wire E d j prev = Ok r -> in_setb d r = true.
Proof. intros Hwf j prev r Hp H. destruct (wire_validate _ _ _ _ _ H) as [v Hv]. exact (validate_sound d Hwf v prev r Hp Hv). Qed.

Lemma scaled_import_okbad E s v : okbad (scaled_import E s v) = true.
Proof. unfold scaled_import. apply okbad_wrap_wrong. Qed.
Lemma blob_import_okbad E v : okbad (blob_import E v) = true.
Proof. destruct v; cbn; try reflexivity; destruct (lookup_sb _ _ _); reflexivity. Qed.

Definition is_whole (f : f64) : bool :=
  fis_finite f && match cmp_Z_f (ftrunc f) f with Some Eq => true | _ => false end.
Definition is_number (j : pyval) : bool := match j with PBool _ | PInt _ | PFloat _ => true | _ => false end.

(* the JSON kinds (plus their Python-side equivalents) that may denote a value of the type *)
Fixpoint kind_ok (d : dtype) (j : pyval) {struct d} : bool :=
  match d with
  | TFloat _ _ _ _ | TInt _ _ => is_number j
  | TScaled _ _ _ => match j with PBool _ | PInt _ => true | PFloat f => is_whole f | _ => false end
  | TBool => match j with PBool _ | PInt _ | PFloat _ | PEnum _ _ => true | _ => false end
  | TEnum _ => match j with PStr _ | PBool _ | PInt _ | PEnum _ _ => true | PFloat f => is_whole f | _ => false end
  | TString _ _ _ => match j with PStr _ => true | _ => false end
  | TBlob _ _ => match j with PStr _ | PBytes _ => true | _ => false end
  | TArray e _ _ => match j with PList l | PTuple l => forallb (kind_ok e) l | _ => false end
  | TTuple es =>
      match j with
      | PList l | PTuple l =>
          (fix go (ds : list dtype) (l : list pyval) : bool :=
             match ds, l with
             | [], [] => true
             | d1 :: ds', x :: r => kind_ok d1 x && go ds' r
             | _, _ => false
             end) es l
      | _ => false
      end
  | TStruct ms _ _ =>
      match j with
      | PDict kv =>
          forallb (fun p : str * pyval =>
                     (fix find (ms : list (str * dtype)) : bool :=
                        match ms with
                        | [] => false
                        | (n, d1) :: ms' => if str_eqb (fst p) n then kind_ok d1 (snd p) else find ms'
                        end) ms) kv
      | _ => false
      end
  end.

Lemma kind_ok_tuple es l :
  kind_ok (TTuple es) (PList l) = all2 kind_ok es l /\ kind_ok (TTuple es) (PTuple l) = all2 kind_ok es l.
Proof. split; exact (all2_fix kind_ok es l). Qed.

Lemma py_add0_number v f : py_add0 v = Ok f -> is_number v = true.
Proof. destruct v; try discriminate; reflexivity. Qed.

Lemma float_call_kind v r : float_call v = Ok r -> is_number v = true.
Proof.
  unfold float_call. destruct (py_add0 v) as [f|e] eqn:E; cbn [wrap_wrong]; [|discriminate]. intros _. eapply py_add0_number; eauto.
Qed.
Lemma int_call_kind v r : int_call v = Ok r -> is_number v = true.
Proof.
  unfold int_call. destruct (py_add0 v) as [f|e] eqn:E; cbn; [|discriminate]. intros _. eapply py_add0_number; eauto.
Qed.

Lemma scaled_import_kind E s v r : scaled_import E s v = Ok r -> kind_ok (TScaled s fzero fzero) v = true.
Proof.
  unfold scaled_import. destruct v; cbn; try discriminate; try reflexivity.
  unfold is_whole. destruct (fis_finite f); cbn; [|discriminate].
  destruct (cmp_Z_f (ftrunc f) f) as [[]|]; cbn; try discriminate. reflexivity.
Qed.

(* the outcome of an import is a value, and then Q holds of what was offered, or a bad-value error *)
Definition imp_ok {A} (Q : bool) (r : res A) : Prop := yields (fun _ => Q = true) r.

Lemma imp_ok_intro {A} Q (r : res A) : okbad r = true -> (forall a, r = Ok a -> Q = true) -> imp_ok Q r.
Proof. destruct r; cbn; eauto. Qed.

Lemma imp_ok_bind_ok {A B} Q (r : res A) (f : A -> B) : imp_ok Q r -> imp_ok Q (r >>= fun a => Ok (f a)).
Proof. destruct r; auto. Qed.

Lemma map_res_imp (f : pyval -> res pyval) (Q : pyval -> bool) items :
  (forall x, In x items -> imp_ok (Q x) (f x)) -> imp_ok (forallb Q items) (map_res f items).
Proof.
  induction items as [|x items IH]; intros H; cbn; [reflexivity|].
  pose proof (H x (in_eq _ _)) as Hx. destruct (f x); [|exact Hx]. cbn in *. rewrite Hx.
  apply imp_ok_bind_ok, IH. auto using in_cons.
Qed.

Lemma mapd_res_imp (f : dtype -> pyval -> res pyval) (Q : dtype -> pyval -> bool) ds :
  Forall (fun d1 => forall x, imp_ok (Q d1 x) (f d1 x)) ds ->
  forall items, length items = length ds -> imp_ok (all2 Q ds items) (mapd_res f ds items).
Proof.
  induction 1 as [|d1 ds H1 _ IH]; destruct items as [|x items]; try discriminate; [reflexivity|].
  intros E. cbn. specialize (H1 x). destruct (f d1 x); [|exact H1]. cbn in *. rewrite H1.
  apply imp_ok_bind_ok, IH. congruence.
Qed.

Lemma member_res_imp (f : dtype -> pyval -> res pyval) (Q : dtype -> pyval -> bool) k x ms :
  mem_str k (map fst ms) = true -> Forall (fun m => forall y, imp_ok (Q (snd m) y) (f (snd m) y)) ms ->
  imp_ok (entry_ok Q ms (k, x)) (member_res f k x ms).
Proof.
  intros Hm HF. induction HF as [|[n d1] ms H1 _ IH]; [discriminate|].
  rewrite member_res_cons, entry_ok_cons. cbn in Hm. destruct (str_eqb k n); [apply H1|apply IH, Hm].
Qed.

Lemma struct_fold_imp (f : dtype -> pyval -> res pyval) (Q : dtype -> pyval -> bool) ms :
  forall kv acc, (forall k x, In (k, x) kv -> imp_ok (entry_ok Q ms (k, x)) (member_res f k x ms)) ->
  imp_ok (forallb (entry_ok Q ms) kv) (struct_fold f false ms kv acc).
Proof.
  induction kv as [|[k x] kv IH]; intros acc H; [reflexivity|].
  assert (Hgen : imp_ok (entry_ok Q ms (k, x) && forallb (entry_ok Q ms) kv)
                   (member_res f k x ms >>= (fun y => struct_fold f false ms kv (dict_set k y acc)))).
  { pose proof (H k x (in_eq _ _)) as Hx. destruct (member_res f k x ms); [|exact Hx]. cbn in *. rewrite Hx.
    apply IH. auto using in_cons. }
  destruct x; exact Hgen.
Qed.

Theorem import_spec E : forall d j, imp_ok (kind_ok d j) (dt_import E d j).
Proof.
  induction d as [ | | | | | | |e a b IHe|es IHes|ms o cl IHms] using dtype_nested_ind; intros j; cbn [dt_import].
  - apply imp_ok_intro; [apply (yields_okbad (float_call_spec _))|apply float_call_kind].
  - apply imp_ok_intro; [apply (yields_okbad (int_call_spec _))|apply int_call_kind].
  - apply imp_ok_intro; [apply scaled_import_okbad|apply (scaled_import_kind E)].
  - apply imp_ok_intro; [apply (yields_okbad (bool_call_spec _))|]. destruct j; try discriminate; reflexivity.
  - apply imp_ok_intro; [apply (yields_okbad (enum_call_spec _ _))|]. destruct j as [| | z | f | | | | | | n z |]; cbn; try discriminate; try reflexivity.
    unfold is_whole. destruct (fis_finite f); cbn; [|discriminate].
    destruct (cmp_Z_f (ftrunc f) f) as [[]|]; cbn; try discriminate. reflexivity.
  - apply imp_ok_intro; [apply (yields_okbad (string_call_spec _ _ _ _))|]. destruct j; cbn; try discriminate; reflexivity.
  - apply imp_ok_intro; [apply blob_import_okbad|]. destruct j; cbn; try discriminate; reflexivity.
  - pose proof (array_check_spec a b j) as Hc. destruct (array_check a b j) as [[]|err]; [|exact Hc].
    destruct Hc as (items & -> & Ej & _). cbn [bind].
    replace (kind_ok (TArray e a b) j) with (forallb (kind_ok e) items) by (destruct Ej; subst j; reflexivity).
    apply imp_ok_bind_ok, map_res_imp. intros x _. apply IHe.
  - pose proof (tuple_check_spec (length es) j) as Hc. destruct (tuple_check _ j) as [[]|err]; [|exact Hc].
    destruct Hc as (items & -> & Ej & En). cbn [bind].
    replace (kind_ok (TTuple es) j) with (all2 kind_ok es items)
      by (destruct (kind_ok_tuple es items); destruct Ej; subst j; auto).
    apply imp_ok_bind_ok, mapd_res_imp; assumption.
  - pose proof (struct_check_spec (map fst ms) o cl true j) as Hc.
    destruct (struct_check _ _ _ _ j) as [[]|err]; [|exact Hc]. destruct Hc as (kv & -> & Hk).
    cbn [bind is_dict negb dict_items].
    change (kind_ok (TStruct ms o cl) (PDict kv)) with (forallb (entry_ok kind_ok ms) kv).
    apply imp_ok_bind_ok, struct_fold_imp. intros k x Hin. apply member_res_imp; [exact (Hk k x Hin)|exact IHms].
Qed.

(* import_value never leaks: for every datatype tree and every offered value the outcome is a value,
   RangeError or WrongTypeError *)
Theorem import_total E : forall d j, okbad (dt_import E d j) = true.
Proof. intros d j. pose proof (import_spec E d j) as H. destruct (dt_import E d j); [reflexivity|exact H]. Qed.

(* import_value needs no guard *)
Definition import_guard (d : dtype) (j : pyval) : bool := true.

Definition wire_guard (E : pyenv) (d : dtype) (j prev : pyval) : bool :=
  match dt_import E d j with Ok v => validate_guard d v prev | Err _ => true end.

Theorem wire_total E d j prev : wire_guard E d j prev = true -> okbad (wire E d j prev) = true.
Proof.
  unfold wire_guard, wire. intros G.
  pose proof (import_total E d j) as H. destruct (dt_import E d j) as [v|e]; [|exact H].
  cbn [bind]. apply validate_total. exact G.
Qed.

Theorem array_length_preserved : forall e a b v prev items ys,
  py_iter v = Some items -> dt_validate (TArray e a b) v prev = Ok (PTuple ys) -> length ys = length items.
Proof.
  intros e a b v prev items ys Hi. cbn [dt_validate]. intros H.
  apply bind_ok in H. destruct H as ([] & _ & H). rewrite Hi in H.
  destruct (py_truthy prev).
  - destruct (py_iter prev) as [ps|]; [|discriminate].
    destruct (wrap_bind_ok _ _ _ H) as (ys' & Hys & E'). inversion E'; subst ys'.
    destruct (map2_res_sound _ (fun _ => True) (fun _ => true) (fun _ _ _ _ _ => eq_refl) _ _ _ (proj2 (Forall_forall _ _) (fun _ _ => I)) Hys) as [E _].
    rewrite E, app_length, repeat_length. lia.
  - destruct (wrap_bind_ok _ _ _ H) as (ys' & Hys & E'). inversion E'; subst ys'.
    apply (map_res_sound _ (fun _ => true) (fun _ _ _ => eq_refl) _ _ Hys).
Qed.
