(* C01 — idempotence without side condition for all datatype trees whose scaled leaves have grids of realistic size
   (small_grids: scale normal and at most 2^900, limits at most 2^48 steps from zero) *)
From Coq Require Import ZArith NArith Bool List Lia.
Import ListNotations.
Require Import FV.Base.Util FV.Base.F64 FV.Base.F64Lemmas FV.Base.PyVal FV.C01.Model FV.C01.IdemDefs FV.C01.Lemmas
  FV.C01.F64More FV.C01.Idem FV.C01.ScaledGrid.

Lemma closed_small : closed (fun d => wf d /\ small_grids d = true).
Proof. apply closed_and; [exact closed_wf|apply closed_forallb; reflexivity]. Qed.

Lemma leaf_scaled_ok d v p r : wf d -> small_grids d = true -> container d = false ->
  dt_validate d v p = Ok r -> scaled_ok d r = true.
Proof.
  intros Hwf Hsm. destruct d; try discriminate; try reflexivity. intros _. exact (scaled_small_leaf_ok _ _ _ v r Hsm Hwf).
Qed.

(* every returned value satisfies the side condition *)
Theorem validate_scaled_ok : forall d, wf d -> small_grids d = true -> forall v prev r,
  prev_st d prev -> dt_validate d v prev = Ok r -> scaled_ok d r = true.
Proof.
  intros d Hwf Hsm v prev r Hp. rewrite scaled_ok_lift. unfold prev_st in Hp. rewrite stable_lift in Hp.
  apply validate_lift with (W := fun d => wf d /\ small_grids d = true) (L := stable) (c := stable_checks) (prev := prev);
    [exact closed_small| | |reflexivity|exact (conj Hwf Hsm)|exact Hp].
  - intros d0 w [Hwf0 Hsm0] Hd Hs. rewrite (stable_leaf _ _ Hd) in Hs. apply res_same_ok_eq in Hs.
    exact (leaf_scaled_ok d0 w PNone w Hwf0 Hsm0 Hd Hs).
  - intros d0 v0 p r0 [Hwf0 Hsm0]. exact (leaf_scaled_ok d0 v0 p r0 Hwf0 Hsm0).
Qed.

(* idempotence for every tree whose scaled leaves have small grids: no side condition on the value *)
Theorem validate_idempotent_small : forall d, wf d -> idem_dt d = true -> small_grids d = true ->
  forall v prev w, prev_st d prev -> dt_validate d v prev = Ok w ->
  res_same (dt_validate d w PNone) (Ok w) = true /\ res_same (dt_validate d w w) (Ok w) = true /\
  stable d w = true.
Proof.
  intros d Hwf Hi Hsm v prev w Hp H.
  exact (validate_idempotent d Hwf Hi v prev w Hp H (validate_scaled_ok d Hwf Hsm v prev w Hp H)).
Qed.

Corollary wire_idempotent_small E : forall d, wf d -> idem_dt d = true -> small_grids d = true ->
  forall j prev w, prev_st d prev -> wire E d j prev = Ok w ->
  res_same (dt_validate d w PNone) (Ok w) = true /\ res_same (dt_validate d w w) (Ok w) = true /\
  stable d w = true.
Proof.
  intros d Hwf Hi Hsm j prev w Hp H. destruct (wire_validate _ _ _ _ _ H) as [v Hv].
  exact (validate_idempotent_small d Hwf Hi Hsm v prev w Hp Hv).
Qed.
