(* C01 — further binary64 facts needed for idempotence of the numeric leaves:
   x + 0.0, the +-sys.float_info.max clamp, adding / subtracting a non-negative
   tolerance, exact int/float comparison, int -> float -> round. *)
From Coq Require Import ZArith Bool Reals Lra Lia.
From Flocq Require Import Core.Zaux Core.Raux Core.Defs Core.Generic_fmt Core.Float_prop Core.FIX Core.FLT
  IEEE754.BinarySingleNaN.
Require Import FV.Base.F64 FV.Base.F64Lemmas FV.Base.F64Facts FV.Base.F64Repr FV.Base.PyVal FV.C01.Model FV.C01.IdemDefs.

Local Open Scope R_scope.

Lemma fadd_zero_id (a : f64) : is_negzero a = false -> fadd a fzero = a.
Proof. destruct a as [[]|[]| |s m e B]; cbn; intros H; try discriminate; reflexivity. Qed.

Lemma fadd_zero_not_negzero (a : f64) : is_negzero (fadd a fzero) = false.
Proof. destruct a as [[]|[]| |s m e B]; reflexivity. Qed.

Definition fsign (a : f64) : bool := Bsign a.

Lemma fsign_fabs (a : f64) : fsign (fabs a) = false.
Proof. destruct a as [s|s| |s m e B]; reflexivity. Qed.

Lemma notnan_fabs (a : f64) : notnan a -> notnan (fabs a).
Proof. destruct a as [s|s| |s m e B]; cbn; auto. Qed.

Lemma flt_sign (a b : f64) : flt a b = true -> fsign a = false -> fsign b = false.
Proof.
  destruct a as [[]|[]| |[] m e B], b as [[]|[]| |[] m' e' B']; cbn; intros H S; try discriminate; reflexivity.
Qed.

Lemma pymax_nonneg (a b : f64) : notnan a -> fsign a = false -> notnan (pymax a b) /\ fsign (pymax a b) = false.
Proof.
  intros Na Sa. unfold pymax. destruct (flt a b) eqn:E; [|auto].
  split; [apply (flt_true_notnan _ _ E)|eapply flt_sign; eauto].
Qed.

Lemma finite_abs_le_fmax (a : f64) : is_finite a = true -> Rabs (B2R a) <= B2R fmaxval.
Proof.
  rewrite B2R_fmaxval. destruct a as [s|s| |s m e B]; try discriminate; intros _.
  - cbn [B2R]. rewrite Rabs_R0. apply Rle_0_minus. apply bpow_le. unfold emax, prec. lia.
  - cbn [B2R]. rewrite <- F2R_Zabs. rewrite abs_cond_Zopp. cbn [Z.abs].
    apply (bounded_le_emax_minus_prec prec emax _ m e B).
Qed.

Lemma fmaxval_finite : is_finite fmaxval = true.
Proof. apply fmk_exact; unfold prec, emax; lia. Qed.

Lemma B2R_fopp (a : f64) : B2R (fopp a) = - B2R a.
Proof. apply B2R_Bopp. Qed.

Lemma finite_between_fmax (a : f64) : fis_finite a = true ->
  fle (fopp fmaxval) a = true /\ fle a fmaxval = true.
Proof.
  rewrite fis_finite_is_finite'. intros Fa.
  pose proof (finite_abs_le_fmax a Fa) as H. pose proof fmaxval_finite as FM.
  assert (FO : is_finite (fopp fmaxval) = true) by (unfold fopp; rewrite is_finite_Bopp; exact FM).
  apply Rabs_le_inv in H.
  split; apply fle_true; try (apply finite_notnan; assumption);
    rewrite !key_finite by assumption; rewrite ?B2R_fopp; lra.
Qed.

Lemma fle_fmax_finite (a : f64) : fle (fopp fmaxval) a = true -> fle a fmaxval = true -> fis_finite a = true.
Proof.
  destruct a as [s|[]| |s m e B]; intros H1 H2; try reflexivity.
  - vm_compute in H1. discriminate.
  - vm_compute in H2. discriminate.
  - vm_compute in H2. discriminate.
Qed.

Lemma fclamp_cases (lo v hi : f64) :
  notnan lo -> notnan v -> notnan hi -> fle lo hi = true ->
  (flt v lo = true /\ fclamp lo v hi = lo) \/
  (flt hi v = true /\ fclamp lo v hi = hi) \/
  (fle lo v = true /\ fle v hi = true /\ fclamp lo v hi = v).
Proof.
  intros Hlo Hv Hhi Hle.
  unfold fclamp, clamp3, sort3.
  (* cmp_to_R (Base/F64Lemmas.v) turns the comparisons in the context into inequalities between keys; five of the
     eight combinations contradict lo <= hi *)
  destruct (flt v lo) eqn:E1; destruct (flt hi v) eqn:E2; destruct (flt hi lo) eqn:E3;
    cmp_to_R; cbn.
  all: try (exfalso; lra).
  - left; split; reflexivity.
  - right; left; split; reflexivity.
  - right; right. split; [apply fle_true; [assumption|assumption|lra]|].
    split; [apply fle_true; [assumption|assumption|lra]|reflexivity].
Qed.

Lemma fclamp_nan (lo hi : f64) : fclamp lo fnan hi = fnan.
Proof.
  unfold fclamp, clamp3, sort3.
  assert (A : forall x, flt fnan x = false) by (intros x; destruct x; reflexivity).
  assert (B : forall x, flt x fnan = false) by (intros x; destruct x as [s|s| |s m e B]; reflexivity).
  rewrite A, B. destruct (flt hi lo); reflexivity.
Qed.

Lemma key_nonneg (p : f64) : notnan p -> fsign p = false -> 0 <= key p.
Proof.
  intros Np Sp. destruct (is_finite p) eqn:Fp; [rewrite (key_finite _ Fp); exact (sign_nonneg p Fp Sp)|].
  destruct p as [s|[]| |s m e B]; try discriminate. cbn [key]. pose proof BIG_pos. lra.
Qed.

(* a finite m: F64Facts.fsub_le_self; an infinite m: the last hypothesis excludes inf - inf, which is nan; likewise
   -inf + inf below *)
Lemma fsub_nonneg_le (m p : f64) :
  notnan m -> notnan p -> fsign p = false ->
  (fis_inf m && fis_inf p && negb (fsign m)) = false ->
  fle (fsub m p) m = true.
Proof.
  intros Nm Np Sp Hx. destruct (is_finite m) eqn:Fm.
  - destruct (fsub_le_self m p Fm Np (key_nonneg p Np Sp)) as [N H]. apply fle_true; assumption.
  - destruct m as [s|s| |s m e B]; try discriminate.
    destruct p as [sp|sp| |sp mp ep Bp]; try discriminate; cbn in Sp; subst;
      destruct s; cbn in Hx; try discriminate; reflexivity.
Qed.

Lemma fadd_nonneg_ge (m p : f64) :
  notnan m -> notnan p -> fsign p = false ->
  (fis_inf m && fis_inf p && fsign m) = false ->
  fle m (fadd m p) = true.
Proof.
  intros Nm Np Sp Hx. destruct (is_finite m) eqn:Fm.
  - destruct (fadd_ge_self m p Fm Np (key_nonneg p Np Sp)) as [N H]. apply fle_true; assumption.
  - destruct m as [s|s| |s m e B]; try discriminate.
    destruct p as [sp|sp| |sp mp ep Bp]; try discriminate; cbn in Sp; subst;
      destruct s; cbn in Hx; try discriminate; reflexivity.
Qed.

(* binary_normalize_correct for int -> float *)
Lemma of_Z_correct (z : Z) :
  let r := round radix2 (FLT_exp (3 - emax - prec) prec) (round_mode mode_NE) (IZR z) in
  if Rlt_bool (Rabs r) (bpow radix2 emax)
  then B2R (of_Z z) = r /\ is_finite (of_Z z) = true /\
       Bsign (of_Z z) = match Rcompare (IZR z) 0 with Lt => true | _ => false end
  else exists s, of_Z z = B754_infinity s.
Proof.
  pose proof (binary_normalize_correct prec emax _ _ mode_NE z 0 false) as Hn. cbn zeta in *.
  replace (F2R (Float radix2 z 0)) with (IZR z) in Hn by (unfold F2R; cbn; ring).
  destruct (Rlt_bool _ _); [exact Hn|]. eexists. apply inf_of_SF. exact Hn.
Qed.

(* a python int converted to float: finite, and the rounding of that integer *)
Lemma float_of_Z_spec (z : Z) (f : f64) : float_of_Z z = Some f ->
  is_finite f = true /\ B2R f = rnd (IZR z).
Proof.
  unfold float_of_Z. destruct (fis_finite (of_Z z)) eqn:Ff; [|discriminate]. intros H; inversion H; subst f. clear H.
  pose proof (of_Z_correct z) as Hn. cbv zeta in Hn. destruct (Rlt_bool _ _).
  - split; apply Hn.
  - destruct Hn as [s Hn]. rewrite Hn in Ff. discriminate.
Qed.

Lemma py_round_finite (q : f64) : is_finite q = true -> py_round q = Ok (fround q).
Proof. destruct q; try discriminate; reflexivity. Qed.

(* hence a whole number *)
Lemma float_of_Z_whole (z : Z) (f : f64) : float_of_Z z = Some f -> cmp_Z_f (fround f) f = Some Eq.
Proof.
  unfold float_of_Z. destruct (fis_finite (of_Z z)) eqn:Ff; [|discriminate]. intros H; inversion H; subst f. clear H.
  destruct (of_Z_integral z Ff) as [n Hn]. rewrite (fround_integral _ _ Hn). exact (cmp_Z_f_integral _ _ Ff Hn).
Qed.

(* int(x) of a finite float converts back to a float without OverflowError *)
Lemma ftrunc_representable (a : f64) : fis_finite a = true -> exists f, float_of_Z (ftrunc a) = Some f.
Proof.
  rewrite fis_finite_is_finite'. intros Fa. unfold float_of_Z, ftrunc.
  pose proof (Btrunc_correct prec emax _ a) as Ht. pose proof (of_Z_correct (Btrunc a)) as Hn. cbv zeta in Hn.
  assert (Hle : Rabs (IZR (Btrunc a)) <= Rabs (B2R a)).
  { rewrite Ht. rewrite <- round_ZR_abs by apply FIX_exp_valid.
    rewrite round_ZR_DN by (try apply FIX_exp_valid; apply Rabs_pos).
    apply round_DN_pt. apply FIX_exp_valid. }
  rewrite Rlt_bool_true in Hn.
  - destruct Hn as (_ & Hf & _). rewrite fis_finite_is_finite', Hf. eexists; reflexivity.
  - eapply Rle_lt_trans; [|apply (abs_B2R_lt_emax prec emax a)].
    apply abs_round_le_generic; [apply fexp_correct; apply prec_gt_0_64|apply valid_rnd_round_mode| |exact Hle].
    apply generic_format_abs. apply generic_format_B2R.
Qed.

Lemma float_of_Z_not_negzero (z : Z) (f : f64) : float_of_Z z = Some f -> is_negzero f = false.
Proof.
  unfold float_of_Z. destruct (fis_finite (of_Z z)) eqn:Ff; [|discriminate]. intros H; inversion H; subst f. clear H.
  pose proof (of_Z_correct z) as Hn. cbv zeta in Hn. destruct (Rlt_bool _ _); [|destruct Hn as [s ->]; reflexivity].
  destruct Hn as (HR & _ & HS). destruct (of_Z z) as [[]|s| |s m e B]; try reflexivity.
  exfalso. cbn [Bsign] in HS. cbn [B2R] in HR.
  destruct (Rcompare_spec (IZR z) 0) as [Hlt|Heq|Hgt]; try discriminate.
  assert (Hz : IZR z <= -1) by (apply (IZR_le z (-1)); apply lt_IZR in Hlt; lia).
  assert (Hr : round radix2 (FLT_exp (3 - emax - prec) prec) (round_mode mode_NE) (IZR z) <= -1).
  { apply round_le_generic; [apply fexp_correct; apply prec_gt_0_64|apply valid_rnd_round_mode| |exact Hz].
    apply generic_format_opp. apply generic_format_FLT_1; [apply prec_gt_0_64|unfold emax, prec; lia]. }
  lra.
Qed.
