(* C01 — idempotence ("a validated value is a fixed point of validation") and canonical representation kinds,
   for datatype trees of any depth and width.

   stable d w   : w has the canonical shape of d (tuples of the right length, a mapping with distinct declared keys
                  and all mandatory members) and every leaf of w is returned bit-identically by the leaf validation
   stable_fix   : stable d w  ->  validate d w None = Ok w  and  validate d w w = Ok w            (no side condition)
   validate_stable : whatever is offered, with a previous value that is None or stable, a value returned by
                  validate is stable — at scaled leaves provided the leaf is a fixed point (scaled_ok, see Refuted.v
                  for a grid beyond 2^52 steps where it is not)
   validate_canon : the returned value has the canonical representation kind of its type
   The last two are instances of Lemmas.validate_lift (stable, canon and scaled_ok are lifts: stable_lift, canon_lift,
   scaled_ok_lift); only stable_fix goes through the containers here.                                          *)
From Coq Require Import ZArith NArith Bool List Lia.
Import ListNotations.
From Flocq Require Import IEEE754.BinarySingleNaN.
Require Import FV.Base.Util FV.Base.F64 FV.Base.F64Lemmas FV.Base.PyVal FV.C01.Model FV.C01.IdemDefs FV.C01.Lemmas FV.C01.F64More.

Section PyvalInd.
  Variable P : pyval -> Prop.
  Hypothesis HNone : P PNone.
  Hypothesis HBool : forall b, P (PBool b).
  Hypothesis HInt : forall z, P (PInt z).
  Hypothesis HFloat : forall f, P (PFloat f).
  Hypothesis HStr : forall s, P (PStr s).
  Hypothesis HBytes : forall s, P (PBytes s).
  Hypothesis HList : forall l, Forall P l -> P (PList l).
  Hypothesis HTuple : forall l, Forall P l -> P (PTuple l).
  Hypothesis HDict : forall kv, Forall (fun p => P (snd p)) kv -> P (PDict kv).
  Hypothesis HEnum : forall n z, P (PEnum n z).
  Hypothesis HOpaque : P POpaque.

  Fixpoint pyval_nested_ind (v : pyval) : P v :=
    let go := fix go (l : list pyval) : Forall P l :=
                match l with
                | [] => Forall_nil P
                | x :: r => Forall_cons x (pyval_nested_ind x) (go r)
                end in
    match v with
    | PNone => HNone
    | PBool b => HBool b
    | PInt z => HInt z
    | PFloat f => HFloat f
    | PStr s => HStr s
    | PBytes s => HBytes s
    | PList l => HList l (go l)
    | PTuple l => HTuple l (go l)
    | PDict kv =>
        HDict kv ((fix gd (l : list (str * pyval)) : Forall (fun p => P (snd p)) l :=
                     match l with
                     | [] => Forall_nil _
                     | x :: r => Forall_cons x (pyval_nested_ind (snd x)) (gd r)
                     end) kv)
    | PEnum n z => HEnum n z
    | POpaque => HOpaque
    end.
End PyvalInd.

Fixpoint list_same (x y : list pyval) : bool :=
  match x, y with
  | [], [] => true
  | p :: x', q :: y' => pv_same p q && list_same x' y'
  | _, _ => false
  end.
Fixpoint dict_same (x y : list (str * pyval)) : bool :=
  match x, y with
  | [], [] => true
  | (k, p) :: x', (k', q) :: y' => str_eqb k k' && pv_same p q && dict_same x' y'
  | _, _ => false
  end.

Lemma pv_same_list x y : pv_same (PList x) (PList y) = list_same x y.
Proof. reflexivity. Qed.
Lemma pv_same_tuple x y : pv_same (PTuple x) (PTuple y) = list_same x y.
Proof. reflexivity. Qed.
Lemma pv_same_dict x y : pv_same (PDict x) (PDict y) = dict_same x y.
Proof. reflexivity. Qed.

Lemma pv_same_refl : forall v, pv_same v v = true.
Proof.
  induction v using pyval_nested_ind.
  - reflexivity.
  - cbn. apply eqb_reflx.
  - cbn. apply Z.eqb_refl.
  - cbn. apply fsame_refl.
  - cbn. apply str_eqb_refl.
  - cbn. apply str_eqb_refl.
  - rewrite pv_same_list. induction H as [|x l Hx Hl IH]; cbn; [reflexivity|]. rewrite Hx, IH. reflexivity.
  - rewrite pv_same_tuple. induction H as [|x l Hx Hl IH]; cbn; [reflexivity|]. rewrite Hx, IH. reflexivity.
  - rewrite pv_same_dict. induction H as [|[k x] l Hx Hl IH]; cbn; [reflexivity|].
    cbn in Hx. rewrite str_eqb_refl, Hx, IH. reflexivity.
  - cbn. rewrite str_eqb_refl, Z.eqb_refl. reflexivity.
  - reflexivity.
Qed.

Lemma list_same_eq x : Forall (fun p => forall q, pv_same p q = true -> p = q) x ->
  forall y, list_same x y = true -> x = y.
Proof.
  induction 1 as [|p x Hp Hx IH]; destruct y as [|q y]; cbn; try discriminate; [reflexivity|].
  intros H. apply andb_prop in H. destruct H as [H1 H2]. f_equal; [apply Hp; exact H1|apply IH; exact H2].
Qed.

Lemma pv_same_eq : forall a other, pv_same a other = true -> a = other.
Proof.
  induction a using pyval_nested_ind; intros other; destruct other as [| | | | | | | |kv'| |]; try discriminate; intros Hs.
  - reflexivity.
  - cbn in Hs. apply eqb_prop in Hs. congruence.
  - cbn in Hs. apply Z.eqb_eq in Hs. congruence.
  - cbn in Hs. apply fsame_eq in Hs. congruence.
  - cbn in Hs. apply str_eqb_eq in Hs. congruence.
  - cbn in Hs. apply str_eqb_eq in Hs. congruence.
  - rewrite pv_same_list in Hs. f_equal. eapply list_same_eq; eauto.
  - rewrite pv_same_tuple in Hs. f_equal. eapply list_same_eq; eauto.
  - rewrite pv_same_dict in Hs. f_equal. revert kv' Hs.
    induction H as [|[k p] x Hp Hx IH]; destruct kv' as [|[k' q] y]; cbn; try discriminate; [reflexivity|].
    intros Hs. apply andb_prop in Hs. destruct Hs as [Hs H3]. apply andb_prop in Hs. destruct Hs as [H1 H2].
    apply str_eqb_eq in H1. cbn in Hp. apply Hp in H2. subst. f_equal. apply IH. exact H3.
  - cbn in Hs. apply andb_prop in Hs. destruct Hs as [H1 H2]. apply str_eqb_eq in H1. apply Z.eqb_eq in H2. congruence.
  - reflexivity.
Qed.

Lemma res_same_ok_eq (r : res pyval) w : res_same r (Ok w) = true -> r = Ok w.
Proof. destruct r as [x|e]; cbn; [|discriminate]. intros H. apply pv_same_eq in H. congruence. Qed.
Lemma res_same_refl_ok w : res_same (Ok w) (Ok w) = true.
Proof. apply pv_same_refl. Qed.

Lemma stable_tuple es l : stable (TTuple es) (PTuple l) = all2 stable es l.
Proof. exact (all2_fix stable es l). Qed.
Lemma scaled_ok_tuple es l : scaled_ok (TTuple es) (PTuple l) = all2 scaled_ok es l.
Proof. exact (all2_fix scaled_ok es l). Qed.
Lemma canon_tuple es l : canon (TTuple es) (PTuple l) = all2 canon es l.
Proof. exact (all2_fix canon es l). Qed.
Lemma stable_struct ms o c kv :
  stable (TStruct ms o c) (PDict kv) =
  nodup_str (map fst kv) && forallb (entry_ok stable ms) kv &&
  forallb (fun n => mem_str n o || mem_str n (map fst kv)) (map fst ms).
Proof. reflexivity. Qed.
Lemma scaled_ok_struct ms o c kv : scaled_ok (TStruct ms o c) (PDict kv) = forallb (entry_ok scaled_ok ms) kv.
Proof. reflexivity. Qed.
Lemma canon_struct ms o c kv :
  canon (TStruct ms o c) (PDict kv) = nodup_str (map fst kv) && forallb (entry_ok canon ms) kv.
Proof. reflexivity. Qed.

(* each is the lift of itself, with its own choice of shape checks *)
Definition canon_checks := {| c_len := false; c_dup := true; c_mand := false |}.
Lemma canon_lift d w : canon d w = lift canon canon_checks d w.
Proof.
  apply lift_intro.
  - reflexivity.
  - intros es []; try reflexivity. apply canon_tuple.
  - intros ms o cl []; try reflexivity. rewrite canon_struct. cbn. rewrite andb_true_r. reflexivity.
Qed.

Definition stable_checks := {| c_len := true; c_dup := true; c_mand := true |}.
Lemma stable_lift d w : stable d w = lift stable stable_checks d w.
Proof.
  apply lift_intro.
  - reflexivity.
  - intros es []; try reflexivity. apply stable_tuple.
  - intros ms o cl []; try reflexivity. rewrite stable_struct. cbn. rewrite <- !andb_assoc. f_equal. apply andb_comm.
Qed.

Definition no_checks := {| c_len := false; c_dup := false; c_mand := false |}.
Lemma scaled_ok_lift d w : scaled_ok d w = lift scaled_ok no_checks d w.
Proof.
  apply lift_intro.
  - reflexivity.
  - intros es []; try reflexivity. apply scaled_ok_tuple.
  - intros ms o cl []; reflexivity.
Qed.

Lemma stable_leaf d w : container d = false -> stable d w = res_same (dt_validate d w PNone) (Ok w).
Proof. destruct d; try discriminate; reflexivity. Qed.

Lemma fmax_le : fle (fopp fmaxval) fmaxval = true.
Proof. vm_compute. reflexivity. Qed.
Lemma fmax_notnan : notnan fmaxval /\ notnan (fopp fmaxval).
Proof. split; vm_compute; reflexivity. Qed.

Lemma py_add0_not_negzero v y : py_add0 v = Ok y -> is_negzero y = false.
Proof.
  destruct v as [| b | z | f | | | | | | |]; cbn [py_add0]; try discriminate.
  - intros H. assert (E : y = if b then of_Z 1 else fzero) by congruence. subst y. destruct b; vm_compute; reflexivity.
  - destruct (float_of_Z z) as [f|] eqn:E; [|discriminate]. intros H; inversion H; subst.
    eapply float_of_Z_not_negzero; eauto.
  - intros H; inversion H; subst. apply fadd_zero_not_negzero.
Qed.

(* FloatRange.__call__ returns a finite number that is not the negative zero, or nan *)
Lemma float_call_props v g : float_call v = Ok (PFloat g) -> notnan g ->
  fis_finite g = true /\ is_negzero g = false.
Proof.
  unfold float_call. destruct (py_add0 v) as [y|e] eqn:Ey; cbn [wrap_wrong]; [|discriminate].
  intros H Ng. assert (Hg : fclamp (fopp fmaxval) y fmaxval = g) by congruence. clear H.
  destruct fmax_notnan as [NM NO]. pose proof fmax_le as LM.
  assert (Ny : notnan y).
  { destruct y as [s|s| |s m e B]; try reflexivity. exfalso.
    change (B754_nan : f64) with fnan in Hg. rewrite fclamp_nan in Hg. subst g. discriminate. }
  destruct (fclamp_between (fopp fmaxval) y fmaxval NO Ny NM LM) as (A & B & _). rewrite Hg in A, B.
  split; [apply fle_fmax_finite; assumption|].
  unfold fclamp in Hg. destruct (clamp3_one_of flt (fopp fmaxval) y fmaxval) as [E|[E|E]]; rewrite E in Hg; subst g.
  - vm_compute. reflexivity.
  - eapply py_add0_not_negzero; eauto.
  - vm_compute. reflexivity.
Qed.

Lemma float_call_fix w : fis_finite w = true -> is_negzero w = false -> float_call (PFloat w) = Ok (PFloat w).
Proof.
  intros Fw Zw. unfold float_call. cbn [py_add0 wrap_wrong]. rewrite (fadd_zero_id w Zw).
  destruct fmax_notnan as [NM NO]. destruct (finite_between_fmax w Fw) as [A B].
  assert (Nw : notnan w) by (apply (fle_true_notnan _ _ B)).
  destruct (fclamp_between (fopp fmaxval) w fmaxval NO Nw NM fmax_le) as (_ & _ & C).
  rewrite (C A B). reflexivity.
Qed.

Lemma fle_inf_finite (w : f64) : fis_finite w = true -> fle (finf false) w = false /\ fle w (finf true) = false.
Proof. destruct w as [s|s| |s m e B]; try discriminate; intros _; split; reflexivity. Qed.

(* a value inside the limits passes the tolerance test and clamps to itself *)
Lemma float_validate_fix mn mx a r w :
  fis_finite r = true -> fis_finite w = true -> is_negzero w = false ->
  fle mn w = true -> fle w mx = true ->
  float_validate mn mx a r (PFloat w) = Ok (PFloat w).
Proof.
  intros Fr Fw Zw L1 L2. unfold float_validate. rewrite (float_call_fix w Fw Zw).
  set (p := pymax (fabs (fmul w r)) a).
  destruct (fle_true_notnan _ _ L1) as [Nmn Nw]. destruct (fle_true_notnan _ _ L2) as [_ Nmx].
  destruct (pymax_nonneg (fabs (fmul w r)) a) as [Np Sp];
    [apply notnan_fabs, fmul_finite_notnan; assumption|apply fsign_fabs|]. fold p in Np, Sp.
  destruct (fle_inf_finite w Fw) as [I1 I2].
  assert (T1 : fle (fsub mn p) w = true).
  { eapply fle_trans; [|exact L1]. apply fsub_nonneg_le; try assumption.
    destruct mn as [s|[]| |s m e B]; try reflexivity; cbn; try (rewrite andb_false_r; reflexivity).
    change (B754_infinity false : f64) with (finf false) in L1. congruence. }
  assert (T2 : fle w (fadd mx p) = true).
  { eapply fle_trans; [exact L2|]. apply fadd_nonneg_ge; try assumption.
    destruct mx as [s|[]| |s m e B]; try reflexivity; cbn; try (rewrite andb_false_r; reflexivity).
    change (B754_infinity true : f64) with (finf true) in L2. congruence. }
  rewrite T1, T2. cbn [andb].
  destruct (fclamp_between mn w mx Nmn Nw Nmx (fle_trans _ _ _ L1 L2)) as (_ & _ & C).
  rewrite (C L1 L2). reflexivity.
Qed.

Lemma flt_inf_false (g : f64) : flt g (finf true) = false /\ flt (finf false) g = false.
Proof. destruct g as [s|[]| |s m e B]; split; reflexivity. Qed.

Lemma fsub_posinf (p g : f64) : fis_finite g = true -> fle (fsub (finf false) p) g = false.
Proof. destruct p as [s|[]| |s m e B], g as [s'|s'| |s' m' e' B']; try discriminate; intros _; reflexivity. Qed.
Lemma fadd_neginf (p g : f64) : fis_finite g = true -> fle g (fadd (finf true) p) = false.
Proof. destruct p as [s|[]| |s m e B], g as [s'|s'| |s' m' e' B']; try discriminate; intros _; reflexivity. Qed.

Lemma notnan_inf_or_finite (a : f64) : notnan a -> a = finf true \/ a = finf false \/ fis_finite a = true.
Proof. destruct a as [s|[]| |s m e B]; cbn; auto; discriminate. Qed.

(* what FloatRange.validate returns *)
Lemma float_validate_out mn mx a r v x :
  fle mn mx = true -> is_negzero mn = false -> is_negzero mx = false ->
  float_validate mn mx a r v = Ok x ->
  exists w, x = PFloat w /\ fis_finite w = true /\ is_negzero w = false /\ fle mn w = true /\ fle w mx = true.
Proof.
  intros Hw Zmn Zmx H. destruct (yields_ok (float_validate_spec _ _ _ _ _) _ H) as (g & Ec & T & ->). clear H.
  set (p := pymax (fabs (fmul g r)) a) in T. eexists; split; [reflexivity|].
  apply andb_prop in T. destruct T as [T1 T2].
  destruct (fle_true_notnan _ _ T1) as [_ Ng]. destruct (fle_true_notnan _ _ Hw) as [Nmn Nmx].
  destruct (float_call_props v g Ec Ng) as [Fg Zg].
  destruct (fclamp_between mn g mx Nmn Ng Nmx Hw) as (A & B & _).
  destruct (flt_inf_false g) as [I1 I2].
  destruct (fclamp_cases mn g mx Nmn Ng Nmx Hw) as [[C E]|[[C E]|(_ & _ & E)]]; rewrite E in *.
  - repeat split; try assumption.
    destruct (notnan_inf_or_finite mn Nmn) as [->|[->|Fm]]; [congruence| |exact Fm].
    rewrite (fsub_posinf p g Fg) in T1. discriminate.
  - repeat split; try assumption.
    destruct (notnan_inf_or_finite mx Nmx) as [->|[->|Fm]]; [|congruence|exact Fm].
    rewrite (fadd_neginf p g Fg) in T2. discriminate.
  - repeat split; assumption.
Qed.

Lemma float_idem mn mx a r v x :
  fle mn mx = true -> is_negzero mn = false -> is_negzero mx = false -> fis_finite r = true ->
  float_validate mn mx a r v = Ok x -> float_validate mn mx a r x = Ok x.
Proof.
  intros Hw Zmn Zmx Fr H.
  destruct (float_validate_out mn mx a r v x Hw Zmn Zmx H) as (w & -> & Fw & Zw & L1 & L2).
  apply float_validate_fix; assumption.
Qed.

(* scaled: the clamp between the converted limits is the only part that holds unconditionally *)
Lemma scaled_idem s mn mx v x :
  wf (TScaled s mn mx) -> scaled_validate s mn mx v = Ok x -> scaled_leaf_ok s mn mx x = true ->
  scaled_validate s mn mx x = Ok x.
Proof.
  intros Hwf H G. pose proof (scaled_validate_sound s mn mx v x Hwf H) as Hin.
  destruct (yields_ok (scaled_validate_spec _ _ _ _) _ H) as (r & lo & hi & _ & Hlo & Hhi & _ & ->). set (f := fclamp lo r hi) in *.
  cbn [wf in_setb] in *. rewrite Hlo, Hhi in *.
  apply andb_prop in Hwf. destruct Hwf as [Hle Fs]. apply andb_prop in Hin. destruct Hin as [L1 L2].
  unfold scaled_leaf_ok in G. apply andb_prop in G. destruct G as [G W2]. apply andb_prop in G. destruct G as [C W1].
  apply res_same_ok_eq in C.
  unfold scaled_validate. rewrite C, W1, W2, Hlo, Hhi. cbn [andb].
  destruct (fle_true_notnan _ _ L1) as [Nlo Nf]. destruct (fle_true_notnan _ _ L2) as [_ Nhi].
  destruct (fclamp_between lo f hi Nlo Nf Nhi Hle) as (_ & _ & K). rewrite (K L1 L2). reflexivity.
Qed.

Lemma int_call_fix v z : int_call v = Ok (PInt z) -> int_call (PInt z) = Ok (PInt z).
Proof.
  intros H. destruct (yields_ok (int_call_spec v) _ H) as (z' & E & Hz). inversion E; subst z'. clear E.
  destruct v as [| b | z0 | f | | | | | | |]; try discriminate.
  - destruct b; cbn in Hz; inversion Hz; subst; vm_compute; reflexivity.
  - cbn in Hz. inversion Hz; subst. exact H.
  - cbn in Hz. destruct (fis_nan f) eqn:En; [discriminate|]. destruct (fis_inf f) eqn:Ei; [discriminate|].
    inversion Hz; subst z. clear Hz.
    assert (Ff : fis_finite f = true) by (destruct f; cbn in *; congruence).
    destruct (ftrunc_representable f Ff) as [fv Hfv].
    unfold int_call. cbn [py_add0 py_int_num]. rewrite Hfv. cbn [bind wrap_wrong].
    rewrite (float_of_Z_whole _ _ Hfv). reflexivity.
Qed.

Lemma int_idem mn mx v x : int_validate mn mx v = Ok x -> int_validate mn mx x = Ok x.
Proof.
  intros H. destruct (yields_ok (int_validate_spec _ _ _) _ H) as (z & Ec & T & ->).
  unfold int_validate. rewrite (int_call_fix v z Ec), T. reflexivity.
Qed.

Lemma bool_idem v x : bool_call v = Ok x -> bool_call x = Ok x.
Proof. intros H. destruct (yields_ok (bool_call_spec _) _ H) as [b ->]. reflexivity. Qed.

Lemma string_idem a b u v x : string_call a b u v = Ok x -> string_call a b u x = Ok x.
Proof. intros H. destruct (yields_ok (string_call_spec _ _ _ _) _ H) as (s & -> & -> & _). exact H. Qed.

Lemma blob_idem a b v x : blob_call a b v = Ok x -> blob_call a b x = Ok x.
Proof. intros H. destruct (yields_ok (blob_call_spec _ _ _) _ H) as (s & -> & -> & _). exact H. Qed.

Lemma enum_by_value_unique ms : nodup_z (map snd ms) = true ->
  forall n z, In (n, z) ms -> enum_by_value z ms = Some (n, z).
Proof.
  induction ms as [|[n' v'] ms IH]; cbn; intros Hd n z Hin; [destruct Hin|].
  apply andb_prop in Hd. destruct Hd as [Hfresh Hd].
  destruct Hin as [E|Hin].
  - inversion E; subst. rewrite Z.eqb_refl. reflexivity.
  - destruct (Z.eqb z v') eqn:Ez.
    + exfalso. apply Z.eqb_eq in Ez. subst v'.
      assert (X : existsb (Z.eqb z) (map snd ms) = true).
      { apply existsb_exists. exists z. split; [|apply Z.eqb_refl].
        change z with (snd (n, z)). apply in_map. exact Hin. }
      rewrite X in Hfresh. discriminate.
    + apply IH; assumption.
Qed.

Lemma enum_idem ms v x : nodup_z (map snd ms) = true -> enum_call ms v = Ok x -> enum_call ms x = Ok x.
Proof.
  intros Hd H. destruct (yields_ok (enum_call_spec ms v) x H) as (n & z & -> & Hin).
  cbn. rewrite (enum_by_value_unique ms Hd n z Hin). reflexivity.
Qed.

Lemma mem_str_In k l : In k l -> mem_str k l = true.
Proof.
  induction l as [|k' l IH]; cbn; [intros []|]. intros [->|H]; [rewrite str_eqb_refl; reflexivity|].
  rewrite (IH H). apply orb_true_r.
Qed.
Lemma mem_str_true_In k l : mem_str k l = true -> In k l.
Proof.
  induction l as [|k' l IH]; cbn; [discriminate|]. destruct (str_eqb k k') eqn:E; cbn.
  - intros _. left. symmetry. apply str_eqb_eq. exact E.
  - intros H. right. auto.
Qed.
Lemma mem_str_app k l1 l2 : mem_str k (l1 ++ l2) = mem_str k l1 || mem_str k l2.
Proof. induction l1 as [|k' l1 IH]; cbn; [reflexivity|]. rewrite IH. apply orb_assoc. Qed.

Lemma dict_set_fresh {A} k (v : A) acc : mem_str k (map fst acc) = false -> dict_set k v acc = acc ++ [(k, v)].
Proof.
  induction acc as [|[k' v'] acc IH]; cbn; [reflexivity|]. destruct (str_eqb k k'); cbn; [discriminate|].
  intros H. rewrite (IH H). reflexivity.
Qed.

Lemma dict_set_same {A} k (v : A) acc : nodup_str (map fst acc) = true -> In (k, v) acc -> dict_set k v acc = acc.
Proof.
  induction acc as [|[k' v'] acc IH]; cbn; [intros _ []|]. intros Hd Hin.
  apply andb_prop in Hd. destruct Hd as [Hf Hd].
  destruct Hin as [E|Hin].
  - inversion E; subst. rewrite str_eqb_refl. reflexivity.
  - destruct (str_eqb k k') eqn:E.
    + exfalso. apply str_eqb_eq in E. subst k'.
      assert (X : mem_str k (map fst acc) = true).
      { apply mem_str_In. change k with (fst (k, v)). apply in_map. exact Hin. }
      rewrite X in Hf. discriminate.
    + rewrite (IH Hd Hin). reflexivity.
Qed.

Lemma map_res_id (f : pyval -> res pyval) l : (forall x, In x l -> f x = Ok x) -> map_res f l = Ok l.
Proof.
  induction l as [|x l IH]; intros H; cbn; [reflexivity|].
  rewrite (H x (or_introl eq_refl)). cbn [bind]. rewrite IH by (intros; apply H; right; assumption). reflexivity.
Qed.

Lemma map2_res_id (f : pyval -> pyval -> res pyval) l t :
  (forall x, In x l -> f x x = Ok x) -> map2_res f l (l ++ t) = Ok l.
Proof.
  induction l as [|x l IH]; intros H; cbn; [destruct t; reflexivity|].
  rewrite (H x (or_introl eq_refl)). cbn [bind].
  fold (map2_res f). rewrite IH by (intros; apply H; right; assumption). reflexivity.
Qed.

Lemma all2_length Q ds l : all2 Q ds l = true -> length l = length ds.
Proof.
  revert l. induction ds as [|d1 ds IH]; destruct l as [|x l]; cbn; try discriminate; [reflexivity|].
  intros H. apply andb_prop in H. destruct H as [_ H]. f_equal. auto.
Qed.

Lemma mapd_res_id (f : dtype -> pyval -> res pyval) (Q : dtype -> pyval -> bool) ds :
  Forall (fun d1 => forall x, Q d1 x = true -> f d1 x = Ok x) ds ->
  forall l, all2 Q ds l = true -> mapd_res f ds l = Ok l.
Proof.
  induction 1 as [|d1 ds H1 HF IH]; destruct l as [|x l]; cbn; try discriminate; [reflexivity|].
  intros H. apply andb_prop in H. destruct H as [Hx Hl].
  rewrite (H1 x Hx). cbn [bind]. fold (mapd_res f). rewrite (IH l Hl). reflexivity.
Qed.

Lemma mapd2_res_id (f : dtype -> pyval -> pyval -> res pyval) (Q : dtype -> pyval -> bool) ds :
  Forall (fun d1 => forall x, Q d1 x = true -> f d1 x x = Ok x) ds ->
  forall l, all2 Q ds l = true -> mapd2_res f ds l l = Ok l.
Proof.
  induction 1 as [|d1 ds H1 HF IH]; destruct l as [|x l]; cbn; try discriminate; [reflexivity|].
  intros H. apply andb_prop in H. destruct H as [Hx Hl].
  rewrite (H1 x Hx). cbn [bind]. fold (mapd2_res f). rewrite (IH l Hl). reflexivity.
Qed.

Lemma member_res_of_entry (f : dtype -> pyval -> res pyval) (Q : dtype -> pyval -> bool) k y ms :
  Forall (fun m => forall y, Q (snd m) y = true -> f (snd m) y = Ok y) ms ->
  entry_ok Q ms (k, y) = true -> member_res f k y ms = Ok y.
Proof.
  induction 1 as [|[n d1] ms H1 HF IH]; [discriminate|].
  rewrite entry_ok_cons, member_res_cons. destruct (str_eqb k n); [apply H1|exact IH].
Qed.

Lemma entry_ok_mem (Q : dtype -> pyval -> bool) ms k y : entry_ok Q ms (k, y) = true -> mem_str k (map fst ms) = true.
Proof.
  induction ms as [|[n d1] ms IH]; [discriminate|]. rewrite entry_ok_cons. cbn [map fst mem_str].
  destruct (str_eqb k n); [reflexivity|exact IH].
Qed.

Lemma entry_ok_none (Q : dtype -> pyval -> bool) ms k :
  (forall d, Q d PNone = false) -> entry_ok Q ms (k, PNone) = false.
Proof.
  intros HQ. induction ms as [|[n d1] ms IH]; [reflexivity|]. rewrite entry_ok_cons.
  destruct (str_eqb k n); [apply HQ|exact IH].
Qed.

Lemma check_missing_pass names opt kv :
  forallb (fun n => mem_str n opt || mem_str n (map fst kv)) names = true -> check_missing names opt true kv = Ok tt.
Proof. intros H. unfold check_missing. rewrite (proj2 (missing_nil _ _ _) H). reflexivity. Qed.

Lemma struct_check_pass names opt c kv :
  forallb (fun p : str * pyval => mem_str (fst p) names) kv = true ->
  forallb (fun n => mem_str n opt || mem_str n (map fst kv)) names = true ->
  struct_check names opt c true (PDict kv) = Ok tt.
Proof.
  intros H1 H2. unfold struct_check.
  assert (E : existsb (fun p : str * pyval => negb (mem_str (fst p) names)) kv = false).
  { clear H2. induction kv as [|p kv IH]; cbn in *; [reflexivity|].
    apply andb_prop in H1. destruct H1 as [Ha Hb]. rewrite Ha. cbn. apply IH. exact Hb. }
  rewrite E. rewrite orb_true_r. rewrite (proj2 (missing_nil _ _ _) H2). reflexivity.
Qed.

(* the fold over the items of a mapping with distinct fresh keys appends them in order *)
Lemma struct_fold_append (f : dtype -> pyval -> res pyval) ms kv :
  (forall k y, In (k, y) kv -> y <> PNone /\ member_res f k y ms = Ok y) ->
  nodup_str (map fst kv) = true ->
  forall acc, (forall k, In k (map fst kv) -> mem_str k (map fst acc) = false) ->
  struct_fold f true ms kv acc = Ok (acc ++ kv).
Proof.
  induction kv as [|[k x] kv IH]; intros Hall Hd acc Hfresh; cbn [struct_fold].
  - rewrite app_nil_r. reflexivity.
  - cbn [map fst nodup_str] in Hd. apply andb_prop in Hd. destruct Hd as [Hk Hd].
    destruct (Hall k x (or_introl eq_refl)) as [Hx Hm].
    assert (Hstep : member_res f k x ms >>= (fun y => struct_fold f true ms kv (dict_set k y acc)) = Ok (acc ++ (k, x) :: kv)).
    { rewrite Hm. cbn [bind]. rewrite dict_set_fresh by (apply Hfresh; left; reflexivity).
      rewrite IH.
      - rewrite <- app_assoc. reflexivity.
      - intros; apply Hall; right; assumption.
      - exact Hd.
      - intros k0 Hin. rewrite map_app, mem_str_app. rewrite (Hfresh k0 (or_intror Hin)). cbn.
        rewrite orb_false_r. destruct (str_eqb k0 k) eqn:E; [|reflexivity].
        apply str_eqb_eq in E. subst k0. rewrite (mem_str_In _ _ Hin) in Hk. discriminate. }
    destruct x; try exact Hstep. exfalso. apply Hx. reflexivity.
Qed.

(* the fold over items that are already in the accumulator leaves it unchanged *)
Lemma struct_fold_inplace (f : dtype -> pyval -> res pyval) ms acc :
  nodup_str (map fst acc) = true ->
  forall kv, (forall k y, In (k, y) kv -> y <> PNone /\ member_res f k y ms = Ok y /\ In (k, y) acc) ->
  struct_fold f true ms kv acc = Ok acc.
Proof.
  intros Hd. induction kv as [|[k x] kv IH]; intros Hall; cbn [struct_fold]; [reflexivity|].
  destruct (Hall k x (or_introl eq_refl)) as (Hx & Hm & Hin).
  assert (Hstep : member_res f k x ms >>= (fun y => struct_fold f true ms kv (dict_set k y acc)) = Ok acc).
  { rewrite Hm. cbn [bind]. rewrite (dict_set_same k x acc Hd Hin). apply IH. intros; apply Hall; right; assumption. }
  destruct x; try exact Hstep. exfalso. apply Hx. reflexivity.
Qed.

Lemma stable_none d : stable d PNone = false.
Proof. destruct d; reflexivity. Qed.

Theorem stable_fix : forall d w, stable d w = true ->
  dt_validate d w PNone = Ok w /\ dt_validate d w w = Ok w.
Proof.
  induction d as [ | | | | | | |e a b IHe|es IHes|ms o cl IHms] using dtype_nested_ind; intros w Hs;
    try (cbn [stable] in Hs; apply res_same_ok_eq in Hs; split; exact Hs).
  - destruct w as [| | | | | | |l| | |]; try discriminate. cbn [stable] in Hs.
    apply andb_prop in Hs. destruct Hs as [Hs Hall]. apply andb_prop in Hs. destruct Hs as [La Lb].
    assert (Hc : array_check a b (PTuple l) = Ok tt).
    { unfold array_check. cbn [is_str_bytes_dict py_len]. rewrite !Z.ltb_antisym, La, Lb. reflexivity. }
    assert (H1 : map_res (fun x => dt_validate e x PNone) l = Ok l).
    { apply map_res_id. intros x Hin. apply IHe. eapply forallb_forall in Hall; eauto. }
    cbn [dt_validate]. rewrite Hc. cbn [bind py_iter py_truthy]. split.
    + rewrite H1. reflexivity.
    + (* an empty tuple is falsy: validate then takes the branch without a previous value *)
      destruct l as [|x0 l0] eqn:El; [reflexivity|]. rewrite <- El in *.
      replace (length l - length l) with 0 by lia. cbn [repeat].
      rewrite map2_res_id; [reflexivity|]. intros x Hin. apply IHe. eapply forallb_forall in Hall; eauto.
  - destruct w as [| | | | | | |l| | |]; try discriminate. rewrite stable_tuple in Hs.
    assert (Hc : tuple_check (length es) (PTuple l) = Ok tt).
    { unfold tuple_check. cbn [is_str_bytes_dict py_len]. rewrite (all2_length _ _ _ Hs), Z.eqb_refl. reflexivity. }
    cbn [dt_validate]. rewrite Hc. cbn [bind py_iter]. split.
    + rewrite (mapd_res_id (fun d1 x => dt_validate d1 x PNone) stable es); [reflexivity| |exact Hs].
      eapply Forall_impl; [|exact IHes]. intros d1 IH x Hx. apply (IH x Hx).
    + rewrite (mapd2_res_id dt_validate stable es); [reflexivity| |exact Hs].
      eapply Forall_impl; [|exact IHes]. intros d1 IH x Hx. apply (IH x Hx).
  - destruct w as [| | | | | | | |kv| |]; try discriminate. rewrite stable_struct in Hs.
    apply andb_prop in Hs. destruct Hs as [Hs Hmand]. apply andb_prop in Hs. destruct Hs as [Hd Hent].
    assert (Hc : struct_check (map fst ms) o cl true (PDict kv) = Ok tt).
    { apply struct_check_pass; [|exact Hmand]. apply forallb_forall. intros [k y] Hin. cbn [fst].
      eapply entry_ok_mem. eapply forallb_forall in Hent; eauto. }
    assert (Hmem : forall k y, In (k, y) kv ->
              y <> PNone /\ member_res (fun d1 x => dt_validate d1 x PNone) k y ms = Ok y).
    { intros k y Hin. eapply forallb_forall in Hent; eauto. split.
      - intros ->. rewrite (entry_ok_none stable ms k stable_none) in Hent. discriminate.
      - eapply member_res_of_entry; [|exact Hent].
        eapply Forall_impl; [|exact IHms]. intros m IH y0 Hy. apply (IH y0 Hy). }
    cbn [dt_validate]. rewrite Hc. cbn [bind is_dict negb dict_items py_truthy]. split.
    + rewrite (struct_fold_append _ ms kv Hmem Hd []) by (intros; reflexivity).
      cbn [app wrap_elem bind]. rewrite (check_missing_pass _ _ _ Hmand). reflexivity.
    + (* likewise an empty mapping is falsy; otherwise the loop starts from kv itself *)
      destruct kv as [|p0 kv0] eqn:Ek.
      * cbn. rewrite (check_missing_pass _ _ [] Hmand). reflexivity.
      * rewrite <- Ek in *. rewrite (struct_fold_inplace _ ms kv Hd kv).
        -- cbn [wrap_elem bind]. rewrite (check_missing_pass _ _ _ Hmand). reflexivity.
        -- intros k y Hin. destruct (Hmem k y Hin). auto.
Qed.

Definition prev_st (d : dtype) (p : pyval) : Prop := p = PNone \/ stable d p = true.

Lemma implb_same b : implb b b = true.
Proof. destruct b; reflexivity. Qed.

Lemma leaf_stable d v p r : wf d -> idem_dt d = true -> container d = false -> dt_validate d v p = Ok r ->
  scaled_ok d r = true -> stable d r = true.
Proof.
  intros Hwf Hi Hd H G. rewrite (stable_leaf _ _ Hd).
  enough (E : dt_validate d r PNone = Ok r) by (rewrite E; apply res_same_refl_ok).
  destruct d; try discriminate; cbn [dt_validate] in *.
  - cbn [idem_dt] in Hi. apply andb_prop in Hi. destruct Hi as [Hi Fr]. apply andb_prop in Hi. destruct Hi as [Z1 Z2].
    apply negb_true_iff in Z1. apply negb_true_iff in Z2. exact (float_idem _ _ _ _ _ _ Hwf Z1 Z2 Fr H).
  - exact (int_idem _ _ _ _ H).
  - exact (scaled_idem _ _ _ _ _ Hwf H G).
  - exact (bool_idem _ _ H).
  - exact (enum_idem _ _ _ Hi H).
  - exact (string_idem _ _ _ _ _ H).
  - exact (blob_idem _ _ _ _ H).
Qed.

Lemma closed_idem : closed (fun d => wf d /\ idem_dt d = true).
Proof. apply closed_and; [exact closed_wf|apply closed_forallb; reflexivity]. Qed.

(* leaf by leaf a returned value is a fixed point if it satisfies the side condition; validate_lift carries that
   implication through the containers, lift_meet turns it into an implication between the lifted predicates *)
Theorem validate_stable : forall d, wf d -> idem_dt d = true -> forall v prev r,
  prev_st d prev -> dt_validate d v prev = Ok r -> scaled_ok d r = true -> stable d r = true.
Proof.
  intros d Hwf Hi v prev r Hp H G. rewrite stable_lift. rewrite scaled_ok_lift in G.
  unfold prev_st in Hp. rewrite stable_lift in Hp.
  assert (F : lift (fun d r => implb (scaled_ok d r) (stable d r)) stable_checks d r = true).
  { apply validate_lift with (W := fun d => wf d /\ idem_dt d = true) (L := stable) (c := stable_checks) (prev := prev)
      (v := v); [exact closed_idem| | |reflexivity|exact (conj Hwf Hi)|exact Hp|exact H].
    - intros d0 w _ _ ->. apply implb_true_r.
    - intros d0 v0 p r0 [Hwf0 Hi0] Hd H0. apply implb_true_iff. exact (leaf_stable d0 v0 p r0 Hwf0 Hi0 Hd H0). }
  apply lift_meet with (W := fun d => wf d /\ idem_dt d = true) (La := fun d r => implb (scaled_ok d r) (stable d r))
    (Lb := scaled_ok) (ca := stable_checks) (cb := no_checks);
    [exact closed_idem| |reflexivity|exact (conj Hwf Hi)|exact F|exact G].
  intros d0 w _ _ A B. rewrite B in A. exact A.
Qed.

Definition prev_canon (d : dtype) (p : pyval) : Prop := p = PNone \/ canon d p = true.

Lemma leaf_canon d v p r : container d = false -> dt_validate d v p = Ok r -> canon d r = true.
Proof.
  destruct d; try discriminate; intros _; cbn [dt_validate]; intros H.
  - destruct (yields_ok (float_validate_spec _ _ _ _ _) _ H) as (f & _ & _ & ->). reflexivity.
  - destruct (yields_ok (int_validate_spec _ _ _) _ H) as (z & _ & _ & ->). reflexivity.
  - destruct (yields_ok (scaled_validate_spec _ _ _ _) _ H) as (f & lo & hi & _ & _ & _ & _ & ->). reflexivity.
  - destruct (yields_ok (bool_call_spec _) _ H) as [b ->]. reflexivity.
  - (* for an enum, canon and in_setb are the same membership test *)
    exact (leaf_sound (TEnum members) v p r I eq_refl H).
  - destruct (yields_ok (string_call_spec _ _ _ _) _ H) as (s & _ & -> & _). reflexivity.
  - destruct (yields_ok (blob_call_spec _ _ _) _ H) as (s & _ & -> & _). reflexivity.
Qed.

Theorem validate_canon : forall d v prev r,
  prev_canon d prev -> dt_validate d v prev = Ok r -> canon d r = true.
Proof.
  intros d v prev r Hp. rewrite canon_lift. unfold prev_canon in Hp. rewrite canon_lift in Hp.
  apply validate_lift with (W := fun _ => True) (L := canon) (c := canon_checks) (prev := prev);
    [exact closed_all|auto| |reflexivity|exact I|exact Hp].
  intros d0 v0 p r0 _. apply leaf_canon.
Qed.

Theorem validate_idempotent : forall d, wf d -> idem_dt d = true -> forall v prev w,
  prev_st d prev -> dt_validate d v prev = Ok w -> scaled_ok d w = true ->
  res_same (dt_validate d w PNone) (Ok w) = true /\ res_same (dt_validate d w w) (Ok w) = true /\
  stable d w = true.
Proof.
  intros d Hwf Hi v prev w Hp H G.
  pose proof (validate_stable d Hwf Hi v prev w Hp H G) as S.
  destruct (stable_fix d w S) as [A B]. rewrite A, B. repeat split; try apply res_same_refl_ok. exact S.
Qed.

Lemma stable_canon d w : stable d w = true -> canon d w = true.
Proof.
  rewrite stable_lift, canon_lift.
  apply lift_mono with (W := fun _ => True); [exact closed_all| |reflexivity|exact I].
  intros d0 w0 _ Hd Hs. rewrite (stable_leaf _ _ Hd) in Hs. apply res_same_ok_eq in Hs. exact (leaf_canon _ _ _ _ Hd Hs).
Qed.

Lemma closed_no_scaled : closed (fun d => no_scaled d = true).
Proof. apply closed_forallb; reflexivity. Qed.

Lemma no_scaled_ok d w : no_scaled d = true -> canon d w = true -> scaled_ok d w = true.
Proof.
  rewrite canon_lift, scaled_ok_lift. intros Hn.
  apply lift_mono with (W := fun d => no_scaled d = true); [exact closed_no_scaled| |reflexivity|exact Hn].
  intros d0 w0 Hn0 Hd _. destruct d0; try discriminate; reflexivity.
Qed.

Lemma prev_st_canon d p : prev_st d p -> prev_canon d p.
Proof. intros [->|H]; [left; reflexivity|right; apply stable_canon; exact H]. Qed.

(* idempotence without side condition for every type tree that has no scaled leaf *)
Theorem validate_idempotent_noscaled : forall d, wf d -> idem_dt d = true -> no_scaled d = true ->
  forall v prev w, prev_st d prev -> dt_validate d v prev = Ok w ->
  res_same (dt_validate d w PNone) (Ok w) = true /\ res_same (dt_validate d w w) (Ok w) = true /\
  stable d w = true.
Proof.
  intros d Hwf Hi Hn v prev w Hp H. apply (validate_idempotent d Hwf Hi v prev w Hp H).
  apply no_scaled_ok; [exact Hn|]. exact (validate_canon d v prev w (prev_st_canon d prev Hp) H).
Qed.
