(* C11 - release on disconnect under all schedules (positive after repairs 14a9701 and a58ac30): the definitions,
   the list lemmas and the invariant I5 on the cleanup list; that T and the invariants on the control flags hold in
   every reachable state is proved in Release.v.
   A waiting caller whose event is not set is always *owed* a release: its entry is in txq / pending / active_requests
   and some thread is still going to look there, or it is in the hand of a thread that sets the event next.
   Once nobody owes anything any more (tx cannot transmit, rx has left its loop, every disconnect() that was entered
   has completed) every waiting caller has its event set. *)
From Coq Require Import List Arith NArith Bool Lia.
Import ListNotations.
Require Import FV.Base.Util FV.C11.Model FV.C11.Lemmas.

Fixpoint memb_o (e : eid) (l : list (option eid)) : bool :=
  match l with
  | [] => false
  | Some x :: r => Nat.eqb e x || memb_o e r
  | None :: r => memb_o e r
  end.

Definition txl (s : state) : bool := match tx s with TStart | TGet | TPark _ | TSend _ => true | _ => false end.
Definition rxl (s : state) : bool := match rx s with RDisc _ => false | _ => true end.
Definition dT (s : state) : option dpc := match tx s with TDisc d => Some d | _ => None end.
Definition dR (s : state) : option dpc := match rx s with RDisc d => Some d | _ => None end.
Definition dU (s : state) : option dpc := match us s with UDisc d => Some d | _ => None end.
Definition ob (p : dpc -> bool) (o : option dpc) : bool := match o with Some d => p d | None => false end.
(* some thread is inside disconnect() at a program point satisfying p *)
Definition ex (p : dpc -> bool) (s : state) : bool := ob p (dT s) || ob p (dR s) || ob p (dU s).

(* before or inside the drain of txq *)
Definition qst (d : dpc) : bool := match d with DShutSet | DQDrop | DQSet _ => true | _ => false end.
(* past `if self.io: self.io.shutdown()` *)
Definition past_pd (d : dpc) : bool := match d with DShutSet | DQDrop | DQSet _ | DExc => false | _ => true end.

Definition txlive (s : state) : bool := txl s && negb (closed_local s).
(* somebody will still look at txq: the tx thread while it can transmit, the rx thread (its disconnect is still to
   come), or a thread that has not finished its drain *)
Definition Wq (s : state) : bool := txlive s || rxl s || ex qst s.

Definition wl (l : list cpc) (i : nat) : bool := match nth_error l i with Some CWait => true | _ => false end.
Definition waiting (s : state) (i : nat) : bool := wl (cs s) i.

(* inside disconnect(), before the release of active_requests is complete / before the release of pending is complete *)
Definition ast (d : dpc) : bool := match d with DShutSet | DQDrop | DQSet _ | DMark | DJoinT | DJoinR | DRelA _ => true | _ => false end.
Definition pst (d : dpc) : bool := match d with DFin | DExc => false | _ => true end.
Definition jt (d : dpc) : bool := match d with DMark | DJoinT => true | _ => false end.
Definition holdd (i : nat) (d : dpc) : bool := match d with DQSet e | DRelA e | DRelP e => Nat.eqb i e | _ => false end.
Definition Wa (s : state) : bool := txlive s || rxl s || ex ast s.
Definition Wp (s : state) : bool := txlive s || rxl s || ex pst s.
(* the entry is in the hand of a thread: tx about to park it, rx about to re-queue it or to set its event,
   a disconnect() about to set its event *)
Definition hold (s : state) (i : nat) : bool :=
  match tx s with TPark e => Nat.eqb i e | _ => false end
  || match rx s with RReq e | RTopReq e | RSet e => Nat.eqb i e | _ => false end
  || ex (holdd i) s.
Definition owedb (s : state) (i : nat) : bool :=
  memb_o i (txq s) && Wq s || memb i (pending s) && Wp s || memb i (vals (active s)) && Wa s || hold s i.

Definition dn (l : list cpc) (i : nat) : bool := match nth_error l i with Some (CDone _) => true | _ => false end.

Definition T (s : state) : Prop :=
  forall i, waiting s i = true -> memb i (evset s) = false -> owedb s i = true.
(* while _running is set the rx thread is in its loop (it is rx, or a disconnect() before it, that clears the flag) *)
Definition I0 (s : state) : Prop := running s = true -> rxl s = true.
(* self.io is set to None only after the socket was closed *)
Definition I3 (s : state) : Prop := io_set s = false -> closed_local s = true.
(* a disconnect() past `if self.io: self.io.shutdown()` has closed the socket (or found it closed, I3) *)
Definition CL (s : state) : Prop := ex past_pd s = true -> closed_local s = true.
(* a tx thread still in its loop although the socket is closed is being waited for: some disconnect() is between
   its shutdown and the end of its join of tx, and has put (or is about to put) the None marker into txq *)
Definition K (s : state) : Prop := closed_local s = true -> txl s = true -> ex jt s = true.
(* the handle _txthread is cleared only by tx itself on its way out, or after tx was joined *)
Definition TXS (s : state) : Prop := txl s = true -> txset s = true.
(* the cleanup list names callers that have returned *)
Definition I5 (s : state) : Prop := forall e, memb e (cleanup s) = true -> dn (cs s) e = true.
Definition INV (s : state) : Prop := T s /\ I0 s /\ I3 s /\ CL s /\ K s /\ TXS s /\ I5 s.

Ltac unf := unfold cstep, caller_step, finish, tx_step, rx_step, user_step, tx_loop_top, tx_exit, rx_loop_top,
  rx_finally, do_cleanup, dstep, post_drain, after_tx, rel_begin, rel_loop_in, d_enabled, tx_fin, rx_fin, set_ev.

Lemma memb_o_app_some : forall i l e, memb_o i (l ++ [Some e]) = memb_o i l || Nat.eqb i e.
Proof. induction l as [|[x|] l IH]; simpl; intros; rewrite ?IH, ?orb_false_r, ?orb_assoc; auto. Qed.
Lemma memb_o_app_none : forall i l, memb_o i (l ++ [None]) = memb_o i l.
Proof. induction l as [|[x|] l IH]; simpl; intros; rewrite ?IH; auto. Qed.
Lemma nth_error_set_nth_at : forall (l : list cpc) j c0 c i, nth_error l j = Some c0 ->
  nth_error (set_nth j c l) i = if Nat.eqb i j then Some c else nth_error l i.
Proof.
  induction l as [|x l IH]; intros j c0 c i H; destruct j; simpl in *; try discriminate.
  - destruct i; reflexivity.
  - destruct i; simpl; [reflexivity|]. eapply IH; eauto.
Qed.
Definition is_wait (c : cpc) : bool := match c with CWait => true | _ => false end.
Lemma wl_set_nth : forall l j c0 c i, nth_error l j = Some c0 ->
  wl (set_nth j c l) i = if Nat.eqb i j then is_wait c else wl l i.
Proof. intros l j c0 c i H. unfold wl. rewrite (nth_error_set_nth_at _ _ _ _ _ H). destruct (Nat.eqb i j), c; reflexivity. Qed.
Lemma dn_set_nth : forall l j c0 c i, nth_error l j = Some c0 ->
  dn (set_nth j c l) i = if Nat.eqb i j then cdone_b c else dn l i.
Proof. intros l j c0 c i H. unfold dn. rewrite (nth_error_set_nth_at _ _ _ _ _ H). destruct (Nat.eqb i j), c; reflexivity. Qed.
Lemma dn_wl : forall l i, dn l i = true -> wl l i = false.
Proof. unfold dn, wl. intros l i. destruct (nth_error l i) as [[]|]; auto; discriminate. Qed.
Lemma memb_app_one : forall i l e, memb i (l ++ [e]) = memb i l || Nat.eqb i e.
Proof. induction l; simpl; intros; [destruct (Nat.eqb i e); auto|]. destruct (Nat.eqb i a); simpl; auto. Qed.
Lemma vals_app_one : forall i l k e, memb i (vals (l ++ [(k, e)])) = memb i (vals l) || Nat.eqb i e.
Proof. intros. unfold vals. rewrite map_app. simpl. apply memb_app_one. Qed.
Lemma dpop_memb : forall i k l, memb i (vals l) =
  memb i (vals (snd (dpop k l))) || match fst (dpop k l) with Some e => Nat.eqb i e | None => false end.
Proof.
  induction l as [|[k' e] r IH]; simpl; auto.
  destruct (key_eqb k k'); simpl.
  - rewrite orb_comm. reflexivity.
  - destruct (dpop k r) as [x r']; simpl in *. rewrite IH. destruct (Nat.eqb i e); reflexivity.
Qed.
Lemma dremove_val_memb : forall i e l, Nat.eqb i e = false -> memb i (vals (dremove_val e l)) = memb i (vals l).
Proof.
  induction l as [|[k' e'] r IH]; simpl; intros H; auto.
  destruct (Nat.eqb e e') eqn:E; simpl.
  - apply Nat.eqb_eq in E. subst. rewrite H. reflexivity.
  - rewrite IH by assumption. reflexivity.
Qed.
Lemma fold_remove_memb : forall i es l, memb i es = false ->
  memb i (vals (fold_left (fun a e => dremove_val e a) es l)) = memb i (vals l).
Proof.
  induction es as [|e es IH]; simpl; intros l H; auto.
  destruct (Nat.eqb i e) eqn:E; try discriminate. rewrite IH by assumption. apply dremove_val_memb; assumption.
Qed.
Lemma memb_rev : forall i l, memb i (rev l) = memb i l.
Proof.
  induction l; simpl; auto. rewrite memb_app_one, IHl. destruct (Nat.eqb i a); simpl; rewrite ?orb_true_r, ?orb_false_r; auto.
Qed.
Lemma popitem_memb : forall l e l', popitem l = Some (e, l') ->
  forall i, memb i (vals l) = memb i (vals l') || Nat.eqb i e.
Proof.
  induction l as [|[k y] r IH]; simpl; intros e l' H i; try discriminate.
  destruct (popitem r) as [[z r']|] eqn:E; inversion H; subst; simpl.
  - rewrite (IH _ _ eq_refl). destruct (Nat.eqb i y); reflexivity.
  - apply popitem_none in E. subst. simpl. destruct (Nat.eqb i _); reflexivity.
Qed.

Lemma rx_match_memb : forall R2R ERR i a m, memb i (vals a) =
  memb i (vals (snd (rx_match R2R ERR a m))) ||
  match fst (rx_match R2R ERR a m) with Some e => Nat.eqb i e | None => false end.
Proof. intros. destruct (rx_match_dpop R2R ERR a m) as [k ->]. apply dpop_memb. Qed.

Lemma step_I5 : forall R2R ERR reqs s a, I5 s -> I5 (cstep R2R ERR reqs s a).
Proof.
  intros R2R ERR reqs s [t a] H. unfold I5 in *. unfold cstep; simpl. destruct t as [j| | |].
  - (* only a caller extends `cleanup`, by itself, in the step in which it returns; one that has not returned is
       not in `cleanup` *)
    unfold caller_step, finish. destruct (nth_error (cs s) j) as [c|] eqn:Hn; [|exact H].
    assert (G : forall c' q, cdone_b c = false -> memb q (cleanup s) = true -> dn (set_nth j c' (cs s)) q = true).
    { intros c' q Hc Hq. rewrite (dn_set_nth _ _ _ _ _ Hn). specialize (H q Hq). destruct (Nat.eqb q j) eqn:E; auto.
      apply Nat.eqb_eq in E. subst. unfold dn in H. rewrite Hn in H. destruct c; discriminate. }
    destruct c; try exact H; brk; try exact H; intros q Hq; simpl in *; try (apply G; auto; fail).
    rewrite memb_app_one in Hq. rewrite (dn_set_nth _ _ _ _ _ Hn). destruct (Nat.eqb q j); [reflexivity|].
    rewrite orb_false_r in Hq. exact (H q Hq).
  - unf; brk; exact H.
  - unf; brk; try exact H; intros q Hq; discriminate.
  - unf; brk; exact H.
Qed.
