(* C11 - the property theorems; each is a lemma of Lemmas.v / Release.v / Cleanup.v or a short proof over the model
   and those files.  `sched` ranges over every interleaving of caller / tx / rx / user threads at their
   synchronisation points together with every behaviour of the environment (time-outs firing at any moment; the peer
   answering any outstanding request with a reply or an error reply, sending updates, staying idle, closing), `reqs`
   over every set of requests (any number of callers, equal or distinct keys, known or unknown actions). *)
From Coq Require Import List Arith NArith Bool Lia.
Import ListNotations.
Require Import FV.Gen.C11 FV.C11.Model FV.C11.Lemmas FV.C11.ReleaseBase FV.C11.Release FV.C11.Cleanup.

(* obligations on the facts regenerated from /repo (Gen/C11.v): the code has the modelled shape, and no reply
   action of REQUEST2REPLY starts with the error prefix *)
Theorem C11_source_facts :
  get_reply_shape = true /\ queue_request_shape = true /\ tx_shape = true /\ rx_match_shape = true /\
  rx_deliver_shape = true /\ rx_cleanup_shape = true /\ rx_finally_shape = true /\ disconnect_order = true /\
  txq_size = 30 /\ pending_size = 30 /\ reply_timeout = 10 /\ table_ok R2R ERR.
Proof.
  repeat split; try reflexivity.
  intros a r H.
  assert (F : forallb (fun p => negb (starts_with ERR (snd p))) R2R = true) by reflexivity.
  rewrite forallb_forall in F. apply F in H. simpl in H. apply negb_true_iff in H. exact H.
Qed.

(* the pending-request table never holds two entries per key, and every entry is registered under the key
   (reply action, identifier) of its own request: all schedules *)
Theorem C11_one_entry_per_key : forall reqs sched,
  let a := active (run R2R ERR reqs sched) in
  NoDup (map fst a) /\ forall k e, In (k, e) a -> k = key_of R2R (req reqs e).
Proof. intros reqs sched. apply table_inv_run. Qed.

(* in every reachable state: if the request of caller t is registered, the reply or error reply to it is handed
   to caller t and to nobody else, whatever other requests are registered (known and unknown actions) *)
Theorem C11_answer_matched_to_own_entry : forall reqs sched t ok,
  wf_req R2R ERR (req reqs t) ->
  let a := active (run R2R ERR reqs sched) in
  dget (key_of R2R (req reqs t)) a = Some t ->
  fst (rx_match R2R ERR a (answer R2R ERR (req reqs t) ok t)) = Some t.
Proof.
  intros reqs sched t ok W a G. apply match_own; auto.
  - apply C11_source_facts.
  - apply (table_inv_run R2R ERR reqs sched).
Qed.

(* every entry is in at most one place (not yet queued, txq, pending, registered, in the hand of the tx or rx
   thread, answered): all schedules.  Hence no entry is transmitted or answered twice *)
Theorem C11_entries_linear : forall reqs sched x, P (run R2R ERR reqs sched) x <= 1.
Proof. intros; apply linear_run. Qed.

(* no caller is handed two replies *)
Theorem C11_answered_at_most_once : forall reqs sched x,
  cnt x (map fst (replies (run R2R ERR reqs sched))) <= 1.
Proof. intros reqs sched x. pose proof (linear_run R2R ERR reqs sched x) as H. unfold P in H. lia. Qed.

(* no caller waits longer than its time-out: in every state a waiting caller can leave by time-out, and that
   step makes request() return *)
Theorem C11_wait_bounded : forall reqs s i, nth_error (cs s) i = Some CWait ->
  enabled s (TC i) ATimeout = true /\
  exists o, nth_error (cs (cstep R2R ERR reqs s (TC i, ATimeout))) i = Some (CDone o).
Proof.
  intros reqs s i H. split.
  - unfold enabled. rewrite H. apply orb_true_r.
  - unfold cstep, caller_step, finish; simpl. rewrite H.
    destruct (memb i (evset s)); [destruct (rassoc i (replies s))|]; simpl; eexists;
      eapply nth_error_set_nth; eauto.
Qed.

(* disconnect() never raises, whoever runs it and however many run it at once (user, tx thread, rx thread):
   all schedules.  (Was refuted before repair a58ac30: C11/txthread-join-race.) *)
Theorem C11_disconnect_never_raises : forall reqs sched,
  let s := run R2R ERR reqs sched in
  us s <> UDisc DExc /\ tx s <> TDisc DExc /\ rx s <> RDisc DExc.
Proof.
  intros reqs. apply (run_invariant R2R ERR reqs exc_free); [repeat split; discriminate | apply cstep_exc_free].
Qed.

(* RELEASE ON DISCONNECT (was refuted before repair 14a9701: C11/txq-entry-lost-on-disconnect; now the full
   statement, no guard): for every set of requests and every schedule - connection lost by the peer, shut down by
   the user, or both at once, requests queued at any moment - once the shutdown is complete (the tx thread cannot
   transmit any more, the rx thread has left its loop, every disconnect() that was entered has returned) every
   caller that is still waiting has had its event set, i.e. its next step returns its reply or a ConnectionError.
   The invariant behind it (FV.C11.ReleaseBase.T, proved for every reachable state): a waiting caller whose event is
   not set always has its entry in txq / pending / active_requests with a thread that will still look there, or in
   the hand of a thread that sets the event next - no entry is ever dropped. *)
Theorem C11_release_on_disconnect : forall reqs sched,
  let s := run R2R ERR reqs sched in
  quiescent s -> forall i, waiting s i = true -> memb i (evset s) = true.
Proof. intros reqs sched. apply release_on_disconnect. Qed.

Theorem C11_no_entry_lost : forall reqs sched i,
  let s := run R2R ERR reqs sched in
  waiting s i = true -> memb i (evset s) = false -> owedb s i = true.
Proof. intros reqs sched i. destruct (INV_run R2R ERR reqs sched) as [HT _]. apply HT. Qed.

(* the two repaired paths step by step: in every state, an entry that the drain of disconnect() takes out of txq gets its event set by the same thread
   before the next entry is taken ... *)
Theorem C11_drained_entry_released : forall s e r, txq s = Some e :: r ->
  snd (dstep s DQDrop) = DQSet e /\
  memb e (evset (fst (dstep (fst (dstep s DQDrop)) (DQSet e)))) = true /\
  snd (dstep (fst (dstep s DQDrop)) (DQSet e)) = DQDrop.
Proof. intros s e r H. simpl. rewrite H. simpl. rewrite Nat.eqb_refl. auto. Qed.

(* ... and a caller that queues its request after a disconnect() has begun releases itself *)
Theorem C11_late_request_released : forall reqs s i, running s = false -> nth_error (cs s) i = Some CPut ->
  let s2 := cstep R2R ERR reqs (cstep R2R ERR reqs s (TC i, ANone)) (TC i, ANone) in
  memb i (evset s2) = true /\ nth_error (cs s2) i = Some CWait.
Proof.
  intros reqs s i Hr Hc. unfold cstep; simpl.
  assert (E1 : caller_step ERR s i ANone = set_cs (set_txq s (txq s ++ [Some i])) (set_nth i CSetOwn (cs s)))
    by (unfold caller_step; rewrite Hc, Hr; reflexivity).
  rewrite E1. unfold caller_step; simpl. rewrite (nth_error_set_nth _ _ _ CSetOwn Hc). simpl.
  rewrite Nat.eqb_refl. split; [reflexivity|]. eapply nth_error_set_nth, nth_error_set_nth, Hc.
Qed.

(* own reply, the repaired window (was refuted before repair 2fda835: C11/parked-in-pending): in every state the rx
   thread reaches readline only from the re-queue loop at the top of its turn and only when `pending` is empty, and
   that loop moves every parked request back into txq *)
Theorem C11_parked_requeued_every_turn : forall reqs s a,
  (rx s <> RRecv -> rx (rx_step R2R ERR reqs s a) = RRecv -> rx s = RTopEmpty /\ pending s = []) /\
  (forall e r, rx s = RTopEmpty -> pending s = e :: r ->
     let s3 := rx_step R2R ERR reqs (rx_step R2R ERR reqs (rx_step R2R ERR reqs s a) a) a in
     rx s3 = RTopEmpty /\ pending s3 = r /\ txq s3 = txq s ++ [Some e]).
Proof.
  intros reqs s a. split.
  - intro Hn. unfold rx_step, rx_loop_top, rx_finally. destruct (rx s) eqn:E; try congruence; simpl;
      repeat match goal with |- context[match ?x with _ => _ end] => destruct x; simpl end; auto; intro; congruence.
  - intros e r H1 H2.
    assert (E1 : rx_step R2R ERR reqs s a = set_rx s RTopGet) by (unfold rx_step; rewrite H1, H2; reflexivity).
    rewrite E1.
    assert (E2 : rx_step R2R ERR reqs (set_rx s RTopGet) a = set_rx (set_pending (set_rx s RTopGet) r) (RTopReq e))
      by (unfold rx_step; simpl; rewrite H2; reflexivity).
    rewrite E2. unfold rx_step. simpl. auto.
Qed.

(* TIME-OUT CLEANUP BY IDENTITY.  `do_cleanup` is the loop at the top of every turn of the rx thread
   (`while self.cleanup: entry = self.cleanup.pop(); for key, prev in self.active_requests.items(): if prev is entry:
   pop(key); break`; `rx_loop_top` runs it whenever the client is running, and nothing else touches the list).
   For every set of requests and every schedule (time-outs at any moment, late replies, keys reused):
   (1) the cleanup removes an entry from active_requests if and only if it IS the entry of a request on the cleanup
       list - an entry of another request stays, whatever its key;
   (2) only requests whose caller has returned are on the cleanup list;
   (3) so the entry of a caller t that has not returned - e.g. a later request that reuses the key of a timed-out
       one, which is still on the list - keeps its registration under its key, and the reply or error reply that
       arrives for it is matched to t. *)
Theorem C11_cleanup_removes_only_own_entry : forall reqs sched,
  let s := run R2R ERR reqs sched in
  let a' := active (do_cleanup s) in
  (running s = true -> active (rx_loop_top s) = a' /\ cleanup (rx_loop_top s) = []) /\
  (forall k e, In (k, e) (active s) -> (In (k, e) a' <-> ~ In e (cleanup s))) /\
  (forall e, In e (cleanup s) -> caller_done s e = true) /\
  (forall t ok, wf_req R2R ERR (req reqs t) -> caller_done s t = false ->
     dget (key_of R2R (req reqs t)) (active s) = Some t ->
     dget (key_of R2R (req reqs t)) a' = Some t /\
     fst (rx_match R2R ERR a' (answer R2R ERR (req reqs t) ok t)) = Some t).
Proof.
  intros reqs sched s a'. split; [|split; [|split]].
  - intro H. unfold rx_loop_top. rewrite H. split; reflexivity.
  - apply cleanup_by_identity.
  - apply cleanup_only_returned.
  - intros t ok W D G. apply cleanup_keeps_waiting_entry; auto. apply C11_source_facts.
Qed.

(* non-vacuity: two callers with the same key; the second is parked in the window of the former defect (tx has
   tested the key, rx delivers and finds `pending` empty, tx parks), is re-queued at the next turn of rx, and both
   get their own answer (reply / error reply) *)
Example C11_demo :
  let reqs := [([114; 101; 97; 100]%N, [109; 58; 112]%N); ([114; 101; 97; 100]%N, [109; 58; 112]%N)] in
  let s := run R2R ERR reqs
    [(TC 0, ANone); (TC 1, ANone); (TTx, ANone); (TTx, ANone); (TTx, ANone); (TTx, ANone);
     (TRx, ANone); (TRx, ANone); (TRx, APeer (PReply 0 true)); (TRx, ANone); (TRx, ANone); (TRx, ANone);
     (TTx, ANone); (TC 0, ANone);
     (TRx, APeer PUpdate); (TRx, ANone); (TRx, ANone); (TRx, ANone); (TRx, ANone);
     (TTx, ANone); (TTx, ANone); (TRx, APeer (PReply 1 false)); (TRx, ANone); (TRx, ANone); (TRx, ANone); (TC 1, ANone)] in
  map (fun c => match c with CDone (OReply m) => Some (true, m_tok m) | CDone (OError m) => Some (false, m_tok m) | _ => None end) (cs s)
  = [Some (true, 0); Some (false, 1)] /\ pending s = [] /\ active s = [].
Proof. vm_compute. repeat split; reflexivity. Qed.

(* non-vacuity of C11_release_on_disconnect: the schedule of corpus/C11/txq_entry_lost.json without the last step of
   the callers (user disconnect drains the request of caller 0; caller 1 queues afterwards): the shutdown is
   complete, both callers are still waiting, both events are set *)
Example C11_release_demo :
  let reqs := [([114; 101; 97; 100]%N, [109; 58; 112]%N); ([99; 104; 97; 110; 103; 101]%N, [109; 58; 113]%N)] in
  let s := run R2R ERR reqs
    [(TC 0, ANone); (TTx, ANone); (TRx, ANone); (TUser, ANone); (TUser, ANone); (TUser, ANone); (TUser, ANone);
     (TUser, ANone); (TC 1, ANone); (TC 1, ANone); (TTx, ANone); (TTx, ANone); (TRx, ANone); (TRx, APeer PClose);
     (TRx, ANone); (TRx, ANone); (TRx, ANone); (TRx, ANone); (TRx, ANone); (TUser, ANone); (TUser, ANone);
     (TUser, ANone)] in
  Wp s = false /\ cs s = [CWait; CWait] /\ memb 0 (evset s) = true /\ memb 1 (evset s) = true /\ us s = UDisc DFin.
Proof. vm_compute. repeat split; reflexivity. Qed.

(* non-vacuity of C11_cleanup_removes_only_own_entry: two callers with the same key; caller 0 is transmitted, caller 1
   parked; caller 0 times out (cleanup list = [0]); its late reply arrives before the rx thread has looked at the list,
   the rx thread re-queues caller 1 and the tx thread registers it under the same key before the rx thread reaches
   the cleanup loop.  In that state the keyed removal `active_requests.pop(key of the timed-out request)` would
   delete the entry of caller 1; the cleanup by identity keeps it, and caller 1 receives its own reply *)
Example C11_cleanup_demo :
  let reqs := [([114; 101; 97; 100]%N, [109; 58; 112]%N); ([114; 101; 97; 100]%N, [109; 58; 112]%N)] in
  let pre := [(TC 0, ANone); (TTx, ANone); (TTx, ANone); (TTx, ANone); (TC 1, ANone); (TTx, ANone); (TTx, ANone);
     (TRx, ANone); (TRx, ANone); (TRx, ANone); (TRx, ANone); (TRx, ANone); (TTx, ANone); (TTx, ANone);
     (TC 0, ATimeout); (TRx, APeer (PReply 0 true)); (TRx, ANone); (TRx, ANone); (TRx, ANone); (TRx, ANone);
     (TTx, ANone)] in
  let s := run R2R ERR reqs pre in
  let k := key_of R2R (req reqs 0) in
  cleanup s = [0] /\ active s = [(k, 1)] /\ key_of R2R (req reqs 1) = k /\ caller_done s 1 = false /\
  snd (dpop k (active s)) = [] /\ active (do_cleanup s) = [(k, 1)] /\
  let s2 := run R2R ERR reqs (pre ++ [(TRx, ANone); (TTx, ANone); (TRx, ANone); (TRx, APeer (PReply 1 true));
                                       (TRx, ANone); (TC 1, ANone)]) in
  map (fun c => match c with CDone (OReply m) => Some (m_tok m) | CDone OTimeout => Some 99 | _ => None end) (cs s2)
  = [Some 99; Some 1] /\ active s2 = [] /\ cleanup s2 = [].
Proof. vm_compute. repeat split; reflexivity. Qed.

Print Assumptions C11_source_facts.
Print Assumptions C11_one_entry_per_key.
Print Assumptions C11_answer_matched_to_own_entry.
Print Assumptions C11_entries_linear.
Print Assumptions C11_answered_at_most_once.
Print Assumptions C11_wait_bounded.
Print Assumptions C11_disconnect_never_raises.
Print Assumptions C11_release_on_disconnect.
Print Assumptions C11_no_entry_lost.
Print Assumptions C11_drained_entry_released.
Print Assumptions C11_late_request_released.
Print Assumptions C11_parked_requeued_every_turn.
Print Assumptions C11_cleanup_removes_only_own_entry.
