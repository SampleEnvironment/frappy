(* C11 - release on disconnect under all schedules (positive after repairs 14a9701 and a58ac30): the tracking
   invariant T of ReleaseBase.v and the invariants on the control flags are preserved by every step, so they hold in
   every reachable state. *)
From Coq Require Import List Arith NArith Bool Lia.
Import ListNotations.
Require Import FV.Base.Util FV.C11.Model FV.C11.Lemmas FV.C11.ReleaseBase.

(* A waiting caller is owed a release for one of four reasons: its entry is in txq and somebody will still drain
   txq (Wq), in pending (Wp), in active_requests (Wa), or in the hand of a thread.  A step keeps T because every
   reason of the old state is a reason of the new one: the same, or the next one on the way of the entry
   (txq -> hand of tx -> pending or active_requests -> hand of rx or of a disconnect() -> event set). *)
Lemma owedb_iff s i : owedb s i = true <->
  (memb_o i (txq s) = true /\ Wq s = true) \/ (memb i (pending s) = true /\ Wp s = true) \/
  (memb i (vals (active s)) = true /\ Wa s = true) \/ hold s i = true.
Proof. unfold owedb. rewrite !orb_true_iff, !andb_true_iff. tauto. Qed.

Lemma owed_q s i : memb_o i (txq s) = true -> Wq s = true -> owedb s i = true.
Proof. intros. apply owedb_iff; auto. Qed.
Lemma owed_p s i : memb i (pending s) = true -> Wp s = true -> owedb s i = true.
Proof. intros. apply owedb_iff; auto. Qed.
Lemma owed_a s i : memb i (vals (active s)) = true -> Wa s = true -> owedb s i = true.
Proof. intros. apply owedb_iff; auto. Qed.
Lemma owed_h s i : hold s i = true -> owedb s i = true.
Proof. intros. apply owedb_iff; auto. Qed.

Lemma owedb_mono s s' i :
  (memb_o i (txq s) = true -> Wq s = true -> owedb s' i = true) ->
  (memb i (pending s) = true -> Wp s = true -> owedb s' i = true) ->
  (memb i (vals (active s)) = true -> Wa s = true -> owedb s' i = true) ->
  (hold s i = true -> owedb s' i = true) ->
  owedb s i = true -> owedb s' i = true.
Proof. rewrite (owedb_iff s). intuition auto. Qed.

(* whoever will still drain txq will also release active_requests, and who does that will also drain pending:
   the phases of disconnect() follow each other in this order *)
Lemma ex_imp (p q : dpc -> bool) s : (forall d, p d = true -> q d = true) -> ex p s = true -> ex q s = true.
Proof.
  intros H. unfold ex, ob. destruct (dT s), (dR s), (dU s); rewrite ?orb_true_iff, ?orb_false_r; intuition auto.
Qed.
Lemma ex_imp_or b (p q : dpc -> bool) s :
  (forall d, p d = true -> q d = true) -> b || ex p s = true -> b || ex q s = true.
Proof. intro H. rewrite !orb_true_iff. intros [B|E]; [left; exact B|right; revert E; apply ex_imp, H]. Qed.
Lemma Wq_Wa s : Wq s = true -> Wa s = true.
Proof. apply ex_imp_or. intros []; auto. Qed.
Lemma Wa_Wp s : Wa s = true -> Wp s = true.
Proof. apply ex_imp_or. intros []; auto. Qed.
Lemma Wq_rxl s : rxl s = true -> Wq s = true.
Proof. intro H. unfold Wq. rewrite H, orb_true_r. reflexivity. Qed.
(* a tx thread still in its loop is either able to transmit or, the socket being closed, about to be joined by a
   disconnect() that has not begun its releases yet *)
Lemma K_Wa s : K s -> txl s = true -> Wa s = true.
Proof.
  intros HK L. unfold Wa, txlive. rewrite L. destruct (closed_local s) eqn:C; simpl; [|reflexivity].
  rewrite (ex_imp jt ast s); [apply orb_true_r|intros []; auto|apply HK; assumption].
Qed.

(* the callers to look at after a step: those that have just begun to wait, and those that waited before *)
Lemma T_step s s' : T s ->
  (forall i, waiting s' i = true -> memb i (evset s') = false ->
     owedb s' i = true \/ (waiting s i = true /\ memb i (evset s) = false /\ (owedb s i = true -> owedb s' i = true))) -> T s'.
Proof. intros HT H i W E. destruct (H i W E) as [O|(W0 & E0 & O)]; auto. Qed.

(* The tactics below dispose of what a step did not touch.  The program counter of the stepping thread is known
   by an equation in the context; what the other two threads contribute to a flag stays an atom.
   fl:   a flag (Wq, Wa, Wp, hold) of the new state from the flags of the old state that are in the context (flags_in
         puts them into the goal); with the flags unfolded and the known program counters put in (pcs), what is left
         is propositional (bools);
   mem:  a membership in a container of the new state from one in the context;
   ow:   `owedb s' i` by one of the four reasons, membership by mem and flag by fl;
   same: T of the new state by T_step and owedb_mono, every reason tried as it stands; the goals that are left are
         the reasons the step changed.  Names it introduces: i the caller in question, Wi that it waits, Ei that its
         event is not set (E : i =? e = false if the step set the event of e), M the membership (or `hold`) in the
         old state, W the flag that goes with it, W1 and W2 its weaker forms;
   eqb i e: is the caller i the one whose entry e the step moved?
   ow_by, same_by: ow and same with the tactics for memberships and flags as arguments (a step of disconnect() below
         has its own); same_by also takes what is to be done to the goal of T_step before the caller is introduced. *)
Ltac pcs := repeat match goal with
  | H : tx _ = _ |- _ => rewrite H
  | H : rx _ = _ |- _ => rewrite H
  | H : us _ = _ |- _ => rewrite H
  | H : closed_local _ = _ |- _ => rewrite H end.
Ltac flags_in := repeat match goal with
  | H : Wq _ = true |- _ => revert H | H : Wa _ = true |- _ => revert H | H : Wp _ = true |- _ => revert H
  | H : hold _ _ = true |- _ => revert H | H : _ || _ = true |- _ => revert H end.
Ltac bools := simpl; pcs; simpl; rewrite ?orb_true_r, ?orb_false_r; intros; try reflexivity; try assumption; try discriminate;
  try solve [rewrite ?orb_true_iff, ?andb_true_iff, ?negb_true_iff in *; tauto].
Ltac fl := flags_in; unfold Wq, Wa, Wp, hold, txlive, txl, rxl, ex, dT, dR, dU, ob; bools.
Ltac mem := simpl; rewrite ?memb_app_one, ?vals_app_one, ?memb_o_app_some, ?memb_o_app_none;
  repeat match goal with H : txq _ = _ |- _ => rewrite H | H : pending _ = _ |- _ => rewrite H end; simpl; try assumption;
  repeat match goal with H : _ = true |- _ => rewrite H end; simpl; rewrite ?orb_true_r; reflexivity.
Ltac ow_by mm ff := first [ solve [apply owed_q; [mm|ff]] | solve [apply owed_p; [mm|ff]] | solve [apply owed_a; [mm|ff]]
                          | solve [apply owed_h; ff] ].
Ltac ow := ow_by ltac:(mem) ltac:(fl).
Ltac same_by HT prep mm ff := eapply T_step; [exact HT|]; prep; intros i Wi Ei; right;
  try (simpl in Ei; match type of Ei with (if ?c then _ else _) = _ => destruct c eqn:E; [discriminate|] end);
  split; [exact Wi|]; split; [exact Ei|];
  apply owedb_mono;
  [intros M W; pose proof (Wq_Wa _ W) as W1; pose proof (Wa_Wp _ W1) as W2;
   try (match goal with H : txq _ = _ |- _ => rewrite H in M end; simpl in M); try discriminate;
   try solve [apply owed_q; [mm|ff]]
  |intros M W; try (match goal with H : pending _ = _ |- _ => rewrite H in M end; simpl in M); try discriminate;
   try solve [apply owed_p; [mm|ff]]
  |intros M W; pose proof (Wa_Wp _ W) as W1; try solve [apply owed_a; [mm|ff]]
  |intros M; try solve [apply owed_h; ff]].
Ltac same HT := same_by HT ltac:(idtac) ltac:(mem) ltac:(fl).
Ltac eqb i e := let E' := fresh "E" in destruct (Nat.eqb i e) eqn:E'; simpl in *; rewrite ?orb_false_r in *.
Section S.
Variables (R2R : list (str*str)) (ERR : str) (reqs : list (str*str)).

Lemma step_T_tx_loop s : INV s -> (forall d, tx s <> TDisc d) -> T (tx_step R2R reqs s).
Proof.
  intros (HT & H0 & H3 & HC & HK & HX & H5) Hd.
  unfold tx_step, tx_loop_top, tx_exit.
  destruct (tx s) as [| |e|e|d|] eqn:Htx; simpl.
  - destruct (running s); simpl; same HT.
  - destruct (txq s) as [|[e|] q] eqn:Hq; simpl; [exact HT| |].
    + (* txq.get() gave entry e: parked in the hand of tx if its key is taken, else registered in active_requests,
         which is still released by whoever was going to drain txq (Wq_Wa); without io the socket is closed (I3) *)
      destruct (dmem _ _); simpl; [|destruct (io_set s) eqn:Hio; simpl; [|pose proof (H3 Hio)]]; same HT.
      all: eqb i e; ow.
    + destruct (running s); simpl; same HT.
  - (* pending.put(e): somebody will still drain pending, because tx itself is alive or about to be joined *)
    pose proof (K_Wa s HK) as KW. unfold txl in KW. rewrite Htx in KW. specialize (KW eq_refl). apply Wa_Wp in KW.
    destruct (running s); simpl; same HT.
    all: unfold hold in M; rewrite Htx in M; eqb i e; ow.
  - destruct (closed_local s) eqn:Hcl; simpl; [|destruct (running s); simpl]; same HT.
  - destruct (Hd d eq_refl).
  - exact HT.
Qed.

Lemma T_rx_loop_top s : T s -> I5 s -> rx s = RStart \/ rx s = RRecv \/ rx s = REmpty -> T (rx_loop_top s).
Proof.
  intros HT H5 [Hrx|[Hrx|Hrx]]; unfold rx_loop_top, rx_finally, do_cleanup; (destruct (running s); simpl; same HT).
  (* the cleanup at the top of the loop removes only entries of callers that have returned (I5) *)
  all: apply owed_a; [simpl; rewrite fold_remove_memb; [exact M|] | fl].
  all: rewrite memb_rev; destruct (memb i (cleanup s)) eqn:C; auto; apply H5, dn_wl in C; unfold waiting in Wi; simpl in Wi; congruence.
Qed.

Lemma step_T_rx_loop s a : INV s -> (forall d, rx s <> RDisc d) -> T (rx_step R2R ERR reqs s a).
Proof.
  intros (HT & H0 & H3 & HC & HK & HX & H5) Hd.
  unfold rx_step, rx_finally.
  destruct (rx s) as [| | |e| |e| | |e|d] eqn:Hrx; simpl.
  - apply T_rx_loop_top; auto.
  - destruct (pending s) eqn:Hp; simpl; [destruct (io_set s) eqn:Hio; simpl|]; same HT.
  - destruct (pending s) as [|e p] eqn:Hp; simpl; [exact HT|]; same HT.
    eqb i e; ow.
  - same HT. unfold hold in M; rewrite Hrx in M; eqb i e; ow.
  - assert (L : T (rx_loop_top s)) by (apply T_rx_loop_top; auto).
    destruct (closed_local s) eqn:Hcl'; simpl; [same HT|].
    destruct a as [| |[| | |t ok]]; simpl; try exact L; [same HT|].
    destruct (memb t (out s)); [|exact L].
    destruct (rx_match _ _ _ _) as [[e|] a'] eqn:Hm; simpl.
    + (* the reply is matched to entry e, popped from active_requests into the hand of rx *)
      same HT.
      match type of Hm with rx_match ?R ?E ?a ?m = _ => rewrite (rx_match_memb R E i a m), Hm in M end; simpl in M.
      eqb i e; ow.
    + apply (T_rx_loop_top (set_out s (remove_id t (out s)))); auto.
  - same HT. unfold hold in M; rewrite Hrx, E in M; ow.
  - destruct (pending s) eqn:Hp; simpl; [apply T_rx_loop_top; auto|same HT].
  - destruct (pending s) as [|e p] eqn:Hp; simpl; [exact HT|]; same HT.
    eqb i e; ow.
  - same HT. unfold hold in M; rewrite Hrx in M; eqb i e; ow.
  - destruct (Hd d eq_refl).
Qed.

Lemma step_T_c s i0 a : INV s -> T (caller_step ERR s i0 a).
Proof.
  intros (HT & H0 & H3 & HC & HK & HX & H5). unfold caller_step, finish.
  destruct (nth_error (cs s) i0) as [[| | |o]|] eqn:Hn; try exact HT.
  - (* txq.put(entry): the caller begins to wait only if _running was seen true, and then rx is still in its loop (I0) *)
    apply (T_step s); [exact HT|]. intros i Wi Ei. unfold waiting in Wi; simpl in Wi, Ei.
    rewrite (wl_set_nth _ _ _ _ _ Hn) in Wi. destruct (Nat.eqb i i0) eqn:E.
    + left. destruct (running s) eqn:R; [|discriminate]. apply owed_q; [mem|apply Wq_rxl; exact (H0 R)].
    + right. repeat split; try assumption. apply owedb_mono; intros; ow.
  - apply (T_step s); [exact HT|]. intros i Wi Ei. unfold waiting in Wi; simpl in Wi, Ei.
    rewrite (wl_set_nth _ _ _ _ _ Hn) in Wi. destruct (Nat.eqb i i0) eqn:E; [discriminate|].
    right. repeat split; try assumption. apply owedb_mono; intros; ow.
  - assert (G : forall o c, cleanup (set_cleanup s c) = c -> T (set_cs (set_cleanup s c) (set_nth i0 (CDone o) (cs s)))).
    { intros o c _. apply (T_step s); [exact HT|]. intros i Wi Ei. unfold waiting in Wi; simpl in Wi, Ei.
      rewrite (wl_set_nth _ _ _ _ _ Hn) in Wi. destruct (Nat.eqb i i0) eqn:E; [discriminate|].
      right. repeat split; try assumption. apply owedb_mono; intros; ow. }
    destruct (memb i0 (evset s)); [destruct (rassoc i0 (replies s)); apply (G _ (cleanup s)); reflexivity|].
    destruct a; try exact HT. apply G; reflexivity.
Qed.

Lemma step_T_us_start s : T s -> us s = UStart -> T (set_us (set_running s false) (UDisc DShutSet)).
Proof. intros HT Hus. same HT. Qed.

(* disconnect() is run by the tx thread, by the rx thread and by the user, possibly all at once: one lemma about
   `dstep` for whoever runs it *)
Inductive runner := RT | RR | RU.
Definition at_d (w : runner) (s : state) (d : dpc) : Prop :=
  match w with RT => tx s = TDisc d | RR => rx s = RDisc d | RU => us s = UDisc d end.
Definition put_d (w : runner) (s : state) (d : dpc) : state :=
  match w with RT => set_tx s (TDisc d) | RR => set_rx s (RDisc d) | RU => set_us s (UDisc d) end.

(* The proof keeps the runner w abstract.  What the two other threads contribute to `ex p` is an atom: *)
Definition others (w : runner) (p : dpc -> bool) (s : state) : bool :=
  match w with
  | RT => ob p (dR s) || ob p (dU s) | RR => ob p (dT s) || ob p (dU s) | RU => ob p (dT s) || ob p (dR s)
  end.

Lemma ex_at p w s d : at_d w s d -> ex p s = p d || others w p s.
Proof.
  intros H. unfold ex, others, dT, dR, dU. destruct w; simpl in H; rewrite H; simpl;
  repeat match goal with |- context[ob p ?o] => destruct (ob p o) end; destruct (p d); reflexivity.
Qed.
(* the step of a thread that is inside disconnect(), as cstep writes it for each of the three *)
Lemma runner_step (G : state -> Prop) w s d :
  G s -> (d_enabled s d = true -> G (put_d w (fst (dstep s d)) (snd (dstep s d)))) ->
  G (if d_enabled s d then let '(s1, d1) := dstep s d in put_d w s1 d1 else s).
Proof. intros H1 H2. destruct (d_enabled s d); [|exact H1]. destruct (dstep s d). exact (H2 eq_refl). Qed.

(* put_d moves the runner's program counter and nothing else *)
Lemma put_txq w s d : txq (put_d w s d) = txq s. Proof. destruct w; reflexivity. Qed.
Lemma put_pending w s d : pending (put_d w s d) = pending s. Proof. destruct w; reflexivity. Qed.
Lemma put_active w s d : active (put_d w s d) = active s. Proof. destruct w; reflexivity. Qed.
Lemma put_evset w s d : evset (put_d w s d) = evset s. Proof. destruct w; reflexivity. Qed.
Lemma put_cs w s d : cs (put_d w s d) = cs s. Proof. destruct w; reflexivity. Qed.
Lemma put_running w s d : running (put_d w s d) = running s. Proof. destruct w; reflexivity. Qed.
Lemma put_io_set w s d : io_set (put_d w s d) = io_set s. Proof. destruct w; reflexivity. Qed.
Lemma put_closed w s d : closed_local (put_d w s d) = closed_local s. Proof. destruct w; reflexivity. Qed.
Lemma put_txset w s d : txset (put_d w s d) = txset s. Proof. destruct w; reflexivity. Qed.
(* s1 is the state after the runner's step, before its program counter is put at d1: it differs from s in data and in
   closed_local only *)
Lemma txl_put w s s1 d d1 : at_d w s d -> tx s1 = tx s -> txl (put_d w s1 d1) = txl s.
Proof. intros H E. unfold txl. destruct w; simpl in *; rewrite ?E, ?H; reflexivity. Qed.
Lemma rxl_put w s s1 d d1 : at_d w s d -> rx s1 = rx s -> rxl (put_d w s1 d1) = rxl s.
Proof. intros H E. unfold rxl. destruct w; simpl in *; rewrite ?E, ?H; reflexivity. Qed.
Lemma ex_put p w s s1 d d1 : at_d w s d -> tx s1 = tx s -> rx s1 = rx s -> us s1 = us s ->
  ex p (put_d w s1 d1) = p d1 || others w p s.
Proof.
  intros H E1 E2 E3. unfold ex, others, dT, dR, dU. destruct w; simpl in *; rewrite ?E1, ?E2, ?E3; simpl;
  repeat match goal with |- context[ob p ?o] => destruct (ob p o) end; destruct (p d1); reflexivity.
Qed.

(* Wq, Wa, Wp and hold before and after the runner's step, in the shape flR rewrites with *)
Lemma W_at p w s d : at_d w s d ->
  txlive s || rxl s || ex p s = txl s && negb (closed_local s) || rxl s || (p d || others w p s).
Proof. intros H. unfold txlive. rewrite (ex_at p w s d H). reflexivity. Qed.
Lemma W_put p w s s1 d d1 : at_d w s d -> tx s1 = tx s -> rx s1 = rx s -> us s1 = us s ->
  txlive (put_d w s1 d1) || rxl (put_d w s1 d1) || ex p (put_d w s1 d1) =
  txl s && negb (closed_local s1) || rxl s || (p d1 || others w p s).
Proof.
  intros H E1 E2 E3. unfold txlive.
  rewrite (txl_put w s s1 d d1 H E1), (rxl_put w s s1 d d1 H E2), (ex_put p w s s1 d d1 H E1 E2 E3), put_closed.
  reflexivity.
Qed.

Definition thold (s : state) (i : nat) : bool :=
  match tx s with TPark e => Nat.eqb i e | _ => false end
  || match rx s with RReq e | RTopReq e | RSet e => Nat.eqb i e | _ => false end.
Lemma hold_at w s d i : at_d w s d -> hold s i = thold s i || (holdd i d || others w (holdd i) s).
Proof. intros H. unfold hold, thold. rewrite (ex_at (holdd i) w s d H). reflexivity. Qed.
Lemma hold_put w s s1 d d1 i : at_d w s d -> tx s1 = tx s -> rx s1 = rx s -> us s1 = us s ->
  hold (put_d w s1 d1) i = thold s i || (holdd i d1 || others w (holdd i) s).
Proof.
  intros H E1 E2 E3. unfold hold, thold. rewrite (ex_put (holdd i) w s s1 d d1 H E1 E2 E3).
  destruct w; simpl in *; rewrite ?E1, ?E2, ?H; reflexivity.
Qed.

(* flR, memR, owR, sameR: as fl, mem, ow, same, for a step of the runner that Hpc : at_d w s d speaks of;
   poppedR: popitem took the last entry e of active_requests (or found none): the caller is e, now in hand, or still inside;
   handedR: the entry this disconnect() had in hand has just had its event set: the caller in question is another one *)
Ltac flR Hpc := flags_in; unfold Wq, Wa, Wp;
  rewrite ?(W_at _ _ _ _ Hpc), ?(hold_at _ _ _ _ Hpc);
  repeat match goal with
  | |- context[ex ?p (put_d ?w ?s1 ?d1)] => rewrite (W_put p w _ s1 _ d1 Hpc eq_refl eq_refl eq_refl)
  | |- context[hold (put_d ?w ?s1 ?d1) ?i] => rewrite (hold_put w _ s1 _ d1 i Hpc eq_refl eq_refl eq_refl)
  end;
  unfold txl, rxl, thold; bools.
Ltac memR := rewrite ?put_txq, ?put_pending, ?put_active; mem.
Ltac owR Hpc := ow_by ltac:(memR) ltac:(flR Hpc).
Ltac sameR HT Hpc :=
  same_by HT ltac:(unfold waiting; rewrite put_cs, put_evset) ltac:(memR) ltac:(flR Hpc).
Ltac poppedR Hpop Hpc i e := first [ apply popitem_none in Hpop; rewrite Hpop in *; discriminate
                            | rewrite (popitem_memb _ _ _ Hpop) in *; eqb i e; owR Hpc ].
Ltac handedR Hpc := match goal with M : hold _ _ = true, E : (_ =? _) = false |- _ =>
  rewrite (hold_at _ _ _ _ Hpc) in M; simpl in M; rewrite E in M; owR Hpc end.

Lemma T_dstep w s d : INV s -> at_d w s d -> d_enabled s d = true ->
  T (put_d w (fst (dstep s d)) (snd (dstep s d))).
Proof.
  intros (HT & _ & _ & HC & _) Hpc En. unfold CL in HC.
  unfold dstep, post_drain, after_tx, rel_begin, rel_loop_in.
  destruct d; simpl in En |- *; try discriminate.
  - (* _shutdown.set(): nothing moves *)
    sameR HT Hpc.
  - (* the drain of txq *)
    destruct (txq s) as [|[e|] q] eqn:Hq; simpl.
    + (* txq found empty: nothing in txq is owed any more; on to the join of tx, the join of rx or the releases *)
      destruct (io_set s) eqn:Hio; simpl; (destruct (txset s) eqn:Hts; simpl; [|destruct (rxset s) eqn:Hrs; simpl; rewrite ?Hio; simpl;
      [|destruct (popitem (active s)) as [[e a']|] eqn:Hpop; simpl]]); sameR HT Hpc.
      all: poppedR Hpop Hpc i e.
    + (* an entry taken out of txq is in the hand of this disconnect() *)
      sameR HT Hpc. all: eqb i e; owR Hpc.
    + sameR HT Hpc.
  - (* the event of the drained entry is set *)
    sameR HT Hpc; handedR Hpc.
  - (* the None marker is put into txq: whoever was going to drain txq still is *)
    sameR HT Hpc.
  - (* the join of tx returns: tx is out of its loop *)
    destruct (tx_fin s) eqn:Hf; [|discriminate]. simpl. destruct (rxset s) eqn:Hrs; simpl;
      [|destruct (io_set s) eqn:Hio; simpl; (destruct (popitem (active s)) as [[e a']|] eqn:Hpop; simpl)];
      sameR HT Hpc.
      all: first [ poppedR Hpop Hpc i e
                 | unfold tx_fin in Hf; destruct (tx s) as [| | | |[]|] eqn:Htx; try discriminate; owR Hpc ].
  - (* the join of rx returns; the socket was shut down before the joins (CL) *)
    assert (Hc : closed_local s = true).
    { apply HC. rewrite (ex_at past_pd w s _ Hpc). reflexivity. }
    destruct (rx_fin s) eqn:Hf; [|discriminate]. simpl.
      destruct (io_set s) eqn:Hio; simpl; (destruct (popitem (active s)) as [[e a']|] eqn:Hpop; simpl);
      sameR HT Hpc.
      all: poppedR Hpop Hpc i e.
  - (* the event of a released entry of active_requests is set; popitem takes the next one *)
    destruct (popitem (active s)) as [[e' a']|] eqn:Hpop; simpl; sameR HT Hpc.
      all: first [ poppedR Hpop Hpc i e' | handedR Hpc ].
  - (* the drain of pending: the entry taken out is in hand; found empty, nothing in pending is owed any more *)
    destruct (pending s) as [|e p] eqn:Hp; simpl; sameR HT Hpc.
    all: eqb i e; owR Hpc.
  - (* the event of the entry taken out of pending is set *)
    sameR HT Hpc; handedR Hpc.
Qed.
(* The five invariants on the control flags, together.  A step of a thread's own loop (every program point: brk) is closed
   by fin: the step did not touch the flags in question (assumption), or the invariants the goal needs are put into it
   (hyps_in), the flags unfolded and the known program counters and control flags put in (known); what the other threads
   contribute stays an atom of the propositional problem that is left (prop).  A step of disconnect() is FL_dstep, for whoever runs it.  The cases that matter:
   I3, CL: rel_begin and post_drain close the socket before they clear io or go on; TXS: only tx_exit and the join of tx
   clear the handle; K: a disconnect() leaves the join of tx only when tx is out of its loop, and tx_exit enters
   disconnect() itself. *)
Ltac hyps_in := repeat match goal with H : _ = true -> _ |- _ => revert H | H : _ = false -> _ |- _ => revert H end.
Ltac known := repeat match goal with
  | E : ?x = _ |- context[?x] =>
      lazymatch x with
      | tx _ => idtac | rx _ => idtac | us _ => idtac | txl _ => idtac | rxl _ => idtac | io_set _ => idtac
      | closed_local _ => idtac | running _ => idtac | txset _ => idtac | rxset _ => idtac
      end; rewrite E
  end.
Ltac prop := simpl; rewrite ?orb_true_r, ?orb_false_r, ?orb_true_iff, ?andb_true_iff, ?negb_true_iff;
  try solve [intuition (try congruence; try discriminate)].
Ltac fin := try assumption; hyps_in; unfold ex, dT, dR, dU, ob, txlive, txl, rxl; simpl; known; prop.

Definition FL (s : state) : Prop := I0 s /\ I3 s /\ CL s /\ K s /\ TXS s.
Lemma tx_fin_txl s : tx_fin s = true -> txl s = false.
Proof. unfold tx_fin, txl. destruct (tx s) as [| | | |[]|]; auto; discriminate. Qed.
Lemma rx_fin_rxl s : rx_fin s = true -> rxl s = false.
Proof. unfold rx_fin, rxl. destruct (rx s) as [| | | | | | | | |[]]; auto; discriminate. Qed.

Ltac finR Hpc :=
  repeat match goal with
  | |- context[ex ?p (put_d ?w ?s1 ?d1)] => rewrite (ex_put p w _ s1 _ d1 Hpc eq_refl eq_refl eq_refl)
  | |- context[txl (put_d ?w ?s1 ?d1)] => rewrite (txl_put w _ s1 _ d1 Hpc eq_refl)
  | |- context[rxl (put_d ?w ?s1 ?d1)] => rewrite (rxl_put w _ s1 _ d1 Hpc eq_refl)
  end;
  rewrite ?put_running, ?put_io_set, ?put_closed, ?put_txset; simpl; hyps_in; known; prop.

Lemma FL_dstep w s d : FL s -> at_d w s d -> d_enabled s d = true ->
  FL (put_d w (fst (dstep s d)) (snd (dstep s d))).
Proof.
  intros (H0 & H3 & HC & HK & HX) Hpc En. unfold I0, I3, CL, K, TXS in *.
  rewrite (ex_at past_pd w s d Hpc) in HC. rewrite (ex_at jt w s d Hpc) in HK.
  unfold dstep, post_drain, after_tx, rel_begin, rel_loop_in.
  destruct d; simpl in En |- *; try discriminate; brk;
  try match goal with H : tx_fin _ = true |- _ => apply tx_fin_txl in H end;
  try match goal with H : rx_fin _ = true |- _ => apply rx_fin_rxl in H end;
  unfold FL, I0, I3, CL, K, TXS; repeat split; finR Hpc.
Qed.

Ltac fls H0 H3 HC HK HX := unfold FL, I0, I3, CL, K, TXS;
  split; [clear H3 HC HK HX; fin | split; [clear H0 HC HK HX; fin | split; [clear H0 HK HX; fin |
  split; [clear H0; fin | clear H0 H3 HC HK; fin]]]].
Lemma step_FL s x : FL s -> FL (cstep R2R ERR reqs s x).
Proof.
  intros F. destruct x as [t a]. unfold cstep; simpl.
  pose proof F as (H0 & H3 & HC & HK & HX). unfold I0, I3, CL, K, TXS in *.
  destruct t as [i| | |].
  - unfold caller_step, finish. brk; fls H0 H3 HC HK HX.
  - unfold tx_step. destruct (tx s) as [| | | |d|] eqn:Htx.
    1-4,6: (unfold tx_loop_top, tx_exit; brk; fls H0 H3 HC HK HX).
    apply (runner_step FL RT); [exact F|apply FL_dstep; assumption].
  - unfold rx_step. destruct (rx s) as [| | | | | | | | |d] eqn:Hrx.
    1-9: (unfold rx_loop_top, rx_finally, do_cleanup; brk; fls H0 H3 HC HK HX).
    apply (runner_step FL RR); [exact F|apply FL_dstep; assumption].
  - unfold user_step. destruct (us s) as [|d] eqn:Hus; [fls H0 H3 HC HK HX|].
    apply (runner_step FL RU); [exact F|apply FL_dstep; assumption].
Qed.
End S.

Lemma INV_step : forall R2R ERR reqs s x, INV s -> INV (cstep R2R ERR reqs s x).
Proof.
  intros R2R ERR reqs s [t a] H. pose proof H as [HT [H0 [H3 [HC [HK [HX H5]]]]]].
  destruct (step_FL R2R ERR reqs s (t, a) (conj H0 (conj H3 (conj HC (conj HK HX))))) as (F0 & F3 & FC & FK & FX).
  split; [|repeat split].
  - unfold cstep; simpl. destruct t as [i| | |].
    + apply step_T_c; exact H.
    + destruct (tx s) as [| | | |d|] eqn:Htx; try (apply step_T_tx_loop; [exact H|rewrite Htx; discriminate]).
      unfold tx_step. rewrite Htx. apply (runner_step T RT); [exact HT|apply T_dstep; assumption].
    + destruct (rx s) as [| | | | | | | | |d] eqn:Hrx; try (apply step_T_rx_loop; [exact H|rewrite Hrx; discriminate]).
      unfold rx_step. rewrite Hrx. apply (runner_step T RR); [exact HT|apply T_dstep; assumption].
    + unfold user_step. destruct (us s) as [|d] eqn:Hus; [apply step_T_us_start; assumption|].
      apply (runner_step T RU); [exact HT|apply T_dstep; assumption].
  - exact F0.
  - exact F3.
  - exact FC.
  - exact FK.
  - exact FX.
  - apply step_I5; assumption.
Qed.

Lemma wl_init : forall (reqs : list (str * str)) i, wl (map (fun _ => CPut) reqs) i = false.
Proof.
  unfold wl. induction reqs as [|r l IH]; destruct i; simpl; auto.
Qed.

Theorem INV_run : forall R2R ERR reqs sched, INV (run R2R ERR reqs sched).
Proof.
  intros R2R ERR reqs. apply run_invariant; [|intros s x; apply INV_step].
  unfold INV, T, I0, I3, CL, K, TXS, I5, init, waiting; simpl. repeat split; auto; try discriminate.
  intros i H. rewrite wl_init in H. discriminate.
Qed.

(* nobody owes a release any more: the tx thread cannot transmit, the rx thread has left its loop, every
   disconnect() that was entered has completed *)
Definition quiescent (s : state) : Prop := Wp s = false.

(* a thread with an entry in its hand is still going to act *)
Lemma hold_Wp s i : K s -> hold s i = true -> Wp s = true.
Proof.
  intros HK. unfold hold. rewrite !orb_true_iff. intros [[H|H]|H].
  - apply Wa_Wp, K_Wa; [exact HK|]. unfold txl. destruct (tx s); try discriminate; reflexivity.
  - unfold Wp, rxl. destruct (rx s); try discriminate; rewrite orb_true_r; reflexivity.
  - unfold Wp. rewrite (ex_imp (holdd i) pst s); [apply orb_true_r| |exact H].
    intros d Hd. destruct d; try discriminate; reflexivity.
Qed.

Lemma quiescent_no_owed : forall s i, K s -> quiescent s -> owedb s i = false.
Proof.
  intros s i HK Q. unfold quiescent in Q. destruct (owedb s i) eqn:O; [|reflexivity].
  assert (A : Wa s = false) by (destruct (Wa s) eqn:X; [rewrite (Wa_Wp _ X) in Q; discriminate|reflexivity]).
  assert (Qq : Wq s = false) by (destruct (Wq s) eqn:X; [rewrite (Wq_Wa _ X) in A; discriminate|reflexivity]).
  apply owedb_iff in O. destruct O as [[_ W]|[[_ W]|[[_ W]|H]]]; try congruence.
  rewrite (hold_Wp s i HK H) in Q. discriminate.
Qed.

(* RELEASE ON DISCONNECT: for every set of requests and every schedule, once the shutdown is complete every
   caller that is still waiting has had its event set (its next step returns its reply or ConnectionError) *)
Theorem release_on_disconnect : forall R2R ERR reqs sched,
  let s := run R2R ERR reqs sched in
  quiescent s -> forall i, waiting s i = true -> memb i (evset s) = true.
Proof.
  intros R2R ERR reqs sched s Q i W.
  destruct (INV_run R2R ERR reqs sched) as [HT [_ [_ [_ [HK _]]]]]. fold s in HT, HK.
  destruct (memb i (evset s)) eqn:E; auto.
  specialize (HT i W E). rewrite quiescent_no_owed in HT by assumption. discriminate.
Qed.
