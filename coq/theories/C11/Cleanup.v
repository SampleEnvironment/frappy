(* C11 - the time-out cleanup of the rx thread (top of every turn of __rxthread:
     while self.cleanup: entry = self.cleanup.pop()
         for key, prev in self.active_requests.items():
             if prev is entry: self.active_requests.pop(key); break )
   removes an entry from active_requests only if it IS the entry of a timed-out request (identity, not key):
   under every schedule the entry of a caller that still waits survives the cleanup - also when a timed-out request
   with the same action+specifier is on the cleanup list - and the reply that arrives for it is matched to it. *)
From Coq Require Import List Arith NArith Bool Lia.
Import ListNotations.
Require Import FV.Base.Util FV.C11.Model FV.C11.Lemmas FV.C11.ReleaseBase.

Lemma memb_In : forall e l, memb e l = true <-> In e l.
Proof.
  induction l as [|x r IH]; simpl; split; intro H; try discriminate; try contradiction.
  - destruct (Nat.eqb e x) eqn:E; [apply Nat.eqb_eq in E; auto | right; apply IH; exact H].
  - destruct H as [H|H]; [subst; rewrite Nat.eqb_refl; reflexivity|].
    destruct (Nat.eqb e x); auto. apply IH; exact H.
Qed.

Lemma cnt_zero_notin : forall x l, cnt x (vals l) = 0 -> forall k, ~ In (k, x) l.
Proof.
  induction l as [|[k' e'] r IH]; simpl; intros H k Hin; auto.
  destruct (Nat.eqb x e') eqn:E; simpl in H; try discriminate.
  destruct Hin as [Hin|Hin]; [inversion Hin; subst; rewrite Nat.eqb_refl in E; discriminate | exact (IH H k Hin)].
Qed.

(* one pass of the scan: `for key, prev in items(): if prev is entry: pop(key); break` *)
Lemma dremove_val_keeps : forall e k x l, In (k, x) l -> x <> e -> In (k, x) (dremove_val e l).
Proof.
  induction l as [|[k' e'] r IH]; simpl; intros Hin Hne; auto.
  destruct (Nat.eqb e e') eqn:E.
  - apply Nat.eqb_eq in E. subst e'. destruct Hin as [Hin|Hin]; auto. inversion Hin; subst. congruence.
  - destruct Hin as [Hin|Hin]; [left; exact Hin | right; apply IH; assumption].
Qed.

Lemma dremove_val_sub : forall e p l, In p (dremove_val e l) -> In p l.
Proof. intros e p l. apply (dremove_val_removal e l). Qed.

Lemma dremove_val_cnt_self : forall e l, cnt e (vals (dremove_val e l)) = pred (cnt e (vals l)).
Proof.
  induction l as [|[k' e'] r IH]; simpl; auto.
  destruct (Nat.eqb e e') eqn:E; simpl; [reflexivity | rewrite E; exact IH].
Qed.

(* the whole loop `while self.cleanup: entry = self.cleanup.pop(); ...` *)
Lemma fold_remove_keeps : forall es k x l, In (k, x) l -> ~ In x es ->
  In (k, x) (fold_left (fun a e => dremove_val e a) es l).
Proof.
  induction es as [|e es IH]; simpl; intros k x l Hin Hn; auto.
  apply IH; [|tauto]. apply dremove_val_keeps; [exact Hin|]. intro Hx. subst. tauto.
Qed.

Lemma fold_remove_gone : forall es e l, cnt e (vals l) <= 1 -> In e es ->
  cnt e (vals (fold_left (fun a e => dremove_val e a) es l)) = 0.
Proof.
  induction es as [|e0 es IH]; simpl; intros e l H Hin; [contradiction|].
  destruct (Nat.eq_dec e0 e) as [->|Hne].
  - destruct (fold_remove_removal es (dremove_val e l)) as (_ & _ & C). specialize (C e).
    rewrite dremove_val_cnt_self in C. lia.
  - destruct Hin as [Hin|Hin]; [congruence|]. apply IH; [|exact Hin].
    destruct (dremove_val_removal e0 l) as (_ & _ & C). specialize (C e). lia.
Qed.

(* the cleanup of any state in which the listed entries are registered at most once *)
Lemma do_cleanup_by_identity : forall s k e, cnt e (vals (active s)) <= 1 -> In (k, e) (active s) ->
  (In (k, e) (active (do_cleanup s)) <-> ~ In e (cleanup s)).
Proof.
  intros s k e L Hin. unfold do_cleanup; simpl. rewrite (in_rev (cleanup s)). split.
  - intros H Hc. revert H. apply cnt_zero_notin, fold_remove_gone; assumption.
  - apply fold_remove_keeps. exact Hin.
Qed.

Lemma dn_caller_done : forall s e, dn (cs s) e = true -> caller_done s e = true.
Proof.
  intros s e H. unfold dn in H. unfold caller_done.
  destruct (nth_error (cs s) e) as [c|] eqn:E; try discriminate.
  rewrite (nth_error_nth _ _ CPut E). destruct c; try discriminate. reflexivity.
Qed.

Section Cleanup.
Variable R2R : list (str * str).
Variable ERR : str.
Variable reqs : list (str * str).

(* (1) identity: in every reachable state the cleanup removes exactly the entries of the requests on the cleanup
   list; an entry of any other request - whatever its key - stays *)
Theorem cleanup_by_identity : forall sched,
  let s := run R2R ERR reqs sched in
  forall k e, In (k, e) (active s) -> (In (k, e) (active (do_cleanup s)) <-> ~ In e (cleanup s)).
Proof.
  intros sched s k e. apply do_cleanup_by_identity.
  pose proof (linear_run R2R ERR reqs sched e) as L. fold s in L. unfold P, Q in L. lia.
Qed.

(* (2) only requests whose caller has returned (time-out) are ever on the cleanup list: the flag invariant I5 of
   ReleaseBase along every schedule, from its step lemma alone *)
Theorem cleanup_only_returned : forall sched,
  let s := run R2R ERR reqs sched in
  forall e, In e (cleanup s) -> caller_done s e = true.
Proof.
  intros sched s e Hin. apply dn_caller_done.
  apply (run_invariant R2R ERR reqs I5); [discriminate | apply step_I5 | apply memb_In; exact Hin].
Qed.

(* (3) hence: the entry of a caller that has not returned survives every cleanup - also when a timed-out request
   with the same key is on the list (the key was reused) - stays registered under its key, and the reply or error
   reply that arrives for it is matched to it *)
Theorem cleanup_keeps_waiting_entry : forall sched t ok,
  table_ok R2R ERR -> wf_req R2R ERR (req reqs t) ->
  let s := run R2R ERR reqs sched in
  let a' := active (do_cleanup s) in
  caller_done s t = false ->
  dget (key_of R2R (req reqs t)) (active s) = Some t ->
  dget (key_of R2R (req reqs t)) a' = Some t /\
  fst (rx_match R2R ERR a' (answer R2R ERR (req reqs t) ok t)) = Some t.
Proof.
  intros sched t ok TO W s a' Hd Hg.
  destruct (table_step_inv R2R reqs (active s) a') as [N K];
    [left; apply fold_remove_removal | apply table_inv_run |].
  assert (G' : dget (key_of R2R (req reqs t)) a' = Some t).
  { apply in_nodup_dget; [exact N|]. apply (cleanup_by_identity sched); [apply dget_in; exact Hg|].
    intro Hc. pose proof (cleanup_only_returned sched t Hc) as D. fold s in D. congruence. }
  split; [exact G'|]. apply match_own; assumption.
Qed.

End Cleanup.
