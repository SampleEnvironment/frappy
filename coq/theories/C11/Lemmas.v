(* C11 - lemmas: (1) the matching code hands the answer to a request to the entry of that request (match_own);
   (2) the pending-request table holds one entry per key, each under the key of its own request (table_inv_run);
   (3) entries are linear: every entry is in at most one of txq / pending / active_requests / a thread's hand /
   answered (linear_run); (4) no step produces the exception state of disconnect() (cstep_exc_free) - (2)-(4) under
   every schedule, by run_invariant. *)
From Coq Require Import List Arith NArith Bool Lia.
Import ListNotations.
Require Import FV.Base.Util FV.C11.Model.

Lemma str_eqb_eq : forall a b, str_eqb a b = true <-> a = b.
Proof.
  unfold str_eqb. induction a as [|x a IH]; destruct b as [|y b]; simpl; split; intro H; try discriminate; auto.
  - apply andb_true_iff in H. destruct H as [H1 H2]. apply N.eqb_eq in H1. apply IH in H2. congruence.
  - inversion H; subst. apply andb_true_iff. split; [apply N.eqb_refl | apply IH; reflexivity].
Qed.

Lemma key_eqb_eq : forall a b, key_eqb a b = true <-> a = b.
Proof.
  intros [[a1 a2]|] [[b1 b2]|]; simpl; split; intro H; try discriminate; auto.
  - apply andb_true_iff in H. destruct H as [H1 H2]. apply str_eqb_eq in H1, H2. congruence.
  - inversion H; subst. apply andb_true_iff. split; apply str_eqb_eq; reflexivity.
Qed.

Lemma key_eqb_refl : forall k, key_eqb k k = true.
Proof. intro; apply key_eqb_eq; reflexivity. Qed.

Lemma starts_with_app : forall p s, starts_with p (p ++ s) = true.
Proof. induction p; simpl; intros; auto. rewrite N.eqb_refl; simpl; auto. Qed.

Lemma skipn_app_len : forall (p s : str), skipn (length p) (p ++ s) = s.
Proof. induction p; simpl; auto. Qed.

Lemma dpop_dget : forall k l, fst (dpop k l) = dget k l.
Proof.
  induction l as [|[k' e] r IH]; simpl; auto.
  destruct (key_eqb k k'); simpl; auto. destruct (dpop k r); simpl in *; auto.
Qed.

Lemma dget_in : forall k e l, dget k l = Some e -> In (k, e) l.
Proof.
  induction l as [|[k' e'] r IH]; simpl; intro H; try discriminate.
  destruct (key_eqb k k') eqn:E; [|right; exact (IH H)].
  apply key_eqb_eq in E. inversion H; subst. left; reflexivity.
Qed.

Lemma in_nodup_dget : forall k e l, NoDup (map fst l) -> In (k, e) l -> dget k l = Some e.
Proof.
  induction l as [|[k' e'] r IH]; simpl; intros N Hin; [contradiction|].
  inversion N; subst. destruct Hin as [Hin|Hin].
  - inversion Hin; subst. rewrite key_eqb_refl. reflexivity.
  - destruct (key_eqb k k') eqn:E.
    + apply key_eqb_eq in E. subst. exfalso. apply H1. apply in_map_iff. exists (k', e). auto.
    + apply IH; assumption.
Qed.

Lemma dget_none : forall k l, (forall k' e, In (k', e) l -> k' <> k) -> dget k l = None.
Proof.
  intros k l H. destruct (dget k l) as [e|] eqn:E; [|reflexivity].
  apply dget_in in E. destruct (H _ _ E eq_refl).
Qed.

Section Match.
Variable R2R : list (str * str).
Variable ERR : str.
Variable reqs : list (str * str).

Lemma r2r_in_value : forall a l r, r2r_in a l = Some r -> exists a', In (a', r) l.
Proof.
  induction l as [|[x y] l IH]; simpl; intros r H; try discriminate.
  destruct (str_eqb a x).
  - inversion H; subst. eauto.
  - destruct (IH _ H) as [a' Ha]. eauto.
Qed.

(* no reply action of the table starts with the error prefix *)
Definition table_ok : Prop := forall a r, In (a, r) R2R -> starts_with ERR r = false.
(* the answer a ++ "_r" of the peer to an unknown action is neither a reply action of the table nor an error reply *)
Definition wf_req (rq : str * str) : Prop :=
  r2r R2R (fst rq) = None ->
  (forall a, ~ In (a, fst rq ++ SUFFIX) R2R) /\ starts_with ERR (fst rq ++ SUFFIX) = false.

Definition keys_ok (a : list (key * eid)) : Prop :=
  forall k e, In (k, e) a -> k = key_of R2R (req reqs e).

(* a key whose action is no reply action of the table is not registered *)
Lemma dget_foreign : forall a r i, keys_ok a -> (forall x, ~ In (x, r) R2R) -> dget (Some (r, i)) a = None.
Proof.
  intros a r i K F. apply dget_none. intros k' e Hin Heq. rewrite (K _ _ Hin) in Heq. unfold key_of in Heq.
  destruct (r2r R2R (fst (req reqs e))) eqn:E; inversion Heq; subst.
  destruct (r2r_in_value _ _ _ E) as [x Hx]. exact (F _ Hx).
Qed.

Lemma rx_match_fst : forall a m,
  fst (rx_match R2R ERR a m) =
  match dget (Some (m_action m, m_ident m)) a with
  | Some e => Some e
  | None => dget (if starts_with ERR (m_action m)
                  then match r2r R2R (skipn (length ERR) (m_action m)) with
                       | Some r => Some (r, m_ident m) | None => None end
                  else None) a
  end.
Proof.
  intros. unfold rx_match. rewrite <- (dpop_dget (Some (m_action m, m_ident m)) a).
  destruct (dpop (Some (m_action m, m_ident m)) a) as [[e|] a']; simpl; auto. apply dpop_dget.
Qed.

(* lines 487-500 of frappy/client/__init__.py with the table of frappy/protocol/messages.py: whatever else is
   registered, the reply or the error reply to the request of entry t is handed to entry t *)
Theorem match_own : forall a t ok,
  table_ok -> wf_req (req reqs t) -> keys_ok a ->
  dget (key_of R2R (req reqs t)) a = Some t ->
  fst (rx_match R2R ERR a (answer R2R ERR (req reqs t) ok t)) = Some t.
Proof.
  intros a t ok T W K G. rewrite rx_match_fst. unfold answer, key_of in *. simpl. destruct ok.
  - destruct (r2r R2R (fst (req reqs t))) eqn:E.
    + rewrite G. reflexivity.
    + destruct (W E) as [W1 W2]. rewrite dget_foreign, W2 by assumption. exact G.
  - rewrite dget_foreign, starts_with_app, skipn_app_len; trivial.
    intros x Hx. apply T in Hx. rewrite starts_with_app in Hx. discriminate.
Qed.

End Match.

Fixpoint cnt (x : nat) (l : list nat) : nat :=
  match l with [] => 0 | y :: r => (if Nat.eqb x y then 1 else 0) + cnt x r end.
Fixpoint cnto (x : nat) (l : list (option nat)) : nat :=
  match l with
  | [] => 0
  | Some y :: r => (if Nat.eqb x y then 1 else 0) + cnto x r
  | None :: r => cnto x r
  end.
Fixpoint cputs (k : nat) (l : list cpc) : list nat :=
  match l with
  | [] => []
  | CPut :: r => k :: cputs (S k) r
  | _ :: r => cputs (S k) r
  end.
Definition hand_t (t : tpc) : list nat := match t with TPark e => [e] | _ => [] end.
Definition hand_r (r : rpc) : list nat := match r with RReq e | RTopReq e => [e] | _ => [] end.
Definition vals (l : list (key * eid)) : list nat := map snd l.

(* where an entry can be: not yet queued, in txq, in pending, registered, in the hand of tx (about to be parked),
   in the hand of rx (being re-queued), answered *)
Definition Q (s : state) (x : nat) : nat :=
  cnto x (txq s) + cnt x (pending s) + cnt x (vals (active s)).
Definition P (s : state) (x : nat) : nat :=
  cnt x (cputs 0 (cs s)) + Q s x + cnt x (hand_t (tx s)) + cnt x (hand_r (rx s)) + cnt x (map fst (replies s)).

Lemma cnt_app : forall x a b, cnt x (a ++ b) = cnt x a + cnt x b.
Proof. induction a; simpl; intros; auto. rewrite IHa. lia. Qed.
Lemma cnto_app : forall x a b, cnto x (a ++ b) = cnto x a + cnto x b.
Proof. induction a as [|[y|] a IH]; simpl; intros; auto. rewrite IH. lia. Qed.
Lemma vals_app : forall a b, vals (a ++ b) = vals a ++ vals b.
Proof. intros. unfold vals. apply map_app. Qed.

(* l' arises from l by dropping entries: nothing new, keys stay distinct, no entry occurs more often *)
Definition removal (l l' : list (key * eid)) : Prop :=
  (forall x, In x l' -> In x l) /\ (NoDup (map fst l) -> NoDup (map fst l')) /\
  forall x, cnt x (vals l') <= cnt x (vals l).

Lemma removal_refl : forall l, removal l l.
Proof. repeat split; auto. Qed.
Lemma removal_trans : forall a b c, removal a b -> removal b c -> removal a c.
Proof. intros a b c (H1 & H2 & H3) (H4 & H5 & H6). repeat split; auto. intro x. eapply Nat.le_trans; eauto. Qed.

Lemma removal_tail : forall x l, removal (x :: l) l.
Proof. intros [k e] l. repeat split; simpl; auto; [intro H; inversion H; auto | intro; lia]. Qed.

Lemma removal_cons : forall x l l', removal l l' -> removal (x :: l) (x :: l').
Proof.
  intros [k e] l l' (H1 & H2 & H3). repeat split; simpl.
  - intros y [Hy|Hy]; auto.
  - intro N. inversion N; subst. constructor; auto. intro Hin. apply H4. revert Hin. apply incl_map. exact H1.
  - intro x. specialize (H3 x). lia.
Qed.

Lemma dpop_removal : forall k l, removal l (snd (dpop k l)).
Proof.
  induction l as [|[k' e] r IH]; simpl.
  - apply removal_refl.
  - destruct (key_eqb k k'); simpl.
    + apply removal_tail.
    + destruct (dpop k r) as [x r'] eqn:E. simpl in *. apply removal_cons. exact IH.
Qed.

Lemma dpop_cnt : forall x k l,
  cnt x (vals l) = cnt x (vals (snd (dpop k l))) + match fst (dpop k l) with Some e => cnt x [e] | None => 0 end.
Proof.
  induction l as [|[k' e] r IH]; simpl; auto.
  destruct (key_eqb k k'); simpl; [lia|].
  destruct (dpop k r) as [y r']; simpl in *. lia.
Qed.

Lemma dremove_val_removal : forall e l, removal l (dremove_val e l).
Proof.
  induction l as [|[k' e'] r IH]; simpl.
  - apply removal_refl.
  - destruct (Nat.eqb e e'); [apply removal_tail | apply removal_cons; exact IH].
Qed.

Lemma fold_remove_removal : forall es l, removal l (fold_left (fun a e => dremove_val e a) es l).
Proof.
  induction es as [|e es IH]; simpl; intro l; [apply removal_refl|].
  eapply removal_trans; [apply dremove_val_removal | apply IH].
Qed.

Lemma popitem_none : forall l, popitem l = None -> l = [].
Proof. destruct l as [|[k x] r]; simpl; auto. destruct (popitem r) as [[y r']|]; discriminate. Qed.

Lemma popitem_removal : forall l e l', popitem l = Some (e, l') -> removal l l'.
Proof.
  induction l as [|[k x] r IH]; simpl; intros e l' H; try discriminate.
  destruct (popitem r) as [[y r']|] eqn:E; inversion H; subst.
  - apply removal_cons. eapply IH; reflexivity.
  - apply popitem_none in E. subst r. apply removal_tail.
Qed.

Lemma dmem_false_notin : forall k l, dmem k l = false -> ~ In k (map fst l).
Proof.
  induction l as [|[k' e] r IH]; simpl; intros H; auto.
  destruct (key_eqb k k') eqn:E; try discriminate.
  intros [Hk|Hk]; [subst; rewrite key_eqb_refl in E; discriminate | exact (IH H Hk)].
Qed.

(* a caller that leaves its program point i (not back to CPut) takes its entry, if it had one, out of the unqueued ones *)
Lemma cputs_set_nth : forall x c c' l i k, nth_error l i = Some c -> c' <> CPut ->
  cnt x (cputs k (set_nth i c' l)) + cnt x (cputs (k + i) [c]) = cnt x (cputs k l).
Proof.
  induction l as [|d l IH]; intros i k H Hc; destruct i; simpl in *; try discriminate.
  - inversion H; subst. rewrite Nat.add_0_r. destruct c'; try congruence; destruct c; simpl; lia.
  - specialize (IH i (S k) H Hc). replace (k + S i) with (S k + i) by lia. destruct d; simpl in *; lia.
Qed.

Lemma run_invariant : forall R2R ERR reqs (I : state -> Prop),
  I (init reqs) -> (forall s x, I s -> I (cstep R2R ERR reqs s x)) -> forall sched, I (run R2R ERR reqs sched).
Proof.
  intros R2R ERR reqs I H0 HS sched. unfold run. generalize (init reqs) H0.
  induction sched as [|x r IH]; simpl; auto.
Qed.

(* case analysis on whatever the goal still branches on, innermost scrutinee first *)
Ltac brk := repeat match goal with
  | |- context[match ?x with _ => _ end] =>
      lazymatch x with
      | context[match _ with _ => _ end] => fail
      | _ => destruct x eqn:?; simpl
      end
  end.

Section Steps.
Variable R2R : list (str * str).
Variable ERR : str.
Variable reqs : list (str * str).

(* the matching code pops one of two keys *)
Lemma rx_match_dpop : forall a m, exists k, rx_match R2R ERR a m = dpop k a.
Proof.
  intros. unfold rx_match. destruct (dpop (Some (m_action m, m_ident m)) a) as [[e|] a'] eqn:E; eauto.
Qed.

(* one step of disconnect(): it touches neither the callers nor the answered entries nor the program counters of the
   threads, it only drops entries, and it does not raise *)
Lemma dstep_spec : forall s d, let s1 := fst (dstep s d) in
  (cs s1 = cs s /\ replies s1 = replies s /\ tx s1 = tx s /\ rx s1 = rx s /\ us s1 = us s) /\
  removal (active s) (active s1) /\
  (forall x, cnto x (txq s1) <= cnto x (txq s) /\ cnt x (pending s1) <= cnt x (pending s)) /\
  (d <> DExc -> snd (dstep s d) <> DExc).
Proof.
  intros s d. destruct d; simpl; unfold post_drain, after_tx, rel_begin, rel_loop_in; brk;
    (split; [repeat split | split; [first [apply removal_refl | eapply popitem_removal; eassumption] |
     split; [intro x; rewrite ?cnto_app; simpl; try lia | congruence]]]).
  (* left: the cases in which a queue was found empty *)
  all: match goal with E : _ = [] |- _ => rewrite E; simpl; lia end.
Qed.

Lemma dstep_P : forall s d x, P (fst (dstep s d)) x <= P s x.
Proof.
  intros s d x. destruct (dstep_spec s d) as ((F1 & F2 & F3 & F4 & _) & (_ & _ & A) & B & _).
  specialize (A x). specialize (B x). unfold P, Q. rewrite F1, F2, F3, F4. lia.
Qed.

(* a step of disconnect() by whichever thread runs it (f records the new program point in that thread): nothing
   happens, or dstep is performed *)
Lemma disc_cases : forall (G : state -> Prop) s d (f : state -> dpc -> state),
  G s -> G (f (fst (dstep s d)) (snd (dstep s d))) ->
  G (if d_enabled s d then let '(s1, d1) := dstep s d in f s1 d1 else s).
Proof. intros G s d f H1 H2. destruct (d_enabled s d); [|exact H1]. destruct (dstep s d); exact H2. Qed.

Lemma rx_match_removal : forall a m o a', rx_match R2R ERR a m = (o, a') -> removal a a'.
Proof.
  intros a m o a' E. destruct (rx_match_dpop a m) as [k Ek]. rewrite Ek in E.
  generalize (dpop_removal k a). rewrite E. trivial.
Qed.

(* how one step may change the table: entries are only removed, or one entry is registered under the key of its
   own request, and only if that key is not registered *)
Definition table_step (l l' : list (key * eid)) : Prop :=
  removal l l' \/ exists e, l' = l ++ [(key_of R2R (req reqs e), e)] /\ dmem (key_of R2R (req reqs e)) l = false.

Lemma cstep_table : forall s x, table_step (active s) (active (cstep R2R ERR reqs s x)).
Proof.
  intros s [[i| | |] a]; unfold cstep; simpl.
  - left. unfold caller_step, finish. brk; apply removal_refl.
  - unfold tx_step, tx_loop_top, tx_exit. destruct (tx s); simpl;
      [| | | | left; apply disc_cases; [apply removal_refl | apply dstep_spec] |];
      brk; first [left; apply removal_refl | right; eauto].
  - left. unfold rx_step, rx_loop_top, rx_finally, do_cleanup. destruct (rx s); simpl;
      [| | | | | | | | | apply disc_cases; [apply removal_refl | apply dstep_spec]];
      brk; first [apply removal_refl | apply fold_remove_removal | eapply rx_match_removal; eassumption].
  - left. unfold user_step. destruct (us s); [|apply disc_cases; [|apply dstep_spec]]; apply removal_refl.
Qed.

Definition table_inv (l : list (key * eid)) : Prop :=
  NoDup (map fst l) /\ keys_ok R2R reqs l.

Lemma table_step_inv : forall l l', table_step l l' -> table_inv l -> table_inv l'.
Proof.
  intros l l' [(H1 & H2 & _)|[e [He Hm]]] [N K].
  - split; auto. intros k e Hin. apply K. apply H1. exact Hin.
  - subst l'. split.
    + rewrite map_app. apply (NoDup_Add (Add_app _ _ [])). rewrite app_nil_r.
      split; [exact N | apply dmem_false_notin, Hm].
    + intros k x Hin. apply in_app_or in Hin. destruct Hin as [Hin|[Hin|[]]]; [apply K; exact Hin|].
      inversion Hin; subst. reflexivity.
Qed.

Theorem table_inv_run : forall sched, table_inv (active (run R2R ERR reqs sched)).
Proof.
  apply (run_invariant R2R ERR reqs (fun s => table_inv (active s))).
  - split; [constructor | intros k e []].
  - intros s x. apply table_step_inv, cstep_table.
Qed.

Lemma rx_match_cnt : forall x a m o a', rx_match R2R ERR a m = (o, a') ->
  cnt x (vals a) = cnt x (vals a') + match o with Some e => cnt x [e] | None => 0 end.
Proof.
  intros x a m o a' E. destruct (rx_match_dpop a m) as [k Ek]. rewrite Ek in E.
  generalize (dpop_cnt x k a). rewrite E. trivial.
Qed.

Theorem cstep_P : forall s a x, P (cstep R2R ERR reqs s a) x <= P s x.
Proof.
  intros s [[i| | |] a] x; unfold cstep; simpl.
  - unfold caller_step, finish. destruct (nth_error (cs s) i) as [c|] eqn:En; auto.
    pose proof (fun c' => cputs_set_nth x c c' (cs s) i 0 En) as C.
    destruct c; auto; brk; auto; unfold P, Q; simpl; rewrite ?cnto_app; simpl;
      match goal with |- context[set_nth i ?c' _] => specialize (C c' ltac:(discriminate)) end; simpl in C; lia.
  - (* the state is taken apart so that a case analysis on one of its fields is seen by P s x as well; where no
       place of an entry changes the two sides are convertible, the rest is arithmetic *)
    unfold tx_step, tx_loop_top, tx_exit.
    destruct s as [q p ac cl rn io clo ts rs ev rp ou c [| |e|e|d|] r u]; simpl; auto;
      [| | | | apply disc_cases; [apply le_n | eapply Nat.le_trans; [|apply (dstep_P _ d)]]];
      brk; try apply le_n; unfold P, Q; simpl; rewrite ?vals_app, ?cnt_app; simpl; lia.
  - destruct (fold_remove_removal (rev (cleanup s)) (active s)) as (_ & _ & A). specialize (A x).
    unfold rx_step, rx_loop_top, rx_finally, do_cleanup.
    destruct s as [q p ac cl rn io clo ts rs ev rp ou c t [| | |e| |e| | |e|d] u]; simpl in *;
      [| | | | | | | | | apply disc_cases; [apply le_n | eapply Nat.le_trans; [|apply (dstep_P _ d)]]];
      brk; try apply le_n;
      try match goal with E : rx_match _ _ _ _ = _ |- _ => apply (rx_match_cnt x) in E end;
      unfold P, Q; simpl in *; rewrite ?cnto_app; simpl; lia.
  - unfold user_step. destruct (us s); [unfold P, Q; simpl; lia|].
    apply disc_cases; [apply le_n | exact (dstep_P s d x)].
Qed.

Lemma cputs_lt : forall x l k, x < k -> cnt x (cputs k l) = 0.
Proof.
  induction l as [|c l IH]; intros k H; simpl; auto.
  destruct c; simpl; try (apply IH; lia).
  replace (Nat.eqb x k) with false by (symmetry; apply Nat.eqb_neq; lia). simpl. apply IH. lia.
Qed.
Lemma cputs_le1 : forall x l k, cnt x (cputs k l) <= 1.
Proof.
  induction l as [|c l IH]; intros k; simpl; auto.
  destruct c; simpl; auto.
  destruct (Nat.eqb x k) eqn:E; [|simpl; apply IH].
  apply Nat.eqb_eq in E. subst. rewrite cputs_lt by lia. lia.
Qed.

Theorem linear_run : forall sched x, P (run R2R ERR reqs sched) x <= 1.
Proof.
  intros sched x. revert sched. apply (run_invariant R2R ERR reqs (fun s => P s x <= 1)).
  - unfold P, Q, init; simpl. pose proof (cputs_le1 x (map (fun _ : str * str => CPut) reqs) 0). lia.
  - intros s a H. eapply Nat.le_trans; [apply cstep_P | exact H].
Qed.

(* DExc is the state of a disconnect() that an exception has left (repair a58ac30 removed the last such step) *)
Definition exc_free (s : state) : Prop :=
  us s <> UDisc DExc /\ tx s <> TDisc DExc /\ rx s <> RDisc DExc.

Lemma disc_exc_free : forall s d (f : state -> dpc -> state), d <> DExc -> exc_free s ->
  (forall s1 d1, d1 <> DExc -> exc_free s1 -> exc_free (f s1 d1)) ->
  exc_free (if d_enabled s d then let '(s1, d1) := dstep s d in f s1 d1 else s).
Proof.
  intros s d f N H Hf. destruct (dstep_spec s d) as ((_ & _ & F1 & F2 & F3) & _ & _ & N1).
  apply disc_cases; [exact H|]. apply Hf; [exact (N1 N)|]. unfold exc_free. rewrite F1, F2, F3. exact H.
Qed.

Lemma cstep_exc_free : forall s a, exc_free s -> exc_free (cstep R2R ERR reqs s a).
Proof.
  intros s [[i| | |] a] (Hu & Ht & Hr); unfold cstep; simpl.
  - unfold caller_step, finish. brk; repeat split; assumption.
  - unfold tx_step, tx_loop_top, tx_exit. destruct (tx s) eqn:E;
      [| | | | apply disc_exc_free; [| | intros s1 d1 N (A & B & C)] |]; brk; repeat split; simpl; congruence.
  - unfold rx_step, rx_loop_top, rx_finally, do_cleanup. destruct (rx s) eqn:E;
      [| | | | | | | | | apply disc_exc_free; [| | intros s1 d1 N (A & B & C)]]; brk; repeat split; simpl; congruence.
  - unfold user_step. destruct (us s) eqn:E;
      [| apply disc_exc_free; [| | intros s1 d1 N (A & B & C)]]; repeat split; simpl; congruence.
Qed.

End Steps.

Lemma memb_head : forall e l, memb e (e :: l) = true.
Proof. intros. simpl. rewrite Nat.eqb_refl. reflexivity. Qed.

Lemma nth_error_set_nth : forall {A} (l : list A) i c v, nth_error l i = Some c -> nth_error (set_nth i v l) i = Some v.
Proof. induction l; destruct i; simpl; intros; try discriminate; eauto. Qed.
