(* C11 - vacuity audit: every property theorem with premises is applied at a concrete reachable state of the model
   (several callers, tx / rx / user threads taking steps, the constants R2R / ERR of FV.Gen.C11 as in Run.v). *)
From Coq Require Import List Arith NArith Bool Lia.
Import ListNotations.
Require Import FV.Gen.C11 FV.C11.Model FV.C11.Lemmas FV.C11.ReleaseBase FV.C11.Release FV.C11.Cleanup FV.C11.Properties.

Definition rd : str * str := ([114; 101; 97; 100]%N, [109; 58; 112]%N).          (* read m:p *)
Definition ch : str * str := ([99; 104; 97; 110; 103; 101]%N, [109; 58; 113]%N). (* change m:q *)
Definition foo : str * str := ([102; 111; 111]%N, [120]%N).                      (* unknown action foo x *)

(* wf_req: known action (premise of wf_req false, holds trivially) and unknown action (both conjuncts proved) *)
Example C11_nonvacuous_wf_req_known : wf_req R2R ERR rd.
Proof. intro H. vm_compute in H. discriminate. Qed.
Example C11_nonvacuous_wf_req_unknown : r2r R2R (fst foo) = None /\ wf_req R2R ERR foo.
Proof.
  split; [reflexivity|]. intros _. split; [|reflexivity].
  intros a H. assert (E : existsb (fun p => str_eqb (snd p) (fst foo ++ SUFFIX)) R2R = true).
  { apply existsb_exists. exists (a, fst foo ++ SUFFIX). split; [exact H | apply str_eqb_eq; reflexivity]. }
  vm_compute in E. discriminate E.
Qed.

(* three callers: two with the same key, one with an unknown action; tx registers caller 0 and caller 2, parks caller 1 *)
Definition reqs3 := [rd; rd; foo].
Definition sched3 : list (tid * arg) :=
  [(TC 0, ANone); (TC 2, ANone); (TC 1, ANone); (TTx, ANone); (TTx, ANone); (TTx, ANone); (TTx, ANone); (TTx, ANone);
   (TTx, ANone)].

Example C11_state3 :
  let s := run R2R ERR reqs3 sched3 in
  map snd (active s) = [0; 2] /\ tx s = TPark 1 /\ cs s = [CWait; CWait; CWait].
Proof. vm_compute. repeat split; reflexivity. Qed.

Example C11_answer_matched_applies_known : forall ok,
  fst (rx_match R2R ERR (active (run R2R ERR reqs3 sched3)) (answer R2R ERR (req reqs3 0) ok 0)) = Some 0.
Proof.
  intro ok. apply (C11_answer_matched_to_own_entry reqs3 sched3 0 ok).
  - exact C11_nonvacuous_wf_req_known.
  - vm_compute. reflexivity.
Qed.
Example C11_answer_matched_applies_unknown : forall ok,
  fst (rx_match R2R ERR (active (run R2R ERR reqs3 sched3)) (answer R2R ERR (req reqs3 2) ok 2)) = Some 2.
Proof.
  intro ok. apply (C11_answer_matched_to_own_entry reqs3 sched3 2 ok).
  - exact (proj2 C11_nonvacuous_wf_req_unknown).
  - vm_compute. reflexivity.
Qed.

Example C11_wait_bounded_applies :
  let s := run R2R ERR reqs3 sched3 in
  enabled s (TC 1) ATimeout = true /\
  exists o, nth_error (cs (cstep R2R ERR reqs3 s (TC 1, ATimeout))) 1 = Some (CDone o).
Proof. apply C11_wait_bounded. vm_compute. reflexivity. Qed.

(* waiting, event not set: the entry of the parked caller 1 is in the hand of the tx thread *)
Example C11_no_entry_lost_applies : owedb (run R2R ERR reqs3 sched3) 1 = true.
Proof. apply (C11_no_entry_lost reqs3 sched3 1); vm_compute; reflexivity. Qed.

(* the state of C11_release_demo: quiescent, both callers waiting *)
Definition reqs2 := [rd; ch].
Definition sched_rel : list (tid * arg) :=
  [(TC 0, ANone); (TTx, ANone); (TRx, ANone); (TUser, ANone); (TUser, ANone); (TUser, ANone); (TUser, ANone);
   (TUser, ANone); (TC 1, ANone); (TC 1, ANone); (TTx, ANone); (TTx, ANone); (TRx, ANone); (TRx, APeer PClose);
   (TRx, ANone); (TRx, ANone); (TRx, ANone); (TRx, ANone); (TRx, ANone); (TUser, ANone); (TUser, ANone);
   (TUser, ANone)].
Example C11_release_applies :
  memb 0 (evset (run R2R ERR reqs2 sched_rel)) = true /\ memb 1 (evset (run R2R ERR reqs2 sched_rel)) = true.
Proof.
  split; apply (C11_release_on_disconnect reqs2 sched_rel); try (vm_compute; reflexivity).
Qed.

(* drain: reachable state with an entry at the head of txq *)
Example C11_drained_applies :
  let s := run R2R ERR reqs2 [(TC 0, ANone); (TC 1, ANone); (TUser, ANone); (TUser, ANone)] in
  us s = UDisc DQDrop /\ txq s = [Some 0; Some 1] /\
  snd (dstep s DQDrop) = DQSet 0 /\
  memb 0 (evset (fst (dstep (fst (dstep s DQDrop)) (DQSet 0)))) = true.
Proof.
  intro s. split; [reflexivity|]. split; [reflexivity|].
  destruct (C11_drained_entry_released s 0 [Some 1] eq_refl) as [A [B _]]. split; assumption.
Qed.

(* late request: the user has begun disconnect(), caller 1 has not queued yet *)
Example C11_late_request_applies :
  let s := run R2R ERR reqs2 [(TC 0, ANone); (TUser, ANone)] in
  let s2 := cstep R2R ERR reqs2 (cstep R2R ERR reqs2 s (TC 1, ANone)) (TC 1, ANone) in
  memb 1 (evset s2) = true /\ nth_error (cs s2) 1 = Some CWait.
Proof. apply C11_late_request_released; vm_compute; reflexivity. Qed.

(* parked request: reachable state with rx at the top of its turn and a parked entry *)
Definition sched_park : list (tid * arg) := sched3 ++ [(TTx, ANone); (TRx, ANone)].
Example C11_parked_applies :
  let s := run R2R ERR reqs3 sched_park in
  rx s = RTopEmpty /\ pending s = [1] /\
  let s3 := rx_step R2R ERR reqs3 (rx_step R2R ERR reqs3 (rx_step R2R ERR reqs3 s ANone) ANone) ANone in
  rx s3 = RTopEmpty /\ pending s3 = [] /\ txq s3 = txq s ++ [Some 1].
Proof.
  intro s. split; [reflexivity|]. split; [reflexivity|].
  apply (proj2 (C11_parked_requeued_every_turn reqs3 s ANone) 1 []); reflexivity.
Qed.
(* first half: a state from which rx reaches readline *)
Example C11_parked_first_half_applies :
  let s := run R2R ERR reqs2 [(TC 0, ANone); (TRx, ANone)] in
  rx s <> RRecv /\ rx (rx_step R2R ERR reqs2 s ANone) = RRecv.
Proof. vm_compute. split; [discriminate|reflexivity]. Qed.

(* cleanup: fourth conjunct applied at the state of C11_cleanup_demo *)
Definition reqs_cl := [rd; rd].
Definition sched_cl : list (tid * arg) :=
  [(TC 0, ANone); (TTx, ANone); (TTx, ANone); (TTx, ANone); (TC 1, ANone); (TTx, ANone); (TTx, ANone);
   (TRx, ANone); (TRx, ANone); (TRx, ANone); (TRx, ANone); (TRx, ANone); (TTx, ANone); (TTx, ANone);
   (TC 0, ATimeout); (TRx, APeer (PReply 0 true)); (TRx, ANone); (TRx, ANone); (TRx, ANone); (TRx, ANone);
   (TTx, ANone)].
Example C11_cleanup_applies : forall ok,
  let s := run R2R ERR reqs_cl sched_cl in
  cleanup s = [0] /\
  dget (key_of R2R (req reqs_cl 1)) (active (do_cleanup s)) = Some 1 /\
  fst (rx_match R2R ERR (active (do_cleanup s)) (answer R2R ERR (req reqs_cl 1) ok 1)) = Some 1.
Proof.
  intros ok s. split; [reflexivity|].
  destruct (C11_cleanup_removes_only_own_entry reqs_cl sched_cl) as [_ [_ [_ H]]].
  apply (H 1 ok).
  - exact C11_nonvacuous_wf_req_known.
  - reflexivity.
  - reflexivity.
Qed.
