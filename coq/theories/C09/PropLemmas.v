(* C09 -- lemmas about the module property component (PropModel.v): a class definition only APPENDS Property objects
   to the heap and a class record to the table; every object referenced by a class is in range (pinv); hence whatever
   is defined or created later, every class defined before keeps its record and the content of its Property objects. *)
From Coq Require Import List Arith ZArith Bool Lia.
Import ListNotations.
Require Import FV.Base.Util FV.C09.Model FV.C09.Lemmas FV.C09.PropModel.

Definition ids_ok (n : nat) (pd : list (name * id)) : Prop := forall k i, In (k, i) pd -> i < n.
Definition dict_ok (n : nat) (d : pdict) : Prop := forall k i, In (k, PEProp i) d -> i < n.
Definition cls_ok (n : nat) (c : pcls) : Prop := ids_ok n (pc_pd c) /\ dict_ok n (pc_dict c).
Definition pinv (s : pstate) : Prop := forall c, In c (p_classes s) -> cls_ok (length (p_heap s)) c.

Lemma app_nil_ex : forall A (l : list A), exists e, l = l ++ e.
Proof. intros. exists []. symmetry. apply app_nil_r. Qed.

Lemma In_put_assoc : forall A k0 (v0 : A) l k v,
  In (k, v) (put_assoc k0 v0 l) -> (k = k0 /\ v = v0) \/ In (k, v) l.
Proof.
  induction l as [|[k' x] r IH]; simpl; intros k v H.
  - destruct H as [H|[]]. inversion H. auto.
  - destruct (Nat.eqb k0 k') eqn:E.
    + destruct H as [H|H]; [inversion H; auto | right; right; exact H].
    + destruct H as [H|H]; [right; left; exact H |].
      destruct (IH _ _ H) as [?|?]; auto using in_cons.
Qed.

Lemma ids_ok_mono : forall n m pd, ids_ok n pd -> n <= m -> ids_ok m pd.
Proof. intros n m pd H L k i Hin. specialize (H k i Hin). lia. Qed.
Lemma dict_ok_mono : forall n m d, dict_ok n d -> n <= m -> dict_ok m d.
Proof. intros n m d H L k i Hin. specialize (H k i Hin). lia. Qed.
Lemma cls_ok_mono : forall n m c, cls_ok n c -> n <= m -> cls_ok m c.
Proof. intros n m c [A B] L. split; [eapply ids_ok_mono | eapply dict_ok_mono]; eauto. Qed.

Lemma ids_ok_put : forall n pd k i, ids_ok n pd -> i < n -> ids_ok n (put_assoc k i pd).
Proof.
  unfold ids_ok; intros n pd k i H Hi k' i' Hin. destruct (In_put_assoc _ _ _ _ _ _ Hin) as [[_ ->]|?]; eauto.
Qed.
Lemma dict_ok_put : forall n d k i, dict_ok n d -> i < n -> dict_ok n (put_assoc k (PEProp i) d).
Proof.
  unfold dict_ok; intros n d k i H Hi k' i' Hin. destruct (In_put_assoc _ _ _ _ _ _ Hin) as [[_ E]|?]; eauto.
  inversion E. subst. assumption.
Qed.

Lemma alloc_body_spec : forall b h,
  (exists ext, fst (alloc_body h b) = h ++ ext) /\
  (dict_ok (length (fst (alloc_body h b))) (snd (alloc_body h b))).
Proof.
  induction b as [|[k e] r IH]; intros h; simpl.
  - split. apply app_nil_ex. intros k i [].
  - destruct e as [lo hi d v|v]; simpl.
    + destruct (IH (h ++ [mkpo lo hi d v])) as [[ext E] D]. split.
      * exists (mkpo lo hi d v :: ext). rewrite E, <- app_assoc. reflexivity.
      * intros k' i [H|H]. inversion H. subst. rewrite E. rewrite !app_length. simpl. lia. eapply D; eauto.
    + destruct (IH h) as [[ext E] D]. split. exists ext; exact E.
      intros k' i [H|H]. inversion H. eapply D; eauto.
Qed.

Lemma wprops_ok : forall n d acc, ids_ok n acc -> dict_ok n d -> ids_ok n (wprops acc d).
Proof.
  unfold wprops. induction d as [|[k e] r IH]; simpl; intros acc A D. exact A.
  apply IH.
  - unfold wentry; simpl. destruct e; [apply ids_ok_put; [exact A | eapply D; left; reflexivity] | exact A].
  - intros k' i H. eapply D. right. exact H.
Qed.

Lemma collect_ok : forall n dicts, (forall d, In d dicts -> dict_ok n d) -> ids_ok n (collect dicts).
Proof.
  unfold collect. intros n dicts. assert (G : forall acc, ids_ok n acc -> (forall d, In d dicts -> dict_ok n d) ->
    ids_ok n (fold_left wprops dicts acc)).
  { induction dicts as [|d r IH]; simpl; intros acc A H. exact A.
    apply IH. apply wprops_ok; auto. intros; apply H; auto. }
  intros H. apply G; auto. intros k i [].
Qed.

Lemma base_dicts_ok : forall s mro d, pinv s -> In d (base_dicts (p_classes s) mro) -> dict_ok (length (p_heap s)) d.
Proof.
  unfold base_dicts. intros s mro d I H. apply in_map_iff in H. destruct H as (k & <- & _).
  destruct (nth_in_or_default k (p_classes s) pcls0) as [H|H].
  - apply I in H. apply H.
  - rewrite H. intros k' i [].
Qed.

Definition ovr_ok (r : ovr) : Prop := ids_ok (length (o_heap r)) (o_pd r) /\ dict_ok (length (o_heap r)) (o_dict r).

Lemma ostep_spec : forall bases r kp, ovr_ok r ->
  (exists ext, o_heap (ostep bases r kp) = o_heap r ++ ext) /\ ovr_ok (ostep bases r kp).
Proof.
  intros bases r kp [A D]. unfold ostep.
  destruct (mro_lookup (fst kp) (o_dict r :: bases)) as [[i|v]|].
  - split. apply app_nil_ex. split; assumption.
  - simpl. split. eexists. reflexivity.
    unfold ovr_ok; simpl. rewrite app_length; simpl. split.
    + apply ids_ok_put. eapply ids_ok_mono; eauto. lia. lia.
    + apply dict_ok_put. eapply dict_ok_mono; eauto. lia. lia.
  - split. apply app_nil_ex. split; assumption.
Qed.

Lemma osteps_spec : forall bases l r, ovr_ok r ->
  (exists ext, o_heap (fold_left (ostep bases) l r) = o_heap r ++ ext) /\ ovr_ok (fold_left (ostep bases) l r).
Proof.
  induction l as [|kp l IH]; simpl; intros r H.
  - split. apply app_nil_ex. exact H.
  - destruct (ostep_spec bases r kp H) as [[e1 E1] H1]. destruct (IH _ H1) as [[e2 E2] H2]. split; [|exact H2].
    exists (e1 ++ e2). rewrite E2, E1, app_assoc. reflexivity.
Qed.

Lemma pinv_snoc : forall s h c ins, pinv s -> length (p_heap s) <= length h -> cls_ok (length h) c ->
  pinv (mkpstate h (p_classes s ++ [c]) ins).
Proof.
  intros s h c ins I L Hc c' Hin. simpl in *. apply in_app_or in Hin.
  destruct Hin as [Hin|[<-|[]]]; [eapply cls_ok_mono; eauto | exact Hc].
Qed.

Lemma pdefine_spec : forall s d, pinv s ->
  (exists ext, p_heap (pdefine s d) = p_heap s ++ ext) /\
  (exists c, p_classes (pdefine s d) = p_classes s ++ [c]) /\
  p_insts (pdefine s d) = p_insts s /\ pinv (pdefine s d).
Proof.
  intros s d I. unfold pdefine.
  destruct (alloc_body_spec (pd_body d) (p_heap s)) as [[e1 E1] D1].
  set (hl := alloc_body (p_heap s) (pd_body d)) in *.
  set (bases := base_dicts (p_classes s) (pd_mro d)).
  assert (L1 : length (p_heap s) <= length (fst hl)) by (rewrite E1, app_length; lia).
  destruct (pd_module d).
  - set (props := collect (rev (snd hl :: bases))).
    assert (O : ovr_ok (mkovr (fst hl) (snd hl) props)).
    { split; [|exact D1]. apply collect_ok. intros x Hx. apply in_rev in Hx. destruct Hx as [<-|Hx]; auto.
      eapply dict_ok_mono; [eapply base_dicts_ok; eauto | exact L1]. }
    destruct (osteps_spec bases props _ O) as [[e2 E2] O2]. simpl in E2.
    split; [exists (e1 ++ e2); simpl; rewrite E2, E1, app_assoc; reflexivity|].
    split; [eexists; reflexivity|]. split; [reflexivity|].
    apply pinv_snoc; [exact I | rewrite E2, app_length; lia | exact O2].
  - split; [exists e1; exact E1|]. split; [eexists; reflexivity|]. split; [reflexivity|].
    apply pinv_snoc; [exact I | exact L1 | split; [intros k i [] | exact D1]].
Qed.

Lemma set_nth_inst_eq : forall l j x, set_nth_inst l j x = set_nth l j x.
Proof. induction l as [|y l IH]; destruct j; simpl; intros; auto. rewrite IH. reflexivity. Qed.

Lemma psetprop_spec : forall s j k v,
  p_heap (psetprop s j k v) = p_heap s /\ p_classes (psetprop s j k v) = p_classes s /\
  length (p_insts (psetprop s j k v)) = length (p_insts s) /\
  (forall i, i <> j -> nth i (p_insts (psetprop s j k v)) pdead = nth i (p_insts s) pdead).
Proof.
  intros. unfold psetprop. destruct (pi_alive (nth j (p_insts s) pdead)); [|auto].
  destruct (assoc_nat k _); [|auto]. destruct (in_range _ v); [|auto]. simpl.
  rewrite set_nth_inst_eq. repeat apply conj; auto. apply length_set_nth. intros i' Hi. apply nth_set_nth_other, Hi.
Qed.

Lemma pstep_spec : forall s o, pinv s ->
  (exists ext, p_heap (pstep s o) = p_heap s ++ ext) /\
  (exists l, p_classes (pstep s o) = p_classes s ++ l) /\
  length (p_insts s) <= length (p_insts (pstep s o)) /\
  (forall j, j < length (p_insts s) -> paddresses o j = false ->
     nth j (p_insts (pstep s o)) pdead = nth j (p_insts s) pdead) /\
  pinv (pstep s o).
Proof.
  intros s o I. destruct o as [d|ci ok cfg|j k v|]; simpl.
  - destruct (pdefine_spec s d I) as (H & [c C] & N & I'). rewrite N.
    split; [exact H|]. split; [exists [c]; exact C|]. split; [lia|]. split; [auto|exact I'].
  - split; [apply app_nil_ex|]. split; [apply app_nil_ex|].
    split; [rewrite app_length; lia|]. split; [|exact I]. intros j Hj _. apply app_nth1; exact Hj.
  - destruct (psetprop_spec s j k v) as (H & C & L & O). rewrite H, C, L.
    split; [apply app_nil_ex|]. split; [apply app_nil_ex|].
    split; [lia|]. split.
    + intros i _ Hi. apply O. apply Nat.eqb_neq in Hi. congruence.
    + intros c Hc. rewrite H. apply I. rewrite <- C. exact Hc.
  - split; [apply app_nil_ex|]. split; [apply app_nil_ex|].
    split; [lia|]. split; [auto|exact I].
Qed.

Lemma pinv0 : pinv pstate0.
Proof.
  intros c [<-|[]]. split; simpl.
  - intros k i [H|[H|[]]]; inversion H; simpl; lia.
  - intros k i [H|[H|[]]]; inversion H; simpl; lia.
Qed.

Lemma psteps_spec : forall ops s, pinv s ->
  (exists ext, p_heap (fold_left pstep ops s) = p_heap s ++ ext) /\
  (exists l, p_classes (fold_left pstep ops s) = p_classes s ++ l) /\ pinv (fold_left pstep ops s).
Proof.
  induction ops as [|o ops IH]; simpl; intros s I.
  - split; [|split; [|exact I]]; apply app_nil_ex.
  - destruct (pstep_spec s o I) as ([e1 E1] & [l1 C1] & _ & _ & I1).
    destruct (IH _ I1) as ([e2 E2] & [l2 C2] & I2). split; [|split; [|exact I2]].
    + exists (e1 ++ e2). rewrite E2, E1, app_assoc. reflexivity.
    + exists (l1 ++ l2). rewrite C2, C1, app_assoc. reflexivity.
Qed.

Lemma pinv_run : forall ops, pinv (prun ops).
Proof. intros; apply psteps_spec, pinv0. Qed.

Lemma getpo_ext : forall h ext i, i < length h -> getpo (h ++ ext) i = getpo h i.
Proof. intros. unfold getpo. apply app_nth1. assumption. Qed.

Lemma pdescribe_ext : forall h ext c, ids_ok (length h) (pc_pd c) -> pdescribe (h ++ ext) c = pdescribe h c.
Proof.
  intros h ext c H. unfold pdescribe. apply map_ext_in. intros [k i] Hin. simpl. f_equal. apply getpo_ext. eapply H; eauto.
Qed.

Lemma class_kept_steps : forall ops s ci, pinv s -> ci < length (p_classes s) ->
  pclass_at (fold_left pstep ops s) ci = pclass_at s ci /\
  pdescribe (p_heap (fold_left pstep ops s)) (pclass_at s ci) = pdescribe (p_heap s) (pclass_at s ci).
Proof.
  intros ops s ci I L. destruct (psteps_spec ops s I) as ([ext E] & [l C] & _). split.
  - unfold pclass_at. rewrite C. apply app_nth1, L.
  - rewrite E. apply pdescribe_ext, I, nth_In, L.
Qed.

Lemma inst_kept_steps : forall ops s j, pinv s -> j < length (p_insts s) ->
  forallb (fun o => negb (paddresses o j)) ops = true ->
  nth j (p_insts (fold_left pstep ops s)) pdead = nth j (p_insts s) pdead.
Proof.
  induction ops as [|o ops IH]; simpl; intros s j I L H. reflexivity.
  apply andb_true_iff in H. destruct H as [H1 H2]. apply negb_true_iff in H1.
  destruct (pstep_spec s o I) as (_ & _ & N & Keep & I').
  rewrite IH; [apply Keep; assumption | exact I' | lia | exact H2].
Qed.

Lemma flat_map_map : forall A B C (g : A -> B) (f : B -> list C) l, flat_map f (map g l) = flat_map (fun x => f (g x)) l.
Proof. induction l; simpl; intros; auto. rewrite IHl. reflexivity. Qed.

(* a new instance: a function of the content of the Property objects of its class and of its configuration *)
Lemma pnew_inst_is_spec : forall s ci ok cfg,
  pnew_inst s ci ok cfg = pinst_spec ci ok (pdescribe (p_heap s) (pclass_at s ci)) cfg.
Proof.
  intros. unfold pnew_inst, pinst_spec, pdescribe, preset. destruct ok; [|reflexivity].
  rewrite flat_map_map, map_map. simpl. reflexivity.
Qed.

Lemma fold_left_app_step : forall a b s, fold_left pstep (a ++ b) s = fold_left pstep b (fold_left pstep a s).
Proof. intros; apply fold_left_app. Qed.
