(* C09 -- the property theorems, each a few lines over the lemmas of the three components, and closed examples of them.
   Parameter component (Model.v): heap of class level Parameter and datatype objects + class table + instances;
   ops = class definition, instantiation with configuration, setProperty on one instance, enum growth on one instance.
   Command / mixin component (CmdModel.v): heap of class level Command objects, of the argument / result datatype
   objects of classes AND instances, and of callback dicts; ops = class definition (Command(...)(func), plain method,
   None), instantiation, setProperty on the argument / result datatype of one instance, register_input.
   Module property component (PropModel.v): heap of class level Property objects; ops = class definition (Property(...),
   bare values), instantiation with configured properties, setProperty on one instance. *)
From Coq Require Import List Arith ZArith Bool Lia.
Import ListNotations.
Require Import FV.Gen.C09 FV.C09.Model FV.C09.Lemmas FV.C09.Remerge FV.C09.Refuted.
Require Import FV.C09.CmdModel FV.C09.CmdLemmas FV.C09.CmdFrame.
Require Import FV.C09.PropModel FV.C09.PropLemmas FV.C09.PropChain.

(* obligations on the facts regenerated from /repo (Gen/C09.v): the statements the model transliterates are there *)
Theorem C09_source_facts :
  walk_is_reversed_mro = true /\ second_loop_merges_in_place = true /\ wrapped_classes_skip = true /\
  param_update_properties = true /\ param_merge = true /\ param_clone = true /\ param_create_from_value = true /\
  accessible_copy = true /\ param_own_properties = true /\ param_finish_revalidates = true /\
  param_setproperty_routes = true /\ hasproperties_fresh_values = true /\ property_set_on_instance = true /\
  module_init_copies = true /\ add_accessible_configures_copy = true /\ datatype_copy_rebuilds = true /\
  register_input_replaces_datatype = true /\
  command_clone_copies_argument_and_result = true /\ command_merge_in_place = true /\
  command_create_from_value = true /\ command_call_marks_optional = true /\ command_own_properties = true /\
  mixins_no_mutable_class_attribute = true /\ register_input_creates_instance_dict_first = true /\
  properties_collected_along_reversed_mro = true /\ bare_value_override_copies_property_unconditionally = true /\
  hasproperties_init_presets_values = true /\ module_init_configures_properties_on_instance = true /\
  arrayof_getproperties_builds_new_dict = true /\ add_accessible_only_reads_cfg = true /\
  get_module_instance_copies_options = true.
Proof. repeat split; reflexivity. Qed.

(* (1) FULL STRENGTH.  An instance is changed only by the ops addressed to it: whatever else happens -- class
   definitions (any hierarchy), creation of other instances with any configuration (accepted or rejected), property
   changes and enum growth on other instances -- in any order and number, it stays exactly as it is *)
Theorem C09_instances_isolated : forall ops s j,
  j < length (insts s) -> forallb (fun o => negb (addresses o j)) ops = true ->
  nth j (insts (fold_left step ops s)) dead = nth j (insts s) dead.
Proof.
  induction ops as [|o ops IH]; simpl; intros s j Hj H; auto.
  apply andb_true_iff in H. destruct H as [Ho Hr]. apply negb_true_iff in Ho.
  destruct (step_insts s o) as [L Keep]. rewrite IH; [apply Keep; assumption | lia | exact Hr].
Qed.

(* (2) FULL STRENGTH.  Creating, configuring and mutating instances never changes the description of any class *)
Theorem C09_classes_unaffected_by_instances : forall ops s c,
  forallb inst_op ops = true -> describe_class (fold_left step ops s) c = describe_class s c.
Proof.
  intros ops s c H. destruct (inst_ops_heap ops s H) as (A & B & _). unfold describe_class. rewrite A, B. reflexivity.
Qed.

(* (3) FULL STRENGTH.  An instance created later is the same whatever was created, configured or mutated before *)
Theorem C09_later_instances_unaffected : forall ops s ci c,
  forallb inst_op ops = true -> new_inst (fold_left step ops s) ci c = new_inst s ci c.
Proof.
  intros ops s ci c H. destruct (inst_ops_heap ops s H) as (A & B & C). unfold new_inst. rewrite A, B, C. reflexivity.
Qed.

(* (4) FULL STRENGTH.  A new instance is a function (inst_spec, no heap, no other instance) of the description of its
   own class and of its own configuration *)
Theorem C09_instance_function_of_class_and_config : forall s ci c,
  ci < length (classes s) ->
  new_inst s ci c = inst_spec (c_module (nth ci (classes s) cls0)) (describe_full s (nth ci (classes s) cls0)) c.
Proof.
  intros s ci c Hci. unfold new_inst, inst_spec, describe_full.
  apply Nat.ltb_lt in Hci. rewrite Hci, andb_true_r, known_map, inst_acc_map_spec. reflexivity.
Qed.

(* (5) Exact footprint of a class definition: of the objects that exist already it writes only the Parameter objects it
   merges in place and the datatype objects it sets inherited datatype properties on (footprint s d, computed by the
   model); it never removes or changes an existing class record or an instance *)
Theorem C09_define_footprint : forall s d,
  (forall i, i < length (params s) -> ~ In i (fst (footprint s d)) -> getp (params (define s d)) i = getp (params s) i) /\
  (forall j, j < length (dts s) -> ~ In j (snd (footprint s d)) -> getd (dts (define s d)) j = getd (dts s) j) /\
  (exists c, classes (define s d) = classes s ++ [c]) /\ insts (define s d) = insts s.
Proof.
  intros. destruct (Inv_define_core s d) as (_ & _ & A & B). repeat split; auto.
  eexists. reflexivity.
Qed.

(* (6) The full statement would be: forall s d c, In c (classes s) -> describe_class (define s d) c = describe_class s c.
   It is false in the model and in the pinned code (C09_refuted_inplace_merge, C09_refuted_own_datatype).  Proved with an
   exclusion stated on the INPUT side only (state s before the definition and the ghost sets the model computes for the
   definition; nothing about the state after it).  For every accessible object i of c:
     - i and its datatype object are outside the footprint of the definition (untouched), or
     - the definition writes to no datatype object in place (snd (footprint s d) = []) and every in-place merge (i, M) it
       does on i (merge_log s d, the ghost list of the `aobj.merge(merged_properties)` calls with their arguments) is a
       RE-merge: the content i has in s is the content merging with M prescribes (stable_remerge s i M: merge_read, a
       function on contents, has the description of i in s as a fixed point, and the datatype M names exists in s).
   The second case is the ordinary subclass: `class C2(A): pass`, or any subclass that inherits an accessible without
   overriding it, walks the same chain of class bodies as A did and merges A's object again with the same M
   (C09_demo_remerge_same_content, NonVacuity.v).  Both findings violate exactly stable_remerge
   (C09_guard_exact_diamond: M carries the description of the sibling; C09_guard_exact_leak: the datatype object M names
   was written to by the bare-value override in between) *)
Theorem C09_define_frame_except_inplace_writes : forall s d c,
  (forall k i, In (k, i) (c_acc c) ->
     acc_ok s i /\
     (untouched s d i \/
      (snd (footprint s d) = [] /\ forall M, In (i, M) (merge_log s d) -> stable_remerge s i M))) ->
  describe_class (define s d) c = describe_class s c.
Proof.
  intros s d c H. unfold describe_class. apply map_ext_in. intros [k i] Hin. cbn [fst snd].
  destruct (H k i Hin) as [Ok [U|[W S]]].
  - rewrite read_unchanged; auto.
  - rewrite read_remerged; auto.
Qed.

(* (7) for ALL existing classes at once: a definition that writes to no datatype object in place and whose in-place merges
   of EXISTING Parameter objects are all re-merges changes no existing description.  (Merges of the objects of its own
   body are unrestricted; a definition that overrides every inherited accessible, or inherits none, has no merge of an
   existing object and the second premise is empty; C09_merge_log_is_footprint ties the log to the footprint.) *)
Theorem C09_define_frame_self_contained : forall s d,
  snd (footprint s d) = [] ->
  (forall i M, In (i, M) (merge_log s d) -> i < length (params s) -> stable_remerge s i M) ->
  forall c, (forall k i, In (k, i) (c_acc c) -> acc_ok s i) -> describe_class (define s d) c = describe_class s c.
Proof.
  intros s d W S c Hok. apply C09_define_frame_except_inplace_writes. intros k i Hin.
  destruct (Hok k i Hin) as [Li Ld]. repeat split; auto.
Qed.

(* the ghost log lists exactly the Parameter objects of the footprint (5) is about *)
Theorem C09_merge_log_is_footprint : forall s d i,
  In i (fst (footprint s d)) <-> exists M, In (i, M) (merge_log s d).
Proof.
  intros. rewrite footprint_is_log, <- in_rev, in_map_iff. split.
  - intros [[j M] [E H]]. simpl in E. subst j. exists M. assumption.
  - intros [M H]. exists (i, M). auto.
Qed.

(* why the re-merge premise holds for an object whose chain is walked again: merging is idempotent on contents.  An
   object that has been merged with M (src = content of the datatype object M names, if it names one) is a fixed point
   of merging with M, as long as that datatype object keeps its content *)
Theorem C09_remerge_idempotent : forall a M src,
  let a' := merge_read a M (match m_dt M with Some _ => src | None => a_dt a end) in
  merge_read a' M (match m_dt M with Some _ => src | None => a_dt a' end) = a'.
Proof.
  intros a M src a'. unfold a', merge_read. cbn [a_desc a_group a_value a_dt].
  rewrite !ov_idem.
  destruct (m_dt M) as [dd|].
  - destruct (m_value M) as [x|]; [reflexivity|]. rewrite revalidate_idem. reflexivity.
  - rewrite apply_dtprops_idem.
    destruct (m_value M) as [x|]; [reflexivity|]. rewrite revalidate_idem. reflexivity.
Qed.

(* and the heap level merge establishes it: right after `aobj.merge(M)` on object i (i and its datatype object in range,
   the datatype M names in range) the object is a fixed point of merging with M in the resulting heap.  So a class
   whose accessible has just been merged satisfies the re-merge premise for the same chain, until the datatype object M
   names or the object itself is written to by somebody else - the two findings *)
Theorem C09_merge_establishes_stable : forall h i a M, K h i a ->
  (forall dd, m_dt M = Some dd -> dd < length (snd h)) ->
  stable_at (snd (merge_cell h i M)) (read (fst (merge_cell h i M)) (snd (merge_cell h i M)) i) M.
Proof.
  intros h i a M HK Hd. destruct (K_merge_self h i a M HK) as (_ & R & _). rewrite R. clear R.
  destruct h as [ps ds]. cbn [fst snd] in *. unfold stable_at, merge_src, merge_cell.
  pose proof (C09_remerge_idempotent a M (getd ds (match m_dt M with Some dd => dd | None => 0 end))) as I. cbv zeta in I.
  destruct (m_dt M) as [dd|].
  - unfold alloc_dt, set_pv. cbn [fst snd]. specialize (Hd dd eq_refl). split.
    + intros d' [= <-]. rewrite app_length. lia.
    + unfold getd in *. rewrite app_nth1 by exact Hd. exact I.
  - split; [discriminate | exact I].
Qed.

(* the violations *)
Theorem C09_refuted_mixin_alias :
  exists ops d i, let s := run ops in
    i < length (classes s) /\
    describe_class (define s d) (nth i (classes s) cls0) <> describe_class s (nth i (classes s) cls0).
Proof. exact C09_refuted_inplace_merge. Qed.

Theorem C09_refuted_value_override_leak :
  exists ops d i, let s := run ops in
    i < length (classes s) /\
    describe_class (define s d) (nth i (classes s) cls0) <> describe_class s (nth i (classes s) cls0).
Proof. exact C09_refuted_own_datatype. Qed.



(* (8) FULL STRENGTH, for ALL sequences of class definitions / instantiations / run-time changes / registrations:
   no argument or result datatype object of an instance is referenced by any class level Command object
   (propertyValues or ownProperties) or by another instance, and a class definition writes to no datatype object that
   existed before it (the optional list set by Command.__call__ always lands in a new object).  So instances and
   classes never share argument / result datatype objects that any op could change *)
Theorem C09_command_datatypes_isolated : forall ops,
  let s := xrun ops in
  (forall i x, In x (xowned (inst_at s i)) -> x < length (xdts s) /\ ~ In x (class_refs (xcells s))) /\
  (forall i j x, i <> j -> In x (xowned (inst_at s i)) -> ~ In x (xowned (inst_at s j))) /\
  (forall d j, j < length (xdts s) -> getcd (xdts (xdefine s d)) j = getcd (xdts s) j).
Proof.
  intros ops s. pose proof (xinv_run ops) as V. fold s in V. split; [|split].
  - apply (I2 s V).
  - apply (I3 s V).
  - intros d. apply (xdefine_heap s d V).
Qed.

(* (9) FULL STRENGTH.  Consequence for behaviour: whatever else happens after any history -- class definitions,
   creation of other instances, changes of argument / result datatype properties of other instances, registrations
   on other instances -- instance j keeps its objects, the description of its commands (argument / result datainfo,
   hence what they accept) and its registered inputs *)
Theorem C09_command_instances_isolated : forall ops0 ops j,
  let s := xrun ops0 in
  j < length (xinsts s) -> forallb (fun o => negb (xaddresses o j)) ops = true ->
  inst_at (fold_left xstep ops s) j = inst_at s j /\
  xdescribe_inst (fold_left xstep ops s) (inst_at s j) = xdescribe_inst s (inst_at s j).
Proof. intros; apply other_inst_unchanged_hist; auto. apply xinv_run. Qed.

(* (10) FULL STRENGTH.  Creating instances, changing datatype properties of their command arguments / results and
   registering inputs never changes the command description of any class, nor the class attribute *)
Theorem C09_command_classes_unaffected_by_instances : forall ops0 ops c,
  let s := xrun ops0 in
  forallb xinst_op ops = true ->
  xdescribe_class (fold_left xstep ops s) c = xdescribe_class s c /\ xcls_inputs (fold_left xstep ops s) = xcls_inputs s.
Proof.
  intros ops0 ops c s H. destruct (class_unchanged_by_inst_ops ops s c (xinv_run ops0) H) as (A & B & _). auto.
Qed.

(* (11) FULL STRENGTH.  The commands and inputs of a new instance are a function (xnew_inst_desc: no instance, no heap
   identity) of the command description of its class and of its own configuration; hence an instance created after
   any instance ops is described like one created before them *)
Theorem C09_command_later_instances_unaffected : forall ops0 ops ci cfg,
  let s := xrun ops0 in
  forallb xinst_op ops = true ->
  let t := fold_left xstep ops s in
  xdescribe_inst (xinstantiate t ci true cfg) (inst_at (xinstantiate t ci true cfg) (length (xinsts t))) =
  xdescribe_inst (xinstantiate s ci true cfg) (inst_at (xinstantiate s ci true cfg) (length (xinsts s))).
Proof.
  intros ops0 ops ci cfg s H t.
  rewrite (new_inst_described t ci cfg (xinv_steps ops s (xinv_run ops0))).
  rewrite (new_inst_described s ci cfg (xinv_run ops0)).
  unfold xnew_inst_desc. destruct (class_unchanged_by_inst_ops ops s (nth ci (xclasses s) xcls0) (xinv_run ops0) H) as (A & B & _ & D).
  fold t in A, B, D. rewrite D, A, B. reflexivity.
Qed.

(* (12) The full statement would be: a class definition changes the command description of no existing class.  It is
   false in the model and in the pinned code (C09_refuted_method_override_reset_by_subclass; the in-place merge of
   finding 1 applies to Command objects too).  Proved with the exact exclusion: none of the Command objects of the
   class is re-merged in place by the definition (xfootprint, computed by the model) *)
Theorem C09_command_define_frame_except_inplace_merge : forall ops0 d c,
  let s := xrun ops0 in
  (forall k i, In (k, i) (xc_acc c) -> i < length (xcells s) /\ ~ In i (xfootprint s d)) ->
  xdescribe_class (xdefine s d) c = xdescribe_class s c.
Proof.
  intros ops0 d c s H. pose proof (xinv_run ops0 : xinv s) as V.
  unfold xdescribe_class. apply map_ext_in. intros [k i] Hin. cbn [fst snd]. destruct (H k i Hin) as [Hi Hn]. f_equal.
  transitivity (read_cmd (xcells s) (xdts (xdefine s d)) i).
  - unfold read_cmd. rewrite xdefine_cells_frame by assumption. reflexivity.
  - apply read_cmd_ext. intros x Hx. apply (xdefine_heap s d V), (I1 s V), (getc_refs_in _ i).
    unfold crefs. auto using in_or_app.
Qed.

(* (13) FULL STRENGTH, for ALL sequences of ops: the callback dict an instance writes to is neither the class attribute
   nor the dict of another instance; nothing is ever registered in the class attribute, so an instance created at any
   time (accepted or not) starts without inputs; and registrations on other instances (like every other op not
   addressed to it) leave the inputs of instance j alone *)
Theorem C09_mixin_state_isolated : forall ops0,
  let s := xrun ops0 in
  (forall i d, xi_cb (inst_at s i) = Some d -> d < length (xcbs s) /\ xclscb s <> Some d) /\
  (forall i j d, i <> j -> xi_cb (inst_at s i) = Some d -> xi_cb (inst_at s j) <> Some d) /\
  xcls_inputs s = [] /\
  (forall ci ok cfg,
     xinputs (xinstantiate s ci ok cfg) (inst_at (xinstantiate s ci ok cfg) (length (xinsts s))) = []) /\
  (forall ops j, j < length (xinsts s) -> forallb (fun o => negb (xaddresses o j)) ops = true ->
     xinputs (fold_left xstep ops s) (inst_at (fold_left xstep ops s) j) = xinputs s (inst_at s j)).
Proof.
  intros ops0 s. pose proof (xinv_run ops0) as V. fold s in V. split; [|split; [|split; [|split]]].
  - apply (M1 s V).
  - apply (M2 s V).
  - apply (M4 s V).
  - intros ci ok cfg. destruct (xinstantiate_spec s ci ok cfg V) as (e & x & -> & Cb & _).
    unfold inst_at, xinputs, cb_of. simpl. rewrite nth_middle, Cb. exact (M4 s V).
  - intros ops j Lj H. destruct (other_inst_unchanged_hist ops s j V Lj H) as [E1 E2].
    rewrite E1. unfold xdescribe_inst in E2. inversion E2. reflexivity.
Qed.

Theorem C09_refuted_method_override_reset :
  exists ops d i, let s := xrun ops in
    i < length (xclasses s) /\
    xdescribe_class (xdefine s d) (nth i (xclasses s) xcls0) <> xdescribe_class s (nth i (xclasses s) xcls0).
Proof. exact C09_refuted_method_override_reset_by_subclass. Qed.

(* non-vacuity of (8)/(9): two instances of a class with a struct argument, the limit of member b of ONE is changed:
   the instances own 2 + 2 distinct objects, the description of instance 0 changes, that of instance 1 and of the class
   does not *)
Example C09_demo_setarg :
  let s := xrun [xA; XInst 0 true []; XInst 0 true []] in
  let s' := xstep s (XSetArg 0 2 false (Some 2%Z) 4 5%Z) in
  xowned (inst_at s 0) = [1] /\ xowned (inst_at s 1) = [2] /\ class_refs (xcells s) = [0; 0] /\
  xdescribe_inst s' (inst_at s' 0) <> xdescribe_inst s (inst_at s 0) /\
  xdescribe_inst s' (inst_at s' 1) = xdescribe_inst s (inst_at s 1) /\
  xdescribe_class s' (nth 0 (xclasses s') xcls0) = xdescribe_class s (nth 0 (xclasses s) xcls0).
Proof. vm_compute. repeat split. intro H. discriminate H. Qed.

(* non-vacuity of (13): inputs registered on instances 0 and 1 of one class stay apart, instance 2 created later has none *)
Example C09_demo_register :
  let s := xrun [xA; XInst 0 true []; XInst 0 true []; XRegister 0 1001%Z; XRegister 1 1002%Z; XRegister 0 1003%Z;
                 XInst 0 true []] in
  map (fun i => xinputs s (inst_at s i)) [0; 1; 2] = [[1001%Z; 1003%Z]; [1002%Z]; []] /\ xcls_inputs s = [].
Proof. vm_compute. repeat split. Qed.

(* non-vacuity of (6)/(7) on ordinary subclasses.  E: p (FloatRange, object 0), mode (enum, object 1);
   `class F(E): p = Parameter(max=5)` inherits mode without overriding it: footprint ([1; 2], []) - object 1 of E is
   merged again, object 2 is F's own; the premises of (7) hold and E keeps its description, while F differs from E *)
Definition demo_en : dt := mkdt 2 None None 0 [(7%Z, 1%Z)].
Definition demo_E : op :=
  modcls [0] [(1, par (Some 1%Z) (Some (fl 0 10)) (Some 1%Z) None None);
              (3, par (Some 2%Z) (Some demo_en) (Some 1%Z) None None)].
Definition demo_F : cdef := body_of (modcls [1; 0] [(1, par None None None (Some 5%Z) None)]).

Example C09_demo_self_contained :
  let s := run [demo_E] in
  footprint s demo_F = ([1; 2], []) /\ length (params s) = 2 /\
  describe_class (define s demo_F) (nth 0 (classes s) cls0) = describe_class s (nth 0 (classes s) cls0) /\
  length (describe_class s (nth 0 (classes s) cls0)) = 2 /\
  describe_class (define s demo_F) (last (classes (define s demo_F)) cls0) <> describe_class s (nth 0 (classes s) cls0).
Proof.
  cbv zeta. set (s := run [demo_E]).
  assert (EF : footprint s demo_F = ([1; 2], [])) by (vm_compute; reflexivity).
  assert (EP : length (params s) = 2) by (vm_compute; reflexivity).
  split; [exact EF|]. split; [exact EP|].
  split; [|vm_compute; split; [reflexivity | intro H; discriminate H]].
  apply C09_define_frame_self_contained.
  - rewrite EF. reflexivity.
  - (* the log: object 2 is F's own, object 1 (mode of E) is merged again *)
    intros i M H L. eassert (EL : merge_log s demo_F = _) by (vm_compute; reflexivity). rewrite EL in H.
    destruct H as [[= <- <-]|[[= <- <-]|[]]]; [lia|].
    split; [apply opt_all; vm_compute; lia | vm_compute; reflexivity].
  - intros k i H. eassert (EA : c_acc (nth 0 (classes s) cls0) = _) by (vm_compute; reflexivity). rewrite EA in H.
    destruct H as [[= <- <-]|[[= <- <-]|[]]]; apply acc_ok_by; vm_compute; lia.
Qed.

(* `class D(A): pass` re-merges A.p in place (footprint [0]) to the same content: (6) applies to c = A through its
   re-merge disjunct, which is decided on the state before the definition *)
Example C09_demo_remerge_same_content :
  let s := run [cA] in
  let d := body_of (modcls [1; 0] []) in
  footprint s d = ([0], []) /\ map fst (merge_log s d) = [0] /\ c_acc (nth 0 (classes s) cls0) = [(1, 0)] /\
  describe_class (define s d) (nth 0 (classes s) cls0) = describe_class s (nth 0 (classes s) cls0).
Proof.
  cbv zeta. set (s := run [cA]). set (d := body_of (modcls [1; 0] [])).
  assert (EF : footprint s d = ([0], [])) by (vm_compute; reflexivity).
  assert (EA : c_acc (nth 0 (classes s) cls0) = [(1, 0)]) by (vm_compute; reflexivity).
  split; [exact EF|]. split; [vm_compute; reflexivity|]. split; [exact EA|].
  apply C09_define_frame_except_inplace_writes. rewrite EA. intros k i [[= <- <-]|[]]. split.
  - apply acc_ok_by; vm_compute; lia.
  - right. split; [rewrite EF; reflexivity|].
    intros M H. eassert (EL : merge_log s d = _) by (vm_compute; reflexivity). rewrite EL in H.
    destruct H as [[= <-]|[]]. split; [apply opt_all; vm_compute; lia | vm_compute; reflexivity].
Qed.

(* the guard is exact: each of the two witnesses of Refuted.v satisfies every premise of (6) for the changed class
   except stable_remerge - the definition writes to no datatype object in place, the object of the changed class is in
   range, it is merged once, and the content it has is NOT the one that merge prescribes *)
Example C09_guard_exact_diamond :
  let s := run diamond_before in
  snd (footprint s diamond_Z) = [] /\ c_acc (nth 1 (classes s) cls0) = [(1, 1)] /\ acc_ok s 1 /\
  exists M, merge_log s diamond_Z = [(1, M)] /\ (forall dd, m_dt M = Some dd -> dd < length (dts s)) /\
            ~ stable_remerge s 1 M.
Proof.
  cbv zeta. split; [vm_compute; reflexivity|]. split; [vm_compute; reflexivity|].
  split; [apply acc_ok_by; vm_compute; lia|].
  eexists. split; [vm_compute; reflexivity|]. split.
  - apply opt_all. vm_compute. lia.
  - vm_compute. intros [_ H]. discriminate H.
Qed.

Example C09_guard_exact_leak :
  let s := run leak_before in
  snd (footprint s leak_D) = [] /\ c_acc (nth 0 (classes s) cls0) = [(1, 0)] /\ acc_ok s 0 /\
  exists M, merge_log s leak_D = [(0, M)] /\ (forall dd, m_dt M = Some dd -> dd < length (dts s)) /\
            ~ stable_remerge s 0 M.
Proof.
  cbv zeta. split; [vm_compute; reflexivity|]. split; [vm_compute; reflexivity|].
  split; [apply acc_ok_by; vm_compute; lia|].
  eexists. split; [vm_compute; reflexivity|]. split.
  - apply opt_all. vm_compute. lia.
  - vm_compute. intros [_ H]. discriminate H.
Qed.

(* module level PROPERTIES (PropModel.v): Property objects of classes on a heap, bare value overrides at any
   number of levels and through plain mixins, instantiation with configuration, setProperty on one instance.
   FULL STRENGTH, for ALL histories ops1 (from the state in which only frappy's own Module class exists) and ALL
   continuations ops2 (class definitions of any shape, instantiations, run-time changes), with s1 the state after ops1
   and s2 the state after ops1 ++ ops2:
   (a) every Property object referenced by a class (propertyDict or class __dict__) exists - together with (b) this is
       the heap invariant: a definition only appends objects, so no later class can have written to them;
   (b) every class that exists in s1 - the base classes, the siblings, anything defined before - has in s2 the same
       record (MRO, __dict__, propertyDict: the same OBJECTS) and every one of these objects has the same content
       (range, default, preset value);
   (c) an instance created in s2 of a class of s1 is the instance that would have been created in s1, and it is
       pinst_spec = a function of the content of the Property objects of its own class and of its own configuration;
   (d) an instance that exists in s1 and is not addressed by an op of ops2 is unchanged. *)
Theorem C09_properties_isolated : forall ops1 ops2,
  let s1 := prun ops1 in
  let s2 := prun (ops1 ++ ops2) in
  (forall c k i, In c (p_classes s2) -> (In (k, i) (pc_pd c) \/ In (k, PEProp i) (pc_dict c)) -> i < length (p_heap s2)) /\
  (forall ci, ci < length (p_classes s1) ->
     pclass_at s2 ci = pclass_at s1 ci /\
     pdescribe (p_heap s2) (pclass_at s2 ci) = pdescribe (p_heap s1) (pclass_at s1 ci)) /\
  (forall ci ok cfg, ci < length (p_classes s1) ->
     pnew_inst s2 ci ok cfg = pnew_inst s1 ci ok cfg /\
     pnew_inst s2 ci ok cfg = pinst_spec ci ok (pdescribe (p_heap s1) (pclass_at s1 ci)) cfg) /\
  (forall j, j < length (p_insts s1) -> forallb (fun o => negb (paddresses o j)) ops2 = true ->
     nth j (p_insts s2) pdead = nth j (p_insts s1) pdead).
Proof.
  intros ops1 ops2 s1 s2.
  assert (E : s2 = fold_left pstep ops2 s1) by (unfold s1, s2, prun; apply fold_left_app).
  assert (P1 : pinv s1) by apply pinv_run.
  split; [|split; [|split]].
  - intros c k i Hc [H|H]; destruct (pinv_run (ops1 ++ ops2) c Hc) as [A B]; [eapply A | eapply B]; eauto.
  - intros ci L. rewrite E. destruct (class_kept_steps ops2 s1 ci P1 L) as [A B]. split. exact A. rewrite A. exact B.
  - intros ci ok cfg L. rewrite E, !pnew_inst_is_spec. destruct (class_kept_steps ops2 s1 ci P1 L) as [A B].
    rewrite A, B. split; reflexivity.
  - intros j L H. rewrite E. apply inst_kept_steps; assumption.
Qed.

(* non-vacuity (the scenario of two levels of bare values and of a plain mixin): Base: gain = Property(1..1000,
   default 1); Amp(Base): gain = 10; BigAmp(Amp): gain = 100; Hidden: gain = 999 (plain); X(Hidden, Amp).  Amp keeps
   10 in an object of its own, BigAmp and X have 100 / 999 in further new objects, an instance of Amp created at the
   end holds 10, setProperty changes the addressed instance only *)
Example C09_demo_two_level_override :
  let ops := [PDefine (mkpcdef true [1; 0] [(0, PBNew 1 1000 1 None)]);
              PDefine (mkpcdef true [2; 1; 0] [(0, PBBare 10)]);
              PInst 2 true [];
              PDefine (mkpcdef true [3; 2; 1; 0] [(0, PBBare 100)]);
              PDefine (mkpcdef false [4] [(0, PBBare 999)]);
              PDefine (mkpcdef true [5; 4; 2; 1; 0] []);
              PInst 2 true []; PInst 3 true []; PInst 5 true [(0, 7%Z)]; PSetProp 1 0 8%Z] in
  let s := prun ops in
  map (fun c => pclass_obs (p_heap s) c) (tl (p_classes s)) =
    [[(2, (None, 1%Z)); (3, (None, 15%Z)); (0, (None, 1%Z))];
     [(2, (None, 1%Z)); (3, (None, 15%Z)); (0, (Some 10%Z, 1%Z))];
     [(2, (None, 1%Z)); (3, (None, 15%Z)); (0, (Some 100%Z, 1%Z))];
     [];
     [(2, (None, 1%Z)); (3, (None, 15%Z)); (0, (Some 999%Z, 1%Z))]] /\
  map (fun c => map snd (pc_pd c)) (tl (p_classes s)) = [[0; 1; 2]; [0; 1; 3]; [0; 1; 4]; []; [0; 1; 5]] /\
  map (pinst_obs s) (p_insts s) =
    [[(2, 1%Z); (3, 15%Z); (0, 10%Z)]; [(2, 1%Z); (3, 15%Z); (0, 8%Z)]; [(2, 1%Z); (3, 15%Z); (0, 100%Z)];
     [(2, 1%Z); (3, 15%Z); (0, 7%Z)]].
Proof. vm_compute. repeat split. Qed.

(* FULL STRENGTH.  The property part of a class is a function of its own chain only: in ANY two reachable worlds, two
   definitions with the same body whose MROs show the same content (view = the class __dict__ with every Property object
   replaced by its content: identities, heap positions, other classes and all instances are invisible) produce classes with
   the same content - class __dict__ and propertyDict -, namely vdefine (a function without heap) of body and views.
   With (b) of C09_properties_isolated (the view of a class never changes after its definition) this is: the properties
   of a class are determined by the bodies along its own MRO, whatever else was defined or created before or after *)
Theorem C09_property_description_function_of_chain : forall ops ops' d d',
  let s := prun ops in
  let s' := prun ops' in
  pd_module d = pd_module d' -> pd_body d = pd_body d' ->
  map (view (p_heap s)) (base_dicts (p_classes s) (pd_mro d)) =
  map (view (p_heap s')) (base_dicts (p_classes s') (pd_mro d')) ->
  let c := last (p_classes (pdefine s d)) pcls0 in
  let c' := last (p_classes (pdefine s' d')) pcls0 in
  view (p_heap (pdefine s d)) (pc_dict c) = view (p_heap (pdefine s' d')) (pc_dict c') /\
  pdescribe (p_heap (pdefine s d)) c = pdescribe (p_heap (pdefine s' d')) c' /\
  (view (p_heap (pdefine s d)) (pc_dict c), pdescribe (p_heap (pdefine s d)) c)
  = vdefine (pd_module d) (pd_body d) (map (view (p_heap s)) (base_dicts (p_classes s) (pd_mro d))).
Proof.
  intros ops ops' d d' s s' Hm Hb Hv c c'.
  pose proof (define_is_function_of_chain s d (pinv_run ops)) as A.
  pose proof (define_is_function_of_chain s' d' (pinv_run ops')) as B.
  cbv zeta in A, B. fold c in A. fold c' in B. rewrite <- Hm, <- Hb, <- Hv in B.
  split; [|split; [|exact A]].
  - apply (f_equal fst) in A. apply (f_equal fst) in B. simpl in A, B. congruence.
  - apply (f_equal snd) in A. apply (f_equal snd) in B. simpl in A, B. congruence.
Qed.

(* non-vacuity: Amp(Base): gain = 10 defined in a world with Base only and in a world where a sibling with its own bare
   values and an instance exist: the hypothesis holds, and the description is the expected one *)
Example C09_demo_chain_two_worlds :
  let base := PDefine (mkpcdef true [1; 0] [(0, PBNew 1 1000 1 None)]) in
  let s := prun [base] in
  let s' := prun [base; PDefine (mkpcdef true [2; 1; 0] [(0, PBBare 100); (3, PBBare 60)]); PInst 2 true [(0, 7%Z)]] in
  let d := mkpcdef true [2; 1; 0] [(0, PBBare 10)] in
  let d' := mkpcdef true [3; 1; 0] [(0, PBBare 10)] in
  map (view (p_heap s)) (base_dicts (p_classes s) (pd_mro d)) =
  map (view (p_heap s')) (base_dicts (p_classes s') (pd_mro d')) /\
  pdescribe (p_heap (pdefine s' d')) (last (p_classes (pdefine s' d')) pcls0) =
    [(2, mkpo 1 3 1 None); (3, mkpo 1 120 15 None); (0, mkpo 1 1000 1 (Some 10%Z))].
Proof. vm_compute. split; reflexivity. Qed.

Print Assumptions C09_source_facts.
Print Assumptions C09_instances_isolated.
Print Assumptions C09_classes_unaffected_by_instances.
Print Assumptions C09_later_instances_unaffected.
Print Assumptions C09_instance_function_of_class_and_config.
Print Assumptions C09_define_footprint.
Print Assumptions C09_define_frame_except_inplace_writes.
Print Assumptions C09_define_frame_self_contained.
Print Assumptions C09_merge_log_is_footprint.
Print Assumptions C09_remerge_idempotent.
Print Assumptions C09_merge_establishes_stable.
Print Assumptions C09_refuted_mixin_alias.
Print Assumptions C09_refuted_value_override_leak.
Print Assumptions C09_command_datatypes_isolated.
Print Assumptions C09_command_instances_isolated.
Print Assumptions C09_command_classes_unaffected_by_instances.
Print Assumptions C09_command_later_instances_unaffected.
Print Assumptions C09_command_define_frame_except_inplace_merge.
Print Assumptions C09_mixin_state_isolated.
Print Assumptions C09_refuted_method_override_reset.
Print Assumptions C09_properties_isolated.
Print Assumptions C09_property_description_function_of_chain.
