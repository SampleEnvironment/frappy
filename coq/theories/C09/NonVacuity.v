(* C09 -- vacuity audit: for every theorem of Properties.v that has premises (top level or inside its conjuncts) a
   concrete, non-degenerate instance at which the premises hold, shown by APPLYING the theorem; plus contrast facts
   (something else really changed in the same run), so that the conclusion is not an identity between untouched things.
   No theorem of C09 has a Section hypothesis, an oracle or an environment: the quantified objects are op lists,
   states, class definitions and indices only.  Tests, not theorems. *)
From Coq Require Import List Arith ZArith Bool Lia.
Import ListNotations.
Require Import FV.C09.Model FV.C09.Lemmas FV.C09.Remerge FV.C09.Refuted.
Require Import FV.C09.CmdModel FV.C09.CmdLemmas FV.C09.CmdFrame.
Require Import FV.C09.PropModel FV.C09.PropLemmas FV.C09.PropChain FV.C09.Properties.

Ltac notin := vm_compute; intuition (try discriminate; try lia).
Ltac lt_c := vm_compute; lia.


(* class E: p = Parameter('d1', FloatRange(0, 10), value=1); mode = Parameter('d2', EnumType(m7=1), value=1) *)
Definition en1 : dt := mkdt 2 None None 0 [(7%Z, 1%Z)].
Definition cE : op :=
  modcls [0] [(1, par (Some 1%Z) (Some (fl 0 10)) (Some 1%Z) None None);
              (3, par (Some 2%Z) (Some en1) (Some 1%Z) None None)].
(* class F(E): p = Parameter(max=5) *)
Definition cF : op := modcls [1; 0] [(1, par None None None (Some 5%Z) None)].

(* two instances of E (the second configured), one rejected instantiation *)
Definition h0 : list op := [cE; OInst 0 []; OInst 0 [(1, [(4, 8%Z)])]; OInst 0 [(2, [(0, 1%Z)])]].
Definition s0 : state := run h0.
(* what happens next: a subclass, an instance of it, property change and enum growth on instance 1, a rejected config *)
Definition later : list op :=
  [cF; OInst 1 []; OSetProp 1 1 4 3%Z; OGrow 1 55%Z; OInst 0 [(2, [(0, 1%Z)])]; OSetProp 4 1 3 1%Z].

Example C09_nv_h0_shape :
  map i_alive (insts s0) = [true; true; false] /\ length (i_acc (nth 0 (insts s0) dead)) = 2 /\
  map i_alive (insts (fold_left step later s0)) = [true; true; false; true; false] /\
  length (classes (fold_left step later s0)) = 2.
Proof. vm_compute. repeat split. Qed.

(* (1) premises: j < length (insts s), no op of the continuation addresses j *)
Example C09_instances_isolated_applies :
  nth 0 (insts (fold_left step later s0)) dead = nth 0 (insts s0) dead.
Proof. apply C09_instances_isolated; [lt_c | vm_compute; reflexivity]. Qed.

(* contrast: the addressed instance 1 did change (limit and enum members), so the run is not the identity *)
Example C09_instances_isolated_contrast :
  nth 1 (insts (fold_left step later s0)) dead <> nth 1 (insts s0) dead.
Proof. vm_compute. intro H. discriminate H. Qed.

(* (2), (3) premise: the continuation consists of instance ops *)
Definition inst_ops : list op :=
  [OInst 0 []; OSetProp 1 1 4 3%Z; OGrow 1 55%Z; OInst 0 [(2, [(0, 1%Z)])]; OSetProp 0 3 0 9%Z].

Example C09_classes_unaffected_applies :
  describe_class (fold_left step inst_ops s0) (nth 0 (classes s0) cls0) = describe_class s0 (nth 0 (classes s0) cls0)
  /\ length (describe_class s0 (nth 0 (classes s0) cls0)) = 2
  /\ insts (fold_left step inst_ops s0) <> insts s0.
Proof.
  split; [apply C09_classes_unaffected_by_instances; vm_compute; reflexivity|].
  vm_compute. split; [reflexivity|]. intro H. discriminate H.
Qed.

Example C09_later_instances_applies :
  new_inst (fold_left step inst_ops s0) 0 [(1, [(4, 8%Z)])] = new_inst s0 0 [(1, [(4, 8%Z)])]
  /\ i_alive (new_inst s0 0 [(1, [(4, 8%Z)])]) = true.
Proof. split; [apply C09_later_instances_unaffected; vm_compute; reflexivity | vm_compute; reflexivity]. Qed.

(* (4) premise: ci < length (classes s) *)
Example C09_instance_function_applies :
  new_inst s0 0 [(1, [(4, 8%Z)])] =
  inst_spec (c_module (nth 0 (classes s0) cls0)) (describe_full s0 (nth 0 (classes s0) cls0)) [(1, [(4, 8%Z)])].
Proof. apply C09_instance_function_of_class_and_config. lt_c. Qed.

(* (5) inner premises: i < length (params s), i outside the footprint (and the same for datatype objects).
   Diamond of Refuted.v: three Parameter objects, four datatype objects, the definition of Z re-merges object 1 only *)
Definition sD : state := run diamond_before.

Example C09_define_footprint_applies :
  footprint sD diamond_Z = ([1], []) /\ length (params sD) = 3 /\ length (dts sD) = 4 /\
  getp (params (define sD diamond_Z)) 0 = getp (params sD) 0 /\
  getp (params (define sD diamond_Z)) 2 = getp (params sD) 2 /\
  getd (dts (define sD diamond_Z)) 2 = getd (dts sD) 2 /\
  getp (params (define sD diamond_Z)) 1 <> getp (params sD) 1.
Proof.
  destruct (C09_define_footprint sD diamond_Z) as (A & B & _ & _).
  split; [vm_compute; reflexivity|]. split; [vm_compute; reflexivity|]. split; [vm_compute; reflexivity|].
  split; [apply A; [lt_c | notin]|]. split; [apply A; [lt_c | notin]|]. split; [apply B; [lt_c | notin]|].
  vm_compute. intro H. discriminate H.
Qed.

(* the remaining premises of stable_remerge on a closed instance *)
Ltac nv_stable := split; [apply opt_all; lt_c | vm_compute; reflexivity].

(* (6) premise (input side only): every accessible of c is in range and either untouched, or the definition writes to
   no datatype object in place and every merge of the object in the ghost log is a re-merge (stable_remerge in s).
   (a) left disjunct, with a non-empty footprint: Y2 and A are untouched by the definition of Z *)
Example C09_define_frame_applies_untouched :
  describe_class (define sD diamond_Z) (nth 2 (classes sD) cls0) = describe_class sD (nth 2 (classes sD) cls0) /\
  describe_class sD (nth 2 (classes sD) cls0) <> [].
Proof.
  split.
  - apply C09_define_frame_except_inplace_writes.
    assert (EA : c_acc (nth 2 (classes sD) cls0) = [(1, 2)]) by (vm_compute; reflexivity). rewrite EA.
    intros k i [[= <- <-]|[]]. split; [apply acc_ok_by; lt_c|].
    left. split; [notin | apply opt_all; notin].
  - vm_compute. intro H. discriminate H.
Qed.

(* (b) right disjunct: `class D(A): pass` re-merges the object of A (footprint [0], log [(0, own properties of A.p)])
   and the content of A.p in the state BEFORE the definition is a fixed point of that merge *)
Definition sA : state := run [cA].
Definition dPass : cdef := body_of (modcls [1; 0] []).

Example C09_define_frame_applies_remerged :
  describe_class (define sA dPass) (nth 0 (classes sA) cls0) = describe_class sA (nth 0 (classes sA) cls0) /\
  fst (footprint sA dPass) = [0] /\ c_acc (nth 0 (classes sA) cls0) = [(1, 0)] /\ map fst (merge_log sA dPass) = [0].
Proof.
  split; [|vm_compute; repeat apply conj; reflexivity].
  apply C09_define_frame_except_inplace_writes.
  assert (EA : c_acc (nth 0 (classes sA) cls0) = [(1, 0)]) by (vm_compute; reflexivity). rewrite EA.
  intros k i [[= <- <-]|[]]. split; [apply acc_ok_by; lt_c|].
  right. split; [vm_compute; reflexivity|].
  intros M H. eassert (EL : merge_log sA dPass = _) by (vm_compute; reflexivity). rewrite EL in H.
  destruct H as [[= <-]|[]]. nv_stable.
Qed.

(* (c) both disjuncts in one application: F(E): p = Parameter(max=5) overrides p by an own object and inherits mode
   without overriding it.  c = E: its object 0 (p) is untouched, its object 1 (mode) is re-merged (footprint [1; 2]) *)
Definition sE : state := run [cE].
Definition cG : op := modcls [1; 0] [(1, par None None None (Some 5%Z) None); (3, EValue 1%Z)].

Example C09_define_frame_applies_inherited :
  describe_class (define sE (body_of cF)) (nth 0 (classes sE) cls0) = describe_class sE (nth 0 (classes sE) cls0) /\
  fst (footprint sE (body_of cF)) = [1; 2] /\ length (params sE) = 2 /\ c_acc (nth 0 (classes sE) cls0) = [(1, 0); (3, 1)].
Proof.
  split; [|vm_compute; repeat apply conj; reflexivity].
  apply C09_define_frame_except_inplace_writes.
  assert (EA : c_acc (nth 0 (classes sE) cls0) = [(1, 0); (3, 1)]) by (vm_compute; reflexivity). rewrite EA.
  intros k i [[= <- <-]|[[= <- <-]|[]]]; (split; [apply acc_ok_by; lt_c|]).
  - left. split; [notin | apply opt_all; notin].
  - right. split; [vm_compute; reflexivity|].
    intros M H. eassert (EL : merge_log sE (body_of cF) = _) by (vm_compute; reflexivity). rewrite EL in H.
    destruct H as [[=]|[[= <-]|[]]]. nv_stable.
Qed.

(* (d) the premise is a real restriction: for the class changed by each of the two findings it fails (and only its
   stable_remerge part fails: C09_guard_exact_diamond, C09_guard_exact_leak in Properties.v) *)
Example C09_nv_premise_fails_on_findings :
  (exists M, In (1, M) (merge_log sD diamond_Z) /\ ~ stable_remerge sD 1 M) /\
  (exists M, In (0, M) (merge_log (run leak_before) leak_D) /\ ~ stable_remerge (run leak_before) 0 M).
Proof.
  split; eexists; (split; [vm_compute; left; reflexivity|]); vm_compute; intros [_ H]; discriminate H.
Qed.

(* (7) premises: no datatype object written in place; every merge of an EXISTING object in the log is a re-merge; the
   accessibles of c are in range.  Not narrow: F(E) above (inherits mode without overriding it) satisfies them,
   and so does G(E): p = Parameter(max=5); mode = 1, which merges its own new object only (second premise empty).
   The conclusion is for every class, here c = E with its two accessibles; the new class differs from E *)
Example C09_define_frame_self_contained_applies :
  describe_class (define sE (body_of cF)) (nth 0 (classes sE) cls0) = describe_class sE (nth 0 (classes sE) cls0) /\
  describe_class (define sE (body_of cG)) (nth 0 (classes sE) cls0) = describe_class sE (nth 0 (classes sE) cls0) /\
  fst (footprint sE (body_of cF)) = [1; 2] /\ fst (footprint sE (body_of cG)) = [2] /\
  length (c_acc (nth 0 (classes sE) cls0)) = 2 /\
  describe_class (define sE (body_of cF)) (last (classes (define sE (body_of cF))) cls0) <>
  describe_class sE (nth 0 (classes sE) cls0).
Proof.
  assert (OK : forall k i, In (k, i) (c_acc (nth 0 (classes sE) cls0)) -> acc_ok sE i).
  { assert (EA : c_acc (nth 0 (classes sE) cls0) = [(1, 0); (3, 1)]) by (vm_compute; reflexivity). rewrite EA.
    intros k i [[= <- <-]|[[= <- <-]|[]]]; apply acc_ok_by; lt_c. }
  assert (EP : length (params sE) = 2) by (vm_compute; reflexivity).
  split; [|split; [|split; [|split; [|split]]]]; [ | | vm_compute; reflexivity | vm_compute; reflexivity | vm_compute; reflexivity | ].
  - apply C09_define_frame_self_contained; [vm_compute; reflexivity | | exact OK].
    intros i M H L. eassert (EL : merge_log sE (body_of cF) = _) by (vm_compute; reflexivity). rewrite EL in H.
    destruct H as [[= <- <-]|[[= <- <-]|[]]]; [lia | nv_stable].
  - apply C09_define_frame_self_contained; [vm_compute; reflexivity | | exact OK].
    intros i M H L. eassert (EL : merge_log sE (body_of cG) = _) by (vm_compute; reflexivity). rewrite EL in H.
    destruct H as [[= <- <-]|[]]. lia.
  - vm_compute. intro H. discriminate H.
Qed.

(* a definition with a non-empty datatype footprint: C(B): p = 3 on B(A): p = Parameter(max=5) *)
Definition sL2 : state := run [cA; modcls [1; 0] [(1, par None None None (Some 5%Z) None)]].
Definition dC : cdef := body_of (modcls [2; 1; 0] [(1, EValue 3%Z)]).

(* the datatype half of the footprint can be non-empty (so the first premise of (7) is a real restriction) *)
Example C09_nv_datatype_footprint : snd (footprint sL2 dC) <> [].
Proof. vm_compute. intro H. discriminate H. Qed.

(* (5) once more, at this definition: footprint ([], [0]); datatype objects 1 and 2 keep their content, object 0 (the
   datatype of the base class A) is written *)
Example C09_define_footprint_applies_datatypes :
  footprint sL2 dC = ([], [0]) /\ length (dts sL2) = 3 /\
  getd (dts (define sL2 dC)) 1 = getd (dts sL2) 1 /\ getd (dts (define sL2 dC)) 2 = getd (dts sL2) 2 /\
  getp (params (define sL2 dC)) 1 = getp (params sL2) 1 /\
  getd (dts (define sL2 dC)) 0 <> getd (dts sL2) 0.
Proof.
  destruct (C09_define_footprint sL2 dC) as (A & B & _ & _).
  split; [vm_compute; reflexivity|]. split; [vm_compute; reflexivity|].
  split; [apply B; [lt_c | notin]|]. split; [apply B; [lt_c | notin]|]. split; [apply A; [lt_c | notin]|].
  vm_compute. intro H. discriminate H.
Qed.


(* A with a struct argument, B(A) overriding by a plain method, two instances of A and one of B, inputs registered *)
Definition xh0 : list xop :=
  [xA; xB; XInst 0 true []; XInst 0 true [(2, 9%Z)]; XInst 1 true []; XInst 0 false []; XRegister 1 1002%Z].
Definition xs0 : xstate := xrun xh0.
Definition xlater : list xop :=
  [XSetArg 0 2 false (Some 2%Z) 4 5%Z; XRegister 0 1001%Z; XDefine xC; XInst 2 true []; XRegister 2 1003%Z; XNop;
   XSetArg 2 2 false (Some 1%Z) 3 1%Z].

Example C09_nv_xh0_shape :
  map xi_alive (xinsts xs0) = [true; true; true; false] /\
  map xowned (xinsts xs0) = [[2]; [3]; [4]; []] /\ class_refs (xcells xs0) = [0; 0; 1] /\
  map xi_cb (xinsts xs0) = [None; Some 0; None; None].
Proof. vm_compute. repeat split. Qed.

(* (8) inner premises: x owned by instance i; i <> j; j < length (xdts s) *)
Example C09_command_datatypes_isolated_applies :
  (3 < length (xdts xs0) /\ ~ In 3 (class_refs (xcells xs0))) /\
  ~ In 3 (xowned (inst_at xs0 2)) /\
  getcd (xdts (xdefine xs0 xC)) 1 = getcd (xdts xs0) 1.
Proof.
  pose proof (C09_command_datatypes_isolated xh0) as H. cbv zeta in H. destruct H as (A & B & C).
  split; [apply (A 1 3); vm_compute; auto|]. split; [apply (B 1 2 3); [discriminate | vm_compute; auto]|].
  apply C. lt_c.
Qed.

(* (9) premises: j < length (xinsts s), no op of the continuation addresses j *)
Example C09_command_instances_isolated_applies :
  inst_at (fold_left xstep xlater xs0) 1 = inst_at xs0 1 /\
  xdescribe_inst (fold_left xstep xlater xs0) (inst_at xs0 1) = xdescribe_inst xs0 (inst_at xs0 1).
Proof.
  apply (C09_command_instances_isolated xh0 xlater 1); [lt_c | vm_compute; reflexivity].
Qed.

Example C09_command_instances_isolated_contrast :
  xdescribe_inst xs0 (inst_at xs0 1) <> ([], []) /\ fst (xdescribe_inst xs0 (inst_at xs0 1)) <> [] /\
  xdescribe_inst (fold_left xstep xlater xs0) (inst_at xs0 0) <> xdescribe_inst xs0 (inst_at xs0 0) /\
  xdescribe_inst (fold_left xstep xlater xs0) (inst_at xs0 2) <> xdescribe_inst xs0 (inst_at xs0 2).
Proof. vm_compute. repeat apply conj; intro H; discriminate H. Qed.

(* (10), (11) premise: the continuation consists of instance ops *)
Definition xinst_ops : list xop :=
  [XSetArg 0 2 false (Some 2%Z) 4 5%Z; XRegister 0 1001%Z; XInst 1 true []; XRegister 2 1003%Z; XNop; XInst 0 false []].

Example C09_command_classes_unaffected_applies :
  (xdescribe_class (fold_left xstep xinst_ops xs0) (nth 1 (xclasses xs0) xcls0) =
   xdescribe_class xs0 (nth 1 (xclasses xs0) xcls0) /\
   xcls_inputs (fold_left xstep xinst_ops xs0) = xcls_inputs xs0) /\
  xdescribe_class xs0 (nth 1 (xclasses xs0) xcls0) <> [] /\
  xdts (fold_left xstep xinst_ops xs0) <> xdts xs0.
Proof.
  split; [apply (C09_command_classes_unaffected_by_instances xh0 xinst_ops); vm_compute; reflexivity|].
  vm_compute. split; intro H; discriminate H.
Qed.

Example C09_command_later_instances_applies :
  let t := fold_left xstep xinst_ops xs0 in
  xdescribe_inst (xinstantiate t 1 true [(2, 9%Z)]) (inst_at (xinstantiate t 1 true [(2, 9%Z)]) (length (xinsts t))) =
  xdescribe_inst (xinstantiate xs0 1 true [(2, 9%Z)]) (inst_at (xinstantiate xs0 1 true [(2, 9%Z)]) (length (xinsts xs0))).
Proof.
  apply (C09_command_later_instances_unaffected xh0 xinst_ops 1 [(2, 9%Z)]). vm_compute. reflexivity.
Qed.

Example C09_command_later_instances_contrast :
  fst (xdescribe_inst (xinstantiate xs0 1 true [(2, 9%Z)])
         (inst_at (xinstantiate xs0 1 true [(2, 9%Z)]) (length (xinsts xs0)))) <> [].
Proof. vm_compute. intro H. discriminate H. Qed.

(* (12) premise: no Command object of c is re-merged in place.  `class C2(A): pass` re-merges the object of A
   (footprint [0]); c = B has its own clone *)
Definition xC2 : xcdef := {| xd_module := true; xd_mro := [2; 0]; xd_dict := [] |}.
Definition xs2 : xstate := xrun [xA; xB].

Example C09_command_define_frame_applies :
  xdescribe_class (xdefine xs2 xC2) (nth 1 (xclasses xs2) xcls0) = xdescribe_class xs2 (nth 1 (xclasses xs2) xcls0) /\
  xfootprint xs2 xC2 = [0] /\ xc_acc (nth 1 (xclasses xs2) xcls0) = [(2, 1)].
Proof.
  split; [|vm_compute; split; reflexivity].
  apply (C09_command_define_frame_except_inplace_merge [xA; xB] xC2).
  assert (EA : xc_acc (nth 1 (xclasses xs2) xcls0) = [(2, 1)]) by (vm_compute; reflexivity). rewrite EA.
  intros k i [[= <- <-]|[]]. split; [lt_c | notin].
Qed.

(* the definition of B in the state with A only: nothing is merged in place, c = A *)
Example C09_command_define_frame_applies_override :
  xdescribe_class (xdefine (xrun [xA]) (match xB with XDefine d => d | _ => xC end)) (nth 0 (xclasses (xrun [xA])) xcls0) =
  xdescribe_class (xrun [xA]) (nth 0 (xclasses (xrun [xA])) xcls0).
Proof.
  apply (C09_command_define_frame_except_inplace_merge [xA]).
  assert (EA : xc_acc (nth 0 (xclasses (xrun [xA])) xcls0) = [(2, 0)]) by (vm_compute; reflexivity). rewrite EA.
  intros k i [[= <- <-]|[]]. split; [lt_c | notin].
Qed.

(* (13) inner premises: the instance has a dict of its own; i <> j; j < length (xinsts s), continuation not addressed to j *)
Example C09_mixin_state_isolated_applies :
  let s := fold_left xstep xlater xs0 in
  (0 < length (xcbs xs0) /\ xclscb xs0 <> Some 0) /\
  xi_cb (inst_at xs0 0) <> Some 0 /\
  xinputs s (inst_at s 1) = xinputs xs0 (inst_at xs0 1) /\
  xinputs xs0 (inst_at xs0 1) = [1002%Z] /\
  map (fun i => xinputs s (inst_at s i)) [0; 1; 2; 3; 4] = [[1001%Z]; [1002%Z]; [1003%Z]; []; []].
Proof.
  pose proof (C09_mixin_state_isolated xh0) as H. cbv zeta in H. destruct H as (A & B & _ & _ & E).
  cbv zeta. split; [apply (A 1 0); vm_compute; reflexivity|].
  split; [apply (B 1 0 0); [discriminate | vm_compute; reflexivity]|].
  split; [apply (E xlater 1); [lt_c | vm_compute; reflexivity]|].
  vm_compute. split; reflexivity.
Qed.


Definition ph1 : list pop :=
  [PDefine (mkpcdef true [1; 0] [(0, PBNew 1 1000 1 None)]);
   PDefine (mkpcdef true [2; 1; 0] [(0, PBBare 10)]);
   PInst 2 true []; PInst 2 true [(0, 7%Z)]].
Definition ph2 : list pop :=
  [PDefine (mkpcdef true [3; 2; 1; 0] [(0, PBBare 100)]);
   PDefine (mkpcdef false [4] [(0, PBBare 999)]);
   PDefine (mkpcdef true [5; 4; 2; 1; 0] []);
   PInst 3 true []; PInst 5 true [(0, 7%Z)]; PSetProp 1 0 8%Z; PInst 2 false []; PNop].

(* inner premises: c a class of s2 and (k, i) in its propertyDict / __dict__; ci < length (p_classes s1);
   j < length (p_insts s1), ops2 not addressed to j *)
Example C09_properties_isolated_applies :
  let s1 := prun ph1 in
  let s2 := prun (ph1 ++ ph2) in
  5 < length (p_heap s2) /\
  (pclass_at s2 2 = pclass_at s1 2 /\ pdescribe (p_heap s2) (pclass_at s2 2) = pdescribe (p_heap s1) (pclass_at s1 2)) /\
  (pnew_inst s2 2 true [(0, 7%Z)] = pnew_inst s1 2 true [(0, 7%Z)] /\
   pnew_inst s2 2 true [(0, 7%Z)] = pinst_spec 2 true (pdescribe (p_heap s1) (pclass_at s1 2)) [(0, 7%Z)]) /\
  nth 0 (p_insts s2) pdead = nth 0 (p_insts s1) pdead.
Proof.
  pose proof (C09_properties_isolated ph1 ph2) as H. cbv zeta in H. destruct H as (A & B & C & D). cbv zeta.
  split.
  - apply (A (pclass_at (prun (ph1 ++ ph2)) 5) 0 5); [vm_compute; auto 10 | left; vm_compute; auto 10].
  - split; [apply B; lt_c|]. split; [apply C; lt_c|]. apply D; [lt_c | vm_compute; reflexivity].
Qed.

Example C09_properties_isolated_contrast :
  let s1 := prun ph1 in
  let s2 := prun (ph1 ++ ph2) in
  length (p_heap s1) = 4 /\ length (p_heap s2) = 6 /\ length (p_classes s1) = 3 /\ length (p_classes s2) = 6 /\
  pdescribe (p_heap s1) (pclass_at s1 2) = [(2, mkpo 1 3 1 None); (3, mkpo 1 120 15 None); (0, mkpo 1 1000 1 (Some 10%Z))] /\
  pi_alive (nth 0 (p_insts s1) pdead) = true /\
  nth 1 (p_insts s2) pdead <> nth 1 (p_insts s1) pdead.
Proof.
  vm_compute. repeat apply conj; try reflexivity. intro H. discriminate H.
Qed.

(* chain theorem; premises: same kind of class, same body, same views of the __dict__s along the MRO -- in two worlds
   that differ in a sibling with bare values and an instance, with different MRO indices *)
Definition pbase : pop := PDefine (mkpcdef true [1; 0] [(0, PBNew 1 1000 1 None)]).
Definition pw : list pop := [pbase].
Definition pw' : list pop :=
  [pbase; PDefine (mkpcdef true [2; 1; 0] [(0, PBBare 100); (3, PBBare 60)]); PInst 2 true [(0, 7%Z)]].
Definition pdA : pcdef := mkpcdef true [2; 1; 0] [(0, PBBare 10); (3, PBBare 30)].
Definition pdA' : pcdef := mkpcdef true [3; 1; 0] [(0, PBBare 10); (3, PBBare 30)].

Example C09_property_chain_applies :
  pdescribe (p_heap (pdefine (prun pw) pdA)) (last (p_classes (pdefine (prun pw) pdA)) pcls0) =
  pdescribe (p_heap (pdefine (prun pw') pdA')) (last (p_classes (pdefine (prun pw') pdA')) pcls0) /\
  pdescribe (p_heap (pdefine (prun pw') pdA')) (last (p_classes (pdefine (prun pw') pdA')) pcls0) =
    [(2, mkpo 1 3 1 None); (3, mkpo 1 120 15 (Some 30%Z)); (0, mkpo 1 1000 1 (Some 10%Z))] /\
  pc_pd (last (p_classes (pdefine (prun pw) pdA)) pcls0) <> pc_pd (last (p_classes (pdefine (prun pw') pdA')) pcls0).
Proof.
  pose proof (C09_property_description_function_of_chain pw pw' pdA pdA') as H. cbv zeta in H.
  assert (V : map (view (p_heap (prun pw))) (base_dicts (p_classes (prun pw)) (pd_mro pdA)) =
              map (view (p_heap (prun pw'))) (base_dicts (p_classes (prun pw')) (pd_mro pdA'))) by (vm_compute; reflexivity).
  destruct (H eq_refl eq_refl V) as (_ & P & _).
  split; [exact P|]. vm_compute. split; [reflexivity|]. intro E. discriminate E.
Qed.

(* observation on (13): in the model NO op writes the field xclscb (the class attribute
   HasControlledBy.inputCallbacks), so it is None in every reachable state.  The conjuncts `xclscb s <> Some d` and
   `xcls_inputs s = []` of C09_mixin_state_isolated therefore hold by construction of the model (their content is the
   source facts mixins_no_mutable_class_attribute / register_input_creates_instance_dict_first and the correspondence
   run), not by the induction over histories *)
Lemma C09_nv_xclscb_step : forall s o, xclscb (xstep s o) = xclscb s.
Proof.
  intros s [d|ci ok cfg|i k res path key v|i m|]; simpl; auto.
  - unfold xinstantiate. destruct ok; [destruct (fold_left _ _ _)|]; reflexivity.
  - unfold xsetarg. destruct (lookup k _) as [c|]; auto. destruct (if res then ic_res c else ic_arg c); reflexivity.
  - apply xregister_static.
Qed.

Lemma C09_nv_class_attribute_never_set : forall ops, xclscb (xrun ops) = None.
Proof.
  intros ops. unfold xrun. change None with (xclscb xstate0). generalize xstate0.
  induction ops as [|o ops IH]; simpl; intros s; auto. rewrite IH. apply C09_nv_xclscb_step.
Qed.
