(* C09 -- lemmas for the parameter component (Model.v): the list frame `kept` that the heap invariants of the parameter
   and of the command component are made of, what the ops leave alone in the instance table, the specification inst_spec of a new instance, and the exact
   footprint of a class definition on the objects that exist already (Inv), with what is read outside it. *)
From Coq Require Import List Arith ZArith Bool Lia.
Import ListNotations.
Require Import FV.C09.Model.

Definition dead : inst := {| i_alive := false; i_acc := [] |}.

Lemma length_set_nth : forall A (l : list A) i x, length (set_nth l i x) = length l.
Proof. induction l; destruct i; simpl; intros; auto. Qed.

Lemma nth_set_nth_other : forall A (l : list A) i j x d, j <> i -> nth j (set_nth l i x) d = nth j l d.
Proof.
  induction l; destruct i; destruct j; simpl; intros; auto; try congruence;
  try (apply IHl; congruence).
Qed.

Lemma nth_set_nth_same : forall A (l : list A) i x d, i < length l -> nth i (set_nth l i x) d = x.
Proof. induction l; destruct i; simpl; intros; auto; try lia; try (apply IHl; lia). Qed.

(* the first n cells of l are those of l0, except at the indices in F.  The heaps of the parameter and of the command
   component are lists that are only appended to or written at one index, so the frame of every operation on them is
   put together from the lemmas below *)
Definition kept {A} (d : A) (n : nat) (l0 : list A) (F : list nat) (l : list A) : Prop :=
  n <= length l /\ forall i, i < n -> ~ In i F -> nth i l d = nth i l0 d.

Lemma kept_refl : forall A (d : A) l, kept d (length l) l [] l.
Proof. split; auto. Qed.

Lemma kept_app : forall A (d : A) n l0 F l e, kept d n l0 F l -> kept d n l0 F (l ++ e).
Proof.
  intros * [L H]. split.
  - rewrite app_length. lia.
  - intros i Hi Hn. rewrite app_nth1 by lia. auto.
Qed.

Lemma kept_set : forall A (d : A) n l0 F l j x, kept d n l0 F l -> kept d n l0 (j :: F) (set_nth l j x).
Proof.
  intros * [L H]. split.
  - rewrite length_set_nth. exact L.
  - intros i Hi Hn. rewrite nth_set_nth_other by (intros ->; apply Hn; left; reflexivity).
    apply H; [exact Hi | intro; apply Hn; right; assumption].
Qed.

Lemma kept_set_new : forall A (d : A) n l0 F l j x, n <= j -> kept d n l0 F l -> kept d n l0 F (set_nth l j x).
Proof.
  intros * Hj [L H]. split.
  - rewrite length_set_nth. exact L.
  - intros i Hi Hn. rewrite nth_set_nth_other by lia. auto.
Qed.

Definition inst_op (o : op) : bool := match o with ODefine _ => false | _ => true end.
Definition addresses (o : op) (j : nat) : bool :=
  match o with OSetProp i _ _ _ | OGrow i _ => Nat.eqb i j | _ => false end.

Lemma inst_op_heap : forall s o, inst_op o = true ->
  params (step s o) = params s /\ dts (step s o) = dts s /\ classes (step s o) = classes s.
Proof. intros s [d|ci c|i k key v|i m] H; try discriminate H; simpl; auto. Qed.

Lemma inst_ops_heap : forall ops s, forallb inst_op ops = true ->
  params (fold_left step ops s) = params s /\ dts (fold_left step ops s) = dts s /\
  classes (fold_left step ops s) = classes s.
Proof.
  induction ops as [|o ops IH]; simpl; intros s H; auto.
  apply andb_true_iff in H. destruct H as [Ho Hr].
  destruct (IH (step s o) Hr) as (A & B & C). destruct (inst_op_heap s o Ho) as (A' & B' & C').
  repeat apply conj; congruence.
Qed.

Lemma upd_inst_insts : forall s n f, length (insts s) <= length (insts (upd_inst s n f)) /\
  forall j, j < length (insts s) -> Nat.eqb n j = false -> nth j (insts (upd_inst s n f)) dead = nth j (insts s) dead.
Proof.
  intros s n f. unfold upd_inst; simpl. destruct (Nat.ltb n (length (insts s))); auto.
  rewrite length_set_nth. split; [apply Nat.le_refl|].
  intros j _ Hn. apply Nat.eqb_neq in Hn. apply nth_set_nth_other. congruence.
Qed.

(* no op removes an instance or changes one it does not address -- whatever the op is, including class definitions and
   the creation and configuration of other instances *)
Lemma step_insts : forall s o, length (insts s) <= length (insts (step s o)) /\
  forall j, j < length (insts s) -> addresses o j = false -> nth j (insts (step s o)) dead = nth j (insts s) dead.
Proof.
  intros s [d|ci c|i k key v|i m]; unfold step.
  - split; [apply Nat.le_refl | reflexivity].
  - unfold instantiate; simpl. rewrite app_length. split; [lia | intros; apply app_nth1; assumption].
  - apply upd_inst_insts.
  - apply upd_inst_insts.
Qed.

(* the new instance is a function of the full description of its class and of its configuration only *)
Definition describe_full (s : state) (c : cls) : list (name * (acc_desc * bool)) :=
  map (fun ki => (fst ki, (read (params s) (dts s) (snd ki),
                           match v_dt (pv (getp (params s) (snd ki))) with Some _ => true | None => false end))) (c_acc c).

Definition inst_acc_spec (c : cfg) (x : name * (acc_desc * bool)) : (name * acc_desc) * bool :=
  let '(k, (a0, has_dt)) := x in
  let a1 := {| a_desc := a_desc a0; a_group := a_group a0; a_value := revalidate (a_value a0) (a_dt a0); a_dt := a_dt a0 |} in
  let '(a2, ok) := fold_left cfg_step (match lookup k c with Some l => l | None => [] end) (a1, true) in
  let a3 := {| a_desc := a_desc a2; a_group := a_group a2; a_value := revalidate (a_value a2) (a_dt a2); a_dt := a_dt a2 |} in
  let has_desc := match a_desc a3 with Some _ => true | None => false end in
  ((k, a3), ok && has_dt && has_desc && dt_consistent (a_dt a0) && dt_consistent (a_dt a3)).

Definition inst_spec (module : bool) (full : list (name * (acc_desc * bool))) (c : cfg) : inst :=
  let res := map (inst_acc_spec c) full in
  let known := forallb (fun nc => match lookup (fst nc) full with Some _ => true | None => false end) c in
  if module && known && forallb snd res then {| i_alive := true; i_acc := map fst res |} else dead.

Lemma known_map : forall A B C (f : nat * A -> B) (l : list (nat * A)) (c : list (nat * C)),
  forallb (fun nc => match lookup (fst nc) (map (fun ki => (fst ki, f ki)) l) with Some _ => true | None => false end) c =
  forallb (fun nc => match lookup (fst nc) l with Some _ => true | None => false end) c.
Proof.
  intros. induction c as [|nc c IH]; simpl; [reflexivity|]. rewrite IH. f_equal. clear IH.
  induction l as [|[k v] l IHl]; simpl; auto. destruct (Nat.eqb (fst nc) k); auto.
Qed.

Lemma inst_acc_map_spec : forall ps ds c l,
  map (inst_acc ps ds c) l =
  map (inst_acc_spec c) (map (fun ki : name * id => (fst ki, (read ps ds (snd ki),
         match v_dt (pv (getp ps (snd ki))) with Some _ => true | None => false end))) l).
Proof. intros. rewrite map_map. apply map_ext. intros []. reflexivity. Qed.

(* of the np Parameter objects and nd datatype objects of h0, h has changed at most those in Fp and Fd *)
Definition Inv (np nd : nat) (h0 : heap) (Fp Fd : list id) (h : heap) : Prop :=
  np <= length (fst h) /\ nd <= length (snd h) /\
  (forall i, i < np -> ~ In i Fp -> getp (fst h) i = getp (fst h0) i) /\
  (forall i, i < nd -> ~ In i Fd -> getd (snd h) i = getd (snd h0) i).

Lemma Inv_weaken : forall np nd h0 Fp Fd Fp' Fd' h,
  Inv np nd h0 Fp Fd h -> incl Fp Fp' -> incl Fd Fd' -> Inv np nd h0 Fp' Fd' h.
Proof.
  intros * (A & B & C & D) Ip Id. repeat split; auto.
Qed.

(* the two halves of the heap are framed independently *)
Lemma Inv_kept : forall np nd h0 Fp Fd h,
  Inv np nd h0 Fp Fd h <-> kept pcell0 np (fst h0) Fp (fst h) /\ kept dt0 nd (snd h0) Fd (snd h).
Proof. unfold Inv, kept, getp, getd. tauto. Qed.

Lemma Inv_refl : forall h, Inv (length (fst h)) (length (snd h)) h [] [] h.
Proof. intros. apply Inv_kept. split; apply kept_refl. Qed.

Lemma Inv_new_param : forall np nd h0 Fp Fd h s, Inv np nd h0 Fp Fd h -> Inv np nd h0 Fp Fd (fst (new_param h s)).
Proof.
  intros * H. apply Inv_kept in H. destruct H as [P D]. apply Inv_kept.
  unfold new_param, alloc_dt, alloc_p. destruct (s_dt s), (s_inherit s); cbn [fst snd]; auto using kept_app.
Qed.

Lemma Inv_new_entries : forall np nd h0 Fp Fd l hd,
  Inv np nd h0 Fp Fd (fst hd) -> Inv np nd h0 Fp Fd (fst (fold_left new_entry l hd)).
Proof.
  induction l as [|[n e] l IH]; simpl; intros [h d] H; auto. apply IH. cbn [fst] in H.
  destruct e as [s|z|]; simpl; auto.
  pose proof (Inv_new_param _ _ _ _ _ _ s H) as H'. destruct (new_param h s). exact H'.
Qed.

(* the datatype objects written in place by a merge / by a bare-value override, as the model logs them in r_wd *)
Definition merge_wd (h : heap) (w : id) (M : mprops) (Fd : list id) : list id :=
  match m_dt M, v_dt (pv (getp (fst h) w)) with
  | None, Some d0 => if has_dtprops M then d0 :: Fd else Fd
  | _, _ => Fd
  end.

Definition clone_wd (M : mprops) (Fd : list id) : list id :=
  match m_dt M with Some d => if has_dtprops M then d :: Fd else Fd | None => Fd end.

Lemma Inv_merge_cell : forall np nd h0 Fp Fd h w M, Inv np nd h0 Fp Fd h ->
  Inv np nd h0 (w :: Fp) (merge_wd h w M Fd) (merge_cell h w M).
Proof.
  intros * H. apply Inv_kept in H. destruct H as [P D]. apply Inv_kept.
  (* unfolded, the Parameter half is one write at w and the datatype half an append or the one write merge_wd lists *)
  unfold merge_cell, merge_wd, write_dtprops, set_pv, set_dt, alloc_dt.
  destruct (m_dt M); [|destruct (v_dt (pv (getp (fst h) w))); [destruct (has_dtprops M)|]]; cbn [fst snd];
    auto using kept_app, kept_set.
Qed.

Lemma Inv_clone_cell : forall np nd h0 Fp Fd h w M z, Inv np nd h0 Fp Fd h ->
  Inv np nd h0 Fp (clone_wd M Fd) (fst (clone_cell h w M z)).
Proof.
  intros * H. apply Inv_kept in H. destruct H as [P D]. apply Inv_kept.
  (* unfolded, the Parameter half is an append and the datatype half the one write clone_wd lists, then an append *)
  unfold clone_cell, clone_wd, write_dtprops, set_dt, alloc_dt, alloc_p.
  destruct (m_dt M); [destruct (has_dtprops M)|]; destruct (v_dt (pv (getp (fst h) w))); cbn [fst snd];
    auto using kept_app, kept_set.
Qed.

Lemma Inv_resolve_name : forall np nd h0 cs mro r k,
  Inv np nd h0 (r_wp r) (r_wd r) (r_heap r) ->
  Inv np nd h0 (r_wp (resolve_name cs mro r k)) (r_wd (resolve_name cs mro r k)) (r_heap (resolve_name cs mro r k)).
Proof.
  intros * H. unfold resolve_name.
  destruct (w_acc (walk (fst (r_heap r)) cs mro k)) as [wid|]; auto.
  destruct (w_ov (walk (fst (r_heap r)) cs mro k)) as [[z|]|]; auto.
  - pose proof (Inv_clone_cell _ _ _ _ _ _ wid (w_M (walk (fst (r_heap r)) cs mro k)) z H) as H'.
    destruct (clone_cell (r_heap r) wid _ z). exact H'.
  - exact (Inv_merge_cell _ _ _ _ _ _ wid _ H).
Qed.

Lemma Inv_resolve_names : forall np nd h0 cs mro l r,
  Inv np nd h0 (r_wp r) (r_wd r) (r_heap r) ->
  Inv np nd h0 (r_wp (fold_left (resolve_name cs mro) l r)) (r_wd (fold_left (resolve_name cs mro) l r))
      (r_heap (fold_left (resolve_name cs mro) l r)).
Proof. induction l; simpl; intros; auto. apply IHl. apply Inv_resolve_name. assumption. Qed.

Lemma Inv_define_core : forall s d,
  Inv (length (params s)) (length (dts s)) (params s, dts s)
      (r_wp (define_core s d)) (r_wd (define_core s d)) (r_heap (define_core s d)).
Proof.
  intros. unfold define_core.
  pose proof (Inv_new_entries _ _ _ _ _ (d_dict d) ((params s, dts s), []) (Inv_refl (params s, dts s))) as H.
  destruct (fold_left new_entry (d_dict d) (params s, dts s, [])) as [h1 dict1].
  destruct (d_module d); [apply Inv_resolve_names|]; exact H.
Qed.

(* an object outside the footprint whose datatype object is outside it too reads the same *)
Lemma read_frame : forall np nd h0 Fp Fd h i, Inv np nd h0 Fp Fd h -> i < np -> ~ In i Fp ->
  (forall j, v_dt (pv (getp (fst h0) i)) = Some j -> j < nd /\ ~ In j Fd) ->
  read (fst h) (snd h) i = read (fst h0) (snd h0) i.
Proof.
  intros * (_ & _ & P & D) Hi Hp Hd. unfold read. rewrite (P i Hi Hp).
  destruct (v_dt (pv (getp (fst h0) i))) as [j|]; [|reflexivity].
  destruct (Hd j eq_refl) as [Hj Hn]. cbn [rd_dt]. rewrite (D j Hj Hn). reflexivity.
Qed.

(* an accessible object is in range and its datatype object, if any, too *)
Definition acc_ok (s : state) (i : id) : Prop :=
  i < length (params s) /\ forall j, v_dt (pv (getp (params s) i)) = Some j -> j < length (dts s).

Definition untouched (s : state) (d : cdef) (i : id) : Prop :=
  ~ In i (fst (footprint s d)) /\ forall j, v_dt (pv (getp (params s) i)) = Some j -> ~ In j (snd (footprint s d)).

Lemma read_unchanged : forall s d i, acc_ok s i -> untouched s d i ->
  read (params (define s d)) (dts (define s d)) i = read (params s) (dts s) i.
Proof.
  intros s d i [Hi Hd] [Ui Ud]. apply (read_frame _ _ _ _ _ _ i (Inv_define_core s d)); auto.
Qed.

Lemma class_unchanged_by_define : forall s d c,
  (forall k i, In (k, i) (c_acc c) ->
     acc_ok s i /\ (untouched s d i \/ read (params (define s d)) (dts (define s d)) i = read (params s) (dts s) i)) ->
  describe_class (define s d) c = describe_class s c.
Proof.
  intros s d c H. unfold describe_class. apply map_ext_in. intros [k i] Hin. cbn [fst snd].
  destruct (H k i Hin) as [Ok [U|R]].
  - rewrite read_unchanged; auto.
  - rewrite R. reflexivity.
Qed.

(* on closed instances a condition on the datatype object of an accessible, if it has one, is decided by evaluation *)
Lemma opt_all : forall A (P : A -> Prop) (o : option A), match o with Some j => P j | None => True end ->
  forall j, o = Some j -> P j.
Proof. intros A P o H j ->. exact H. Qed.

Lemma acc_ok_by : forall s i, i < length (params s) ->
  match v_dt (pv (getp (params s) i)) with Some j => j < length (dts s) | None => True end -> acc_ok s i.
Proof. intros s i L H. split; [exact L | apply opt_all, H]. Qed.
