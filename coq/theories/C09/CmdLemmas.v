(* C09 -- lemmas for the command / mixin component (CmdModel.v): what a class definition does to the heap (DI), what each
   instance level op does to the state (one spec lemma per op), and the heap-disjointness invariant xinv they preserve:
   no argument / result datatype object of an instance is referenced by a class level Command object or by another
   instance; the callback dict of an instance is neither the class attribute nor the dict of another instance.  The
   frame properties that follow are in CmdFrame.v. *)
From Coq Require Import List Arith ZArith Bool Lia.
Import ListNotations.
Require Import FV.C09.Model FV.C09.Lemmas FV.C09.CmdModel.

Definition oref (o : option (option id)) : list id := match o with Some (Some a) => [a] | _ => [] end.
Definition qrefs (q : cprops) : list id := oref (q_arg q) ++ oref (q_res q).
Definition crefs (c : ccell) : list id := qrefs (cv c) ++ qrefs (cown c).
Definition class_refs (cells : list ccell) : list id := flat_map crefs cells.
Definition iref (o : option id) : list id := match o with Some a => [a] | None => [] end.
Definition irefs (c : icmd) : list id := iref (ic_arg c) ++ iref (ic_res c).
Definition xowned (x : xinst) : list id := flat_map (fun kc => irefs (snd kc)) (xi_cmds x).
Definition inst_at (s : xstate) (i : nat) : xinst := nth i (xinsts s) xdead.

(* M3, M4 and the second half of M1 are about the class attribute xclscb.  No op of the model writes it (it stays None,
   NonVacuity.C09_nv_class_attribute_never_set); the invariant does not rely on that: it says what register_input needs
   of a class attribute dict if there is one (it is empty, so the instance gets a dict of its own before the write) *)
Record xinv (s : xstate) : Prop := {
  I1 : forall x, In x (class_refs (xcells s)) -> x < length (xdts s);
  I2 : forall i x, In x (xowned (inst_at s i)) -> x < length (xdts s) /\ ~ In x (class_refs (xcells s));
  I3 : forall i j x, i <> j -> In x (xowned (inst_at s i)) -> ~ In x (xowned (inst_at s j));
  M1 : forall i d, xi_cb (inst_at s i) = Some d -> d < length (xcbs s) /\ xclscb s <> Some d;
  M2 : forall i j d, i <> j -> xi_cb (inst_at s i) = Some d -> xi_cb (inst_at s j) <> Some d;
  M3 : forall d, xclscb s = Some d -> d < length (xcbs s);
  M4 : xcls_inputs s = [] }.

Lemma In_set_nth : forall A (l : list A) i x y, In y (set_nth l i x) -> y = x \/ In y l.
Proof.
  induction l as [|z l IH]; destruct i; simpl; intros x y H; auto.
  - destruct H as [H|H]; auto.
  - destruct H as [H|H]; auto. apply IH in H. tauto.
Qed.

Lemma nth_beyond : forall A (l : list A) i d, length l <= i -> nth i l d = d.
Proof. intros. apply nth_overflow. assumption. Qed.

Lemma getc_refs_in : forall cells i x, In x (crefs (getc cells i)) -> In x (class_refs cells).
Proof.
  intros cells i x H. unfold getc in H. destruct (nth_in_or_default i cells ccell0) as [E|E].
  - unfold class_refs. apply in_flat_map. eauto.
  - rewrite E in H. contradiction.
Qed.

Lemma qrefs_set_desc : forall p z, qrefs (q_set_desc p z) = qrefs p.
Proof. reflexivity. Qed.

Lemma oref_ov : forall a b x, In x (oref (ov a b)) -> In x (oref a) \/ In x (oref b).
Proof. intros a b x. destruct b as [[b|]|]; simpl; auto. Qed.

Lemma qrefs_update : forall m o x, In x (qrefs (q_update m o)) -> In x (qrefs m) \/ In x (qrefs o).
Proof.
  intros m o x H. unfold qrefs, q_update in *. simpl in H. apply in_app_or in H.
  destruct H as [H|H]; apply oref_ov in H; destruct H; auto using in_or_app.
Qed.

Lemma iref_join : forall o, iref (opt_join o) = oref o.
Proof. intros [[a|]|]; reflexivity. Qed.

Lemma getcd_app_old : forall ds ext x, x < length ds -> getcd (ds ++ ext) x = getcd ds x.
Proof. intros. unfold getcd. apply app_nth1. assumption. Qed.

Lemma rd_cdt_ext : forall ds ds' o, (forall x, In x (iref o) -> getcd ds' x = getcd ds x) -> rd_cdt ds' o = rd_cdt ds o.
Proof. intros ds ds' [a|] H; simpl; [rewrite H; simpl; auto | reflexivity]. Qed.

Lemma read_cmd_ext : forall cells ds ds' i,
  (forall x, In x (qrefs (cv (getc cells i))) -> getcd ds' x = getcd ds x) -> read_cmd cells ds' i = read_cmd cells ds i.
Proof.
  intros. unfold read_cmd, qrefs in *. f_equal; apply rd_cdt_ext; rewrite iref_join; auto using in_or_app.
Qed.

Definition icmds_desc (ds : list cdt) (l : list (name * icmd)) : list (name * cmd_desc) :=
  map (fun kc => (fst kc, read_icmd ds (snd kc))) l.

Lemma icmds_desc_ext : forall ds ds' l,
  (forall x, In x (flat_map (fun kc => irefs (snd kc)) l) -> getcd ds' x = getcd ds x) -> icmds_desc ds' l = icmds_desc ds l.
Proof.
  intros ds ds' l H. apply map_ext_in. intros [k c] Hin. unfold read_icmd. simpl.
  do 2 f_equal; apply rd_cdt_ext; intros x Hx; apply H, in_flat_map; exists (k, c); unfold irefs; auto using in_or_app.
Qed.

(* the two copying primitives: at most one datatype object is appended, and only it is referenced *)
Lemma xalloc_opt_spec : forall h o, exists e i,
  xalloc_opt h o = ((fst h, snd h ++ e), i) /\
  forall a, In a (iref i) -> length (snd h) <= a < length (snd h ++ e).
Proof.
  intros [cs ds] [d|]; simpl.
  - exists [d]. eexists. split; [reflexivity|]. intros a [<-|[]]. rewrite app_length. simpl. lia.
  - exists []. eexists. rewrite app_nil_r. split; [reflexivity | intros a []].
Qed.

Lemma xcopy_opt_spec : forall h o, exists e o',
  xcopy_opt h o = ((fst h, snd h ++ e), o') /\
  (forall a, In a (oref o') -> length (snd h) <= a < length (snd h ++ e)) /\
  rd_cdt (snd h ++ e) (opt_join o') = rd_cdt (snd h) (opt_join o).
Proof.
  intros [cs ds] [[a|]|]; simpl.
  - exists [getcd ds a]. eexists. split; [reflexivity|]. split.
    + intros x [<-|[]]. rewrite app_length. simpl. lia.
    + simpl. unfold getcd at 1. rewrite nth_middle. reflexivity.
  - exists []. eexists. rewrite app_nil_r. split; [reflexivity|]. split; [intros x [] | reflexivity].
  - exists []. eexists. rewrite app_nil_r. split; [reflexivity|]. split; [intros x [] | reflexivity].
Qed.

Definition okref (n0 : nat) (R0 : id -> Prop) (n : nat) (x : id) : Prop := (R0 x \/ n0 <= x) /\ x < n.

Section Define.
(* nc0 Command objects (cells0) and n0 datatype objects (ds0) existed, the latter referenced by the class level as R0 says *)
Variables (nc0 : nat) (cells0 : list ccell) (n0 : nat) (R0 : id -> Prop) (ds0 : list cdt).

Definition cell_ok (n : nat) (c : ccell) : Prop := forall x, In x (crefs c) -> okref n0 R0 n x.

(* the old Command objects keep their content except those in F; the old datatype objects keep theirs; every Command
   object references only datatype objects that were referenced before or are new *)
Definition DI (F : list id) (h : xheap) : Prop :=
  kept ccell0 nc0 cells0 F (fst h) /\ kept cdt0 n0 ds0 [] (snd h) /\
  forall c, In c (fst h) -> cell_ok (length (snd h)) c.

Lemma DI_cell : forall F h i, DI F h -> cell_ok (length (snd h)) (getc (fst h) i).
Proof.
  intros F h i (_ & _ & C). unfold getc. destruct (nth_in_or_default i (fst h) ccell0) as [E|E]; auto.
  rewrite E. intros x [].
Qed.

Lemma DI_app_dt : forall F h e, DI F h -> DI F (fst h, snd h ++ e).
Proof.
  intros F h e (A & B & C). split; [exact A|]. split; [apply kept_app, B|]. simpl.
  intros c Hc x Hx. destruct (C c Hc x Hx). split; [assumption | rewrite app_length; lia].
Qed.

Lemma DI_set_dt : forall F h i d, DI F h -> n0 <= i -> DI F (xset_dt h i d).
Proof.
  intros F h i d (A & B & C) Hi. split; [exact A|]. split; simpl.
  - apply kept_set_new; assumption.
  - rewrite length_set_nth. exact C.
Qed.

Lemma DI_alloc_cell : forall F h c, DI F h -> cell_ok (length (snd h)) c -> DI F (fst (xalloc_cell h c)).
Proof.
  intros F h c (A & B & C) Hc. split; [apply kept_app, A|]. split; [exact B|]. simpl.
  intros c' Hin. apply in_app_or in Hin. destruct Hin as [Hin|[<-|[]]]; auto.
Qed.

(* writing a Command object: one that is new, or one that existed (it joins the footprint) *)
Lemma DI_set_cell : forall F h i c, DI F h -> cell_ok (length (snd h)) c ->
  (nc0 <= i -> DI F (xset_cell h i c)) /\ DI (i :: F) (xset_cell h i c).
Proof.
  intros F h i c (A & B & C) Hc.
  assert (C' : forall c', In c' (set_nth (fst h) i c) -> cell_ok (length (snd h)) c').
  { intros c' Hin. apply In_set_nth in Hin. destruct Hin as [->|Hin]; auto. }
  split; [intros Hi|]; (split; [|split; [exact B | exact C']]); simpl; [apply kept_set_new | apply kept_set]; assumption.
Qed.

(* Command.__call__ on a new Command object whose argument, if any, is new *)
Lemma DI_call : forall F h c defs doc, DI F h -> nc0 <= c ->
  (forall a, q_arg (cv (getc (fst h) c)) = Some (Some a) -> n0 <= a) ->
  DI F (call_desc (call_write h c defs) c doc).
Proof.
  intros F h c defs doc H Hc Ha.
  assert (H1 : DI F (call_write h c defs)).
  { unfold call_write. destruct (q_arg (cv (getc (fst h) c))) as [[a|]|]; auto. apply DI_set_dt; auto. }
  unfold call_desc. destruct (q_desc (cown (getc (fst (call_write h c defs)) c))); auto. destruct doc; auto.
  apply DI_set_cell; auto. exact (DI_cell F _ c H1).
Qed.

(* a new Command object that references new datatype objects only, then __call__ on it *)
Lemma DI_new_cell : forall F h cell defs doc, DI F h ->
  (forall x, In x (crefs cell) -> n0 <= x < length (snd h)) ->
  DI F (call_desc (call_write (fst (xalloc_cell h cell)) (length (fst h)) defs) (length (fst h)) doc).
Proof.
  intros F h cell defs doc H Hr. apply DI_call.
  - apply DI_alloc_cell; auto. intros x Hx. destruct (Hr x Hx). split; auto.
  - apply H.
  - simpl. unfold getc. rewrite nth_middle. intros a Ea. apply Hr. unfold crefs, qrefs. rewrite Ea. simpl. auto.
Qed.

Lemma call_write_cells : forall h c defs, fst (call_write h c defs) = fst h.
Proof. intros. unfold call_write. destruct (q_arg (cv (getc (fst h) c))) as [[a|]|]; reflexivity. Qed.

Lemma DI_new_cmd : forall F h s, DI F h -> DI F (fst (new_cmd h s)).
Proof.
  intros F h s H. unfold new_cmd. assert (L : n0 <= length (snd h)) by apply H.
  destruct (x_sig s) as [[a r]|].
  - destruct (xalloc_opt_spec h a) as (e1 & ai & -> & F1).
    destruct (xalloc_opt_spec (fst h, snd h ++ e1) r) as (e2 & ri & -> & F2). cbn [fst snd] in *.
    apply DI_new_cell; [apply (DI_app_dt F (fst h, snd h ++ e1)), DI_app_dt, H|].
    cbn [fst snd]. rewrite !app_length in *. unfold crefs, qrefs. cbn [cv cown q_arg q_res]. intros x Hx.
    change (oref (Some ai)) with (iref ai) in Hx. change (oref (Some ri)) with (iref ri) in Hx.
    rewrite !in_app_iff in Hx.
    destruct Hx as [[Hx|Hx]|[Hx|Hx]]; [apply F1 in Hx | apply F2 in Hx | apply F1 in Hx | apply F2 in Hx]; lia.
  - apply DI_new_cell; auto. intros x [].
Qed.

Lemma DI_new_entries : forall F l hd, DI F (fst hd) -> DI F (fst (fold_left xnew_entry l hd)).
Proof.
  induction l as [|[n e] l IH]; simpl; intros [h d] H; auto. apply IH. cbn [fst] in H.
  destruct e as [s|doc defs|]; simpl; auto.
  pose proof (DI_new_cmd F h s H) as H'. destruct (new_cmd h s). exact H'.
Qed.

(* the merged properties collected by the first loop reference only what Command objects reference *)
Definition qok (h : xheap) (q : cprops) : Prop := forall x, In x (qrefs q) -> okref n0 R0 (length (snd h)) x.

Lemma xwalk_ok : forall F h cs mro k, DI F h -> qok h (xw_M (xwalk (fst h) cs mro k)).
Proof.
  intros F h cs mro k H. unfold xwalk.
  assert (G : forall l w, qok h (xw_M w) -> qok h (xw_M (fold_left (xwstep (fst h)) l w))).
  { induction l as [|e l IH]; simpl; intros w Hw; auto. apply IH.
    destruct e as [i|doc defs|]; simpl; [|destruct (xw_acc w); auto ..].
    intros x Hx. apply qrefs_update in Hx. destruct Hx as [Hx|Hx]; auto.
    apply (DI_cell F h i H). unfold crefs. auto using in_or_app. }
  apply G. intros x [].
Qed.

Lemma DI_create_from_func : forall F h M doc defs, DI F h -> DI F (fst (create_from_func h M doc defs)).
Proof.
  intros F h M doc defs H. unfold create_from_func, clone_cmd. assert (L : n0 <= length (snd h)) by apply H.
  destruct (xcopy_opt_spec h (q_arg M)) as (e1 & a & -> & F1 & _).
  destruct (xcopy_opt_spec (fst h, snd h ++ e1) (q_res M)) as (e2 & r & -> & F2 & _). cbn [fst snd] in *.
  apply DI_new_cell; [apply (DI_app_dt F (fst h, snd h ++ e1)), DI_app_dt, H|].
  cbn [fst snd]. rewrite !app_length in *. unfold crefs, qrefs. simpl. rewrite app_nil_r. intros x Hx.
  apply in_app_or in Hx. destruct Hx as [Hx|Hx]; [apply F1 in Hx | apply F2 in Hx]; lia.
Qed.

Lemma DI_resolve_name : forall cs mro r k, DI (xr_wc r) (xr_heap r) ->
  DI (xr_wc (xresolve_name cs mro r k)) (xr_heap (xresolve_name cs mro r k)).
Proof.
  intros cs mro r k H. unfold xresolve_name.
  pose proof (xwalk_ok _ (xr_heap r) cs mro k H) as W.
  destruct (xw_acc (xwalk (fst (xr_heap r)) cs mro k)) as [wid|]; auto.
  destruct (xw_ov (xwalk (fst (xr_heap r)) cs mro k)) as [[[doc defs]|]|]; auto.
  - pose proof (DI_create_from_func _ _ (xw_M (xwalk (fst (xr_heap r)) cs mro k)) doc defs H) as H'.
    destruct (create_from_func (xr_heap r) _ doc defs). exact H'.
  - (* Command.merge: the object keeps its references and gains those of the merged properties *)
    simpl. unfold merge_cmd. apply DI_set_cell; auto.
    intros x Hx. unfold crefs in Hx. simpl in Hx. apply in_app_or in Hx.
    destruct Hx as [Hx|Hx]; [apply qrefs_update in Hx; destruct Hx as [Hx|Hx]; auto|];
      apply (DI_cell _ _ wid H); unfold crefs; auto using in_or_app.
Qed.

Lemma DI_resolve_names : forall cs mro l r, DI (xr_wc r) (xr_heap r) ->
  DI (xr_wc (fold_left (xresolve_name cs mro) l r)) (xr_heap (fold_left (xresolve_name cs mro) l r)).
Proof. induction l; simpl; intros; auto. apply IHl. apply DI_resolve_name. assumption. Qed.

End Define.

Lemma DI_define_core : forall s d, xinv s ->
  DI (length (xcells s)) (xcells s) (length (xdts s)) (fun x => In x (class_refs (xcells s))) (xdts s)
     (xr_wc (xdefine_core s d)) (xr_heap (xdefine_core s d)).
Proof.
  intros s d V. unfold xdefine_core.
  assert (H0 : DI (length (xcells s)) (xcells s) (length (xdts s)) (fun x => In x (class_refs (xcells s))) (xdts s) []
                  (xcells s, xdts s)).
  { split; [apply kept_refl|]. split; [apply kept_refl|]. intros c Hc x Hx.
    assert (Hr : In x (class_refs (xcells s))) by (apply in_flat_map; eauto).
    split; [left; exact Hr | apply (I1 s V x Hr)]. }
  pose proof (DI_new_entries _ _ _ _ _ _ (xd_dict d) ((xcells s, xdts s), []) H0) as H1.
  destruct (fold_left xnew_entry (xd_dict d) (xcells s, xdts s, [])) as [h1 dict1].
  destruct (xd_module d); [apply DI_resolve_names|]; exact H1.
Qed.

(* what a class definition does to the argument / result datatype objects: none that existed is written, and the
   Command objects reference, besides new ones, only what Command objects referenced before *)
Lemma xdefine_heap : forall s d, xinv s ->
  length (xdts s) <= length (xdts (xdefine s d)) /\
  (forall j, j < length (xdts s) -> getcd (xdts (xdefine s d)) j = getcd (xdts s) j) /\
  (forall x, In x (class_refs (xcells (xdefine s d))) ->
     (In x (class_refs (xcells s)) \/ length (xdts s) <= x) /\ x < length (xdts (xdefine s d))).
Proof.
  intros s d V. destruct (DI_define_core s d V) as (_ & [A B] & C). unfold xdefine; simpl.
  split; [exact A|]. split; [intros j Hj; apply B; auto|].
  intros x Hx. apply in_flat_map in Hx. destruct Hx as (c & Hc & Hx). apply (C c Hc x Hx).
Qed.

(* instantiation: only new datatype objects, all owned by the new instance; its commands are described by the
   description of the class and the configuration *)
Definition cfg_cmd (cfg : list (name * Z)) (kd : name * cmd_desc) : name * cmd_desc :=
  (fst kd, {| cd_desc := match lookup (fst kd) cfg with Some z => Some z | None => cd_desc (snd kd) end;
              cd_arg := cd_arg (snd kd); cd_res := cd_res (snd kd) |}).

Lemma inst_cmd_step : forall cells cfg ds out ki, exists e c,
  inst_cmd cells cfg (ds, out) ki = (ds ++ e, out ++ [(fst ki, c)]) /\
  (forall x, In x (irefs c) -> length ds <= x < length (ds ++ e)) /\
  ((forall x, In x (qrefs (cv (getc cells (snd ki)))) -> x < length ds) ->
   (fst ki, read_icmd (ds ++ e) c) = cfg_cmd cfg (fst ki, read_cmd cells ds (snd ki))).
Proof.
  intros. unfold inst_cmd. set (p := cv (getc cells (snd ki))).
  destruct (xcopy_opt_spec (cells, ds) (q_arg p)) as (e1 & a & -> & F1 & D1). cbn [fst snd] in *.
  destruct (xcopy_opt_spec (cells, ds ++ e1) (q_res p)) as (e2 & r & -> & F2 & D2). cbn [fst snd] in *.
  exists (e1 ++ e2). eexists. rewrite app_assoc. split; [reflexivity|].
  pose proof (app_length ds e1) as L1. pose proof (app_length (ds ++ e1) e2) as L2. split.
  - unfold irefs. simpl. rewrite !iref_join. intros x Hx. apply in_app_or in Hx.
    destruct Hx as [Hx|Hx]; [apply F1 in Hx | apply F2 in Hx]; lia.
  - intros Hc. unfold cfg_cmd, read_icmd, read_cmd. simpl. fold p. do 2 f_equal.
    + rewrite <- D1. apply rd_cdt_ext. intros x Hx. rewrite iref_join in Hx. apply getcd_app_old.
      apply F1 in Hx. lia.
    + rewrite D2. apply rd_cdt_ext. intros x Hx. rewrite iref_join in Hx. apply getcd_app_old, Hc.
      unfold qrefs. auto using in_or_app.
Qed.

Lemma read_icmd_ext : forall ds ds' c, (forall x, In x (irefs c) -> getcd ds' x = getcd ds x) -> read_icmd ds' c = read_icmd ds c.
Proof. intros. unfold read_icmd, irefs in *. f_equal; apply rd_cdt_ext; auto using in_or_app. Qed.

Lemma inst_cmds_spec : forall cells cfg l ds out,
  (forall x, In x (class_refs cells) -> x < length ds) ->
  exists e cmds,
    fold_left (inst_cmd cells cfg) l (ds, out) = (ds ++ e, out ++ cmds) /\
    (forall x, In x (flat_map (fun kc => irefs (snd kc)) cmds) -> length ds <= x < length (ds ++ e)) /\
    icmds_desc (ds ++ e) cmds = map (fun ki => cfg_cmd cfg (fst ki, read_cmd cells ds (snd ki))) l.
Proof.
  induction l as [|ki l IH]; intros ds out Hc; cbn [fold_left map].
  - exists [], []. rewrite !app_nil_r. split; [reflexivity|]. split; [intros x [] | reflexivity].
  - destruct (inst_cmd_step cells cfg ds out ki) as (e1 & c & E1 & F1 & D1). rewrite E1.
    assert (Hc' : forall x, In x (class_refs cells) -> x < length (ds ++ e1))
      by (intros x Hx; rewrite app_length; specialize (Hc x Hx); lia).
    destruct (IH (ds ++ e1) (out ++ [(fst ki, c)]) Hc') as (e2 & cmds & E2 & F2 & D2). rewrite E2. clear IH E1 E2.
    exists (e1 ++ e2), ((fst ki, c) :: cmds). rewrite app_assoc, <- (app_assoc out). split; [reflexivity|].
    pose proof (app_length ds e1) as L1. pose proof (app_length (ds ++ e1) e2) as L2. split.
    + simpl. intros x Hx. apply in_app_or in Hx. destruct Hx as [Hx|Hx]; [apply F1 in Hx | apply F2 in Hx]; lia.
    + simpl. f_equal.
      * rewrite <- D1 by (intros x Hx; apply Hc, (getc_refs_in _ (snd ki)); unfold crefs; auto using in_or_app).
        f_equal. apply read_icmd_ext. intros x Hx. apply getcd_app_old. apply F1 in Hx. lia.
      * rewrite D2. apply map_ext. intros ki'. do 2 f_equal. apply read_cmd_ext. intros x Hx. apply getcd_app_old, Hc.
        apply (getc_refs_in _ (snd ki')). unfold crefs. auto using in_or_app.
Qed.

Lemma xinstantiate_spec : forall s ci ok cfg, xinv s -> exists e x,
  xinstantiate s ci ok cfg =
    {| xcells := xcells s; xdts := xdts s ++ e; xclasses := xclasses s; xinsts := xinsts s ++ [x];
       xcbs := xcbs s; xclscb := xclscb s |} /\
  xi_cb x = None /\
  (forall y, In y (xowned x) -> length (xdts s) <= y < length (xdts s ++ e)) /\
  (ok = true -> icmds_desc (xdts s ++ e) (xi_cmds x) = map (cfg_cmd cfg) (xdescribe_class s (nth ci (xclasses s) xcls0))).
Proof.
  intros s ci ok cfg V. unfold xinstantiate. destruct ok.
  - destruct (inst_cmds_spec (xcells s) cfg (xc_acc (nth ci (xclasses s) xcls0)) (xdts s) [] (I1 s V)) as (e & cmds & E & F & D).
    rewrite E. exists e. eexists. split; [reflexivity|]. split; [reflexivity|]. split; [exact F|].
    intros _. simpl. rewrite D. unfold xdescribe_class. rewrite map_map. reflexivity.
  - exists [], xdead. rewrite app_nil_r. split; [reflexivity|]. split; [reflexivity|]. split; [intros y [] | discriminate].
Qed.

Lemma lookup_In : forall A k (l : list (nat * A)) v, lookup k l = Some v -> In (k, v) l.
Proof.
  induction l as [|[k' v'] l IH]; simpl; intros v H; [discriminate|].
  destruct (Nat.eqb k k') eqn:E; auto. apply Nat.eqb_eq in E. injection H as <-. subst. auto.
Qed.

(* setProperty on an argument / result: nothing, or a write to a datatype object the addressed instance owns *)
Lemma xsetarg_spec : forall s i k res path key v,
  xsetarg s i k res path key v = s \/
  exists a d, In a (xowned (inst_at s i)) /\
    xsetarg s i k res path key v =
      {| xcells := xcells s; xdts := set_nth (xdts s) a d; xclasses := xclasses s; xinsts := xinsts s;
         xcbs := xcbs s; xclscb := xclscb s |}.
Proof.
  intros. unfold xsetarg. destruct (lookup k (xi_cmds (nth i (xinsts s) xdead))) as [c|] eqn:El; auto.
  destruct (if res then ic_res c else ic_arg c) as [a|] eqn:Ea; auto.
  right. exists a. eexists. split; [|reflexivity].
  apply in_flat_map. exists (k, c). split; [apply lookup_In, El|].
  unfold irefs. apply in_or_app. simpl. destruct res; rewrite Ea; simpl; auto.
Qed.

(* register_input writes to dict d of cbs1: a new empty dict appended to those of s, or the one bound to instance i
   already.  Either way it is bound to no other instance and is not the class attribute *)
Lemma register_dict : forall s i cbs1 d, xinv s ->
  (cbs1 = xcbs s ++ [[]] /\ d = length (xcbs s)) \/ (cbs1 = xcbs s /\ xi_cb (inst_at s i) = Some d) ->
  d < length cbs1 /\ (exists e, cbs1 = xcbs s ++ e) /\ xclscb s <> Some d /\
  (forall j, j <> i -> xi_cb (inst_at s j) <> Some d).
Proof.
  intros s i cbs1 d V [[-> ->]|[-> E]].
  - rewrite app_length. simpl. split; [lia|]. split; [exists [[]]; reflexivity|]. split.
    + intro Hc. pose proof (M3 s V _ Hc). lia.
    + intros j _ Hc. pose proof (M1 s V j _ Hc). lia.
  - split; [apply (M1 s V i d E)|]. split; [exists []; symmetry; apply app_nil_r|]. split; [apply (M1 s V i d E)|].
    intros j Hn. apply (M2 s V i j d); auto.
Qed.

(* register_input touches the instance table and the callback dicts only *)
Lemma xregister_static : forall s i m,
  xcells (xregister s i m) = xcells s /\ xdts (xregister s i m) = xdts s /\ xclasses (xregister s i m) = xclasses s /\
  xclscb (xregister s i m) = xclscb s.
Proof.
  intros. unfold xregister. destruct (Nat.ltb i (length (xinsts s))); auto.
  destruct (match cb_of s _ with Some _ => _ | None => _ end). auto.
Qed.

Lemma xregister_spec : forall s i m, xinv s -> i < length (xinsts s) -> exists cbs1 d,
  xregister s i m =
    {| xcells := xcells s; xdts := xdts s; xclasses := xclasses s;
       xinsts := set_nth (xinsts s) i {| xi_alive := xi_alive (inst_at s i); xi_cmds := xi_cmds (inst_at s i); xi_cb := Some d |};
       xcbs := set_nth cbs1 d (nth d cbs1 [] ++ [m]); xclscb := xclscb s |} /\
  d < length cbs1 /\ (exists e, cbs1 = xcbs s ++ e) /\ xclscb s <> Some d /\
  (forall j, j <> i -> xi_cb (inst_at s j) <> Some d).
Proof.
  intros s i m V Li. unfold xregister. apply Nat.ltb_lt in Li. rewrite Li. fold (inst_at s i).
  (* the dict of the class attribute is empty, so an instance that sees it gets a new one *)
  assert (N : is_nil (cb_read s (xclscb s)) = true) by (rewrite (M4 s V : cb_read s (xclscb s) = []); reflexivity).
  pose proof (fun cbs1 d => register_dict s i cbs1 d V) as R.
  unfold cb_of. destruct (xi_cb (inst_at s i)) as [d'|].
  - destruct (is_nil (cb_read s (Some d'))); eexists; eexists; (split; [reflexivity|]); apply R; auto.
  - destruct (xclscb s) as [c|]; [rewrite N|]; eexists; eexists; (split; [reflexivity|]); apply R; auto.
Qed.

Lemma xinv0 : xinv xstate0.
Proof.
  assert (E : forall i, inst_at xstate0 i = xdead) by (intros [|i]; reflexivity).
  split; intros; rewrite ?E in *; simpl in *; try contradiction; try discriminate; auto.
Qed.

Lemma xinv_define : forall s d, xinv s -> xinv (xdefine s d).
Proof.
  intros s d V. destruct (xdefine_heap s d V) as (L & B & C).
  (* the instance table, the callback dicts and the class attribute are those of s *)
  split; [| | exact (I3 s V) | exact (M1 s V) | exact (M2 s V) | exact (M3 s V) | exact (M4 s V)].
  - intros x Hx. apply C. assumption.
  - (* the objects of an instance are old and were not referenced by the class level *)
    intros i x Hx. change (inst_at (xdefine s d) i) with (inst_at s i) in Hx.
    destruct (I2 s V i x Hx) as [Hl Hn]. split; [lia|]. intro Hc. destruct (C x Hc) as [[Hc'|Hc'] _]; [auto | lia].
Qed.

Lemma inst_at_snoc_old : forall (l : list xinst) x i, i < length l -> nth i (l ++ [x]) xdead = nth i l xdead.
Proof. intros. apply app_nth1. assumption. Qed.

Lemma old_inst_beyond : forall s i, length (xinsts s) <= i -> inst_at s i = xdead.
Proof. intros. unfold inst_at. apply nth_overflow. assumption. Qed.

(* one more instance, which owns new datatype objects only and has no callback dict yet *)
Lemma xinv_snoc : forall s e x, xinv s -> xi_cb x = None ->
  (forall y, In y (xowned x) -> length (xdts s) <= y < length (xdts s ++ e)) ->
  xinv {| xcells := xcells s; xdts := xdts s ++ e; xclasses := xclasses s; xinsts := xinsts s ++ [x];
          xcbs := xcbs s; xclscb := xclscb s |}.
Proof.
  intros s e x V Cb Own. set (s' := {| xcells := xcells s |}).
  assert (Cases : forall i, inst_at s' i = inst_at s i \/ (i = length (xinsts s) /\ inst_at s' i = x)).
  { intro i. destruct (Nat.lt_trichotomy i (length (xinsts s))) as [L|[->|L]].
    - left. apply inst_at_snoc_old, L.
    - right. split; [reflexivity | apply nth_middle].
    - left. rewrite !old_inst_beyond; [reflexivity | lia | simpl; rewrite app_length; simpl; lia]. }
  assert (New : forall y, In y (xowned x) -> forall j, ~ In y (xowned (inst_at s j)) /\ ~ In y (class_refs (xcells s))).
  { intros y Hy j. apply Own in Hy. split; intro Hc; [apply (I2 s V) in Hc | apply (I1 s V) in Hc]; lia. }
  split; simpl; rewrite ?app_length.
  - intros y Hy. apply (I1 s V) in Hy. lia.
  - intros i y Hy. destruct (Cases i) as [E|[_ E]]; rewrite E in Hy.
    + destruct (I2 s V i y Hy). split; [lia | assumption].
    + split; [apply Own in Hy; rewrite app_length in Hy; lia | exact (proj2 (New y Hy 0))].
  - intros i j y Hij Hi Hj. destruct (Cases i) as [Ei|[Li Ei]], (Cases j) as [Ej|[Lj Ej]]; rewrite Ei in Hi; rewrite Ej in Hj.
    + apply (I3 s V i j y Hij Hi Hj).
    + exact (proj1 (New y Hj i) Hi).
    + exact (proj1 (New y Hi j) Hj).
    + lia.
  - intros i d Hi. destruct (Cases i) as [E|[_ E]]; rewrite E in Hi; [apply (M1 s V i d Hi) | congruence].
  - intros i j d Hij Hi Hj. destruct (Cases i) as [Ei|[_ Ei]], (Cases j) as [Ej|[_ Ej]]; rewrite Ei in Hi; rewrite Ej in Hj;
      try congruence. apply (M2 s V i j d Hij Hi Hj).
  - apply (M3 s V).
  - apply (M4 s V).
Qed.

Lemma xinv_register : forall s i m, xinv s -> xinv (xregister s i m).
Proof.
  intros s i m V. destruct (Nat.lt_ge_cases i (length (xinsts s))) as [Li|Li];
    [|unfold xregister; apply Nat.ltb_ge in Li; rewrite Li; exact V].
  destruct (xregister_spec s i m V Li) as (cbs1 & d & -> & Ld & [e ->] & Nc & Nj).
  set (x' := {| xi_alive := xi_alive (inst_at s i) |}).
  assert (At : forall j, (j = i /\ nth j (set_nth (xinsts s) i x') xdead = x') \/
                         (j <> i /\ nth j (set_nth (xinsts s) i x') xdead = inst_at s j)).
  { intro j. destruct (Nat.eq_dec j i) as [->|N]; [left | right]; split; auto.
    - apply nth_set_nth_same, Li.
    - apply nth_set_nth_other, N. }
  rewrite app_length in Ld.
  split; simpl; unfold inst_at; simpl; rewrite ?length_set_nth, ?app_length.
  - apply (I1 s V).
  - intros j y. destruct (At j) as [[-> ->]|[_ ->]]; apply (I2 s V).
  - intros j k y Hjk. destruct (At j) as [[-> ->]|[_ ->]], (At k) as [[-> ->]|[_ ->]]; apply (I3 s V); assumption.
  - intros j dd Hj. destruct (At j) as [[-> E]|[N E]]; rewrite E in Hj.
    + injection Hj as <-. split; [lia | assumption].
    + destruct (M1 s V j dd Hj). split; [lia | assumption].
  - intros j k dd Hjk Hj Hk. destruct (At j) as [[-> Ej]|[Nj' Ej]], (At k) as [[-> Ek]|[Nk Ek]];
      rewrite Ej in Hj; rewrite Ek in Hk; try congruence.
    + injection Hj as <-. apply (Nj k Nk Hk).
    + injection Hk as <-. apply (Nj j Nj' Hj).
    + apply (M2 s V j k dd Hjk Hj Hk).
  - intros c Hc. pose proof (M3 s V c Hc). lia.
  - (* the class attribute is another dict, and it was in range *)
    pose proof (M4 s V) as H4. unfold xcls_inputs, cb_read in *. simpl. destruct (xclscb s) as [c|] eqn:Ec; auto.
    rewrite nth_set_nth_other by congruence. rewrite app_nth1; [exact H4 | apply (M3 s V c Ec)].
Qed.

(* xinv speaks of the number of datatype objects and of who references which, never of their content *)
Lemma xinv_dts_content : forall s ds, xinv s -> length ds = length (xdts s) ->
  xinv {| xcells := xcells s; xdts := ds; xclasses := xclasses s; xinsts := xinsts s; xcbs := xcbs s; xclscb := xclscb s |}.
Proof. intros s ds V L. split; simpl; rewrite ?L; apply V. Qed.

Lemma xinv_step : forall s o, xinv s -> xinv (xstep s o).
Proof.
  intros s [d|ci ok cfg|i k res path key v|i m|] V; simpl; auto using xinv_define, xinv_register.
  - destruct (xinstantiate_spec s ci ok cfg V) as (e & x & -> & Cb & Own & _). apply xinv_snoc; assumption.
  - destruct (xsetarg_spec s i k res path key v) as [->|(a & d & _ & ->)]; auto.
    apply xinv_dts_content; [exact V | apply length_set_nth].
Qed.

Lemma xinv_steps : forall ops s, xinv s -> xinv (fold_left xstep ops s).
Proof. induction ops; simpl; intros; auto. apply IHops. apply xinv_step. assumption. Qed.

Lemma xinv_run : forall ops, xinv (xrun ops).
Proof. intros. apply xinv_steps. apply xinv0. Qed.

