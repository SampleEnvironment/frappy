(* C09 -- frame properties of the command / mixin component that follow from the invariant xinv (CmdLemmas.v):
   an op changes neither the description nor the registered inputs of an instance it does not address; instance ops
   change no class; an instance created later is a function of its class and its own configuration. *)
From Coq Require Import List Arith ZArith Bool Lia.
Import ListNotations.
Require Import FV.C09.Model FV.C09.Lemmas FV.C09.CmdModel FV.C09.CmdLemmas.

Definition xaddresses (o : xop) (j : nat) : bool :=
  match o with XSetArg i _ _ _ _ _ | XRegister i _ => Nat.eqb i j | _ => false end.
Definition xinst_op (o : xop) : bool := match o with XDefine _ => false | _ => true end.

Lemma other_inst_unchanged : forall s o, xinv s ->
  length (xinsts s) <= length (xinsts (xstep s o)) /\
  forall j, j < length (xinsts s) -> xaddresses o j = false ->
    inst_at (xstep s o) j = inst_at s j /\
    xdescribe_inst (xstep s o) (inst_at s j) = xdescribe_inst s (inst_at s j).
Proof.
  intros s o V. destruct o as [d|ci ok cfg|i k res path key v|i m|]; simpl.
  - (* class definition: the datatype objects of j are old ones *)
    split; [auto|]. intros j Lj _. split; [reflexivity|]. unfold xdescribe_inst. f_equal.
    apply icmds_desc_ext. intros x Hx. apply (xdefine_heap s d V), (I2 s V j x Hx).
  - (* another instance is created *)
    destruct (xinstantiate_spec s ci ok cfg V) as (e & x & -> & _). simpl. rewrite app_length.
    split; [lia|]. intros j Lj _. split; [apply app_nth1, Lj|]. unfold xdescribe_inst. f_equal.
    apply icmds_desc_ext. intros y Hy. apply getcd_app_old, (I2 s V j y Hy).
  - (* a datatype property of a command of another instance: that instance owns the object written *)
    destruct (xsetarg_spec s i k res path key v) as [->|(a & d & Oa & ->)]; auto.
    split; [auto|]. intros j Lj Ha. apply Nat.eqb_neq in Ha. split; [reflexivity|]. unfold xdescribe_inst. f_equal.
    apply icmds_desc_ext. intros y Hy. apply nth_set_nth_other. intros ->. exact (I3 s V i j a Ha Oa Hy).
  - (* an input is registered on another instance: the dict j sees is another one *)
    destruct (Nat.lt_ge_cases i (length (xinsts s))) as [Li|Li];
      [|unfold xregister; apply Nat.ltb_ge in Li; rewrite Li; auto].
    destruct (xregister_spec s i m V Li) as (cbs1 & d & -> & Ld & [e ->] & Nc & Nj). simpl. rewrite length_set_nth.
    split; [auto|]. intros j Lj Ha. apply Nat.eqb_neq in Ha.
    split; [apply nth_set_nth_other; auto|]. unfold xdescribe_inst. f_equal.
    unfold xinputs, cb_of, cb_read. simpl.
    assert (G : forall t l, t < length (xcbs s) -> t <> d -> nth t (set_nth (xcbs s ++ e) d l) [] = nth t (xcbs s) []).
    { intros t l Lt Nt. rewrite nth_set_nth_other by assumption. apply app_nth1, Lt. }
    destruct (xi_cb (inst_at s j)) as [dj|] eqn:Ej.
    + apply G; [apply (M1 s V j dj Ej) | intros ->; apply (Nj j); auto].
    + destruct (xclscb s) as [c|] eqn:Ec; auto. apply G; [apply (M3 s V c Ec) | congruence].
  - auto.
Qed.

Lemma other_inst_unchanged_hist : forall ops s j, xinv s -> j < length (xinsts s) ->
  forallb (fun o => negb (xaddresses o j)) ops = true ->
  inst_at (fold_left xstep ops s) j = inst_at s j /\
  xdescribe_inst (fold_left xstep ops s) (inst_at s j) = xdescribe_inst s (inst_at s j).
Proof.
  induction ops as [|o ops IH]; simpl; intros s j V Lj H; auto.
  apply andb_true_iff in H. destruct H as [Ho Hr]. apply negb_true_iff in Ho.
  destruct (other_inst_unchanged s o V) as [L O]. destruct (O j Lj Ho) as [E1 E2].
  destruct (IH (xstep s o) j (xinv_step s o V)) as [E3 E4]; [lia | exact Hr |].
  rewrite E1 in E3, E4. split; congruence.
Qed.

Lemma class_unchanged_by_inst_op : forall s o c, xinv s -> xinst_op o = true ->
  xdescribe_class (xstep s o) c = xdescribe_class s c /\ xcls_inputs (xstep s o) = xcls_inputs s /\
  xcells (xstep s o) = xcells s /\ xclasses (xstep s o) = xclasses s.
Proof.
  intros s o c V Ho.
  (* no Command object changes, and no datatype object a Command object references *)
  assert (G : xcells (xstep s o) = xcells s /\ xclasses (xstep s o) = xclasses s /\
              forall x, In x (class_refs (xcells s)) -> getcd (xdts (xstep s o)) x = getcd (xdts s) x).
  { destruct o as [d|ci ok cfg|i k res path key v|i m|]; simpl in *; try discriminate; auto.
    - destruct (xinstantiate_spec s ci ok cfg V) as (e & x & -> & _). simpl. repeat split.
      intros y Hy. apply getcd_app_old, (I1 s V y Hy).
    - destruct (xsetarg_spec s i k res path key v) as [->|(a & d & Oa & ->)]; auto. simpl. repeat split.
      intros y Hy. apply nth_set_nth_other. intros ->. exact (proj2 (I2 s V i a Oa) Hy).
    - destruct (xregister_static s i m) as (Ec & Ed & El & _). rewrite Ec, Ed, El. auto. }
  destruct G as (Ec & El & Ed). split; [|split; [|auto]].
  - unfold xdescribe_class. rewrite Ec. apply map_ext. intros [k i]. simpl. f_equal.
    apply read_cmd_ext. intros x Hx. apply Ed, (getc_refs_in _ i). unfold crefs. auto using in_or_app.
  - rewrite (M4 _ (xinv_step s o V)), (M4 s V). reflexivity.
Qed.

Lemma class_unchanged_by_inst_ops : forall ops s c, xinv s -> forallb xinst_op ops = true ->
  xdescribe_class (fold_left xstep ops s) c = xdescribe_class s c /\
  xcls_inputs (fold_left xstep ops s) = xcls_inputs s /\
  xcells (fold_left xstep ops s) = xcells s /\ xclasses (fold_left xstep ops s) = xclasses s.
Proof.
  induction ops as [|o ops IH]; simpl; intros s c V H; auto.
  apply andb_true_iff in H. destruct H as [Ho Hr].
  destruct (class_unchanged_by_inst_op s o c V Ho) as (A1 & A2 & A3 & A4).
  destruct (IH (xstep s o) c (xinv_step s o V) Hr) as (B1 & B2 & B3 & B4).
  repeat apply conj; congruence.
Qed.

Definition xnew_inst_desc (s : xstate) (ci : nat) (cfg : list (name * Z)) : list (name * cmd_desc) * list Z :=
  (map (cfg_cmd cfg) (xdescribe_class s (nth ci (xclasses s) xcls0)), xcls_inputs s).

Lemma new_inst_described : forall s ci cfg, xinv s ->
  xdescribe_inst (xinstantiate s ci true cfg) (inst_at (xinstantiate s ci true cfg) (length (xinsts s))) =
  xnew_inst_desc s ci cfg.
Proof.
  intros s ci cfg V. destruct (xinstantiate_spec s ci true cfg V) as (e & x & -> & Cb & _ & D).
  unfold inst_at, xdescribe_inst, xnew_inst_desc. simpl. rewrite nth_middle. f_equal.
  - apply D. reflexivity.
  - unfold xinputs, cb_of. rewrite Cb. reflexivity.
Qed.

(* class definitions and the Command objects that exist already: only those re-merged in place (F) change.  This is
   `kept ccell0 nc0 cells0 F (fst h)` (Lemmas.v) written out, the first clause of CmdLemmas.DI *)
Definition CI (nc0 : nat) (cells0 : list ccell) (F : list id) (h : xheap) : Prop :=
  nc0 <= length (fst h) /\ forall i, i < nc0 -> ~ In i F -> getc (fst h) i = getc cells0 i.

Lemma CI_weaken : forall nc0 cells0 F F' h, CI nc0 cells0 F h -> incl F F' -> CI nc0 cells0 F' h.
Proof. intros * (A & B) I. split; auto. Qed.

Lemma CI_define : forall s d, xinv s ->
  CI (length (xcells s)) (xcells s) (xfootprint s d) (xr_heap (xdefine_core s d)).
Proof. intros s d V. exact (proj1 (DI_define_core s d V)). Qed.

Lemma xdefine_cells_frame : forall s d i, xinv s -> i < length (xcells s) -> ~ In i (xfootprint s d) ->
  getc (xcells (xdefine s d)) i = getc (xcells s) i.
Proof. intros s d i V. exact (proj2 (CI_define s d V) i). Qed.
