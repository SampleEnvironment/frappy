(* C09 -- re-merging an inherited accessible in place (HasAccessibles.__init_subclass__, `aobj.merge(merged_properties[aname])`)
   is idempotent on the CONTENT of the object: when the object already has the content that the merged properties M
   prescribe, the merge writes the same description again (the datatype copy is a new object with the same content).
   This gives a frame theorem for class definitions whose premise is on the INPUT side only:
     - merge_log s d   (ghost, computed by the model like the footprint): the in-place merges (object, M) the definition does;
     - stable_remerge s i M : the content object i has in s (before the definition) is a fixed point of merging with M.
   No premise mentions the state after the definition. *)
From Coq Require Import List Arith ZArith Bool Lia.
Import ListNotations.
Require Import FV.C09.Model FV.C09.Lemmas.

(* ghost: the in-place merges of a definition, in the order they happen *)
Definition merge_entry (cs : list cls) (mro : list nat) (r : dres) (k : name) : list (id * mprops) :=
  let w := walk (fst (r_heap r)) cs mro k in
  match w_acc w, w_ov w with
  | Some wid, None => [(wid, w_M w)]
  | _, _ => []
  end.

Fixpoint merge_log_from (cs : list cls) (mro : list nat) (l : list name) (r : dres) : list (id * mprops) :=
  match l with
  | [] => []
  | k :: t => merge_entry cs mro r k ++ merge_log_from cs mro t (resolve_name cs mro r k)
  end.

Definition merge_log (s : state) (d : cdef) : list (id * mprops) :=
  let '(h1, dict1) := fold_left new_entry (d_dict d) ((params s, dts s), []) in
  let r0 := {| r_heap := h1; r_acc := []; r_dict := dict1; r_wp := []; r_wd := [] |} in
  if d_module d then
    let cs := classes s ++ [{| c_module := true; c_mro := d_mro d; c_dict := dict1; c_acc := [] |}] in
    merge_log_from cs (d_mro d) all_names r0
  else [].

(* the log lists exactly the objects of the Parameter half of the footprint *)
Lemma wp_step : forall cs mro r k,
  r_wp (resolve_name cs mro r k) = rev (map fst (merge_entry cs mro r k)) ++ r_wp r.
Proof.
  intros. unfold resolve_name, merge_entry.
  destruct (w_acc (walk (fst (r_heap r)) cs mro k)) as [wid|]; auto.
  destruct (w_ov (walk (fst (r_heap r)) cs mro k)) as [[z|]|]; auto.
  destruct (clone_cell (r_heap r) wid _ z) as [h' n]. reflexivity.
Qed.

Lemma wp_steps : forall cs mro l r,
  r_wp (fold_left (resolve_name cs mro) l r) = rev (map fst (merge_log_from cs mro l r)) ++ r_wp r.
Proof.
  induction l as [|k l IH]; simpl; intros r; auto.
  rewrite IH, wp_step, map_app, rev_app_distr, app_assoc. reflexivity.
Qed.

Lemma footprint_is_log : forall s d, fst (footprint s d) = rev (map fst (merge_log s d)).
Proof.
  intros. unfold footprint, define_core, merge_log. cbn [fst].
  destruct (fold_left new_entry (d_dict d) (params s, dts s, [])) as [h1 dict1].
  destruct (d_module d); [|reflexivity].
  rewrite wp_steps. simpl. rewrite app_nil_r. reflexivity.
Qed.

(* what a merge does to the description of the object, as a function of contents *)
Definition merge_read (a : acc_desc) (M : mprops) (src : dt) : acc_desc :=
  let nd := apply_dtprops src M in
  {| a_desc := ov (a_desc a) (m_desc M); a_group := ov (a_group a) (m_group M);
     a_value := revalidate (match m_value M with Some x => x | None => a_value a end) nd; a_dt := nd |}.

(* the datatype content the merge starts from: the datatype named by the merged properties, else the current one *)
Definition merge_src (ds : list dt) (M : mprops) (a : acc_desc) : dt :=
  match m_dt M with Some d => getd ds d | None => a_dt a end.

(* INPUT-SIDE condition: in state s the object i has the content that merging with M prescribes *)
Definition stable_remerge (s : state) (i : id) (M : mprops) : Prop :=
  (forall dd, m_dt M = Some dd -> dd < length (dts s)) /\
  merge_read (read (params s) (dts s) i) M (merge_src (dts s) M (read (params s) (dts s) i)) = read (params s) (dts s) i.

Lemma dt_set_idem : forall d k v, dt_set (dt_set d k v) k v = dt_set d k v.
Proof.
  intros d k v. unfold dt_set at 2 3. destruct (dkind d) as [|[|n]] eqn:E; unfold dt_set; rewrite ?E; try reflexivity.
  destruct k as [|[|[|[|[|[|k]]]]]]; simpl; rewrite ?E; reflexivity.
Qed.

Lemma apply_dtprops_idem : forall d M, apply_dtprops (apply_dtprops d M) M = apply_dtprops d M.
Proof.
  intros [kind mn mx u mem] M. unfold apply_dtprops.
  destruct kind as [|[|kind]]; destruct (m_min M), (m_max M), (m_unit M); reflexivity.
Qed.

Lemma apply_dtprops_none : forall d M, has_dtprops M = false -> apply_dtprops d M = d.
Proof.
  intros d M H. unfold has_dtprops in H. unfold apply_dtprops.
  destruct (m_min M), (m_max M), (m_unit M); try discriminate. reflexivity.
Qed.

Lemma apply_dtprops_dt0 : forall M, apply_dtprops dt0 M = dt0.
Proof. intros. unfold apply_dtprops. destruct (m_min M), (m_max M), (m_unit M); reflexivity. Qed.

Lemma revalidate_idem : forall v d, revalidate (revalidate v d) d = revalidate v d.
Proof.
  intros [z|] d; simpl; auto. destruct (accepts d z) eqn:E; simpl; auto. rewrite E. reflexivity.
Qed.

Lemma ov_idem : forall A (a b : option A), ov (ov a b) b = ov a b.
Proof. intros A a [x|]; reflexivity. Qed.

(* object i of h is in range, with its datatype object, and reads a *)
Definition K (h : heap) (i : id) (a : acc_desc) : Prop :=
  i < length (fst h) /\ read (fst h) (snd h) i = a /\
  (forall j, v_dt (pv (getp (fst h) i)) = Some j -> j < length (snd h)).

(* the common last step of merge_cell: the merged propertyValues are written to object i, whose new datatype id names
   an object of content nd = apply_dtprops src M *)
Lemma K_merged : forall h h1 i a M dtid src, K h i a -> fst h1 = fst h ->
  rd_dt (snd h1) dtid = apply_dtprops src M -> (forall j, dtid = Some j -> j < length (snd h1)) ->
  K (set_pv h1 i (merged_pv (pv (getp (fst h) i)) M dtid (apply_dtprops src M))) i (merge_read a M src).
Proof.
  intros h [ps1 ds1] i a M dtid src (Li & <- & _) E R D. cbn [fst snd] in *. subst ps1.
  unfold K, set_pv, read, merge_read, getp. cbn [fst snd]. rewrite nth_set_nth_same, length_set_nth by exact Li.
  cbn [pv merged_pv v_desc v_group v_value v_dt a_desc a_group a_value a_dt]. rewrite R. auto.
Qed.

(* the heap level merge computes merge_read *)
Lemma K_merge_self : forall h i a M, K h i a ->
  K (merge_cell h i M) i (merge_read a M (merge_src (snd h) M a)).
Proof.
  intros h i a M HK. pose proof HK as (Li & R & D). unfold merge_cell, merge_src.
  destruct (m_dt M) as [dd|].
  - apply (K_merged h); auto; simpl.
    + unfold getd. apply nth_middle.
    + intros j [= <-]. rewrite app_length. simpl. lia.
  - assert (Ea : a_dt a = rd_dt (snd h) (v_dt (pv (getp (fst h) i)))) by (rewrite <- R; reflexivity).
    destruct (v_dt (pv (getp (fst h) i))) as [d0|]; rewrite Ea; cbn [rd_dt].
    + specialize (D d0 eq_refl). unfold write_dtprops. destruct (has_dtprops M) eqn:HP; apply (K_merged h); auto; simpl.
      * unfold getd. apply nth_set_nth_same, D.
      * intros j [= <-]. rewrite length_set_nth. exact D.
      * symmetry. apply apply_dtprops_none, HP.
      * intros j [= <-]. exact D.
    + rewrite <- (apply_dtprops_dt0 M) at 1.
      apply (K_merged h); [assumption | reflexivity | symmetry; apply apply_dtprops_dt0 | discriminate].
Qed.

(* K survives every change of the heap whose footprint misses the object and its datatype object *)
Lemma K_frame : forall h i a Fp Fd h', K h i a -> Inv (length (fst h)) (length (snd h)) h Fp Fd h' ->
  ~ In i Fp -> (forall j, v_dt (pv (getp (fst h) i)) = Some j -> ~ In j Fd) -> K h' i a.
Proof.
  intros * (Li & R & D) V Hp Hd.
  assert (R' : read (fst h') (snd h') i = read (fst h) (snd h) i) by (apply (read_frame _ _ _ _ _ _ _ V); auto).
  destruct V as (Lp & Ld & P & _). repeat split.
  - lia.
  - congruence.
  - rewrite (P i Li Hp). intros j E. specialize (D j E). lia.
Qed.

Lemma wd_step : forall cs mro r k, r_wd (resolve_name cs mro r k) = [] -> r_wd r = [].
Proof.
  intros cs mro r k. unfold resolve_name.
  destruct (w_acc (walk (fst (r_heap r)) cs mro k)) as [wid|]; auto.
  destruct (w_ov (walk (fst (r_heap r)) cs mro k)) as [[z|]|]; auto.
  - destruct (clone_cell (r_heap r) wid _ z) as [h' n]. cbn [r_wd].
    destruct (m_dt _); auto. destruct (has_dtprops _); auto. discriminate.
  - cbn [r_wd]. destruct (m_dt _); auto. destruct (v_dt _); auto. destruct (has_dtprops _); auto. discriminate.
Qed.

Lemma wd_steps : forall cs mro l r, r_wd (fold_left (resolve_name cs mro) l r) = [] -> r_wd r = [].
Proof. induction l as [|k l IH]; simpl; intros r H; auto. apply (wd_step cs mro r k). apply IH. assumption. Qed.

Definition stable_at (ds0 : list dt) (a : acc_desc) (M : mprops) : Prop :=
  (forall dd, m_dt M = Some dd -> dd < length ds0) /\ merge_read a M (merge_src ds0 M a) = a.

(* a round that writes to no datatype object in place keeps the content of object i: a bare-value override only
   appends objects, a merge of another object misses i, and a merge of i itself writes the content i has, because
   that content is stable under M and the datatype object M names (an object of ds0) has not been written *)
Lemma resolve_name_keeps : forall cs mro r k i a ds0,
  r_wd (resolve_name cs mro r k) = [] ->
  (forall j, j < length ds0 -> getd (snd (r_heap r)) j = getd ds0 j) -> K (r_heap r) i a ->
  (forall M, In (i, M) (merge_entry cs mro r k) -> stable_at ds0 a M) ->
  K (r_heap (resolve_name cs mro r k)) i a.
Proof.
  intros cs mro r k i a ds0 Hwd Old HK Hst.
  pose proof (wd_step cs mro r k Hwd) as Hwd0.
  unfold resolve_name, merge_entry in *.
  destruct (w_acc (walk (fst (r_heap r)) cs mro k)) as [wid|]; [|exact HK].
  set (M := w_M (walk (fst (r_heap r)) cs mro k)) in *.
  destruct (w_ov (walk (fst (r_heap r)) cs mro k)) as [[z|]|]; [| exact HK |].
  - pose proof (Inv_clone_cell _ _ _ _ _ _ wid M z (Inv_refl (r_heap r))) as V.
    destruct (clone_cell (r_heap r) wid M z) as [h' n]. cbn [r_heap r_wd fst] in *.
    rewrite Hwd0 in Hwd. change (clone_wd M [] = []) in Hwd. rewrite Hwd in V.
    apply (K_frame _ _ _ _ _ _ HK V); auto.
  - cbn [r_heap r_wd] in *. rewrite Hwd0 in Hwd. change (merge_wd (r_heap r) wid M [] = []) in Hwd.
    pose proof (Inv_merge_cell _ _ _ _ _ _ wid M (Inv_refl (r_heap r))) as V. rewrite Hwd in V.
    destruct (Nat.eq_dec wid i) as [->|N].
    + destruct (Hst M (or_introl eq_refl)) as [Sr Se].
      pose proof (K_merge_self _ i a M HK) as HK'.
      replace (merge_src (snd (r_heap r)) M a) with (merge_src ds0 M a) in HK'; [rewrite Se in HK'; exact HK'|].
      unfold merge_src. destruct (m_dt M) as [dd|]; auto. symmetry. apply Old, Sr. reflexivity.
    + apply (K_frame _ _ _ _ _ _ HK V); [intros [E|[]]; auto | auto].
Qed.

Lemma resolve_names_keep : forall cs mro l r i a np h0,
  r_wd (fold_left (resolve_name cs mro) l r) = [] ->
  Inv np (length (snd h0)) h0 (r_wp r) (r_wd r) (r_heap r) -> K (r_heap r) i a ->
  (forall M, In (i, M) (merge_log_from cs mro l r) -> stable_at (snd h0) a M) ->
  K (r_heap (fold_left (resolve_name cs mro) l r)) i a.
Proof.
  induction l as [|k l IH]; simpl; intros r i a np h0 Hwd V HK Hst; auto.
  pose proof (wd_steps cs mro l _ Hwd) as Hwd1.
  apply (IH _ i a np h0 Hwd (Inv_resolve_name _ _ _ cs mro r k V)).
  - apply (resolve_name_keeps cs mro r k i a (snd h0) Hwd1); auto using in_or_app.
    intros j Hj. destruct V as (_ & _ & _ & D). apply D; auto. rewrite (wd_step _ _ _ _ Hwd1). auto.
  - auto using in_or_app.
Qed.

Lemma read_remerged : forall s d i, acc_ok s i ->
  snd (footprint s d) = [] ->
  (forall M, In (i, M) (merge_log s d) -> stable_remerge s i M) ->
  read (params (define s d)) (dts (define s d)) i = read (params s) (dts s) i.
Proof.
  intros s d i [Li Ld] Hwd Hst. unfold footprint, merge_log, define in *. cbn [snd params dts] in *.
  unfold define_core in *.
  pose proof (Inv_new_entries _ _ _ _ _ (d_dict d) ((params s, dts s), []) (Inv_refl (params s, dts s))) as V.
  destruct (fold_left new_entry (d_dict d) (params s, dts s, [])) as [h1 dict1]. cbn [fst snd] in V.
  assert (K1 : K h1 i (read (params s) (dts s) i)).
  { apply (K_frame (params s, dts s) i _ [] [] h1); auto. repeat split; assumption. }
  destruct (d_module d).
  - (* the loop starts with empty ghost lists (r_wp r0 = r_wd r0 = [], as in V), and stable_remerge s i M is
       stable_at (dts s) (read (params s) (dts s) i) M spelled out *)
    destruct (resolve_names_keep _ _ all_names _ i _ _ (params s, dts s) Hwd V K1 Hst) as (_ & R & _). exact R.
  - destruct K1 as (_ & R & _). exact R.
Qed.
