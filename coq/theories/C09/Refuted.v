(* C09 -- witnesses: the faithful model (and the pinned code, see corpus/C09) violates the full frame property of a class
   definition: two findings in the parameter component, what they mean for the order of definitions, one finding in
   the command component *)
From Coq Require Import List Arith ZArith Bool.
Import ListNotations.
Require Import FV.C09.Model FV.C09.CmdModel.

Definition fl (lo hi : Z) : dt := mkdt 1 (Some lo) (Some hi) 0 [].
Definition par (desc : option Z) (d : option dt) (value mx unit : option Z) : entry :=
  EParam {| s_desc := desc; s_dt := d; s_inherit := true; s_group := None; s_value := value;
            s_min := None; s_max := mx; s_unit := unit |}.
Definition modcls (mro : list nat) (body : list (name * entry)) : op :=
  ODefine {| d_module := true; d_mro := mro; d_dict := body |}.
Definition body_of (o : op) : cdef :=
  match o with ODefine d => d | _ => {| d_module := false; d_mro := []; d_dict := [] |} end.

(* class A: p = Parameter('d1', FloatRange(0, 10), value=1) *)
Definition cA := modcls [0] [(1, par (Some 1%Z) (Some (fl 0 10)) (Some 1%Z) None None)].

(* diamond: Y1(A): p = Parameter(unit='u1');  Y2(A): p = Parameter(description='d4');  Z(Y1, Y2): pass *)
Definition diamond_before : list op :=
  [cA; modcls [1; 0] [(1, par None None None None (Some 1%Z))]; modcls [2; 0] [(1, par (Some 4%Z) None None None None)]].
Definition diamond_Z : cdef := body_of (modcls [3; 1; 2; 0] []).

(* defining Z changes the description of the existing class Y1 (its description becomes that of Y2) *)
Theorem C09_refuted_inplace_merge :
  exists ops d i, let s := run ops in
    i < length (classes s) /\
    describe_class (define s d) (nth i (classes s) cls0) <> describe_class s (nth i (classes s) cls0).
Proof.
  exists diamond_before, diamond_Z, 1. vm_compute. split; [auto|]. intro H. discriminate H.
Qed.

(* B(A): p = Parameter(max=5);  C(B): p = 3;  then D(A): pass.  Defining D changes the limits of the base class A,
   and the description of D depends on whether B and C were defined before *)
Definition leak_before : list op :=
  [cA; modcls [1; 0] [(1, par None None None (Some 5%Z) None)]; modcls [2; 1; 0] [(1, EValue 3%Z)]].
Definition leak_D : cdef := body_of (modcls [3; 0] []).

Theorem C09_refuted_own_datatype :
  exists ops d i, let s := run ops in
    i < length (classes s) /\
    describe_class (define s d) (nth i (classes s) cls0) <> describe_class s (nth i (classes s) cls0).
Proof.
  exists leak_before, leak_D, 0. vm_compute. split; [auto|]. intro H. discriminate H.
Qed.

(* the same class body on the same base gets a different description depending on the classes defined before *)
Theorem C09_refuted_order_dependent :
  exists ops1 ops2 d1 d2,
    describe_class (define (run ops1) d1) (last (classes (define (run ops1) d1)) cls0) <>
    describe_class (define (run ops2) d2) (last (classes (define (run ops2) d2)) cls0)
    /\ d_dict d1 = d_dict d2 /\ ops1 = [cA] /\ d_mro d1 = [1; 0] /\ d_mro d2 = [3; 0].
Proof.
  exists [cA], leak_before, (body_of (modcls [1; 0] [])), leak_D. vm_compute. repeat apply conj; try reflexivity. intro H. discriminate H.
Qed.

(* class A(Module): calc = Command(StructOf(a=.., b=..))(f) with f(self, a, b);
   class B(A): def calc(self, a, b=1) -- a plain method: B gets a clone whose argument copy has optional = [b];
   class C(B): pass -- the re-merge at the definition of C puts the argument object of A back into the Command of B *)
Definition st_ab : cdt := mkcdt 2 None None [(1%Z, (None, None)); (2%Z, (None, None))] [1%Z; 2%Z].
Definition xA : xop :=
  XDefine {| xd_module := true; xd_mro := [0];
             xd_dict := [(2, XECmd {| x_desc := Some 1%Z; x_sig := Some (Some st_ab, None); x_doc := None; x_defaults := [] |})] |}.
Definition xB : xop := XDefine {| xd_module := true; xd_mro := [1; 0]; xd_dict := [(2, XEFunc None [2%Z])] |}.
Definition xC : xcdef := {| xd_module := true; xd_mro := [2; 1; 0]; xd_dict := [] |}.

Theorem C09_refuted_method_override_reset_by_subclass :
  exists ops d i, let s := xrun ops in
    i < length (xclasses s) /\
    xdescribe_class (xdefine s d) (nth i (xclasses s) xcls0) <> xdescribe_class s (nth i (xclasses s) xcls0).
Proof.
  exists [xA; xB], xC, 1. vm_compute. split; [auto|]. intro H. discriminate H.
Qed.
