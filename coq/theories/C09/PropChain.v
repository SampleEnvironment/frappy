(* C09 -- the property part of a class description is a function of the class's own chain: what a class definition
   produces (class __dict__ and propertyDict, with every Property object replaced by its CONTENT) is computed by vdefine
   from the class body and the content views of the __dict__s along its MRO alone -- no heap, no object identities, no
   other class, no instance. *)
From Coq Require Import List Arith ZArith Bool Lia.
Import ListNotations.
Require Import FV.Base.Util FV.C09.Model FV.C09.PropModel FV.C09.PropLemmas.

Inductive ventry := VProp (p : pobj) | VBare (v : Z).
Definition vdict := list (name * ventry).
Definition resolve (h : list pobj) (e : pentry) : ventry :=
  match e with PEProp i => VProp (getpo h i) | PEBare v => VBare v end.
Definition mapv {A B} (f : A -> B) (l : list (name * A)) : list (name * B) := map (fun kv => (fst kv, f (snd kv))) l.
Definition view (h : list pobj) (d : pdict) : vdict := mapv (resolve h) d.

(* the definition of a class on contents *)
Definition vbody (b : list (name * pbody)) : vdict :=
  mapv (fun e => match e with PBNew lo hi d v => VProp (mkpo lo hi d v) | PBBare v => VBare v end) b.
Definition vwentry (acc : list (name * pobj)) (ke : name * ventry) : list (name * pobj) :=
  match snd ke with VProp p => put_assoc (fst ke) p acc | VBare _ => acc end.
Definition vwprops (acc : list (name * pobj)) (d : vdict) : list (name * pobj) := fold_left vwentry d acc.
Definition vcollect (dicts : list vdict) : list (name * pobj) := fold_left vwprops dicts [].
Fixpoint vlookup (k : name) (dicts : list vdict) : option ventry :=
  match dicts with
  | [] => None
  | d :: r => match assoc_nat k d with Some e => Some e | None => vlookup k r end
  end.
Record vovr := mkvovr { vo_dict : vdict; vo_pd : list (name * pobj) }.
Definition vostep (bases : list vdict) (r : vovr) (kp : name * pobj) : vovr :=
  match vlookup (fst kp) (vo_dict r :: bases) with
  | Some (VBare v) =>
      mkvovr (put_assoc (fst kp) (VProp (set_value (snd kp) v)) (vo_dict r))
             (put_assoc (fst kp) (set_value (snd kp) v) (vo_pd r))
  | _ => r
  end.
Definition vdefine (module : bool) (body : list (name * pbody)) (bases : list vdict) : vdict * list (name * pobj) :=
  let d := vbody body in
  if module then
    let props := vcollect (rev (d :: bases)) in
    let r := fold_left (vostep bases) props (mkvovr d props) in (vo_dict r, vo_pd r)
  else (d, []).

Lemma mapv_put : forall A B (f : A -> B) k v l, mapv f (put_assoc k v l) = put_assoc k (f v) (mapv f l).
Proof.
  induction l as [|[k' x] r IH]; simpl. reflexivity.
  destruct (Nat.eqb k k'); simpl. reflexivity. rewrite <- IH. reflexivity.
Qed.

Lemma assoc_mapv : forall A B (f : A -> B) k l, assoc_nat k (mapv f l) = option_map f (assoc_nat k l).
Proof.
  induction l as [|[k' x] r IH]; simpl. reflexivity. destruct (Nat.eqb k k'); simpl; auto.
Qed.

Lemma view_ext : forall h ext d, dict_ok (length h) d -> view (h ++ ext) d = view h d.
Proof.
  intros h ext d H. unfold view, mapv. apply map_ext_in. intros [k e] Hin. simpl. f_equal.
  destruct e as [i|v]; simpl; [|reflexivity]. f_equal. apply getpo_ext. eapply H; eauto.
Qed.

Lemma views_ext : forall h ext ds, (forall d, In d ds -> dict_ok (length h) d) ->
  map (view (h ++ ext)) ds = map (view h) ds.
Proof. intros. apply map_ext_in. intros d Hd. apply view_ext. auto. Qed.

Lemma pd_ext : forall h ext pd, ids_ok (length h) pd -> mapv (getpo (h ++ ext)) pd = mapv (getpo h) pd.
Proof.
  intros h ext pd H. unfold mapv. apply map_ext_in. intros [k i] Hin. simpl. f_equal. apply getpo_ext. eapply H; eauto.
Qed.

Lemma alloc_body_view : forall b h, view (fst (alloc_body h b)) (snd (alloc_body h b)) = vbody b.
Proof.
  induction b as [|[k e] r IH]; intros h; simpl. reflexivity.
  destruct e as [lo hi d v|v]; simpl.
  - unfold view, vbody, mapv in *. simpl. rewrite IH. f_equal. f_equal. f_equal.
    destruct (alloc_body_spec r (h ++ [mkpo lo hi d v])) as [[ext E] _]. rewrite E. unfold getpo.
    rewrite <- app_assoc. simpl. rewrite app_nth2 by lia. rewrite Nat.sub_diag. reflexivity.
  - unfold view, vbody, mapv in *. simpl. rewrite IH. reflexivity.
Qed.

Lemma wprops_sim : forall h d acc, mapv (getpo h) (wprops acc d) = vwprops (mapv (getpo h) acc) (view h d).
Proof.
  unfold wprops, vwprops. induction d as [|[k e] r IH]; simpl; intros acc. reflexivity.
  rewrite IH. f_equal. unfold wentry, vwentry. simpl. destruct e; simpl. apply mapv_put. reflexivity.
Qed.

Lemma collect_sim : forall h dicts, mapv (getpo h) (collect dicts) = vcollect (map (view h) dicts).
Proof.
  unfold collect, vcollect. intros h dicts.
  assert (G : forall acc, mapv (getpo h) (fold_left wprops dicts acc) =
                          fold_left vwprops (map (view h) dicts) (mapv (getpo h) acc)).
  { induction dicts as [|d r IH]; simpl; intros acc. reflexivity. rewrite IH, wprops_sim. reflexivity. }
  apply G.
Qed.

Lemma lookup_sim : forall h k dicts, vlookup k (map (view h) dicts) = option_map (resolve h) (mro_lookup k dicts).
Proof.
  induction dicts as [|d r IH]; simpl. reflexivity.
  unfold view at 1. rewrite assoc_mapv. destruct (assoc_nat k d); simpl. reflexivity. exact IH.
Qed.

(* the state of the second loop and its content level image *)
Definition osim (bases : list pdict) (r : ovr) (vr : vovr) : Prop :=
  ovr_ok r /\ (forall d, In d bases -> dict_ok (length (o_heap r)) d) /\
  view (o_heap r) (o_dict r) = vo_dict vr /\ mapv (getpo (o_heap r)) (o_pd r) = vo_pd vr.

Lemma ostep_sim : forall bases r vr k i, osim bases r vr -> i < length (o_heap r) ->
  osim bases (ostep bases r (k, i)) (vostep (map (view (o_heap r)) bases) vr (k, getpo (o_heap r) i)) /\
  exists ext, o_heap (ostep bases r (k, i)) = o_heap r ++ ext.
Proof.
  intros bases r vr k i (O & B & D & P) Hi.
  destruct (ostep_spec bases r (k, i) O) as [[ext E] O']. split; [|exists ext; exact E].
  split; [exact O'|]. split; [intros d Hd; rewrite E, app_length; eapply dict_ok_mono; [apply B, Hd | lia]|].
  clear E O'. unfold ostep, vostep. simpl fst. simpl snd.
  rewrite <- D. change (view (o_heap r) (o_dict r) :: map (view (o_heap r)) bases)
    with (map (view (o_heap r)) (o_dict r :: bases)).
  rewrite lookup_sim. destruct (mro_lookup k (o_dict r :: bases)) as [[j|v]|]; simpl; auto.
  destruct O as [OA OD]. split.
  - unfold view. rewrite mapv_put. simpl. unfold getpo at 1. rewrite app_nth2 by lia. rewrite Nat.sub_diag. simpl.
    fold (view (o_heap r ++ [set_value (getpo (o_heap r) i) v]) (o_dict r)). rewrite view_ext by exact OD.
    reflexivity.
  - rewrite mapv_put. unfold getpo at 1. rewrite app_nth2 by lia. rewrite Nat.sub_diag. simpl.
    rewrite pd_ext by exact OA. rewrite P. reflexivity.
Qed.

Lemma osteps_sim : forall bases vbases h0 props r vr,
  osim bases r vr -> (exists ext, o_heap r = h0 ++ ext) -> ids_ok (length h0) props ->
  (forall d, In d bases -> dict_ok (length h0) d) -> map (view h0) bases = vbases ->
  osim bases (fold_left (ostep bases) props r) (fold_left (vostep vbases) (mapv (getpo h0) props) vr).
Proof.
  induction props as [|[k i] props IH]; simpl; intros r vr S [ext E] Hp Hb Hv. exact S.
  assert (Hi : i < length h0) by (eapply Hp; left; reflexivity).
  assert (Hi' : i < length (o_heap r)) by (rewrite E, app_length; lia).
  destruct (ostep_sim bases r vr k i S Hi') as [S' [e' E']].
  assert (V : map (view (o_heap r)) bases = vbases) by (rewrite E, views_ext; auto).
  assert (G : getpo (o_heap r) i = getpo h0 i) by (rewrite E; apply getpo_ext; exact Hi).
  rewrite V, G in S'. apply IH; auto.
  - exists (ext ++ e'). etransitivity; [exact E'|]. rewrite E, app_assoc. reflexivity.
  - intros k' i' H. eapply Hp. right. exact H.
Qed.

Theorem define_is_function_of_chain : forall s d, pinv s ->
  let c := last (p_classes (pdefine s d)) pcls0 in
  let h' := p_heap (pdefine s d) in
  (view h' (pc_dict c), pdescribe h' c)
  = vdefine (pd_module d) (pd_body d) (map (view (p_heap s)) (base_dicts (p_classes s) (pd_mro d))).
Proof.
  (* the class body (alloc_body_view), the first loop (collect_sim) and the second loop (osteps_sim, started at the
     heap fst hl after the body) are each simulated on contents; the views of the bases do not see the new objects *)
  intros s d I. unfold pdefine, vdefine.
  destruct (alloc_body_spec (pd_body d) (p_heap s)) as [[e1 E1] D1].
  pose proof (alloc_body_view (pd_body d) (p_heap s)) as V1.
  set (hl := alloc_body (p_heap s) (pd_body d)) in *.
  set (bases := base_dicts (p_classes s) (pd_mro d)).
  assert (B0 : forall x, In x bases -> dict_ok (length (p_heap s)) x) by (intros; eapply base_dicts_ok; eauto).
  assert (L1 : length (p_heap s) <= length (fst hl)) by (rewrite E1, app_length; lia).
  assert (B : forall x, In x bases -> dict_ok (length (fst hl)) x) by (intros; eapply dict_ok_mono; eauto).
  assert (VB : map (view (fst hl)) bases = map (view (p_heap s)) bases) by (rewrite E1; apply views_ext; exact B0).
  set (props := collect (rev (snd hl :: bases))).
  destruct (pd_module d); simpl; rewrite last_last; simpl.
  - assert (P : ids_ok (length (fst hl)) props).
    { apply collect_ok. intros x Hx. apply in_rev in Hx. destruct Hx as [<-|Hx]; auto. }
    assert (PS : mapv (getpo (fst hl)) props = vcollect (rev (vbody (pd_body d) :: map (view (p_heap s)) bases))).
    { unfold props. rewrite collect_sim, map_rev. simpl. rewrite V1, VB. reflexivity. }
    assert (S0 : osim bases (mkovr (fst hl) (snd hl) props) (mkvovr (vbody (pd_body d)) (mapv (getpo (fst hl)) props))).
    { split; [split; simpl; assumption|]. split; [exact B|]. split; simpl; [exact V1 | reflexivity]. }
    pose proof (osteps_sim bases _ (fst hl) props _ _ S0 (ex_intro _ [] (eq_sym (app_nil_r _))) P B VB) as (_ & _ & DV & PV).
    rewrite PS in DV, PV. apply f_equal2; [exact DV | exact PV].
  - rewrite V1. reflexivity.
Qed.
