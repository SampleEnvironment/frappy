(* C16 - framing over the receive buffer: the frame returned by readline / readbytes is the first frame of the
   concatenated byte stream, whatever the chunking. *)
From Coq Require Import List Arith ZArith NArith Bool Lia.
Import ListNotations.
Require Import FV.C16.Model.

Lemma starts_with_length : forall p s, starts_with p s = true -> (length p <= length s)%nat.
Proof.
  induction p as [|a p IH]; intros [|b s] H; simpl in *; try lia; try discriminate.
  apply andb_true_iff in H. destruct H as [_ H]. apply IH in H. lia.
Qed.

Lemma starts_with_app : forall p s x, (length p <= length s)%nat -> starts_with p (s ++ x) = starts_with p s.
Proof.
  induction p as [|a p IH]; intros [|b s] x H; simpl in *; try reflexivity; try lia.
  rewrite IH by lia. reflexivity.
Qed.

Lemma starts_with_spec : forall p s, starts_with p s = true -> s = p ++ skipn (length p) s.
Proof.
  induction p as [|a p IH]; intros [|b s] H; simpl in *; try reflexivity; try discriminate.
  apply andb_true_iff in H. destruct H as [E H]. apply N.eqb_eq in E. subst. f_equal. apply IH. exact H.
Qed.

Lemma split_eol_length : forall eol buf l r, eol <> [] -> split_eol eol buf = Some (l, r) -> (length eol <= length buf)%nat.
Proof.
  intros eol buf. induction buf as [|b buf IH]; intros l r NE H; simpl in H; try discriminate.
  destruct (starts_with eol (b :: buf)) eqn:S.
  - apply starts_with_length in S. exact S.
  - destruct (split_eol eol buf) as [[l' r']|] eqn:E; try discriminate.
    specialize (IH l' r' NE eq_refl). simpl. lia.
Qed.

(* the frame is a split of the buffer at an occurrence of the separator *)
Lemma split_eol_spec : forall eol buf l r, split_eol eol buf = Some (l, r) -> buf = l ++ eol ++ r.
Proof.
  intros eol buf. induction buf as [|b buf IH]; intros l r H; simpl in H; try discriminate.
  destruct (starts_with eol (b :: buf)) eqn:S.
  - inversion H; subst. simpl. apply starts_with_spec. exact S.
  - destruct (split_eol eol buf) as [[l' r']|] eqn:E; try discriminate.
    inversion H; subst. simpl. f_equal. apply IH. reflexivity.
Qed.

(* more data never changes a frame that is already complete *)
Lemma split_eol_app : forall eol buf x l r, eol <> [] ->
  split_eol eol buf = Some (l, r) -> split_eol eol (buf ++ x) = Some (l, r ++ x).
Proof.
  intros eol buf. induction buf as [|b buf IH]; intros x l r NE H; simpl in H; try discriminate.
  change ((b :: buf) ++ x) with (b :: (buf ++ x)). simpl split_eol.
  destruct (starts_with eol (b :: buf)) eqn:S.
  - inversion H; subst. pose proof (starts_with_length _ _ S) as L.
    change (b :: buf ++ x) with ((b :: buf) ++ x). rewrite starts_with_app by exact L. rewrite S.
    f_equal. f_equal. rewrite skipn_app. replace (length eol - length (b :: buf))%nat with 0%nat by lia.
    reflexivity.
  - destruct (split_eol eol buf) as [[l' r']|] eqn:E; try discriminate. inversion H; subst.
    pose proof (split_eol_length _ _ _ _ NE E) as L.
    change (b :: buf ++ x) with ((b :: buf) ++ x). rewrite starts_with_app by (simpl; lia). rewrite S.
    rewrite (IH x l' r NE eq_refl). reflexivity.
Qed.

Definition mode_ok (m : mode) : Prop := match m with MLine eol => eol <> [] | MBytes => True end.

Lemma try_frame_app : forall m n buf x l r, mode_ok m ->
  try_frame m n buf = Some (l, r) -> try_frame m n (buf ++ x) = Some (l, r ++ x).
Proof.
  intros [eol|] n buf x l r OK H; simpl in *.
  - apply split_eol_app; assumption.
  - destruct (Nat.leb n (length buf)) eqn:L; try discriminate. apply Nat.leb_le in L.
    inversion H; subst. rewrite app_length.
    replace (Nat.leb n (length buf + length x)) with true by (symmetry; apply Nat.leb_le; lia).
    rewrite firstn_app, skipn_app. replace (n - length buf)%nat with 0%nat by lia. simpl.
    rewrite app_nil_r. reflexivity.
Qed.

(* the receive loop of readline / readbytes without its clock: test the buffer, else append the next chunk *)
Fixpoint read_loop (m : mode) (n : nat) (buf : list N) (chunks : list (list N)) : option (list N) :=
  match try_frame m n buf with
  | Some (l, _) => Some l
  | None => match chunks with
            | [] => None
            | c :: r => read_loop m n (buf ++ c) r
            end
  end.

Lemma read_loop_first_frame : forall m n chunks buf l, mode_ok m ->
  read_loop m n buf chunks = Some l ->
  exists r, try_frame m n (buf ++ concat chunks) = Some (l, r).
Proof.
  intros m n chunks. induction chunks as [|c cs IH]; intros buf l OK H; simpl in H.
  - destruct (try_frame m n buf) as [[l' r']|] eqn:E; try discriminate. inversion H; subst.
    exists r'. simpl. rewrite app_nil_r. exact E.
  - destruct (try_frame m n buf) as [[l' r']|] eqn:E.
    + inversion H; subst. exists (r' ++ concat (c :: cs)). apply try_frame_app; assumption.
    + apply IH in H; [|exact OK]. destruct H as [r H]. exists r. simpl. rewrite app_assoc. exact H.
Qed.
