(* C16 - invariants of the transition system: lock discipline (mutual exclusion, only the lock owner writes to the
   connection), the flush in front of a send, what a step can do to the connection bookkeeping, callbacks. *)
From Coq Require Import List Arith ZArith NArith Bool Lia.
Import ListNotations.
Require Import FV.C16.Model FV.C16.Framing.
Open Scope Z_scope.

Section L.
Variable md : mode.
Variable timeout interval slice : Z.

(* inside the section these names stand for the functions at the section's parameters; the constants themselves are
   written Model.caller_step etc. (for unfold) *)
Notation caller_step := (caller_step md timeout interval slice).
Notation run_ops := (run_ops interval).
Notation fail_op := (fail_op interval).
Notation next_in_multi := (next_in_multi interval).
Notation finish_exch := (finish_exch interval).
Notation begin_exch := (begin_exch interval).
Notation step := (step md timeout interval slice).
Notation run := (run md timeout interval slice).
Notation flush_then := (flush_then interval).

(* parked at a send: of the last line of a command (CSend) or of a line in front of it (CSendPre) *)
Definition is_send (p : cpc) : Prop := match p with CSend | CSendPre _ => True | _ => False end.

Lemma send_pc_is_send : forall l, is_send (send_pc l).
Proof. intros [|x l]; exact I. Qed.

Lemma is_send_dec : forall p, {is_send p} + {~ is_send p}.
Proof. intros p. destruct p; simpl; auto. Qed.

Lemma flush_then_cases : forall now s1 c p,
  (exists q, conn s1 = true /\ flush now (queue s1) = (true, q) /\
             flush_then now s1 c p = fail_op now (release (close_conn s1)) c) \/
  (exists q, conn s1 = true /\ flush now (queue s1) = (false, q) /\
             flush_then now s1 c p = (set_rxbuf (set_queue s1 q) [], set_pc c p)) \/
  (conn s1 = false /\ flush_then now s1 c p = fail_op now (release s1) c).
Proof.
  intros now s1 c p. unfold Model.flush_then. destruct (conn s1); [|right; right; auto].
  destruct (flush now (queue s1)) as [[|] q]; [left|right; left]; exists q; auto.
Qed.

(* check_connection: the call goes on at the lock, or it starts a connection attempt, permitted by the rate limit and
   recorded in last_attempt *)
Lemma begin_exch_some : forall now s s' p, begin_exch now s = Some (s', p) ->
  (p = CLock /\ connected s = true /\ s' = s) \/
  (p = CAccess /\ connected s = false /\ last_attempt s + interval <= now /\ s' = set_last_attempt s now).
Proof.
  intros now s s' p H. unfold Model.begin_exch in H. destruct (connected s). { inversion H; auto. }
  destruct (last_attempt s + interval <=? now) eqn:E; inversion H; subst. right. repeat split. apply Z.leb_le. exact E.
Qed.

Lemma begin_exch_none : forall now s, begin_exch now s = None -> connected s = false.
Proof. intros now s H. unfold Model.begin_exch in H. destruct (connected s); [discriminate|reflexivity]. Qed.

Lemma step_cases : forall st x,
  step st x = st \/
  (exists i now nxt c, x = (TC i, now, nxt) /\ nth_error (callers st) i = Some c /\
     caller_enabled i now (sh st) c = true /\
     step st x = {| sh := fst (caller_step i now (sh st) c);
                    callers := set_nth i (snd (caller_step i now (sh st) c)) (callers st); poll := poll st |}) \/
  (exists now nxt, x = (TP, now, nxt) /\ poll_enabled (sh st) (poll st) = true /\
     step st x = {| sh := fst (poll_step nxt (sh st) (poll st)); callers := callers st;
                    poll := snd (poll_step nxt (sh st) (poll st)) |}).
Proof.
  intros st [[[i|] now] nxt]; unfold Model.step.
  - destruct (nth_error (callers st) i) as [c|] eqn:Ci; [|auto].
    destruct (caller_enabled i now (sh st) c) eqn:EN; [|auto].
    right; left. exists i, now, nxt, c. destruct (caller_step i now (sh st) c). auto.
  - destruct (poll_enabled (sh st) (poll st)) eqn:EN; [|auto].
    right; right. exists now, nxt. destruct (poll_step nxt (sh st) (poll st)). auto.
Qed.

(* the step of a caller waiting for its reply, by what the socket holds: nothing readable before the deadline (wait one
   more slice) or at it (time-out), the end of the stream, or a chunk *)
Lemma recv_cases : forall (B : Type) (P : B -> Prop) now e (q : list item) (onchunk : list N -> list item -> B)
  (onclose wait timedout : B),
  (head_ready now q = false -> now < e -> P wait) ->
  (head_ready now q = false -> e <= now -> P timedout) ->
  P onclose ->
  (forall a d q', q = mkItem a (Some d) :: q' -> a <= now -> P (onchunk d q')) ->
  P (match q with
     | mkItem a p :: q' =>
         if a <=? now then match p with Some d => onchunk d q' | None => onclose end
         else if now <? e then wait else timedout
     | [] => if now <? e then wait else timedout
     end).
Proof.
  intros B P now e q onchunk onclose wait timedout W T C K.
  assert (WT : head_ready now q = false -> P (if now <? e then wait else timedout)).
  { intros HR. destruct (now <? e) eqn:L; [apply W|apply T]; auto; [apply Z.ltb_lt|apply Z.ltb_ge]; exact L. }
  destruct q as [|[a [d|]] q']; [apply WT; reflexivity| |]; simpl in WT;
    (destruct (a <=? now) eqn:A; [|apply WT; reflexivity]); [eapply K; [reflexivity|apply Z.leb_le; exact A]|exact C].
Qed.

Lemma run_inv : forall P : state -> Prop, (forall st x, P st -> P (step st x)) ->
  forall sched st, P st -> P (run st sched).
Proof. intros P S. induction sched as [|x r IH]; intros st H; simpl; auto. Qed.

Definition lk (s : shared) : option nat * nat := (lock_owner s, lock_cnt s).

(* how many times a caller parked at this point holds the communicator lock *)
Definition cnt_of (c : cst) : nat :=
  match pc c with
  | CSend | CRecv _ _ | CWaitB _ _ _ | CSendPre _ => if inmulti c then 2 else 1
  | CSleepX _ => 1
  | CAccess | CConnect | CLock => if inmulti c then 1 else 0
  | _ => 0
  end%nat.

Definition target (i k : nat) : option nat * nat := match k with O => (None, O) | _ => (Some i, k) end.

Lemma lk_release : forall s i n, lk s = target i (S n) -> lk (release s) = target i n.
Proof.
  intros s i n H. unfold lk in *. inversion H as [[O C]]. unfold release. rewrite C. simpl. destruct n; rewrite ?O; reflexivity.
Qed.

Lemma lk_acquire : forall i s, lk (acquire i s) = (Some i, S (lock_cnt s)).
Proof. reflexivity. Qed.

Lemma lk_connect_ok : forall s, lk (connect_ok s) = lk s.
Proof. intros s. unfold connect_ok. destruct (last_error s); reflexivity. Qed.

Lemma run_ops_lk : forall now ops s o, lk (fst (run_ops now s o ops)) = lk s /\ cnt_of (snd (run_ops now s o ops)) = 0%nat.
Proof.
  intros now ops. induction ops as [|[x|xs|d] r IH]; intros s o; simpl; auto.
  destruct (begin_exch now s) as [[s' p]|] eqn:E; [|apply IH].
  destruct (begin_exch_some _ _ _ _ E) as [(-> & _ & ->)|(-> & _ & _ & ->)]; split; reflexivity.
Qed.

(* a caller that holds the lock as often as its position says (or finds it free) leaves it held as often as its new
   position says: for the ways an operation goes on, then (caller_step_mine) for the step *)
Lemma run_ops_mine : forall now ops s o i, lk s = target i 0 ->
  let r := run_ops now s o ops in lk (fst r) = target i (cnt_of (snd r)).
Proof. intros now ops s o i H. destruct (run_ops_lk now ops s o) as [A B]. simpl. rewrite A, B. exact H. Qed.

Lemma fail_op_mine : forall now s c i, lk s = target i (if inmulti c then 1 else 0) ->
  let r := fail_op now s c in lk (fst r) = target i (cnt_of (snd r)).
Proof.
  intros now s c i H. unfold Model.fail_op. apply run_ops_mine. destruct (inmulti c); [apply lk_release|]; exact H.
Qed.

Lemma next_in_multi_mine : forall now s c i, inmulti c = true -> lk s = target i 1 ->
  let r := next_in_multi now s c in lk (fst r) = target i (cnt_of (snd r)).
Proof.
  intros now s c i M H. unfold Model.next_in_multi. destruct (tl (cur c)) as [|x r'].
  - apply run_ops_mine, lk_release, H.
  - destruct (begin_exch now s) as [[s' p]|] eqn:E; [|apply fail_op_mine; rewrite M; exact H].
    destruct (begin_exch_some _ _ _ _ E) as [(-> & _ & ->)|(-> & _ & _ & ->)]; exact H.
Qed.

Lemma finish_exch_mine : forall now s c i r, lk s = target i (if inmulti c then 2 else 1) ->
  let q := finish_exch now s c r in lk (fst q) = target i (cnt_of (snd q)).
Proof.
  intros now s c i r H. unfold Model.finish_exch. destruct (inmulti c).
  - apply lk_release in H. destruct (cur c) as [|x xs]; [apply next_in_multi_mine; [reflexivity|exact H]|].
    destruct (x_delay x =? 0); [apply next_in_multi_mine; [reflexivity|exact H]|exact H].
  - apply run_ops_mine, lk_release, H.
Qed.

(* well-formed parked callers: multicomm flag and program counter agree *)
Definition wf (c : cst) : Prop :=
  match pc c with
  | CLockOuter | CSleepX _ => inmulti c = true
  | CStart | CPause _ | CDone => inmulti c = false
  | _ => True
  end.

(* where a caller is parked when an operation has ended (in a result, a failure or a sleep of its transaction): well-formed,
   in front of a lock, the entry of read_is_connected, a sleep, or done *)
Definition entry (c : cst) : Prop :=
  match pc c with
  | CLockOuter | CSleepX _ => inmulti c = true
  | CPause _ | CDone => inmulti c = false
  | CLock | CAccess => True
  | _ => False
  end.

Lemma entry_wf : forall c, entry c -> wf c.
Proof. intros c. unfold entry, wf. destruct (pc c); auto; contradiction. Qed.

Lemma entry_not_connect : forall c, entry c -> pc c <> CConnect.
Proof. intros c E P. unfold entry in E. rewrite P in E. exact E. Qed.

Lemma run_ops_entry : forall now ops s o, entry (snd (run_ops now s o ops)).
Proof.
  intros now ops. induction ops as [|[x|xs|d] r IH]; intros s o; simpl; try reflexivity.
  destruct (begin_exch now s) as [[s' p]|] eqn:E; [|apply IH].
  destruct (begin_exch_some _ _ _ _ E) as [(-> & _)|(-> & _)]; exact I.
Qed.

Lemma next_in_multi_entry : forall now s c, entry (snd (next_in_multi now s c)).
Proof.
  intros now s c. unfold Model.next_in_multi. destruct (tl (cur c)). { apply run_ops_entry. }
  destruct (begin_exch now s) as [[s' p]|] eqn:E; [|apply run_ops_entry].
  destruct (begin_exch_some _ _ _ _ E) as [(-> & _)|(-> & _)]; exact I.
Qed.

Lemma finish_exch_entry : forall now s c r, entry (snd (finish_exch now s c r)).
Proof.
  intros now s c r. unfold Model.finish_exch. destruct (inmulti c). 2: apply run_ops_entry.
  destruct (cur c) as [|x xs]. { apply next_in_multi_entry. }
  destruct (x_delay x =? 0). { apply next_in_multi_entry. } reflexivity.
Qed.

Lemma flush_then_wf : forall now s1 c p, is_send p -> wf (snd (flush_then now s1 c p)).
Proof.
  intros now s1 c p IS.
  destruct (flush_then_cases now s1 c p) as [(q & _ & _ & ->)|[(q & _ & _ & ->)|(_ & ->)]]; try apply entry_wf, run_ops_entry.
  unfold wf. simpl. destruct p; try contradiction; exact I.
Qed.

Lemma caller_step_wf : forall i now s c, wf c -> wf (snd (caller_step i now s c)).
Proof.
  intros i now s c W. unfold Model.caller_step.
  destruct (pc c) eqn:P.
  - (* CStart *) apply entry_wf, run_ops_entry.
  - (* CAccess *) destruct (connected s); exact I.
  - (* CConnect *) destruct (pop_refuse s) as [[|] s1]; [apply entry_wf, run_ops_entry|exact I].
  - (* CLockOuter *) destruct (cur c). { apply entry_wf, run_ops_entry. }
    destruct (begin_exch now (acquire i s)) as [[s' p]|] eqn:E; [|apply entry_wf, run_ops_entry].
    destruct (begin_exch_some _ _ _ _ E) as [(-> & _)|(-> & _)]; exact I.
  - (* CLock *) destruct (wait_of c =? 0); [apply (flush_then_wf now (acquire i s) c CSend I)|exact I].
  - (* CSend *) destruct (x_noreply (cur_x c)). { apply entry_wf, finish_exch_entry. }
    destruct (try_frame md (x_n (cur_x c)) _) as [[r rst]|]; [apply entry_wf, finish_exch_entry|exact I].
  - (* CRecv *) apply recv_cases; [intros _ _; exact I|intros _ _; apply entry_wf, run_ops_entry|apply entry_wf, run_ops_entry|].
    intros a d q' _ _. destruct (try_frame md _ _) as [[r rst]|]; [apply entry_wf, finish_exch_entry|exact I].
  - (* CSleepX *) apply entry_wf, next_in_multi_entry.
  - (* CPause *) apply entry_wf, run_ops_entry.
  - (* CDone *) exact W.
  - (* CWaitB *) destruct first; [apply (flush_then_wf now s c (send_pc l) (send_pc_is_send l))|destruct l; exact I].
  - (* CSendPre *) destruct l; exact I.
Qed.

Lemma flush_then_mine : forall now s1 c i p, is_send p -> lk s1 = target i (if inmulti c then 2 else 1) ->
  let q := flush_then now s1 c p in lk (fst q) = target i (cnt_of (snd q)).
Proof.
  intros now s1 c i p IS F.
  assert (R : lk (release s1) = target i (if inmulti c then 1 else 0)) by (destruct (inmulti c); apply lk_release, F).
  destruct (flush_then_cases now s1 c p) as [(q & _ & _ & E)|[(q & _ & _ & E)|(_ & E)]]; simpl; rewrite E.
  - apply fail_op_mine. exact R.
  - unfold cnt_of; simpl. destruct p; try contradiction; exact F.
  - apply fail_op_mine. exact R.
Qed.

Lemma caller_step_mine : forall i now s c, wf c ->
  lk s = target i (cnt_of c) ->
  let q := caller_step i now s c in lk (fst q) = target i (cnt_of (snd q)).
Proof.
  intros i now s c W H. unfold Model.caller_step, wf in *. unfold cnt_of in H.
  destruct (pc c) eqn:P; simpl in H.
  - (* CStart *) apply run_ops_mine, H.
  - (* CAccess *) destruct (connected s); exact H.
  - (* CConnect *) unfold pop_refuse. destruct (refuse s) as [|[|] rf].
    + simpl. rewrite lk_connect_ok. exact H.
    + apply fail_op_mine. exact H.
    + simpl. rewrite lk_connect_ok. exact H.
  - (* CLockOuter *) assert (F : lk (acquire i s) = target i 1) by (unfold lk in *; injection H as O C; simpl; rewrite C; reflexivity).
    destruct (cur c) as [|x xs]; [apply run_ops_mine, lk_release, F|].
    destruct (begin_exch now (acquire i s)) as [[s' p]|] eqn:E; [|apply fail_op_mine; rewrite W; exact F].
    destruct (begin_exch_some _ _ _ _ E) as [(-> & _ & ->)|(-> & _ & _ & ->)]; unfold cnt_of; simpl; rewrite W; exact F.
  - (* CLock *) assert (F : lk (acquire i s) = target i (if inmulti c then 2 else 1)).
    { unfold lk in *. simpl. destruct (inmulti c); injection H as O C; rewrite C; reflexivity. }
    destruct (wait_of c =? 0); [apply flush_then_mine; [exact I|exact F]|exact F].
  - (* CSend *) destruct (x_noreply (cur_x c)); [apply finish_exch_mine; exact H|].
    destruct (try_frame md (x_n (cur_x c)) _) as [[r rst]|]; [apply finish_exch_mine|]; exact H.
  - (* CRecv *) assert (R : lk (release s) = target i (if inmulti c then 1 else 0)) by (destruct (inmulti c); apply lk_release, H).
    apply recv_cases; [intros _ _; exact H|intros _ _; apply fail_op_mine; exact R|apply fail_op_mine; exact R|].
    intros a d q' _ _. destruct (try_frame md _ _) as [[r rst]|]; [apply finish_exch_mine|]; exact H.
  - (* CSleepX *) apply next_in_multi_mine; assumption.
  - (* CPause *) apply run_ops_mine, H.
  - (* CDone *) unfold cnt_of. simpl. rewrite P. exact H.
  - (* CWaitB *) destruct first; [apply flush_then_mine; [apply send_pc_is_send|exact H]|]. destruct l; exact H.
  - (* CSendPre *) destruct l; exact H.
Qed.

(* frames: a projection f of the shared state that the bookkeeping of the lock, of last_attempt, of the socket queue and
   of the receive buffer does not touch.  Outside the section every lemma takes, after f, those of the five frame facts
   below that its proof uses, as premises; for a concrete projection each holds by reflexivity *)
Section Shape.
Variable A : Type.
Variable f : shared -> A.
Hypothesis f_la : forall s v, f (set_last_attempt s v) = f s.
Hypothesis f_rel : forall s, f (release s) = f s.
Hypothesis f_acq : forall i s, f (acquire i s) = f s.
Hypothesis f_queue : forall s v, f (set_queue s v) = f s.
Hypothesis f_rxbuf : forall s v, f (set_rxbuf s v) = f s.

Lemma f_begin : forall now s s' p, begin_exch now s = Some (s', p) -> f s' = f s.
Proof.
  intros now s s' p H. destruct (begin_exch_some _ _ _ _ H) as [(_ & _ & ->)|(_ & _ & _ & ->)]; [reflexivity|apply f_la].
Qed.

Lemma f_run_ops : forall now ops s o, f (fst (run_ops now s o ops)) = f s.
Proof.
  intros now ops. induction ops as [|[x|xs|d] r IH]; intros s o; simpl; try reflexivity.
  destruct (begin_exch now s) as [[s' p]|] eqn:E. { simpl. eapply f_begin; eauto. } apply IH.
Qed.

Lemma f_fail_op : forall now s c, f (fst (fail_op now s c)) = f s.
Proof. intros. unfold Model.fail_op. rewrite f_run_ops. destruct (inmulti c); [apply f_rel|reflexivity]. Qed.

Lemma f_next : forall now s c, f (fst (next_in_multi now s c)) = f s.
Proof.
  intros. unfold Model.next_in_multi. destruct (tl (cur c)). { rewrite f_run_ops. apply f_rel. }
  destruct (begin_exch now s) as [[s' p]|] eqn:E. { simpl. eapply f_begin; eauto. } apply f_fail_op.
Qed.

Lemma f_finish : forall now s c r, f (fst (finish_exch now s c r)) = f s.
Proof.
  intros. unfold Model.finish_exch. destruct (inmulti c). 2: { rewrite f_run_ops. apply f_rel. }
  destruct (cur c) as [|x xs]. { rewrite f_next. apply f_rel. }
  destruct (x_delay x =? 0). { rewrite f_next. apply f_rel. } simpl. apply f_rel.
Qed.

(* what a step does to f: nothing, a successful connect (only under `connecting`: the thread is inside
   read_is_connected), a close, or storing an error text *)
Definition shape (connecting : Prop) (s r : shared) : Prop :=
  f r = f s \/
  (connecting /\ exists s0, f s0 = f s /\ f r = f (connect_ok s0)) \/
  (exists s0, f s0 = f s /\ f r = f (close_conn s0)) \/
  (exists s0, f s0 = f s /\ f r = f (set_last_error s0 true)).

Lemma flush_then_shape : forall K now s s1 c p, f s1 = f s -> shape K s (fst (flush_then now s1 c p)).
Proof.
  intros K now s s1 c p E. unfold shape.
  destruct (flush_then_cases now s1 c p) as [(q & _ & _ & ->)|[(q & _ & _ & ->)|(_ & ->)]].
  - right; right; left. exists s1. split; [exact E|]. rewrite f_fail_op. apply f_rel.
  - left. simpl. rewrite f_rxbuf, f_queue. exact E.
  - left. rewrite f_fail_op, f_rel. exact E.
Qed.

(* f need not be framed by set_sendlog unless the step is a send, nor by the bookkeeping of read_is_connected
   (accessLock owner, refusal script of the device) unless the step is one of its two *)
Lemma caller_step_shape : forall i now s c,
  (is_send (pc c) -> forall s v, f (set_sendlog s v) = f s) ->
  (pc c = CAccess \/ pc c = CConnect ->
   (forall s v, f (set_acc_owner s v) = f s) /\ (forall s v, f (set_refuse s v) = f s)) ->
  shape (pc c = CConnect) s (fst (caller_step i now s c)).
Proof.
  intros i now s c. unfold Model.caller_step. destruct (pc c) eqn:P; intros f_sendlog RC.
  - (* CStart *) left. apply f_run_ops.
  - (* CAccess *) left. destruct (connected s); simpl; [reflexivity|apply RC; auto].
  - (* CConnect *) destruct RC as [f_acc f_refuse]; [auto|].
    unfold pop_refuse. destruct (refuse s) as [|[|] rf]; simpl.
    + right; left. split; [reflexivity|]. exists (set_acc_owner s None). split; [apply f_acc|reflexivity].
    + right; right; right. exists (set_acc_owner (set_refuse s rf) None). split.
      * rewrite f_acc. apply f_refuse.
      * rewrite f_fail_op. reflexivity.
    + right; left. split; [reflexivity|].
      exists (set_acc_owner (set_refuse s rf) None). split; [rewrite f_acc; apply f_refuse|reflexivity].
  - (* CLockOuter *) left. destruct (cur c). { rewrite f_run_ops, f_rel. apply f_acq. }
    destruct (begin_exch now (acquire i s)) as [[s2 p]|] eqn:E. { simpl. rewrite (f_begin _ _ _ _ E). apply f_acq. }
    rewrite f_fail_op. apply f_acq.
  - (* CLock *) destruct (wait_of c =? 0); [apply flush_then_shape; apply f_acq|left; simpl; apply f_acq].
  - (* CSend *) specialize (f_sendlog I). left. destruct (x_noreply (cur_x c)). { rewrite f_finish, f_sendlog. apply f_queue. }
    destruct (try_frame md (x_n (cur_x c)) _) as [[r rst]|].
    + rewrite f_finish, f_rxbuf, f_sendlog. apply f_queue.
    + simpl. rewrite f_sendlog. apply f_queue.
  - (* CRecv *) assert (TO : f (fst (fail_op now (release (set_last_error s true)) c)) = f (set_last_error s true)).
    { rewrite f_fail_op. apply f_rel. }
    apply recv_cases.
    + intros _ _. left. reflexivity.
    + intros _ _. right; right; right. exists s. split; [reflexivity|exact TO].
    + right; right; left. exists s. split; [reflexivity|]. rewrite f_fail_op. apply f_rel.
    + intros a d q' _ _. left. destruct (try_frame md _ _) as [[r rst]|].
      { rewrite f_finish, f_rxbuf. apply f_queue. } { simpl. rewrite f_rxbuf. apply f_queue. }
  - (* CSleepX *) left. apply f_next.
  - (* CPause *) left. apply f_run_ops.
  - (* CDone *) left. reflexivity.
  - (* CWaitB *) destruct first; [apply flush_then_shape; reflexivity|left; reflexivity].
  - (* CSendPre *) specialize (f_sendlog I). left. destruct l; [reflexivity|]. simpl. unfold send_line. rewrite f_sendlog. apply f_queue.
Qed.
Lemma poll_step_shape : forall nxt s p,
  (forall s v, f (set_acc_owner s v) = f s) -> (forall s v, f (set_refuse s v) = f s) ->
  (forall s v, f (set_cbs s v) = f s) ->
  shape (p = QConnect) s (fst (poll_step nxt s p)).
Proof.
  intros nxt s p f_acc f_refuse f_cbs. unfold poll_step. destruct p; simpl; try (left; reflexivity).
  - left. apply f_cbs.
  - left. destruct (connected s); [reflexivity|apply f_acc].
  - unfold pop_refuse. destruct (refuse s) as [|[|] rf]; simpl.
    + right; left. split; [reflexivity|]. exists (set_acc_owner s None). split; [apply f_acc|reflexivity].
    + right; right; right. exists (set_acc_owner (set_refuse s rf) None). split; [rewrite f_acc; apply f_refuse|reflexivity].
    + right; left. split; [reflexivity|].
      exists (set_acc_owner (set_refuse s rf) None). split; [rewrite f_acc; apply f_refuse|reflexivity].
Qed.

(* a projection that connecting, closing and storing an error text keep as well is kept by the step *)
Lemma shape_frame : (forall s, f (connect_ok s) = f s) -> (forall s, f (close_conn s) = f s) ->
  (forall s v, f (set_last_error s v) = f s) -> forall K s r, shape K s r -> f r = f s.
Proof.
  intros H1 H2 H3 K s r [E|[(_ & s0 & E0 & E)|[(s0 & E0 & E)|(s0 & E0 & E)]]]; rewrite E, ?H1, ?H2, ?H3; auto.
Qed.
End Shape.

(* a caller that does not hold the lock cannot touch it while somebody else holds it *)
Lemma caller_step_other : forall i j now s c, wf c -> cnt_of c = 0%nat ->
  lock_owner s = Some j -> j <> i -> caller_enabled i now s c = true ->
  let q := caller_step i now s c in lk (fst q) = lk s /\ cnt_of (snd q) = 0%nat.
Proof.
  intros i j now s c W K O NE EN. unfold Model.caller_step, caller_enabled, wf, cnt_of in *.
  assert (NF : lock_free_for i s = false).
  { unfold lock_free_for. rewrite O. apply Nat.eqb_neq. exact NE. }
  (* at the other program counters the caller is not enabled (the lock is not free for it; CDone) or holds the lock *)
  destruct (pc c) eqn:P; try (rewrite NF in EN; discriminate); try (destruct (inmulti c); discriminate).
  - (* CStart *) apply run_ops_lk.
  - (* CAccess *) destruct (inmulti c) eqn:M; try discriminate. destruct (connected s); simpl; unfold cnt_of; simpl; rewrite M; auto.
  - (* CConnect *) destruct (inmulti c) eqn:M; try discriminate.
    destruct (pop_refuse s) as [[|] s1] eqn:PR; unfold pop_refuse in PR; destruct (refuse s) as [|b rf]; inversion PR; subst.
    + destruct (run_ops_lk now (rest c) (connect_refused (set_acc_owner (set_refuse s rf) None)) (outs c ++ [RFail])) as [A B].
      unfold Model.fail_op. rewrite M. split; [rewrite A; reflexivity|exact B].
    + simpl. unfold cnt_of; simpl. rewrite M, lk_connect_ok. auto.
    + simpl. unfold cnt_of; simpl. rewrite M, lk_connect_ok. auto.
  - (* CPause *) apply run_ops_lk.
Qed.

(* the lock is held by one caller h exactly as often as its position says (k times; k = 0: the lock is free), and by
   nobody else *)
Definition lock_inv (st : state) : Prop :=
  (forall i c, nth_error (callers st) i = Some c -> wf c) /\
  exists h k, lk (sh st) = target h k /\
    forall j c, nth_error (callers st) j = Some c -> cnt_of c = if Nat.eqb j h then k else 0%nat.

Lemma lock_inv_holder : forall st i c, lock_inv st ->
  nth_error (callers st) i = Some c -> (cnt_of c > 0)%nat -> lk (sh st) = (Some i, cnt_of c).
Proof.
  intros st i c (_ & h & k & L & C) Ci G. rewrite (C i c Ci) in *.
  destruct (Nat.eqb_spec i h) as [->|]; [|lia]. rewrite L. destruct k; [lia|reflexivity].
Qed.

Lemma nth_set_nth_eq : forall {A} (l : list A) i v c, nth_error l i = Some c -> nth_error (set_nth i v l) i = Some v.
Proof. induction l as [|x l IH]; intros [|i] v c H; simpl in *; try discriminate; eauto. Qed.

Lemma nth_set_nth_neq : forall {A} (l : list A) i j v, i <> j -> nth_error (set_nth i v l) j = nth_error l j.
Proof. induction l as [|x l IH]; intros [|i] [|j] v H; simpl in *; try reflexivity; try lia. apply IH. lia. Qed.

Lemma lk_poll_step : forall nxt s p, lk (fst (poll_step nxt s p)) = lk s.
Proof.
  intros. apply (shape_frame _ lk lk_connect_ok (fun _ => eq_refl) (fun _ _ => eq_refl) (p = QConnect)), poll_step_shape;
    intros; reflexivity.
Qed.

Lemma lock_inv_step : forall st x, lock_inv st -> lock_inv (step st x).
Proof.
  intros st x H.
  destruct (step_cases st x) as [->|[(i & now & nxt & c & -> & Ci & EN & ->)|(now & nxt & -> & EN & ->)]]; [exact H| |];
    destruct H as (W & h & k & L & C).
  - pose proof (W i c Ci) as Wc. set (r := caller_step i now (sh st) c).
    split; simpl.
    { intros j cj Cj. destruct (Nat.eq_dec j i) as [->|NJ].
      - rewrite (nth_set_nth_eq _ _ _ _ Ci) in Cj. inversion Cj. apply caller_step_wf, Wc.
      - rewrite nth_set_nth_neq in Cj by lia. eapply W; eauto. }
    (* a free lock may be attributed to the caller that steps: then either the holder steps or somebody else holds it *)
    assert (X : exists h', lk (sh st) = target h' k /\ (i = h' \/ k <> 0%nat /\ i <> h') /\
                forall j cj, nth_error (callers st) j = Some cj -> cnt_of cj = if Nat.eqb j h' then k else 0%nat).
    { destruct k as [|k].
      - exists i. repeat split; auto. intros j cj Cj. rewrite (C j cj Cj). destruct (j =? h)%nat, (j =? i)%nat; reflexivity.
      - exists h. repeat split; auto. destruct (Nat.eq_dec i h); auto. }
    clear h L C. destruct X as (h & L & [->|[K NE]] & C); pose proof (C _ c Ci) as Kc.
    + rewrite Nat.eqb_refl in Kc.
      exists h, (cnt_of (snd r)). split; [apply caller_step_mine; [exact Wc|rewrite Kc; exact L]|].
      intros j cj Cj. destruct (Nat.eqb_spec j h) as [->|NJ].
      * rewrite (nth_set_nth_eq _ _ _ _ Ci) in Cj. inversion Cj. reflexivity.
      * rewrite nth_set_nth_neq in Cj by lia. apply Nat.eqb_neq in NJ. rewrite (C j cj Cj), NJ. reflexivity.
    + apply Nat.eqb_neq in NE. rewrite NE in Kc.
      assert (O : lock_owner (sh st) = Some h) by (unfold lk in L; destruct k; [lia|inversion L; reflexivity]).
      destruct (caller_step_other i h now (sh st) c Wc Kc O) as [B1 B2]; [apply Nat.eqb_neq in NE; auto|exact EN|].
      fold r in B1, B2. exists h, k. split; [rewrite B1; exact L|].
      intros j cj Cj. destruct (Nat.eq_dec j i) as [->|NJ].
      * rewrite (nth_set_nth_eq _ _ _ _ Ci) in Cj. inversion Cj. subst cj. rewrite B2, NE. reflexivity.
      * rewrite nth_set_nth_neq in Cj by lia. apply C. exact Cj.
  - split; [exact W|]. exists h, k. simpl. rewrite lk_poll_step. split; assumption.
Qed.

Lemma lock_inv_init : forall progs rf cb p, lock_inv (init progs rf cb p).
Proof.
  intros. unfold lock_inv, init. simpl. split; [|exists 0%nat, 0%nat; split; [reflexivity|]];
    intros i c H; apply nth_error_In in H; apply in_map_iff in H; destruct H as [x [<- _]];
    [|destruct (i =? 0)%nat]; reflexivity.
Qed.

Lemma sendlog_connect_ok : forall s, sendlog (connect_ok s) = sendlog s.
Proof. intros s. unfold connect_ok. destruct (last_error s); reflexivity. Qed.

Lemma sendlog_caller_step : forall i now s c, ~ is_send (pc c) -> sendlog (fst (caller_step i now s c)) = sendlog s.
Proof.
  intros i now s c NS.
  apply (shape_frame _ sendlog sendlog_connect_ok (fun _ => eq_refl) (fun _ _ => eq_refl) (pc c = CConnect)),
    caller_step_shape; try (intros; reflexivity); [contradiction|intros _; split; reflexivity].
Qed.

Lemma sendlog_poll_step : forall nxt s p, sendlog (fst (poll_step nxt s p)) = sendlog s.
Proof.
  intros. apply (shape_frame _ sendlog sendlog_connect_ok (fun _ => eq_refl) (fun _ _ => eq_refl) (p = QConnect)),
    poll_step_shape; intros; reflexivity.
Qed.

Lemma only_owner_writes : forall st x, lock_inv st ->
  sendlog (sh (step st x)) <> sendlog (sh st) ->
  exists i c, fst (fst x) = TC i /\ nth_error (callers st) i = Some c /\ is_send (pc c) /\ lock_owner (sh st) = Some i.
Proof.
  intros st x INV.
  destruct (step_cases st x) as [->|[(i & now & nxt & c & -> & Ci & EN & ->)|(now & nxt & -> & EN & ->)]]; simpl; intros H.
  - congruence.
  - destruct (is_send_dec (pc c)) as [IS|NS]; [|destruct H; apply sendlog_caller_step; exact NS].
    exists i, c. repeat split; auto.
    assert (G : (cnt_of c > 0)%nat) by (unfold cnt_of; destruct (pc c); try contradiction; destruct (inmulti c); lia).
    pose proof (lock_inv_holder st i c INV Ci G) as L. unfold lk in L. inversion L. reflexivity.
  - destruct H. apply sendlog_poll_step.
Qed.

Lemma flush_head : forall now q q', flush now q = (false, q') -> head_ready now q' = false.
Proof.
  intros now q. induction q as [|[a [d|]] r IH]; intros q' H; simpl in H.
  - inversion H. reflexivity.
  - destruct (a <=? now) eqn:E. { apply IH. exact H. } inversion H. simpl. exact E.
  - destruct (a <=? now) eqn:E; inversion H. simpl. exact E.
Qed.

(* the flush in front of the first send: if the caller comes out of it parked at a send, the receive buffer is empty
   and nothing that has arrived by now is left on the socket *)
Lemma stale_flush_then : forall now s1 c p s' c', flush_then now s1 c p = (s', c') -> is_send (pc c') ->
  rxbuf s' = [] /\ head_ready now (queue s') = false.
Proof.
  intros now s1 c p s' c' H P'.
  assert (NF : forall s0, fail_op now s0 c = (s', c') -> False).
  { intros s0 E. pose proof (run_ops_entry now (rest c) (if inmulti c then release s0 else s0) (outs c ++ [RFail])) as B.
    unfold Model.fail_op in E. rewrite E in B. unfold entry in B. simpl in B. destruct (pc c'); contradiction. }
  destruct (flush_then_cases now s1 c p) as [(q & _ & _ & E)|[(q & _ & F & E)|(_ & E)]]; rewrite E in H.
  - exfalso. eapply NF; eauto.
  - inversion H; subst. simpl. split; [reflexivity|]. eapply flush_head; eauto.
  - exfalso. eapply NF; eauto.
Qed.

(* after the sleep the transaction goes on with the next command, still under the lock *)
Lemma sleep_then_next : forall i now s c w, pc c = CSleepX w -> caller_step i now s c = next_in_multi now s c.
Proof. intros i now s c w P. unfold Model.caller_step. rewrite P. reflexivity. Qed.

(* last_attempt is written by check_connection only: every step leaves it alone or records a permitted attempt *)
Definition la_rel (now : Z) (s s' : shared) : Prop :=
  last_attempt s' = last_attempt s \/ (last_attempt s + interval <= now /\ last_attempt s' = now).

Lemma la_run_ops : forall now ops s o, la_rel now s (fst (run_ops now s o ops)).
Proof.
  intros now ops. induction ops as [|[x|xs|d] r IH]; intros s o; simpl; try (left; reflexivity).
  destruct (begin_exch now s) as [[s' p]|] eqn:E; [|apply IH].
  destruct (begin_exch_some _ _ _ _ E) as [(_ & _ & ->)|(_ & _ & L & ->)]; [left|right]; auto.
Qed.

Lemma callbacks_once : forall s, last_error s = true ->
  cblog (connect_ok s) = cblog s ++ map fst (cbs s) /\
  cbs (connect_ok s) = filter (fun kc => cb_keeps (snd kc)) (cbs s) /\
  (NoDup (map fst (cbs s)) -> forall k, In k (map fst (cbs s)) -> count_occ Nat.eq_dec (map fst (cbs s)) k = 1%nat).
Proof.
  intros s E. unfold connect_ok. rewrite E. simpl. repeat split.
  intros ND k IN. apply NoDup_count_occ'; assumption.
Qed.

(* the bookkeeping the reconnect callbacks depend on *)
Definition bk (s : shared) : nat * bool * bool * list (nat * cbkind) * list nat :=
  (nconn s, connected s, last_error s, cbs s, cblog s).

Lemma bk_shape : forall i now s c, shape _ bk (pc c = CConnect) s (fst (caller_step i now s c)).
Proof. intros. apply caller_step_shape; intros; try split; reflexivity. Qed.

Lemma bk_connect_ok : forall s0, bk (connect_ok s0) =
  (S (nconn s0), true, last_error s0,
   if last_error s0 then filter (fun kc => cb_keeps (snd kc)) (cbs s0) else cbs s0,
   if last_error s0 then cblog s0 ++ map fst (cbs s0) else cblog s0).
Proof. intros s0. unfold connect_ok, bk. destruct (last_error s0) eqn:E; unfold call_callbacks; simpl; rewrite E; reflexivity. Qed.

(* after a connection existed, either it is still up or an error text is stored (closeConnection stores one) *)
Definition ready (s : shared) : Prop := (0 < nconn s)%nat -> connected s = true \/ last_error s = true.

Lemma ready_shape : forall K s r, shape _ (fun s => (nconn s, connected s, last_error s)) K s r -> ready s -> ready r.
Proof.
  intros K s r [E|[(_ & s0 & E0 & E)|[(s0 & E0 & E)|(s0 & E0 & E)]]] R; unfold ready.
  - injection E as E1 E2 E3. rewrite E1, E2, E3. exact R.
  - intros _. left. unfold connect_ok in E. destruct (last_error s0); injection E as _ E2 _; exact E2.
  - intros _. right. injection E as _ _ E3. exact E3.
  - intros _. right. injection E as _ _ E3. exact E3.
Qed.

Lemma ready_step : forall st x, ready (sh st) -> ready (sh (step st x)).
Proof.
  intros st x R.
  destruct (step_cases st x) as [->|[(i & now & nxt & c & -> & Ci & EN & ->)|(now & nxt & -> & EN & ->)]]; simpl.
  - exact R.
  - eapply ready_shape; [apply caller_step_shape; intros; try split; reflexivity|exact R].
  - eapply ready_shape; [apply poll_step_shape; intros; reflexivity|exact R].
Qed.

Lemma ready_init : forall progs rf cb p, ready (sh (init progs rf cb p)).
Proof. intros. unfold ready, init. simpl. lia. Qed.

(* every step that establishes a connection while disconnected after an earlier connection (= a reconnect) calls every
   registered callback exactly once, in registration order, and keeps those that returned True *)
Lemma reconnect_runs_callbacks : forall st x, ready (sh st) ->
  (0 < nconn (sh st))%nat -> connected (sh st) = false ->
  nconn (sh (step st x)) <> nconn (sh st) ->
  cblog (sh (step st x)) = cblog (sh st) ++ map fst (cbs (sh st)) /\
  cbs (sh (step st x)) = filter (fun kc => cb_keeps (snd kc)) (cbs (sh st)) /\
  connected (sh (step st x)) = true /\ nconn (sh (step st x)) = S (nconn (sh st)).
Proof.
  intros st x R G D.
  assert (LE : last_error (sh st) = true). { destruct (R G) as [C|L]; [congruence|exact L]. }
  assert (CONN : forall s0 r, bk s0 = bk (sh st) -> bk r = bk (connect_ok s0) ->
            cblog r = cblog (sh st) ++ map fst (cbs (sh st)) /\
            cbs r = filter (fun kc => cb_keeps (snd kc)) (cbs (sh st)) /\ connected r = true /\ nconn r = S (nconn (sh st))).
  { intros s0 r E0 E. rewrite bk_connect_ok in E. unfold bk in E0, E.
    injection E0 as A1 A2 A3 A4 A5. rewrite A3, LE in E. injection E as B1 B2 B3 B4 B5.
    repeat split; congruence. }
  destruct (step_cases st x) as [->|[(i & now & nxt & c & -> & Ci & EN & ->)|(now & nxt & -> & EN & ->)]]; simpl; intros NE.
  - congruence.
  - destruct (bk_shape i now (sh st) c) as [E|[(_ & s0 & E0 & E)|[(s0 & E0 & E)|(s0 & E0 & E)]]].
    + unfold bk in E. inversion E. congruence.
    + eapply CONN; eauto.
    + unfold bk in E0, E. simpl in E. inversion E0. inversion E. congruence.
    + unfold bk in E0, E. simpl in E. inversion E0. inversion E. congruence.
  - (* not through poll_step_shape: bk contains cbs, which the start of the poll thread extends *)
    revert NE. unfold poll_step. destruct (poll st); simpl; try congruence.
    + (* QAccess *) destruct (connected (sh st)); simpl; congruence.
    + (* QConnect *) unfold pop_refuse. destruct (refuse (sh st)) as [|[|] rf]; simpl; try congruence; intros _;
        [apply (CONN (set_acc_owner (sh st) None))|apply (CONN (set_acc_owner (set_refuse (sh st) rf) None))]; reflexivity.
Qed.

(* once the poll thread has started, its trigger callback is registered for ever *)
Definition trigger_inv (st : state) : Prop :=
  match poll st with QNone | QStart => True | _ => In (TRIGGER, CbTrue) (cbs (sh st)) end.

Lemma connect_keeps_true : forall k s, In (k, CbTrue) (cbs s) -> In (k, CbTrue) (cbs (connect_ok s)).
Proof.
  intros k s H. unfold connect_ok. destruct (last_error s); simpl; [apply filter_In; split; [exact H|reflexivity]|exact H].
Qed.

Lemma trigger_shape : forall K s r, shape _ cbs K s r -> In (TRIGGER, CbTrue) (cbs s) -> In (TRIGGER, CbTrue) (cbs r).
Proof.
  intros K s r [E|[(_ & s0 & E0 & E)|[(s0 & E0 & E)|(s0 & E0 & E)]]] H; rewrite E.
  - exact H.
  - apply connect_keeps_true. rewrite E0. exact H.
  - simpl. rewrite E0. exact H.
  - simpl. rewrite E0. exact H.
Qed.

Lemma trigger_inv_step : forall st x, trigger_inv st -> trigger_inv (step st x).
Proof.
  intros st x T.
  destruct (step_cases st x) as [->|[(i & now & nxt & c & -> & Ci & EN & ->)|(now & nxt & -> & EN & ->)]];
    unfold trigger_inv in *; simpl.
  - exact T.
  - destruct (poll st); auto; (eapply trigger_shape; [apply caller_step_shape; intros; try split; reflexivity|exact T]).
  - (* the poll thread registers the callback at QStart: cbs is not framed by set_cbs, hence no poll_step_shape *)
    unfold poll_step. destruct (poll st) eqn:Q; simpl in *; try discriminate.
    + (* QStart *) destruct nxt; simpl; apply in_or_app; right; left; reflexivity.
    + (* QIdle *) destruct nxt; exact T.
    + (* QAccess *) destruct (connected (sh st)); simpl; [destruct nxt|]; exact T.
    + (* QConnect *) unfold pop_refuse. destruct (refuse (sh st)) as [|[|] rf]; simpl; destruct nxt; simpl; try exact T;
        apply connect_keeps_true; exact T.
Qed.

Lemma trigger_inv_init : forall progs rf cb p, trigger_inv (init progs rf cb p).
Proof. intros. unfold trigger_inv, init. simpl. destruct p; exact I. Qed.
End L.
