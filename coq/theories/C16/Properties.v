(* C16 - the property theorems, over the lemmas of Lemmas.v / Framing.v / Global.v / RxLemmas.v (no refutation is left:
   every defect found for C16 has been repaired in /repo).
   `sched` ranges over every interleaving of callers and poll thread at their synchronisation points together with
   every virtual time of every step; `progs` over every set of caller programs (communicate / writeline / multicomm /
   pause with any device directive: delays, chunkings, garbage, silence, close), `rf` over every refusal script, `cb`
   over every set of registered callbacks; md = line mode with any end-of-line or byte mode. *)
From Coq Require Import List Arith ZArith NArith Bool Lia.
Import ListNotations.
Require Import FV.Gen.C16 FV.C16.Model FV.C16.Run FV.C16.Framing FV.C16.Lemmas FV.C16.Global FV.C16.RxModel FV.C16.RxLemmas.
Open Scope Z_scope.

(* obligations on the facts regenerated from /repo (Gen/C16.v): every modelled function has the statement structure
   the model was written from, the lock structure is the one the atomic steps rely on *)
Theorem C16_source_facts :
  shape_IOBase_connectStart = true /\ shape_IOBase_closeConnection = true /\ shape_IOBase_doPoll = true /\
  shape_IOBase_read_is_connected = true /\ shape_IOBase_check_connection = true /\
  shape_IOBase_registerReconnectCallback = true /\ shape_IOBase_callCallbacks = true /\
  shape_StringIO_communicate = true /\ shape_StringIO_writeline = true /\ shape_StringIO_multicomm = true /\
  shape_BytesIO_communicate = true /\ shape_BytesIO_multicomm = true /\ shape_BytesIO_getFullReply = true /\
  shape_AsynConn_readline = true /\ shape_AsynConn_readbytes = true /\ shape_AsynTcp_flush_recv = true /\
  shape_AsynTcp_recv = true /\ shape_AsynTcp_send = true /\ shape_AsynTcp_disconnect = true /\
  lock_is_reentrant = true /\ communicate_atomic = true /\ multicomm_holds_lock = true /\
  read_is_connected_is_wrapped = true /\ trigger_all_registered = true /\
  readline_splits_whole_buffer = true /\ readbytes_slices_prefix = true /\ flush_recv_clears_buffer = true /\
  recv_empty_is_closed = true /\ flush_after_wait_before = true /\
  recv_slice_s = 1%nat /\ initial_last_attempt = 0%nat.
Proof. repeat split; reflexivity. Qed.

(* mutual exclusion: in every reachable state at most one caller is inside a locked region (between acquiring the
   lock for a communicate / multicomm and releasing it, including the sleeps of a transaction), the lock is owned by
   exactly that caller with exactly the nesting depth of its position *)
Theorem C16_mutual_exclusion : forall md timeout interval slice progs rf cb poller sched i j ci cj,
  let st := run md timeout interval slice (init progs rf cb poller) sched in
  nth_error (callers st) i = Some ci -> nth_error (callers st) j = Some cj ->
  (cnt_of ci > 0)%nat -> (cnt_of cj > 0)%nat ->
  i = j /\ lock_owner (sh st) = Some i /\ lock_cnt (sh st) = cnt_of ci.
Proof.
  intros md timeout interval slice progs rf cb poller sched i j ci cj st Hi Hj Gi Gj.
  pose proof (run_inv md timeout interval slice _ (lock_inv_step md timeout interval slice) sched _
                (lock_inv_init progs rf cb poller)) as INV. fold st in INV.
  pose proof (lock_inv_holder st i ci INV Hi Gi) as Li. pose proof (lock_inv_holder st j cj INV Hj Gj) as Lj.
  rewrite Li in Lj. inversion Lj. unfold lk in Li. inversion Li. subst. repeat split; congruence.
Qed.

(* a transaction is never interleaved with other traffic: in every reachable state, the only step that writes to
   the connection is the step of the caller that owns the lock and is parked at its own send (is_send: the send of the
   last line of its command, CSend, or of a line split off in front of it when wait_before is set, CSendPre) *)
Theorem C16_transaction_atomic : forall md timeout interval slice progs rf cb poller sched x,
  let st := run md timeout interval slice (init progs rf cb poller) sched in
  sendlog (sh (step md timeout interval slice st x)) <> sendlog (sh st) ->
  exists i c, fst (fst x) = TC i /\ nth_error (callers st) i = Some c /\ is_send (pc c) /\ lock_owner (sh st) = Some i.
Proof.
  intros. apply (only_owner_writes md timeout interval slice); [|assumption].
  apply (run_inv md timeout interval slice _ (lock_inv_step md timeout interval slice)), lock_inv_init.
Qed.

(* stale data is discarded, for every wait_before (x_wait of the running command, any value): the step that brings a
   caller to the send of the first line of its command is the step at the lock when wait_before is 0 and the step at the
   end of the first sleep (CWaitB _ true _) when wait_before is set; after it the receive buffer is empty and nothing that
   has arrived by `now` - the time of this step, i.e. the end of the pause - is readable on the socket: everything that
   arrived before the command is written, also during the pause, has been thrown away; the reply is then framed only
   from chunks received after that (C16_reply_is_first_frame_received).  With wait_before set the step at the lock itself flushes
   nothing and only starts the sleep (second clause), the sleep lasts wait_before (third), and the later lines of a
   multi-line command are written one by one, each after another sleep of wait_before, without another flush (fourth,
   fifth: `read garbage only once`) *)
Theorem C16_stale_discarded : forall md timeout interval slice i now s c s' c',
  (pc c = CLock /\ wait_of c = 0) \/ (exists w l, pc c = CWaitB w true l) ->
  caller_step md timeout interval slice i now s c = (s', c') -> is_send (pc c') ->
  rxbuf s' = [] /\ head_ready now (queue s') = false.
Proof.
  intros md timeout interval slice i now s c s' c' [[P W]|(w & l & P)] H; unfold caller_step in H; rewrite P in H.
  - rewrite W in H. simpl in H. eapply stale_flush_then; eauto.
  - eapply stale_flush_then; eauto.
Qed.

Theorem C16_wait_before : forall md timeout interval slice i now s c,
  (pc c = CLock -> wait_of c <> 0 ->
     caller_step md timeout interval slice i now s c =
       (acquire i s, set_pc c (CWaitB (now + wait_of c) true (pre_of md c)))) /\
  (forall w f l, pc c = CWaitB w f l -> caller_enabled i now s c = true -> w <= now) /\
  (forall p l, pc c = CSendPre (p :: l) ->
     caller_step md timeout interval slice i now s c =
       (send_line i now s p, set_pc c (CWaitB (now + wait_of c) false l))) /\
  (forall w l, pc c = CWaitB w false l ->
     caller_step md timeout interval slice i now s c = (s, set_pc c (send_pc l))).
Proof.
  intros. unfold caller_step, caller_enabled. repeat split.
  - intros P W. rewrite P. replace (wait_of c =? 0) with false by (symmetry; apply Z.eqb_neq; exact W). reflexivity.
  - intros w f l P E. rewrite P in E. apply Z.leb_le. exact E.
  - intros p l P. rewrite P. reflexivity.
  - intros w l P. rewrite P. reflexivity.
Qed.

Theorem C16_reply_is_first_frame_received : forall md timeout interval slice i now s c e sl a d q',
  pc c = CRecv e sl -> queue s = mkItem a (Some d) :: q' -> a <= now ->
  caller_step md timeout interval slice i now s c =
    match try_frame md (x_n (cur_x c)) (rxbuf s ++ d) with
    | Some (r, rst) => finish_exch interval now (set_rxbuf (set_queue s q') rst) c (Some r)
    | None => (set_rxbuf (set_queue s q') (rxbuf s ++ d), set_pc c (CRecv e (now + slice)))
    end.
Proof.
  intros md timeout interval slice i now s c e sl a d q' P Q L. unfold caller_step. rewrite P, Q.
  replace (a <=? now) with true by (symmetry; apply Z.leb_le; exact L). reflexivity.
Qed.

(* reply framing is independent of how the device's bytes are chunked (line mode with any non-empty end-of-line,
   also when a chunk boundary falls inside the end-of-line; byte mode with any length) *)
Theorem C16_framing_chunking : forall m n c1 c2 l1 l2, mode_ok m -> concat c1 = concat c2 ->
  read_loop m n [] c1 = Some l1 -> read_loop m n [] c2 = Some l2 -> l1 = l2.
Proof.
  intros m n c1 c2 l1 l2 OK E H1 H2.
  apply read_loop_first_frame in H1; [|exact OK]. apply read_loop_first_frame in H2; [|exact OK].
  destruct H1 as [r1 H1], H2 as [r2 H2]. simpl in *. rewrite E in H1. rewrite H1 in H2. inversion H2. reflexivity.
Qed.

Theorem C16_frame_is_split_at_eol : forall eol buf l r, split_eol eol buf = Some (l, r) -> buf = l ++ eol ++ r.
Proof. exact split_eol_spec. Qed.

(* time-out: a caller waiting for its reply can always take a step one receive slice after it was parked; a step
   taken at or after the deadline with nothing readable ends the call with an error (lock released); before the
   deadline it keeps waiting for one more slice *)
Theorem C16_timeout_bound : forall md timeout interval slice i now s c e sl, pc c = CRecv e sl ->
  (sl <= now -> caller_enabled i now s c = true) /\
  (head_ready now (queue s) = false -> e <= now ->
   caller_step md timeout interval slice i now s c = fail_op interval now (release (set_last_error s true)) c) /\
  (head_ready now (queue s) = false -> now < e ->
   caller_step md timeout interval slice i now s c = (s, set_pc c (CRecv e (now + slice)))).
Proof.
  intros md timeout interval slice i now s c e sl P. unfold caller_enabled, caller_step, head_ready. rewrite P. repeat split.
  - intros L. apply orb_true_iff. right. apply Z.leb_le. exact L.
  - intros NR L. assert (NL : (now <? e) = false) by (apply Z.ltb_ge; exact L).
    destruct (queue s) as [|[a p] q']; rewrite ?NR, NL; reflexivity.
  - intros NR L. assert (NL : (now <? e) = true) by (apply Z.ltb_lt; exact L).
    destruct (queue s) as [|[a p] q']; rewrite ?NR, NL; reflexivity.
Qed.

(* every delay of a transaction is honoured, in line and in byte mode: after a command with a non-zero delay the
   caller is parked in its sleep until now + delay, with the rest of the transaction still to do *)
Theorem C16_delays_honoured : forall interval i now s c r x xs, inmulti c = true -> cur c = x :: xs -> x_delay x <> 0 ->
  let q := finish_exch interval now s c r in
  pc (snd q) = CSleepX (now + x_delay x) /\ cur (snd q) = x :: xs /\
  (forall now' s', caller_enabled i now' s' (snd q) = true -> now + x_delay x <= now').
Proof.
  intros interval i now s c r x xs M C D. unfold finish_exch. rewrite M, C.
  replace (x_delay x =? 0) with false by (symmetry; apply Z.eqb_neq; exact D). simpl.
  repeat split. intros now' s' EN. unfold caller_enabled in EN. simpl in EN. apply Z.leb_le. exact EN.
Qed.

(* reconnect rate: check_connection starts a connection attempt only if the last one it started is at least one
   reconnect interval ago, and records the new one; otherwise the call fails at once *)
Theorem C16_reconnect_rate : forall interval now s,
  (forall s' p, begin_exch interval now s = Some (s', p) ->
     (p = CLock /\ connected s = true /\ s' = s) \/
     (p = CAccess /\ connected s = false /\ last_attempt s + interval <= now /\ last_attempt s' = now)) /\
  (connected s = false -> now < last_attempt s + interval -> begin_exch interval now s = None).
Proof.
  intros interval now s. split.
  - intros s' p H. destruct (begin_exch_some _ _ _ _ _ H) as [(-> & C & ->)|(-> & C & L & ->)]; auto.
  - intros C L. unfold begin_exch. rewrite C.
    replace (last_attempt s + interval <=? now) with false by (symmetry; apply Z.leb_gt; exact L). reflexivity.
Qed.

(* connection state visible: closing and connecting update is_connected and the connection object together and
   announce the new value *)
Theorem C16_state_visible : forall s,
  (let s' := close_conn s in connected s' = false /\ conn s' = false /\ last (ann s') true = false /\ last_error s' = true) /\
  (let s' := connect_ok s in connected s' = true /\ conn s' = true /\ last (ann s') false = true /\
                             nconn s' = S (nconn s) /\ queue s' = [] /\ rxbuf s' = []).
Proof.
  intros s. split; [|unfold connect_ok; destruct (last_error s)]; simpl; repeat split; apply last_last.
Qed.

(* after every successful reconnect every registered reconnect callback runs exactly once (unconditional since
   closeConnection stores an error text, /repo 18d6f98): in every reachable state, a step that establishes a connection
   while the communicator is disconnected after an earlier connection calls the registered callbacks, each once, in
   registration order, and keeps exactly those that returned True *)
Theorem C16_callbacks_once : forall md timeout interval slice progs rf cb poller sched x,
  let st := run md timeout interval slice (init progs rf cb poller) sched in
  let st' := step md timeout interval slice st x in
  (0 < nconn (sh st))%nat -> connected (sh st) = false -> nconn (sh st') <> nconn (sh st) ->
  cblog (sh st') = cblog (sh st) ++ map fst (cbs (sh st)) /\
  cbs (sh st') = filter (fun kc => cb_keeps (snd kc)) (cbs (sh st)) /\
  connected (sh st') = true /\ nconn (sh st') = S (nconn (sh st)).
Proof.
  intros. apply (reconnect_runs_callbacks md timeout interval slice); try assumption.
  apply (run_inv md timeout interval slice (fun st => ready (sh st)) (ready_step md timeout interval slice)), ready_init.
Qed.

(* an error text is stored whenever the communicator is disconnected after a connection existed *)
Theorem C16_error_stored_while_disconnected : forall md timeout interval slice progs rf cb poller sched,
  let s := sh (run md timeout interval slice (init progs rf cb poller) sched) in
  (0 < nconn s)%nat -> connected s = false -> last_error s = true.
Proof.
  intros md timeout interval slice progs rf cb poller sched s G D.
  destruct (run_inv md timeout interval slice (fun st => ready (sh st)) (ready_step md timeout interval slice) sched _
              (ready_init progs rf cb poller) G) as [C|L]; [|exact L].
  fold s in C. congruence.
Qed.

(* polling resumes after every reconnect (trigger_all returns True, /repo f9007fb): once the poll thread has started, its
   trigger callback stays registered in every reachable state, hence (C16_callbacks_once) it is called at every reconnect *)
Theorem C16_polling_resumes : forall md timeout interval slice progs rf cb poller sched,
  let st := run md timeout interval slice (init progs rf cb poller) sched in
  poll st <> QNone -> poll st <> QStart ->
  In (TRIGGER, CbTrue) (cbs (sh st)) /\ In TRIGGER (map fst (cbs (sh st))).
Proof.
  intros md timeout interval slice progs rf cb poller sched st N1 N2.
  pose proof (run_inv md timeout interval slice _ (trigger_inv_step md timeout interval slice) sched _
                (trigger_inv_init progs rf cb poller)) as T.
  fold st in T. unfold trigger_inv in T.
  assert (I : In (TRIGGER, CbTrue) (cbs (sh st))) by (destruct (poll st); try congruence; exact T).
  split; [exact I|]. apply in_map_iff. exists (TRIGGER, CbTrue). split; [reflexivity|exact I].
Qed.


(* reconnect rate, in every run: an attempt = a step after which a caller is parked at the entry of read_is_connected and
   before which it was not (check_connection found the communicator disconnected and decided to try).  Whatever the
   programs, refusals, callbacks, schedule and the time of every step are: the times of the attempts of the run, in the
   order in which they are made, are at least one reconnect interval apart (the first one from the initial value 0 of
   _last_connect_attempt; pairwise when the interval is not negative); last_attempt always holds the time of the last
   attempt; every attempt writes it and no other step of any thread does (stated for every reachable state and step).
   Counted are the attempts of calls (communicate / writeline / multicomm through check_connection), which is what the
   rate limit of the code governs; the poll thread's own read of is_connected (doPoll, paced by its poll interval, C13)
   does not pass check_connection and never writes last_attempt (second clause: a poll step is never an attempt) *)
Theorem C16_reconnect_rate_global : forall md timeout interval slice progs rf cb poller sched,
  let st0 := init progs rf cb poller in
  let st := run md timeout interval slice st0 sched in
  let att := attempts md timeout interval slice st0 sched in
  spaced interval (0 :: att) /\
  (0 <= interval -> ForallOrdPairs (fun a b => a + interval <= b) att) /\
  last_attempt (sh st) = last att 0 /\
  (forall x, let st' := step md timeout interval slice st x in
     (is_attempt md timeout interval slice st x = true ->
        last_attempt (sh st) + interval <= time_of x /\ last_attempt (sh st') = time_of x /\ connected (sh st') = false) /\
     (is_attempt md timeout interval slice st x = false -> last_attempt (sh st') = last_attempt (sh st))).
Proof.
  intros md timeout interval slice progs rf cb poller sched st0 st att.
  destruct (attempts_spaced md timeout interval slice sched st0) as [S L].
  change (last_attempt (sh st0)) with 0 in S, L. fold att in S, L. fold st in L.
  split; [exact S|]. split; [|split; [exact L|intros x; apply la_step]].
  intros NN. apply spaced_pairs; [exact NN|]. destruct att as [|a l]; [exact I|]. simpl in S. apply S.
Qed.

(* connection state visible, in every reachable state: is_connected = (the connection object exists) = the value
   announced last; and a step in which a call fails (an RFail is appended to the outcomes of the caller) leaves the
   communicator disconnected - visibly so - with one exception, which the code makes: the time-out of a call on a
   silent device (deadline reached, nothing readable) keeps the connection and stores the error text *)
Theorem C16_state_visible_global : forall md timeout interval slice progs rf cb poller sched,
  let st := run md timeout interval slice (init progs rf cb poller) sched in
  (connected (sh st) = conn (sh st) /\ last (ann (sh st)) false = connected (sh st)) /\
  (forall i now nxt c c' mid,
     nth_error (callers st) i = Some c ->
     nth_error (callers (step md timeout interval slice st (TC i, now, nxt))) i = Some c' ->
     outs c' = outs c ++ mid -> In RFail mid ->
     let s' := sh (step md timeout interval slice st (TC i, now, nxt)) in
     (connected s' = false /\ conn s' = false /\ last (ann s') false = false) \/
     (exists e sl, pc c = CRecv e sl /\ e <= now /\ head_ready now (queue (sh st)) = false /\
                   connected s' = connected (sh st) /\ last_error s' = true)).
Proof.
  intros md timeout interval slice progs rf cb poller sched st.
  pose proof (conn_inv_run md timeout interval slice progs rf cb poller sched) as CI. fold st in CI.
  split; [exact (proj1 CI)|].
  intros i now nxt c c' mid Ci Ci' E I s'.
  pose proof (vis_step md timeout interval slice st (TC i, now, nxt) (proj1 CI)) as [V1 V2]. fold s' in V1, V2.
  destruct (failed_call_disconnects md timeout interval slice st i now nxt c c' mid CI Ci Ci' E I) as [D|T].
  - left. fold s' in D. rewrite <- V1, V2. auto.
  - right. exact T.
Qed.

(* accessLock: in every reachable state at most one thread is inside the connecting branch of read_is_connected, it owns
   accessLock, and is_connected is False as long as it is there (nobody else can connect meanwhile) *)
Theorem C16_connect_exclusive : forall md timeout interval slice progs rf cb poller sched,
  let st := run md timeout interval slice (init progs rf cb poller) sched in
  (forall i j ci cj, nth_error (callers st) i = Some ci -> nth_error (callers st) j = Some cj ->
     pc ci = CConnect -> pc cj = CConnect -> i = j) /\
  (forall i ci, nth_error (callers st) i = Some ci -> pc ci = CConnect ->
     poll st <> QConnect /\ acc_owner (sh st) = Some (TC i) /\ connected (sh st) = false) /\
  (poll st = QConnect -> acc_owner (sh st) = Some TP /\ connected (sh st) = false).
Proof.
  intros md timeout interval slice progs rf cb poller sched st.
  destruct (conn_inv_run md timeout interval slice progs rf cb poller sched) as [_ [A B]]. fold st in A, B.
  assert (AC : forall i ci, nth_error (callers st) i = Some ci -> pc ci = CConnect -> acc_owner (sh st) = Some (TC i)).
  { intros i ci Hi Pi. apply (A (TC i)). exists ci. auto. }
  assert (N : forall t, acc_owner (sh st) = Some t -> connected (sh st) = false) by (intros t E; apply B; congruence).
  split; [|split].
  - intros i j ci cj Hi Hj Pi Pj. pose proof (AC i ci Hi Pi) as E1. rewrite (AC j cj Hj Pj) in E1. congruence.
  - intros i ci Hi Pi. pose proof (AC i ci Hi Pi) as E1. repeat split; [|exact E1|exact (N _ E1)].
    intros Q. rewrite (A TP Q) in E1. discriminate.
  - intros Q. pose proof (A TP Q) as E1. split; [exact E1|exact (N _ E1)].
Qed.


(* readline, full chunking independence: for every non-empty end-of-line, two socket queues that deliver the same byte
   stream (cut into chunks anywhere - also inside a multi-byte end-of-line - arriving at any times), read by any two
   scripts of readline calls (any time-outs, pauses, slices, cut-offs; calls may fail with a time-out in between and the
   buffer survives): once everything has been taken from the socket and no complete line is left in the buffer, the
   sequences of lines returned are equal and the final buffers are equal *)
Theorem C16_readline_chunking_full :
  forall eol slice1 slice2 calls1 calls2 now1 now2 buf q1 q2 rs1 rs2 b1 b2 q1' q2',
  eol <> [] -> stream q1 = stream q2 ->
  rl_run eol slice1 calls1 now1 buf q1 = (rs1, (b1, q1')) -> stream q1' = [] -> split_eol eol b1 = None ->
  rl_run eol slice2 calls2 now2 buf q2 = (rs2, (b2, q2')) -> stream q2' = [] -> split_eol eol b2 = None ->
  lines_of rs1 = lines_of rs2 /\ b1 = b2.
Proof.
  intros eol slice1 slice2 calls1 calls2 now1 now2 buf q1 q2 rs1 rs2 b1 b2 q1' q2' NE E R1 S1 B1 R2 S2 B2.
  pose proof (rl_run_parsed _ _ _ _ _ _ _ _ _ NE R1 S1 B1) as P1.
  pose proof (rl_run_parsed _ _ _ _ _ _ _ _ _ NE R2 S2 B2) as P2.
  rewrite E in P1. exact (parsed_fun _ _ _ _ P1 _ _ P2).
Qed.

(* ... namely the lines of buffer ++ stream, and the incomplete rest; at any earlier moment the lines returned so far
   followed by the lines of (buffer ++ what the socket still delivers) are the lines of the whole *)
Theorem C16_readline_returns_the_lines_of_the_stream :
  forall eol slice calls now buf q rs buf' q', eol <> [] ->
  rl_run eol slice calls now buf q = (rs, (buf', q')) ->
  (stream q' = [] -> split_eol eol buf' = None -> parsed eol (buf ++ stream q) (lines_of rs) buf') /\
  (forall ls t, parsed eol (buf' ++ stream q') ls t -> parsed eol (buf ++ stream q) (lines_of rs ++ ls) t).
Proof.
  intros. split; [intros; eapply rl_run_parsed; eauto|intros; eapply rl_run_prefix; eauto].
Qed.

(* one call: what readline / readbytes take from the socket is a prefix of the queue consisting of chunks; a returned
   line is the split of (buffer ++ these chunks) at the first end-of-line, the rest stays in the buffer; a failed call
   keeps everything it received in the buffer *)
Theorem C16_readline_takes_chunks : forall fuel eol slice endt now buf q res t buf' q',
  readline_loop fuel eol slice endt now buf q = (res, t, buf', q') ->
  exists taken, q = taken ++ q' /\ Forall is_chunk taken /\
    match res with
    | UData l => split_eol eol (buf ++ payload taken) = Some (l, buf')
    | _ => buf' = buf ++ payload taken
    end.
Proof. exact readline_loop_took. Qed.

Theorem C16_readbytes_takes_chunks : forall fuel n slice endt now buf q res t buf' q',
  readbytes_loop fuel n slice endt now buf q = (res, t, buf', q') ->
  exists taken, q = taken ++ q' /\ Forall is_chunk taken /\
    match res with
    | UData l => frame_n n (buf ++ payload taken) = Some (l, buf')
    | _ => buf' = buf ++ payload taken
    end.
Proof. exact readbytes_loop_took. Qed.

(* flush_recv on a first-in-first-out socket queue: afterwards _rxbuffer is empty, everything that had arrived is gone from
   the socket (and was returned as garbage together with the old buffer), everything left arrives later; and whatever a
   later readline / readbytes returns and leaves in the buffer consists only of chunks that arrived after the flush *)
Theorem C16_flush_empties : forall now buf q g buf' q', fifo q -> tcp_flush now buf q = (UData g, buf', q') ->
  buf' = [] /\
  (exists gone, q = gone ++ q' /\ Forall is_chunk gone /\ Forall (fun it => arrival_of it <= now) gone /\
                g = buf ++ payload gone) /\
  Forall (fun it => now < arrival_of it) q' /\
  (forall fuel eol slice endt now2 l t b2 q2,
     readline_loop fuel eol slice endt now2 buf' q' = (UData l, t, b2, q2) ->
     exists taken, q' = taken ++ q2 /\ Forall is_chunk taken /\ Forall (fun it => now < arrival_of it) taken /\
                   payload taken = l ++ eol ++ b2) /\
  (forall fuel n slice endt now2 l t b2 q2,
     readbytes_loop fuel n slice endt now2 buf' q' = (UData l, t, b2, q2) ->
     exists taken, q' = taken ++ q2 /\ Forall is_chunk taken /\ Forall (fun it => now < arrival_of it) taken /\
                   payload taken = l ++ b2 /\ length l = n).
Proof.
  intros now buf q g buf' q' F H. unfold tcp_flush in H.
  destruct (flush_loop now q buf) as [[g0|] q0] eqn:FL; inversion H; subst g0 buf' q0.
  destruct (flush_loop_spec _ _ _ _ _ F FL) as (gone & E & C & A & G & L).
  split; [reflexivity|]. split; [exists gone; auto|]. split; [exact L|]. split.
  - intros fuel eol slice endt now2 l t b2 q2 R. apply readline_loop_took in R.
    destruct R as (taken & E2 & C2 & T). simpl in T. exists taken. repeat split; auto.
    + rewrite E2 in L. apply Forall_app in L. apply L.
    + apply split_eol_spec. exact T.
  - intros fuel n slice endt now2 l t b2 q2 R. apply readbytes_loop_took in R.
    destruct R as (taken & E2 & C2 & T). simpl in T. unfold frame_n in T.
    destruct (Nat.ltb (length (payload taken)) n) eqn:LT; [discriminate|]. inversion T; subst l b2.
    exists taken. repeat split; auto.
    + rewrite E2 in L. apply Forall_app in L. apply L.
    + symmetry. apply firstn_skipn.
    + apply firstn_length_le. apply Nat.ltb_ge. exact LT.
Qed.

(* the flush loop is `while select: recv` (each pass one AsynTcp.recv that returns at once), and it is the flush of the
   transition system *)
Theorem C16_flush_loop_is_select_recv : forall slice now q acc, 0 <= slice ->
  (sock_readable now q = true ->
     flush_loop now q acc = match tcp_recv slice now q with
                            | (RxData d, _, q') => flush_loop now q' (acc ++ d)
                            | (_, _, _) => (None, q)
                            end /\ snd (fst (tcp_recv slice now q)) = now) /\
  (sock_readable now q = false -> flush_loop now q acc = (Some acc, q)) /\
  (Forall no_empty_chunk q ->
     match flush_loop now q acc with
     | (Some _, q') => flush now q = (false, q')
     | (None, q') => flush now q = (true, q')
     end).
Proof.
  intros slice now q acc SL. unfold sock_readable, head_ready. split; [|split].
  - intros R. destruct q as [|[a p] r]; [discriminate|].
    assert (E2 : (a <=? now + slice) = true) by (apply Z.leb_le; apply Z.leb_le in R; lia).
    unfold tcp_recv, sock_recv. simpl flush_loop. rewrite R, E2.
    apply Z.leb_le in R. destruct p as [[|b d]|]; simpl; split; try reflexivity; lia.
  - intros R. destruct q as [|[a p] r]; [reflexivity|]. simpl. rewrite R. reflexivity.
  - revert acc. induction q as [|[a p] r IH]; intros acc F; simpl; [reflexivity|].
    inversion F as [|? ? NE F']; subst.
    destruct (a <=? now); [|destruct p; reflexivity].
    destruct p as [[|b d]|]; [destruct NE| |reflexivity]. apply IH. exact F'.
Qed.

(* the receive loops end: with a slice of at least one tick the pass budget of readline / readbytes is never used up *)
Theorem C16_receive_loops_terminate : forall slice timeout now buf q, 1 <= slice ->
  (forall eol, fst (fst (fst (readline eol slice timeout now buf q))) <> UFuel) /\
  (forall n, fst (fst (fst (readbytes n slice timeout now buf q))) <> UFuel).
Proof. intros. split; intros; [apply readline_terminates|apply readbytes_terminates]; assumption. Qed.

(* non-vacuity: "ab\r\ncd\r\nx" cut in two ways (inside the end-of-line, with empty slices in between), read by different
   scripts *)
Example C16_chunking_example :
  let eol := [13; 10]%N in
  let q1 := [mkItem 0 (Some [97; 98; 13]%N); mkItem 1 (Some [10; 99; 100; 13; 10]%N); mkItem 20 (Some [120]%N)] in
  let q2 := [mkItem 0 (Some [97]%N); mkItem 0 (Some [98; 13; 10; 99]%N); mkItem 5 (Some [100; 13]%N);
             mkItem 30 (Some [10; 120]%N)] in
  let calls1 := [(50%nat, 0, None); (50%nat, 0, None); (50%nat, 0, None); (50%nat, 0, None); (50%nat, 0, None)] in
  let calls2 := [(50%nat, 0, Some 16); (50%nat, 3, Some 60); (50%nat, 0, Some 90)] in
  stream q1 = stream q2 /\
  rl_run eol 8 calls1 0 [] q1 = ([UData [97; 98]%N; UData [99; 100]%N; UNone; UNone; UNone], ([120]%N, [])) /\
  rl_run eol 8 calls2 0 [] q2 = ([UData [97; 98]%N; UData [99; 100]%N; UTimeout], ([120]%N, [])).
Proof. vm_compute. repeat split; reflexivity. Qed.

Example C16_attempts_example :
  let x := {| x_id := 1; x_emit := []; x_close := None; x_n := 0; x_delay := 0; x_noreply := false;
              x_wait := 0; x_pre := [] |} in
  let progs := [[OSingle x; OPause 4; OSingle x; OPause 40; OSingle x]] in
  let sched := [(TC 0%nat, 100, false); (TC 0%nat, 100, false); (TC 0%nat, 100, false); (TC 0%nat, 104, false);
                (TC 0%nat, 144, false)] in
  attempts MBytes 16 32 8 (init progs [true; true] [] false) sched = [100; 144].
Proof. vm_compute. reflexivity. Qed.

(* non-vacuity for wait_before: a line communicator with wait_before = 2 ticks; c1 is silent (time-out 16), its late reply
   "r1" arrives at 118, inside the pause of the next command c2 (lock at 117, send at 119): it is gone when c2 is
   written, c2 gets its own reply "r2"; the two-line command c3+c4 is written as two lines with a sleep in front of each *)
Example C16_wait_before_example :
  let x1 := {| x_id := 1; x_emit := [(18, [114; 49; 10]%N)]; x_close := None; x_n := 0; x_delay := 0; x_noreply := false;
               x_wait := 2; x_pre := [] |} in
  let x2 := {| x_id := 2; x_emit := [(1, [114; 50; 10]%N)]; x_close := None; x_n := 0; x_delay := 0; x_noreply := false;
               x_wait := 2; x_pre := [] |} in
  let x4 := {| x_id := 4; x_emit := [(0, [114; 52; 10]%N)]; x_close := None; x_n := 0; x_delay := 0; x_noreply := false;
               x_wait := 2; x_pre := [(3%nat, [], None)] |} in
  let t := TC 0%nat in
  let sched := [(t, 98, false); (t, 98, false); (t, 98, false); (t, 98, false); (t, 100, false); (t, 100, false);
                (t, 108, false); (t, 116, false); (t, 117, false); (t, 119, false); (t, 119, false); (t, 120, false);
                (t, 120, false); (t, 122, false); (t, 122, false); (t, 124, false); (t, 124, false); (t, 124, false)] in
  let st := run (MLine [10%N]) 16 32 8 (init [[OSingle x1; OSingle x2; OSingle x4]] [] [] false) sched in
  map outs (callers st) = [[RFail; ROk [[114; 50]%N]; ROk [[114; 52]%N]]] /\
  sendlog (sh st) = [(0, 1, 1); (0, 2, 1); (0, 3, 1); (0, 4, 1)]%nat.
Proof. vm_compute. split; reflexivity. Qed.

Print Assumptions C16_source_facts.
Print Assumptions C16_mutual_exclusion.
Print Assumptions C16_transaction_atomic.
Print Assumptions C16_stale_discarded.
Print Assumptions C16_wait_before.
Print Assumptions C16_wait_before_example.
Print Assumptions C16_reply_is_first_frame_received.
Print Assumptions C16_framing_chunking.
Print Assumptions C16_frame_is_split_at_eol.
Print Assumptions C16_timeout_bound.
Print Assumptions C16_delays_honoured.
Print Assumptions C16_reconnect_rate.
Print Assumptions C16_state_visible.
Print Assumptions C16_callbacks_once.
Print Assumptions C16_error_stored_while_disconnected.
Print Assumptions C16_polling_resumes.
Print Assumptions C16_reconnect_rate_global.
Print Assumptions C16_state_visible_global.
Print Assumptions C16_connect_exclusive.
Print Assumptions C16_readline_chunking_full.
Print Assumptions C16_readline_returns_the_lines_of_the_stream.
Print Assumptions C16_readline_takes_chunks.
Print Assumptions C16_readbytes_takes_chunks.
Print Assumptions C16_flush_empties.
Print Assumptions C16_flush_loop_is_select_recv.
Print Assumptions C16_receive_loops_terminate.
