(* C16 - the receive layer (RxModel.v): what a call takes from the socket, the sequence of lines of a byte stream,
   flush_recv, termination of the loops, and the link to the clock-free receive loop used by the transition system
   (Framing.read_loop). *)
From Coq Require Import List Arith ZArith NArith Bool Lia.
Import ListNotations.
Require Import FV.C16.Model FV.C16.Framing FV.C16.RxModel.
Open Scope Z_scope.

(* a chunk of data (not the end of the stream) *)
Definition is_chunk (it : item) : Prop := exists a b d, it = mkItem a (Some (b :: d)).

Fixpoint payload (l : list item) : list N :=
  match l with
  | [] => []
  | mkItem _ (Some d) :: r => d ++ payload r
  | mkItem _ None :: r => payload r
  end.

(* the bytes the socket will still deliver: the chunks up to the end of the stream *)
Fixpoint stream (q : list item) : list N :=
  match q with
  | mkItem _ (Some (b :: d)) :: r => (b :: d) ++ stream r
  | _ => []
  end.

Lemma payload_app : forall a b, payload (a ++ b) = payload a ++ payload b.
Proof.
  induction a as [|[t [d|]] a IH]; intros b; simpl; [reflexivity| |apply IH]. rewrite IH. apply app_assoc.
Qed.

Lemma stream_app : forall taken q, Forall is_chunk taken -> stream (taken ++ q) = payload taken ++ stream q.
Proof.
  induction taken as [|it taken IH]; intros q F; [reflexivity|].
  inversion F as [|? ? (a & b & d & ->) F']; subst. simpl. rewrite (IH q F'). rewrite app_assoc. reflexivity.
Qed.

Lemma tcp_recv_cases : forall slice now q r t q', tcp_recv slice now q = (r, t, q') ->
  (exists a b d, q = mkItem a (Some (b :: d)) :: q' /\ r = RxData (b :: d) /\ t = Z.max now a /\ a <= now + slice) \/
  (r = RxClosed /\ q' = q /\ stream q = [] /\ now <= t) \/
  (r = RxEmpty /\ q' = q /\ t = now + slice).
Proof.
  intros slice now q r t q' H. unfold tcp_recv, sock_recv in H.
  destruct q as [|[a [[|b d]|]] rest].
  - inversion H; subst. right; right. auto.
  - destruct (a <=? now + slice) eqn:E; inversion H; subst.
    + right; left. repeat split; auto. lia.
    + right; right. auto.
  - destruct (a <=? now + slice) eqn:E; inversion H; subst.
    + left. exists a, b, d. repeat split; auto. apply Z.leb_le. exact E.
    + right; right. auto.
  - destruct (a <=? now + slice) eqn:E; inversion H; subst.
    + right; left. repeat split; auto. lia.
    + right; right. auto.
Qed.

(* readline and readbytes are one loop: return the frame when the buffer holds one, else receive once and look again *)
Fixpoint rx_loop (frame : list N -> option (list N * list N)) (fuel : nat) (slice : Z) (endt : option Z) (now : Z)
                 (buf : list N) (q : list item) : rxout * Z * list N * list item :=
  match fuel with
  | O => (UFuel, now, buf, q)
  | S f =>
      match frame buf with
      | Some (l, rest) => (UData l, now, rest, q)
      | None =>
          let '(r, t, q') := tcp_recv slice now q in
          match r with
          | RxData d => rx_loop frame f slice endt t (buf ++ d) q'
          | RxClosed => (UClosed, t, buf, q')
          | RxEmpty =>
              match endt with
              | Some e => if t <? e then rx_loop frame f slice endt t buf q' else (UTimeout, t, buf, q')
              | None => (UNone, t, buf, q')
              end
          end
      end
  end.

Definition frame_n (n : nat) (buf : list N) : option (list N * list N) :=
  if Nat.ltb (length buf) n then None else Some (firstn n buf, skipn n buf).

Lemma readline_is_rx_loop : forall fuel eol slice endt now buf q,
  readline_loop fuel eol slice endt now buf q = rx_loop (split_eol eol) fuel slice endt now buf q.
Proof.
  induction fuel as [|f IH]; intros; simpl; [reflexivity|].
  destruct (split_eol eol buf) as [[l r]|]; [reflexivity|].
  destruct (tcp_recv slice now q) as [[[d| |] t] q']; rewrite ?IH; reflexivity.
Qed.

Lemma readbytes_is_rx_loop : forall fuel n slice endt now buf q,
  readbytes_loop fuel n slice endt now buf q = rx_loop (frame_n n) fuel slice endt now buf q.
Proof.
  induction fuel as [|f IH]; intros; simpl; [reflexivity|]. unfold frame_n.
  destruct (Nat.ltb (length buf) n); [|reflexivity].
  destruct (tcp_recv slice now q) as [[[d| |] t] q']; rewrite ?IH; reflexivity.
Qed.

(* what a call takes from the socket: a prefix of the queue consisting of chunks; a returned frame is cut from
   buffer ++ these chunks, a call that returns none keeps all of it in the buffer *)
Definition took (buf : list N) (q : list item) (buf' : list N) (q' : list item) (frame : list N -> option (list N * list N))
                (res : rxout) : Prop :=
  exists taken, q = taken ++ q' /\ Forall is_chunk taken /\
    match res with
    | UData l => frame (buf ++ payload taken) = Some (l, buf')
    | _ => buf' = buf ++ payload taken
    end.

Lemma took_cons : forall a b d buf q buf' q' frame res,
  took (buf ++ b :: d) q buf' q' frame res -> took buf (mkItem a (Some (b :: d)) :: q) buf' q' frame res.
Proof.
  intros a b d buf q buf' q' frame res (taken & E & F & H).
  exists (mkItem a (Some (b :: d)) :: taken). split; [simpl; rewrite E; reflexivity|]. split.
  - constructor; [exists a, b, d; reflexivity|exact F].
  - change (payload (mkItem a (Some (b :: d)) :: taken)) with ((b :: d) ++ payload taken).
    rewrite app_assoc. exact H.
Qed.

Lemma took_nil_keep : forall buf q frame res, (forall l, res <> UData l) -> took buf q buf q frame res.
Proof.
  intros buf q frame res NL. exists []. split; [reflexivity|]. split; [constructor|].
  simpl. rewrite app_nil_r. destruct res; try reflexivity. exfalso. eapply NL. reflexivity.
Qed.

Lemma rx_loop_took : forall frame fuel slice endt now buf q res t buf' q',
  rx_loop frame fuel slice endt now buf q = (res, t, buf', q') -> took buf q buf' q' frame res.
Proof.
  intros frame. induction fuel as [|f IH]; intros slice endt now buf q res t buf' q' H; simpl in H.
  - inversion H; subst. apply took_nil_keep. discriminate.
  - destruct (frame buf) as [[l rest]|] eqn:S.
    + inversion H; subst. exists []. split; [reflexivity|]. split; [constructor|]. simpl. rewrite app_nil_r. exact S.
    + destruct (tcp_recv slice now q) as [[r t1] q1] eqn:R.
      apply tcp_recv_cases in R. destruct R as [(a & b & d & -> & -> & -> & _)|[(-> & -> & _)|(-> & -> & ->)]].
      * apply took_cons. eapply IH. exact H.
      * inversion H; subst. apply took_nil_keep. discriminate.
      * destruct endt as [e|].
        { destruct (now + slice <? e); [eapply IH; exact H|]. inversion H; subst. apply took_nil_keep. discriminate. }
        { inversion H; subst. apply took_nil_keep. discriminate. }
Qed.

Lemma readline_loop_took : forall fuel eol slice endt now buf q res t buf' q',
  readline_loop fuel eol slice endt now buf q = (res, t, buf', q') ->
  took buf q buf' q' (split_eol eol) res.
Proof. intros until q'. rewrite readline_is_rx_loop. apply rx_loop_took. Qed.

Lemma readbytes_loop_took : forall fuel n slice endt now buf q res t buf' q',
  readbytes_loop fuel n slice endt now buf q = (res, t, buf', q') ->
  took buf q buf' q' (frame_n n) res.
Proof. intros until q'. rewrite readbytes_is_rx_loop. apply rx_loop_took. Qed.

(* parsed eol s ls t: the byte string s consists of the lines ls, each closed by eol, and the incomplete rest t *)
Inductive parsed (eol : list N) : list N -> list (list N) -> list N -> Prop :=
| P_end : forall s, split_eol eol s = None -> parsed eol s [] s
| P_line : forall s l r ls t, split_eol eol s = Some (l, r) -> parsed eol r ls t -> parsed eol s (l :: ls) t.

Lemma parsed_fun : forall eol s ls t, parsed eol s ls t -> forall ls' t', parsed eol s ls' t' -> ls = ls' /\ t = t'.
Proof.
  intros eol s ls t H. induction H as [s S|s l r ls t S H IH]; intros ls' t' H'.
  - inversion H' as [? S'|? ? ? ? ? S' ?]; subst; [auto|congruence].
  - inversion H' as [? S'|? l2 r2 ls2 ? S' H2]; subst; [congruence|].
    rewrite S in S'. inversion S'; subst. destruct (IH _ _ H2) as [-> ->]. auto.
Qed.

(* a script of readline calls on one connection: per call the number of passes allowed, the time that passes before
   the call, the deadline (None = no time-out given); all of them arbitrary *)
Fixpoint rl_run (eol : list N) (slice : Z) (calls : list (nat * Z * option Z)) (now : Z) (buf : list N) (q : list item)
  : list rxout * (list N * list item) :=
  match calls with
  | [] => ([], (buf, q))
  | (fuel, w, endt) :: r =>
      let '(res, t, buf', q') := readline_loop fuel eol slice endt (now + w) buf q in
      let '(rs, fin) := rl_run eol slice r t buf' q' in (res :: rs, fin)
  end.

Definition lines_of (rs : list rxout) : list (list N) :=
  flat_map (fun r => match r with UData l => [l] | _ => [] end) rs.

(* at any moment: the lines returned so far are a prefix of the lines of the stream, what is left to come is
   buffer ++ stream *)
Lemma rl_run_prefix : forall eol slice calls now buf q rs buf' q' ls t, eol <> [] ->
  rl_run eol slice calls now buf q = (rs, (buf', q')) ->
  parsed eol (buf' ++ stream q') ls t -> parsed eol (buf ++ stream q) (lines_of rs ++ ls) t.
Proof.
  intros eol slice calls. induction calls as [|[[fuel w] endt] r IH]; intros now buf q rs buf' q' ls t NE H P; simpl in H.
  - inversion H; subst. exact P.
  - destruct (readline_loop fuel eol slice endt (now + w) buf q) as [[[res t1] b1] q1] eqn:R.
    destruct (rl_run eol slice r t1 b1 q1) as [rs1 fin] eqn:RR. inversion H; subst rs fin.
    specialize (IH _ _ _ _ _ _ _ _ NE RR P).
    apply readline_loop_took in R. destruct R as (taken & -> & F & T).
    rewrite (stream_app _ _ F), app_assoc.
    destruct res; try (subst b1; exact IH).
    simpl. eapply P_line; [|exact IH]. apply split_eol_app; assumption.
Qed.

(* when everything the socket delivers has been taken and no complete line is left in the buffer, the lines returned
   (whatever calls failed in between) are the lines of buffer ++ stream and the buffer is the incomplete rest *)
Lemma rl_run_parsed : forall eol slice calls now buf q rs buf' q', eol <> [] ->
  rl_run eol slice calls now buf q = (rs, (buf', q')) -> stream q' = [] -> split_eol eol buf' = None ->
  parsed eol (buf ++ stream q) (lines_of rs) buf'.
Proof.
  intros eol slice calls now buf q rs buf' q' NE H SQ SB. rewrite <- (app_nil_r (lines_of rs)).
  eapply rl_run_prefix; eauto. rewrite SQ, app_nil_r. constructor. exact SB.
Qed.

Fixpoint fifo (q : list item) : Prop :=
  match q with
  | a :: (b :: _) as r => arrival_of a <= arrival_of b /\ fifo r
  | _ => True
  end.

Lemma fifo_later : forall q a, fifo (a :: q) -> Forall (fun it => arrival_of a <= arrival_of it) q.
Proof.
  induction q as [|b q IH]; intros a F; [constructor|]. simpl in F. destruct F as [AB F].
  constructor; [exact AB|]. eapply Forall_impl; [|apply (IH b F)]. simpl. intros c H. lia.
Qed.

Lemma flush_loop_spec : forall now q acc g q', fifo q -> flush_loop now q acc = (Some g, q') ->
  exists taken, q = taken ++ q' /\ Forall is_chunk taken /\ Forall (fun it => arrival_of it <= now) taken /\
                g = acc ++ payload taken /\ Forall (fun it => now < arrival_of it) q'.
Proof.
  intros now q. induction q as [|[a p] r IH]; intros acc g q' F H; simpl in H.
  - inversion H; subst. exists []. simpl. rewrite app_nil_r. repeat split; constructor.
  - destruct (a <=? now) eqn:E.
    + destruct p as [[|b d]|]; try discriminate.
      assert (F' : fifo r) by (destruct r; [exact I|apply F]).
      destruct (IH _ _ _ F' H) as (taken & -> & C & A & -> & L).
      exists (mkItem a (Some (b :: d)) :: taken). repeat split; auto.
      * constructor; [exists a, b, d; reflexivity|exact C].
      * constructor; [simpl; apply Z.leb_le; exact E|exact A].
      * simpl. rewrite <- app_assoc. reflexivity.
    + inversion H; subst. exists []. simpl. rewrite app_nil_r. repeat split; try constructor.
      * simpl. apply Z.leb_gt. exact E.
      * apply Z.leb_gt in E. eapply Forall_impl; [|apply (fifo_later _ _ F)]. simpl. intros c H1. lia.
Qed.

(* Model.flush takes every `Some d` for data; the receive layer reads an empty byte string as the end of the stream *)
Definition no_empty_chunk (it : item) : Prop := match it with mkItem _ (Some []) => False | _ => True end.

(* the loops end: with a slice of at least one tick the number of passes computed by rx_fuel is never used up *)
Lemma rx_loop_ends : forall frame fuel slice endt now buf q, 1 <= slice ->
  (rx_fuel endt now q <= fuel)%nat ->
  fst (fst (fst (rx_loop frame fuel slice endt now buf q))) <> UFuel.
Proof.
  intros frame. induction fuel as [|f IH]; intros slice endt now buf q SL B; unfold rx_fuel in *; [lia|]. simpl.
  destruct (frame buf) as [[l rest]|]; [simpl; discriminate|].
  destruct (tcp_recv slice now q) as [[r t1] q1] eqn:R.
  apply tcp_recv_cases in R. destruct R as [(a & b & d & -> & -> & -> & _)|[(-> & -> & _)|(-> & -> & ->)]].
  - apply IH; [exact SL|]. simpl in B. destruct endt; lia.
  - simpl. discriminate.
  - destruct endt as [e|]; [|simpl; discriminate].
    destruct (now + slice <? e) eqn:LT; [|simpl; discriminate].
    apply IH; [exact SL|]. apply Z.ltb_lt in LT. lia.
Qed.

Lemma readline_terminates : forall eol slice timeout now buf q, 1 <= slice ->
  fst (fst (fst (readline eol slice timeout now buf q))) <> UFuel.
Proof.
  intros. unfold readline. rewrite readline_is_rx_loop. apply rx_loop_ends; [assumption|apply le_n].
Qed.

Lemma readbytes_terminates : forall n slice timeout now buf q, 1 <= slice ->
  fst (fst (fst (readbytes n slice timeout now buf q))) <> UFuel.
Proof.
  intros. unfold readbytes. rewrite readbytes_is_rx_loop. apply rx_loop_ends; [assumption|apply le_n].
Qed.

(* link to the clock-free receive loop of Framing.v (what the receive steps of the transition system compute): a line
   returned by readline is the frame read_loop finds in the chunks taken *)
Lemma readline_is_first_frame : forall fuel eol slice endt now buf q l t buf' q', eol <> [] ->
  readline_loop fuel eol slice endt now buf q = (UData l, t, buf', q') ->
  exists taken, q = taken ++ q' /\ try_frame (MLine eol) 0 (buf ++ payload taken) = Some (l, buf').
Proof.
  intros fuel eol slice endt now buf q l t buf' q' NE H. apply readline_loop_took in H.
  destruct H as (taken & E & _ & T). exists taken. split; [exact E|exact T].
Qed.
