(* C16 - non-vacuity of the property theorems of Properties.v: for every theorem with premises, a concrete instance that
   satisfies them (or a direct application of the theorem at that instance).  The instance for the transition system is
   one run of two callers and the poll thread over 34 steps in line mode: a refused first connection attempt made by the
   poll thread, a multicomm of two commands with a delay and stale bytes left behind by the device, a caller parked at
   the communicator lock and one parked at accessLock while another thread owns it, a device that closes the connection
   in the middle of a reply, a reconnect made by the poll thread that runs the callbacks, a call that times out on a
   silent device; every step of the schedule is enabled and the run ends with every caller at CDone (the shape of the
   traces the harness feeds to Run.check_case).  Tests only - nothing here is cited by a property theorem. *)
From Coq Require Import List Arith ZArith NArith Bool Lia.
Import ListNotations.
Require Import FV.Gen.C16 FV.C16.Model FV.C16.Run FV.C16.Framing FV.C16.Lemmas FV.C16.Global FV.C16.RxModel FV.C16.RxLemmas
               FV.C16.Properties.
Open Scope Z_scope.

Ltac fin := vm_compute; first [reflexivity | discriminate | lia | exact I | (repeat constructor; fail)].
Ltac fins := vm_compute; repeat split; first [reflexivity | discriminate | lia | exact I].

Definition MD := MLine [10%N].
Definition xa := {| x_id := 1; x_emit := [(1, [97%N]); (2, [10%N; 99%N]); (6, [100%N; 10%N])]; x_close := None; x_n := 0;
                    x_delay := 3; x_noreply := false; x_wait := 0; x_pre := [] |}.
Definition xb := {| x_id := 2; x_emit := [(1, [98%N; 10%N])]; x_close := None; x_n := 0; x_delay := 0; x_noreply := false; x_wait := 0; x_pre := [] |}.
Definition xc := {| x_id := 3; x_emit := []; x_close := None; x_n := 0; x_delay := 0; x_noreply := false; x_wait := 0; x_pre := [] |}.
Definition xd := {| x_id := 4; x_emit := [(1, [101%N])]; x_close := Some 2; x_n := 0; x_delay := 0; x_noreply := false; x_wait := 0; x_pre := [] |}.
Definition xe := {| x_id := 5; x_emit := [(1, [102%N; 10%N])]; x_close := None; x_n := 0; x_delay := 0; x_noreply := false; x_wait := 0; x_pre := [] |}.
Definition progs := [[OMulti [xa; xb]; OPause 40; OSingle xc]; [OPause 2; OSingle xd; OPause 50; OSingle xe]].
Definition rf := [true; false; false].
Definition cb := [(1%nat, CbTrue); (2%nat, CbFalse); (3%nat, CbRaise)].
Definition sched : list (tid * Z * bool) :=
  [(TP,100,true); (TP,100,false); (TC 0,100,false); (TC 1,100,false); (TC 0,100,false);
   (TP,101,false); (TC 0,101,false); (TC 0,102,false); (TC 1,102,false); (TC 0,102,false);
   (TC 0,103,false); (TC 0,104,false); (TC 0,105,false); (TC 0,108,false); (TC 0,110,false);
   (TC 0,110,false); (TC 0,111,false); (TC 1,111,false); (TC 1,112,false); (TC 1,113,false);
   (TC 1,114,false); (TP,120,true); (TP,120,false); (TC 0,151,false); (TP,152,false);
   (TC 0,152,false); (TC 0,152,false); (TC 0,153,false); (TC 0,161,false); (TC 0,169,false);
   (TC 1,169,false); (TC 1,170,false); (TC 1,170,false); (TC 1,171,false)].
(* the state before step n of the schedule *)
Definition at_ (n : nat) : state := run MD 16 32 8 (init progs rf cb true) (firstn n sched).
Definition cdummy : cst := mk CDone [] false [] [] [].
Definition cl (n i : nat) : cst := nth i (callers (at_ n)) cdummy.

(* the run is a trace of the kind Run.check_case accepts: every step enabled, parked at the expected label, all callers
   done at the end, with the observations listed *)
Example C16_run_is_a_harness_case :
  check_case {| c_mode := MD; c_timeout := 16; c_interval := 32; c_progs := progs; c_refuse := rf; c_cbs := cb;
                c_poller := true;
                c_trace := map (fun nx => (fst (fst (snd nx)), label_of (at_ (fst nx)) (fst (fst (snd nx))),
                                            snd (fst (snd nx)), snd (snd nx))) (combine (seq 0 34) sched);
                c_outs := [[ROk [[97%N]; [98%N]]; RFail]; [RFail; ROk [[102%N]]]];
                c_sends := [(0, 1, 1); (0, 2, 1); (1, 4, 1); (0, 3, 2); (1, 5, 2)]%nat;
                c_cblog := [1; 2; 3; 99; 1; 99]%nat; c_ann := [true; false; true];
                c_connected := true; c_conn := true; c_nconn := 2; c_cbkeys := [1; 99]%nat; c_lasterr := true;
                c_lastatt := 151 |} = true.
Proof. vm_compute. reflexivity. Qed.

(* before step 10 caller 0 is at its send inside a multicomm (lock held twice) while caller 1 is parked at the lock and
   cannot take a step *)
Example C16_mutual_exclusion_applies :
  0%nat = 0%nat /\ lock_owner (sh (at_ 10)) = Some 0%nat /\ lock_cnt (sh (at_ 10)) = cnt_of (cl 10 0).
Proof.
  apply (C16_mutual_exclusion MD 16 32 8 progs rf cb true (firstn 10 sched) 0 0 (cl 10 0) (cl 10 0)); fin.
Qed.
Example C16_nonvacuous_mutual_exclusion :
  cnt_of (cl 10 0) = 2%nat /\ label_of (at_ 10) (TC 0) = LSend /\ label_of (at_ 10) (TC 1) = LLock /\
  enabled (at_ 10) (TC 1) 103 = false /\
  (* later caller 1 owns the lock and caller 0 waits *)
  cnt_of (cl 19 1) = 1%nat /\ lock_owner (sh (at_ 19)) = Some 1%nat.
Proof. fins. Qed.

Example C16_transaction_atomic_applies :
  exists i c, fst (fst (TC 0, 103, false)) = TC i /\ nth_error (callers (at_ 10)) i = Some c /\ is_send (pc c) /\
              lock_owner (sh (at_ 10)) = Some i.
Proof. apply (C16_transaction_atomic MD 16 32 8 progs rf cb true (firstn 10 sched) (TC 0, 103, false)). fin. Qed.

(* before step 14 caller 0 is at the inner lock of the second command of its multicomm; the buffer holds the byte that
   followed the first reply and one more chunk is readable *)
Example C16_stale_discarded_applies :
  let s := sh (at_ 14) in let c := cl 14 0 in
  let r := caller_step MD 16 32 8 0 110 s c in
  rxbuf s = [99%N] /\ head_ready 110 (queue s) = true /\ rxbuf (fst r) = [] /\ head_ready 110 (queue (fst r)) = false.
Proof.
  intros s c r. split; [fin|]. split; [fin|].
  apply (C16_stale_discarded MD 16 32 8 0%nat 110 s c (fst r) (snd r)); [left; fins|fin|fin].
Qed.

Example C16_nonvacuous_reply_is_first_frame_received :
  (* a chunk that completes the frame *)
  (pc (cl 12 0) = CRecv 119 112 /\
   queue (sh (at_ 12)) = mkItem 105 (Some [10%N; 99%N]) :: [mkItem 109 (Some [100%N; 10%N])] /\ 105 <= 105 /\
   try_frame MD (x_n (cur_x (cl 12 0))) (rxbuf (sh (at_ 12)) ++ [10%N; 99%N]) = Some ([97%N], [99%N])) /\
  (* a chunk that does not *)
  (pc (cl 11 0) = CRecv 119 111 /\
   queue (sh (at_ 11)) = mkItem 104 (Some [97%N]) :: [mkItem 105 (Some [10%N; 99%N]); mkItem 109 (Some [100%N; 10%N])] /\
   104 <= 104 /\ try_frame MD (x_n (cur_x (cl 11 0))) (rxbuf (sh (at_ 11)) ++ [97%N]) = None).
Proof. fins. Qed.

Example C16_framing_chunking_applies :
  forall l1 l2,
  read_loop (MLine [13%N; 10%N]) 0 [] [[97%N; 98%N; 13%N]; [10%N; 99%N]] = Some l1 ->
  read_loop (MLine [13%N; 10%N]) 0 [] [[97%N]; [98%N; 13%N; 10%N; 99%N]] = Some l2 -> l1 = l2.
Proof. intros l1 l2. apply C16_framing_chunking; [simpl; discriminate|reflexivity]. Qed.
Example C16_nonvacuous_framing_chunking :
  mode_ok (MLine [13%N; 10%N]) /\ mode_ok MBytes /\
  read_loop (MLine [13%N; 10%N]) 0 [] [[97%N; 98%N; 13%N]; [10%N; 99%N]] = Some [97%N; 98%N] /\
  read_loop (MLine [13%N; 10%N]) 0 [] [[97%N]; [98%N; 13%N; 10%N; 99%N]] = Some [97%N; 98%N] /\
  read_loop MBytes 3 [] [[97%N]; [98%N]; [99%N; 100%N]] = Some [97%N; 98%N; 99%N] /\
  read_loop MBytes 3 [] [[97%N; 98%N; 99%N; 100%N]] = Some [97%N; 98%N; 99%N].
Proof. fins. Qed.
Example C16_nonvacuous_frame_is_split_at_eol :
  split_eol [13%N; 10%N] [97%N; 13%N; 10%N; 98%N] = Some ([97%N], [98%N]).
Proof. fins. Qed.

(* before step 28 caller 0 waits for the reply of the silent command, deadline 169, next slice 161, nothing queued *)
Example C16_nonvacuous_timeout_bound :
  pc (cl 28 0) = CRecv 169 161 /\ 161 <= 161 /\
  (head_ready 169 (queue (sh (at_ 28))) = false /\ 169 <= 169) /\
  (head_ready 161 (queue (sh (at_ 28))) = false /\ 161 < 169) /\
  enabled (at_ 28) (TC 0) 160 = false.
Proof. fins. Qed.

Example C16_delays_honoured_applies :
  let q := finish_exch 32 105 (sh (at_ 12)) (cl 12 0) (Some [97%N]) in
  pc (snd q) = CSleepX (105 + x_delay xa) /\ cur (snd q) = xa :: [xb] /\
  (forall now' s', caller_enabled 0%nat now' s' (snd q) = true -> 105 + x_delay xa <= now').
Proof. apply (C16_delays_honoured 32 0%nat 105 (sh (at_ 12)) (cl 12 0) (Some [97%N]) xa [xb]); fin. Qed.

Example C16_nonvacuous_reconnect_rate :
  (* connected *)
  (exists s', begin_exch 32 102 (sh (at_ 9)) = Some (s', CLock)) /\
  (* disconnected, last attempt at 100, one interval later *)
  (exists s', begin_exch 32 151 (sh (at_ 23)) = Some (s', CAccess)) /\
  (* disconnected, within the interval *)
  (connected (sh (at_ 23)) = false /\ 120 < last_attempt (sh (at_ 23)) + 32).
Proof. split; [eexists; fin|]. split; [eexists; fin|]. fins. Qed.

(* step 24: the poll thread re-establishes the connection that the device closed at 114 *)
Example C16_callbacks_once_applies :
  let st := at_ 24 in let st' := step MD 16 32 8 st (TP, 152, false) in
  cblog (sh st') = cblog (sh st) ++ map fst (cbs (sh st)) /\
  cbs (sh st') = filter (fun kc => cb_keeps (snd kc)) (cbs (sh st)) /\
  connected (sh st') = true /\ nconn (sh st') = S (nconn (sh st)).
Proof. apply (C16_callbacks_once MD 16 32 8 progs rf cb true (firstn 24 sched) (TP, 152, false)); fin. Qed.

(* a second run in which callbacks of every kind are still registered at the reconnect (the first connection is made
   without a stored error, hence without calling them): one caller, the device closes, the caller reconnects itself *)
Definition progs2 := [[OSingle xd; OPause 40; OSingle xe]].
Definition sched2 : list (tid * Z * bool) :=
  [(TP,100,false); (TC 0,100,false); (TC 0,100,false); (TC 0,100,false); (TC 0,100,false); (TC 0,100,false);
   (TC 0,101,false); (TC 0,102,false); (TC 0,142,false); (TC 0,142,false)].
Definition st2 : state := run MD 16 32 8 (init progs2 [] cb true) sched2.
Example C16_callbacks_once_applies_2 :
  let st' := step MD 16 32 8 st2 (TC 0, 142, false) in
  cbs (sh st2) = [(1%nat, CbTrue); (2%nat, CbFalse); (3%nat, CbRaise); (TRIGGER, CbTrue)] /\ cblog (sh st2) = [] /\
  cblog (sh st') = [1; 2; 3; 99]%nat /\ cbs (sh st') = [(1%nat, CbTrue); (TRIGGER, CbTrue)] /\
  cblog (sh st') = cblog (sh st2) ++ map fst (cbs (sh st2)).
Proof.
  intros st'. split; [fin|]. split; [fin|]. split; [fin|]. split; [fin|].
  apply (C16_callbacks_once MD 16 32 8 progs2 [] cb true sched2 (TC 0, 142, false)); fin.
Qed.

Example C16_error_stored_while_disconnected_applies : last_error (sh (at_ 22)) = true.
Proof. apply (C16_error_stored_while_disconnected MD 16 32 8 progs rf cb true (firstn 22 sched)); fin. Qed.

Example C16_polling_resumes_applies :
  In (TRIGGER, CbTrue) (cbs (sh (at_ 24))) /\ In TRIGGER (map fst (cbs (sh (at_ 24)))).
Proof. apply (C16_polling_resumes MD 16 32 8 progs rf cb true (firstn 24 sched)); fin. Qed.
Example C16_nonvacuous_polling_resumes : poll (at_ 24) = QConnect /\ poll (at_ 34) = QIdle /\ poll (at_ 2) = QConnect.
Proof. fins. Qed.

Example C16_nonvacuous_reconnect_rate_global :
  attempts MD 16 32 8 (init progs rf cb true) sched = [100; 151] /\ 0 <= 32 /\
  is_attempt MD 16 32 8 (at_ 4) (TC 0, 100, false) = true /\
  is_attempt MD 16 32 8 (at_ 23) (TC 0, 151, false) = true /\
  is_attempt MD 16 32 8 (at_ 22) (TP, 120, false) = false /\
  is_attempt MD 16 32 8 (at_ 6) (TC 0, 101, false) = false.
Proof. fins. Qed.

Example C16_nonvacuous_state_visible_global :
  (* step 20: the end of the stream is read in the middle of a reply - the call fails, disconnected *)
  (nth_error (callers (at_ 20)) 1 = Some (cl 20 1) /\
   nth_error (callers (step MD 16 32 8 (at_ 20) (TC 1, 114, false))) 1 = Some (cl 21 1) /\
   outs (cl 21 1) = outs (cl 20 1) ++ [RFail] /\ In RFail [RFail] /\
   connected (sh (at_ 20)) = true /\ connected (sh (at_ 21)) = false) /\
  (* step 29: the call times out on the silent device - the call fails, still connected *)
  (nth_error (callers (at_ 29)) 0 = Some (cl 29 0) /\
   nth_error (callers (step MD 16 32 8 (at_ 29) (TC 0, 169, false))) 0 = Some (cl 30 0) /\
   outs (cl 30 0) = outs (cl 29 0) ++ [RFail] /\ In RFail [RFail] /\
   pc (cl 29 0) = CRecv 169 169 /\ connected (sh (at_ 30)) = true /\ last_error (sh (at_ 30)) = true).
Proof. vm_compute. repeat split; try reflexivity; left; reflexivity. Qed.

Example C16_nonvacuous_connect_exclusive :
  (* a caller inside the connecting branch *)
  pc (cl 7 0) = CConnect /\ acc_owner (sh (at_ 7)) = Some (TC 0) /\
  (* the poll thread inside it while caller 0 is parked at accessLock and cannot enter *)
  poll (at_ 5) = QConnect /\ pc (cl 5 0) = CAccess /\ enabled (at_ 5) (TC 0) 101 = false /\
  poll (at_ 24) = QConnect /\ pc (cl 24 0) = CAccess /\ enabled (at_ 24) (TC 0) 152 = false.
Proof. fins. Qed.
Example C16_connect_exclusive_applies :
  poll (at_ 7) <> QConnect /\ acc_owner (sh (at_ 7)) = Some (TC 0) /\ connected (sh (at_ 7)) = false.
Proof.
  destruct (C16_connect_exclusive MD 16 32 8 progs rf cb true (firstn 7 sched)) as (_ & A & _).
  apply (A 0%nat (cl 7 0)); fin.
Qed.


(* wait_before: C16_wait_before, second case of C16_stale_discarded, C16_transaction_atomic at the send of a line split
   off in front of the last one.  The run of Properties.C16_wait_before_example: wait_before = 2 ticks, a late reply arriving during the pause of the next
   command, a two-line command *)
Definition x1 := {| x_id := 1; x_emit := [(18, [114; 49; 10]%N)]; x_close := None; x_n := 0; x_delay := 0;
                    x_noreply := false; x_wait := 2; x_pre := [] |}.
Definition x2 := {| x_id := 2; x_emit := [(1, [114; 50; 10]%N)]; x_close := None; x_n := 0; x_delay := 0;
                    x_noreply := false; x_wait := 2; x_pre := [] |}.
Definition x4 := {| x_id := 4; x_emit := [(0, [114; 52; 10]%N)]; x_close := None; x_n := 0; x_delay := 0;
                    x_noreply := false; x_wait := 2; x_pre := [(3%nat, [], None)] |}.
Definition progs3 := [[OSingle x1; OSingle x2; OSingle x4]].
Definition sched3 : list (tid * Z * bool) :=
  map (fun now => (TC 0, now, false)) [98; 98; 98; 98; 100; 100; 108; 116; 117; 119; 119; 120; 120; 122; 122; 124; 124; 124].
Definition at3 (n : nat) : state := run MD 16 32 8 (init progs3 [] [] false) (firstn n sched3).
Definition c3 (n : nat) : cst := nth 0 (callers (at3 n)) cdummy.

(* before step 9 the caller is at the end of its first sleep and the late reply of the previous command has arrived *)
Example C16_stale_discarded_applies_wait_before :
  let s := sh (at3 9) in let c := c3 9 in
  let r := caller_step MD 16 32 8 0 119 s c in
  pc c = CWaitB 119 true [] /\ head_ready 119 (queue s) = true /\
  rxbuf (fst r) = [] /\ head_ready 119 (queue (fst r)) = false.
Proof.
  intros s c r. split; [fin|]. split; [fin|].
  apply (C16_stale_discarded MD 16 32 8 0%nat 119 s c (fst r) (snd r)); [right; eexists; eexists; fin|fin|fin].
Qed.
(* ... and to the send of a line in front of the last one *)
Example C16_stale_discarded_applies_first_of_two_lines :
  let s := sh (at3 13) in let c := c3 13 in
  let r := caller_step MD 16 32 8 0 122 s c in
  pc (snd r) = CSendPre [(3%nat, [], None)] /\ rxbuf (fst r) = [] /\ head_ready 122 (queue (fst r)) = false.
Proof.
  intros s c r. split; [fin|].
  apply (C16_stale_discarded MD 16 32 8 0%nat 122 s c (fst r) (snd r)); [right; eexists; eexists; fin|fin|fin].
Qed.

Example C16_nonvacuous_wait_before :
  (pc (c3 8) = CLock /\ wait_of (c3 8) <> 0) /\
  (pc (c3 9) = CWaitB 119 true [] /\ caller_enabled 0 119 (sh (at3 9)) (c3 9) = true /\
   caller_enabled 0 118 (sh (at3 9)) (c3 9) = false) /\
  pc (c3 14) = CSendPre ((3%nat, [], None) :: []) /\
  pc (c3 15) = CWaitB 124 false [].
Proof. fins. Qed.

Example C16_transaction_atomic_applies_pre_line :
  exists i c, fst (fst (TC 0, 122, false)) = TC i /\ nth_error (callers (at3 14)) i = Some c /\ is_send (pc c) /\
              lock_owner (sh (at3 14)) = Some i.
Proof. apply (C16_transaction_atomic MD 16 32 8 progs3 [] [] false (firstn 14 sched3) (TC 0, 122, false)). fin. Qed.

Definition eol := [13; 10]%N.
Definition q1 := [mkItem 0 (Some [97; 98; 13]%N); mkItem 1 (Some [10; 99; 100; 13; 10]%N); mkItem 20 (Some [120]%N)].
Definition q2 := [mkItem 0 (Some [97]%N); mkItem 0 (Some [98; 13; 10; 99]%N); mkItem 5 (Some [100; 13]%N);
                  mkItem 30 (Some [10; 120]%N)].
Definition calls1 : list (nat * Z * option Z) :=
  [(50%nat, 0, None); (50%nat, 0, None); (50%nat, 0, None); (50%nat, 0, None); (50%nat, 0, None)].
Definition calls2 : list (nat * Z * option Z) := [(50%nat, 0, Some 16); (50%nat, 3, Some 60); (50%nat, 0, Some 90)].

(* same data as Properties.C16_chunking_example, here fed to the theorem *)
Example C16_readline_chunking_full_applies :
  lines_of [UData [97; 98]%N; UData [99; 100]%N; UNone; UNone; UNone] =
  lines_of [UData [97; 98]%N; UData [99; 100]%N; UTimeout] /\ [120%N] = [120%N].
Proof.
  apply (C16_readline_chunking_full eol 8 8 calls1 calls2 0 0 [] q1 q2 _ _ _ _ [] []); fin.
Qed.

Example C16_readline_returns_the_lines_of_the_stream_applies :
  parsed eol ([] ++ stream q2) (lines_of [UData [97; 98]%N; UData [99; 100]%N; UTimeout]) [120%N].
Proof.
  apply (C16_readline_returns_the_lines_of_the_stream eol 8 calls2 0 [] q2 _ _ []); fin.
Qed.

Example C16_nonvacuous_takes_chunks :
  readline_loop 50 eol 8 None 0 [] q1 =
    (UData [97; 98]%N, 1, [99; 100; 13; 10]%N, [mkItem 20 (Some [120]%N)]) /\
  readline_loop 50 eol 8 (Some 16) 2 [120%N] [] = (UTimeout, 18, [120%N], []) /\
  readbytes_loop 50 4 8 None 0 [] q2 = (UData [97; 98; 13; 10]%N, 0, [99%N], [mkItem 5 (Some [100; 13]%N); mkItem 30 (Some [10; 120]%N)]) /\
  readbytes_loop 50 9 8 (Some 12) 0 [] q2 = (UTimeout, 13, [97; 98; 13; 10; 99; 100; 13]%N, [mkItem 30 (Some [10; 120]%N)]).
Proof. fins. Qed.

(* flush at time 5 with an old buffer, two chunks that have arrived and two that have not; a readline / readbytes after it *)
Definition qf := [mkItem 0 (Some [1; 2]%N); mkItem 3 (Some [3]%N); mkItem 10 (Some [65; 66; 13]%N); mkItem 12 (Some [10; 67]%N)].
Definition qf' := [mkItem 10 (Some [65; 66; 13]%N); mkItem 12 (Some [10; 67]%N)].
Example C16_nonvacuous_flush_empties :
  fifo qf /\ tcp_flush 5 [9%N] qf = (UData [9; 1; 2; 3]%N, [], qf') /\
  readline_loop 50 eol 8 None 5 [] qf' = (UData [65; 66]%N, 12, [67%N], []) /\
  readbytes_loop 50 2 8 None 5 [] qf' = (UData [65; 66]%N, 10, [13%N], [mkItem 12 (Some [10; 67]%N)]).
Proof. fins. Qed.
Example C16_flush_empties_applies :
  exists taken, qf' = taken ++ [] /\ Forall is_chunk taken /\ Forall (fun it => 5 < arrival_of it) taken /\
                payload taken = [65; 66]%N ++ eol ++ [67%N].
Proof.
  destruct (C16_flush_empties 5 [9%N] qf [9; 1; 2; 3]%N [] qf') as (_ & _ & _ & A & _); [fins|fin|].
  apply (A 50%nat eol 8 None 5 [65; 66]%N 12 [67%N] []). fin.
Qed.

Example C16_nonvacuous_flush_loop_is_select_recv :
  0 <= 8 /\ sock_readable 5 qf = true /\ sock_readable 5 qf' = false /\ Forall no_empty_chunk qf /\
  flush_loop 5 qf [9%N] = (Some [9; 1; 2; 3]%N, qf') /\
  (* the closed case *)
  Forall no_empty_chunk [mkItem 0 (Some [1%N]); mkItem 2 None] /\
  flush_loop 5 [mkItem 0 (Some [1%N]); mkItem 2 None] [] = (None, [mkItem 2 None]).
Proof. vm_compute. repeat split; try reflexivity; try discriminate; repeat constructor. Qed.

Example C16_receive_loops_terminate_applies :
  fst (fst (fst (readline eol 8 16 0 [] q2))) <> UFuel /\ fst (fst (fst (readbytes 9 8 12 0 [] q2))) <> UFuel.
Proof.
  destruct (C16_receive_loops_terminate 8 16 0 [] q2) as [A _]; [fin|].
  destruct (C16_receive_loops_terminate 8 12 0 [] q2) as [_ B]; [fin|].
  split; [apply A|apply B].
Qed.
