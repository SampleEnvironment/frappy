(* C16 - global invariants over fold_left step, for every program, refusal script, callback set, schedule and
   time of every step:
   (1) reconnect rate: the field last_attempt (IOBase._last_connect_attempt) is written by an attempt started by
       check_connection and by nothing else, every such attempt writes it, hence consecutive attempts are at least
       one reconnect interval apart;
   (2) connection state visible: is_connected = (the connection object exists) = the value announced last, in
       every reachable state; accessLock discipline (at most one thread inside the connecting branch of
       read_is_connected, is_connected is False as long as it is there); a step in which a call fails leaves the
       communicator disconnected, except for the time-out on a silent device, which keeps the connection. *)
From Coq Require Import List Arith ZArith NArith Bool Lia.
Import ListNotations.
Require Import FV.C16.Model FV.C16.Framing FV.C16.Lemmas.
Open Scope Z_scope.

Section G.
Variable md : mode.
Variable timeout interval slice : Z.

Notation caller_step := (caller_step md timeout interval slice).
Notation run_ops := (run_ops interval).
Notation fail_op := (fail_op interval).
Notation next_in_multi := (next_in_multi interval).
Notation finish_exch := (finish_exch interval).
Notation begin_exch := (begin_exch interval).
Notation step := (step md timeout interval slice).
Notation run := (run md timeout interval slice).
Notation flush_then := (flush_then interval).

Definition is_access (p : cpc) : bool := match p with CAccess => true | _ => false end.

(* what a step of a caller does to last_attempt (la = its value before): either the caller comes out parked at the
   entry of read_is_connected (check_connection has just started an attempt): then the previous attempt is at least one
   interval ago, the time of this one is recorded and the communicator is disconnected; or it comes out anywhere
   else and last_attempt is untouched *)
Definition att (now la : Z) (r : shared * cst) : Prop :=
  (is_access (pc (snd r)) = true /\ la + interval <= now /\ last_attempt (fst r) = now /\ connected (fst r) = false) \/
  (is_access (pc (snd r)) = false /\ last_attempt (fst r) = la).

Lemma att_begin_mk : forall now s s' p cu im ac r o, begin_exch now s = Some (s', p) ->
  att now (last_attempt s) (s', mk p cu im ac r o).
Proof.
  intros now s s' p cu im ac r o E.
  destruct (begin_exch_some _ _ _ _ _ E) as [(-> & _ & ->)|(-> & C & L & ->)]; [right|left]; simpl; auto.
Qed.

Lemma att_run_ops : forall now ops s o la, last_attempt s = la -> att now la (run_ops now s o ops).
Proof.
  intros now ops. induction ops as [|[x|xs|d] r IH]; intros s o la <-; simpl; try (right; split; reflexivity).
  destruct (begin_exch now s) as [[s' p]|] eqn:E; [apply att_begin_mk; exact E|apply IH; reflexivity].
Qed.

Lemma att_fail_op : forall now s c la, last_attempt s = la -> att now la (fail_op now s c).
Proof. intros now s c la <-. unfold Model.fail_op. apply att_run_ops. destruct (inmulti c); reflexivity. Qed.

Lemma att_next : forall now s c la, last_attempt s = la -> att now la (next_in_multi now s c).
Proof.
  intros now s c la <-. unfold Model.next_in_multi. destruct (tl (cur c)) as [|x r]; [apply att_run_ops; reflexivity|].
  destruct (begin_exch now s) as [[s' p]|] eqn:E; [apply att_begin_mk; exact E|apply att_fail_op; reflexivity].
Qed.

Lemma att_finish : forall now s c r la, last_attempt s = la -> att now la (finish_exch now s c r).
Proof.
  intros now s c r la <-. unfold Model.finish_exch. destruct (inmulti c); [|apply att_run_ops; reflexivity].
  destruct (cur c) as [|x xs]; [apply att_next; reflexivity|].
  destruct (x_delay x =? 0); [apply att_next; reflexivity|right; split; reflexivity].
Qed.

Lemma la_connect_ok : forall s, last_attempt (connect_ok s) = last_attempt s.
Proof. intros s. unfold connect_ok. destruct (last_error s); reflexivity. Qed.

Lemma att_flush_then : forall now s1 c p la, last_attempt s1 = la -> is_access p = false ->
  att now la (flush_then now s1 c p).
Proof.
  intros now s1 c p la <- NA.
  destruct (flush_then_cases interval now s1 c p) as [(q & _ & _ & ->)|[(q & _ & _ & ->)|(_ & ->)]];
    [apply att_fail_op; reflexivity|right; split; [exact NA|reflexivity]|apply att_fail_op; reflexivity].
Qed.

Lemma caller_step_att : forall i now s c, att now (last_attempt s) (caller_step i now s c).
Proof.
  intros i now s c. unfold Model.caller_step. destruct (pc c) eqn:P.
  - (* CStart *) apply att_run_ops; reflexivity.
  - (* CAccess *) right. destruct (connected s); split; reflexivity.
  - (* CConnect *) unfold pop_refuse. destruct (refuse s) as [|[|] rf].
    + right. split; [reflexivity|]. simpl. rewrite la_connect_ok. reflexivity.
    + apply att_fail_op; reflexivity.
    + right. split; [reflexivity|]. simpl. rewrite la_connect_ok. reflexivity.
  - (* CLockOuter *) destruct (cur c) as [|x xs]; [apply att_run_ops; reflexivity|].
    destruct (begin_exch now (acquire i s)) as [[s2 p]|] eqn:E; [|apply att_fail_op; reflexivity].
    destruct (begin_exch_some _ _ _ _ _ E) as [(-> & _ & ->)|(-> & C & L & ->)]; [right|left]; simpl; auto.
  - (* CLock *) destruct (wait_of c =? 0); [apply att_flush_then; reflexivity|right; split; reflexivity].
  - (* CSend *) destruct (x_noreply (cur_x c)); [apply att_finish; reflexivity|].
    destruct (try_frame md (x_n (cur_x c)) _) as [[r rst]|]; [apply att_finish; reflexivity|right; split; reflexivity].
  - (* CRecv *) apply recv_cases;
      [intros _ _; right; split; reflexivity|intros _ _; apply att_fail_op; reflexivity|apply att_fail_op; reflexivity|].
    intros a d q' _ _.
    destruct (try_frame md _ _) as [[r rst]|]; [apply att_finish; reflexivity|right; split; reflexivity].
  - (* CSleepX *) apply att_next; reflexivity.
  - (* CPause *) apply att_run_ops; reflexivity.
  - (* CDone *) right. simpl. rewrite P. split; reflexivity.
  - (* CWaitB *) destruct first; [apply att_flush_then; destruct l; reflexivity|right; destruct l; split; reflexivity].
  - (* CSendPre *) right. destruct l; split; reflexivity.
Qed.

Lemma access_step_leaves : forall i now s c, pc c = CAccess -> is_access (pc (snd (caller_step i now s c))) = false.
Proof. intros i now s c P. unfold Model.caller_step. rewrite P. destruct (connected s); reflexivity. Qed.

Lemma la_poll_step : forall nxt s p, last_attempt (fst (poll_step nxt s p)) = last_attempt s.
Proof.
  intros. apply (shape_frame _ last_attempt la_connect_ok (fun _ => eq_refl) (fun _ _ => eq_refl) (p = QConnect)),
    poll_step_shape; intros; reflexivity.
Qed.

(* an attempt = a step after which a caller is parked at the entry of read_is_connected and before which it was
   not: check_connection found the communicator disconnected and decided to call read_is_connected *)
Definition at_access (st : state) (i : nat) : bool :=
  match nth_error (callers st) i with Some c => is_access (pc c) | None => false end.

Definition is_attempt (st : state) (x : tid * Z * bool) : bool :=
  match fst (fst x) with
  | TC i => at_access (step st x) i && negb (at_access st i)
  | TP => false
  end.

Definition time_of (x : tid * Z * bool) : Z := snd (fst x).

(* every attempt writes last_attempt (and is permitted by the rate limit); nothing else writes it *)
Lemma la_step : forall st x,
  (is_attempt st x = true ->
     last_attempt (sh st) + interval <= time_of x /\ last_attempt (sh (step st x)) = time_of x /\
     connected (sh (step st x)) = false) /\
  (is_attempt st x = false -> last_attempt (sh (step st x)) = last_attempt (sh st)).
Proof.
  intros st x. unfold is_attempt, time_of, at_access.
  destruct (step_cases md timeout interval slice st x)
    as [E|[(i & now & nxt & c & -> & Ci & EN & E)|(now & nxt & -> & EN & E)]]; rewrite E; simpl.
  - split; [|reflexivity]. destruct (fst (fst x)) as [i|]; [|discriminate].
    destruct (nth_error (callers st) i) as [c|]; [destruct (is_access (pc c))|]; discriminate.
  - rewrite (nth_set_nth_eq _ _ _ _ Ci), Ci.
    pose proof (caller_step_att i now (sh st) c) as A. unfold att in A.
    pose proof (access_step_leaves i now (sh st) c) as L.
    destruct (is_access (pc c)) eqn:PA.
    + assert (P : pc c = CAccess) by (destruct (pc c); try discriminate; reflexivity).
      rewrite (L P) in *. split; [discriminate|intros _].
      destruct A as [(A1 & _)|(_ & A2)]; [discriminate|exact A2].
    + rewrite andb_true_r. destruct A as [(A1 & A2 & A3 & A4)|(A1 & A2)]; rewrite A1.
      * split; [intros _; auto|discriminate].
      * split; [discriminate|intros _; exact A2].
  - split; [discriminate|intros _; apply la_poll_step].
Qed.

(* the times of the attempts of a run, in the order in which they are made *)
Fixpoint attempts (st : state) (sched : list (tid * Z * bool)) : list Z :=
  match sched with
  | [] => []
  | x :: r => (if is_attempt st x then [time_of x] else []) ++ attempts (step st x) r
  end.

Fixpoint spaced (l : list Z) : Prop :=
  match l with
  | a :: (b :: _) as r => a + interval <= b /\ spaced r
  | _ => True
  end.

Lemma last_cons : forall l (a d : Z), last (a :: l) d = last l a.
Proof.
  induction l as [|b l IH]; intros a d; [reflexivity|].
  change (last (a :: b :: l) d) with (last (b :: l) d). rewrite (IH b d), (IH b a). reflexivity.
Qed.

Lemma attempts_spaced : forall sched st,
  spaced (last_attempt (sh st) :: attempts st sched) /\
  last_attempt (sh (run st sched)) = last (attempts st sched) (last_attempt (sh st)).
Proof.
  induction sched as [|x r IH]; intros st.
  - simpl. auto.
  - destruct (la_step st x) as [T F]. specialize (IH (step st x)). destruct IH as [IH1 IH2].
    simpl attempts. unfold Model.run in *. simpl fold_left. destruct (is_attempt st x).
    + destruct (T eq_refl) as (A & B & _). rewrite B in IH1, IH2. simpl app. split.
      * simpl. split; [exact A|exact IH1].
      * rewrite IH2. symmetry. apply last_cons.
    + rewrite (F eq_refl) in IH1, IH2. simpl app. split; assumption.
Qed.

Lemma spaced_all_later : forall l a, 0 <= interval -> spaced (a :: l) -> Forall (fun b => a + interval <= b) l.
Proof.
  induction l as [|b l IH]; intros a NN S; [constructor|].
  simpl in S. destruct S as [AB S]. constructor; [exact AB|].
  specialize (IH b NN S). eapply Forall_impl; [|exact IH]. simpl. intros c H. lia.
Qed.

Lemma spaced_pairs : forall l, 0 <= interval -> spaced l -> ForallOrdPairs (fun a b => a + interval <= b) l.
Proof.
  induction l as [|a l IH]; intros NN S; [constructor|].
  constructor; [apply spaced_all_later; assumption|]. apply IH; [exact NN|]. destruct l; [exact I|]. simpl in S. apply S.
Qed.

Definition vz (s : shared) : bool * bool * list bool := (connected s, conn s, ann s).

(* is_connected = (connection object exists) = the value announced last (nothing announced yet: the default False) *)
Definition vis (s : shared) : Prop := connected s = conn s /\ last (ann s) false = connected s.

Lemma vis_shape : forall K s r, shape _ vz K s r -> vis s -> vis r.
Proof.
  intros K s r [E|[(_ & s0 & E0 & E)|[(s0 & E0 & E)|(s0 & E0 & E)]]] [V1 V2]; unfold vis.
  - injection E as E1 E2 E3. rewrite E1, E2, E3. auto.
  - unfold connect_ok in E. destruct (last_error s0); injection E as E1 E2 E3; rewrite E1, E2, E3;
      (split; [reflexivity|apply last_last]).
  - injection E as E1 E2 E3. rewrite E1, E2, E3. split; [reflexivity|apply last_last].
  - injection E as E1 E2 E3. injection E0 as F1 F2 F3. rewrite E1, E2, E3, F1, F2, F3. auto.
Qed.

Lemma vis_step : forall st x, vis (sh st) -> vis (sh (step st x)).
Proof.
  intros st x V.
  destruct (step_cases md timeout interval slice st x)
    as [->|[(i & now & nxt & c & -> & Ci & EN & ->)|(now & nxt & -> & EN & ->)]]; simpl.
  - exact V.
  - eapply vis_shape; [apply caller_step_shape; intros; try split; reflexivity|exact V].
  - eapply vis_shape; [apply poll_step_shape; intros; reflexivity|exact V].
Qed.

Lemma vis_init : forall progs rf cb p, vis (sh (init progs rf cb p)).
Proof. intros. unfold vis, init. simpl. auto. Qed.

Lemma flush_then_nc : forall now s1 c p, p <> CConnect -> pc (snd (flush_then now s1 c p)) <> CConnect.
Proof.
  intros now s1 c p NP.
  destruct (flush_then_cases interval now s1 c p) as [(q & _ & _ & ->)|[(q & _ & _ & ->)|(_ & ->)]];
    [apply entry_not_connect, run_ops_entry|exact NP|apply entry_not_connect, run_ops_entry].
Qed.

(* only the step at the entry of read_is_connected leads into the connecting branch *)
Lemma caller_step_nc : forall i now s c, pc c <> CAccess -> pc (snd (caller_step i now s c)) <> CConnect.
Proof.
  intros i now s c NA. unfold Model.caller_step.
  destruct (pc c) eqn:P.
  - (* CStart *) apply entry_not_connect, run_ops_entry.
  - (* CAccess *) congruence.
  - (* CConnect *) unfold pop_refuse. destruct (refuse s) as [|[|] rf]; simpl; try discriminate. apply entry_not_connect, run_ops_entry.
  - (* CLockOuter *) destruct (cur c); [apply entry_not_connect, run_ops_entry|].
    destruct (begin_exch now (acquire i s)) as [[s2 p]|] eqn:E; [|apply entry_not_connect, run_ops_entry].
    destruct (begin_exch_some _ _ _ _ _ E) as [(-> & _)|(-> & _)]; simpl; discriminate.
  - (* CLock *) destruct (wait_of c =? 0); [apply flush_then_nc; discriminate|simpl; discriminate].
  - (* CSend *) destruct (x_noreply (cur_x c)); [apply entry_not_connect, finish_exch_entry|].
    destruct (try_frame md (x_n (cur_x c)) _) as [[r rst]|]; [apply entry_not_connect, finish_exch_entry|simpl; discriminate].
  - (* CRecv *) apply recv_cases; [intros _ _; simpl; discriminate|intros _ _; apply entry_not_connect, run_ops_entry|
                                   apply entry_not_connect, run_ops_entry|].
    intros a d q' _ _.
    destruct (try_frame md _ _) as [[r rst]|]; [apply entry_not_connect, finish_exch_entry|simpl; discriminate].
  - (* CSleepX *) apply entry_not_connect, next_in_multi_entry.
  - (* CPause *) apply entry_not_connect, run_ops_entry.
  - (* CDone *) simpl. rewrite P. discriminate.
  - (* CWaitB *) destruct first; [apply flush_then_nc|simpl]; destruct l; discriminate.
  - (* CSendPre *) destruct l; simpl; discriminate.
Qed.

(* outside read_is_connected a step leaves accessLock alone and keeps is_connected or clears it *)
Lemma caller_step_outside : forall i now s c, pc c <> CAccess -> pc c <> CConnect ->
  let r := fst (caller_step i now s c) in
  acc_owner r = acc_owner s /\ (connected r = connected s \/ connected r = false).
Proof.
  (* caller_step_shape at the projection (acc_owner, connected); outside read_is_connected it needs no frame of
     set_acc_owner / set_refuse, and the connect case is excluded *)
  intros i now s c NA NC.
  assert (S : shape _ (fun s => (acc_owner s, connected s)) (pc c = CConnect) s (fst (caller_step i now s c))).
  { apply caller_step_shape; try (intros; reflexivity). intros [Q|Q]; contradiction. }
  destruct S as [E|[(Q & _)|[(s0 & E0 & E)|(s0 & E0 & E)]]]; [|contradiction| |];
    simpl in E; injection E as EA EC; try injection E0 as FA FC; split; try congruence.
  - (* nothing happened *) left. exact EC.
  - (* closed *) right. exact EC.
  - (* error text stored *) left. congruence.
Qed.

Lemma acc_connect_ok : forall s, acc_owner (connect_ok s) = acc_owner s.
Proof. intros s. unfold connect_ok. destruct (last_error s); reflexivity. Qed.

Lemma connect_step_acc : forall i now s c, pc c = CConnect -> acc_owner (fst (caller_step i now s c)) = None.
Proof.
  intros i now s c P. unfold Model.caller_step. rewrite P.
  assert (FF := f_fail_op interval _ acc_owner (fun _ _ => eq_refl) (fun _ => eq_refl)).
  unfold pop_refuse. destruct (refuse s) as [|[|] rf]; simpl; rewrite ?FF, ?acc_connect_ok; reflexivity.
Qed.

(* t is inside the connecting branch of read_is_connected *)
Definition inside (st : state) (t : tid) : Prop :=
  match t with
  | TC i => exists c, nth_error (callers st) i = Some c /\ pc c = CConnect
  | TP => poll st = QConnect
  end.

(* accessLock: whoever is inside owns it; while it is owned, is_connected is False *)
Definition acc_inv (st : state) : Prop :=
  (forall t, inside st t -> acc_owner (sh st) = Some t) /\ (acc_owner (sh st) <> None -> connected (sh st) = false).

Lemma tid_eq_dec : forall a b : tid, {a = b} + {a <> b}.
Proof. decide equality. apply Nat.eq_dec. Qed.

(* a step of thread t keeps the invariant if it leaves the other threads where they are and t enters the connecting branch
   (accessLock was free; t owns it now and is_connected is False), leaves it (accessLock is free again), or stays outside
   (accessLock untouched, is_connected kept or cleared) *)
Lemma acc_inv_thread : forall st st' t, acc_inv st ->
  (forall u, u <> t -> inside st' u -> inside st u) ->
  (acc_owner (sh st) = None /\ acc_owner (sh st') = Some t /\ connected (sh st') = false) \/
  (inside st t /\ ~ inside st' t /\ acc_owner (sh st') = None) \/
  (~ inside st' t /\ acc_owner (sh st') = acc_owner (sh st) /\
   (connected (sh st') = connected (sh st) \/ connected (sh st') = false)) ->
  acc_inv st'.
Proof.
  intros st st' t [A B] O [(F & E & D)|[(I & NI & E)|(NI & E & D)]]; split.
  - intros u IU. destruct (tid_eq_dec u t) as [->|NE]; [exact E|]. apply O, A in IU; [congruence|exact NE].
  - intros _. exact D.
  - intros u IU. destruct (tid_eq_dec u t) as [->|NE]; [contradiction|]. apply O, A in IU; [|exact NE]. apply A in I. congruence.
  - intros H. congruence.
  - intros u IU. destruct (tid_eq_dec u t) as [->|NE]; [contradiction|]. rewrite E. apply A, O; assumption.
  - rewrite E. intros H. destruct D as [D|D]; [rewrite D; apply B, H|exact D].
Qed.

Lemma acc_inv_step : forall st x, acc_inv st -> acc_inv (step st x).
Proof.
  intros st x H.
  destruct (step_cases md timeout interval slice st x)
    as [->|[(i & now & nxt & c & -> & Ci & EN & ->)|(now & nxt & -> & EN & ->)]]; [exact H| |].
  - apply (acc_inv_thread st _ (TC i) H).
    { intros [k|] NE; simpl; [|exact (fun Q => Q)]. rewrite nth_set_nth_neq by congruence. exact (fun Q => Q). }
    simpl. rewrite (nth_set_nth_eq _ _ _ _ Ci).
    assert (IN : forall c', (exists c0, Some c' = Some c0 /\ pc c0 = CConnect) -> pc c' = CConnect).
    { intros c' (c0 & E & Q). inversion E. exact Q. }
    assert (PC : pc c = CAccess \/ pc c = CConnect \/ pc c <> CAccess /\ pc c <> CConnect)
      by (destruct (pc c); auto; right; right; split; discriminate).
    destruct PC as [P|[P|[NA NC]]].
    + (* at the entry of read_is_connected: accessLock is free; the caller returns (connected) or enters *)
      unfold caller_enabled in EN. rewrite P in EN. unfold acc_free in EN.
      destruct (acc_owner (sh st)) eqn:AO; [discriminate|].
      unfold Model.caller_step. rewrite P. destruct (connected (sh st)) eqn:C; simpl.
      * right; right. rewrite AO, C. repeat split; auto. intros Q. apply IN in Q. discriminate.
      * left. auto.
    + (* inside: the caller leaves *)
      right; left. split; [exists c; auto|]. split; [|apply connect_step_acc, P].
      intros Q. apply IN in Q. revert Q. apply caller_step_nc. congruence.
    + (* elsewhere: the caller stays outside *)
      right; right. split; [intros Q; apply IN in Q; revert Q; apply caller_step_nc; exact NA|].
      apply caller_step_outside; assumption.
  - apply (acc_inv_thread st _ TP H).
    { intros [k|] NE; [exact (fun Q => Q)|congruence]. }
    destruct H as [A B]. simpl. unfold poll_step. destruct (poll st) eqn:Q; simpl in *; try discriminate.
    + (* QStart *) right; right. repeat split; auto. destruct nxt; discriminate.
    + (* QIdle *) right; right. repeat split; auto. destruct nxt; discriminate.
    + (* QAccess: accessLock is free; the poll thread returns or enters *)
      unfold acc_free in EN. destruct (acc_owner (sh st)) eqn:AO; [discriminate|].
      destruct (connected (sh st)) eqn:C; simpl; [right; right|left]; rewrite ?AO, ?C; repeat split; auto.
      destruct nxt; discriminate.
    + (* QConnect: the poll thread leaves *)
      right; left. split; [reflexivity|].
      unfold pop_refuse. destruct (refuse (sh st)) as [|[|] rf]; simpl; rewrite ?acc_connect_ok;
        (split; [destruct nxt; discriminate|reflexivity]).
Qed.

Lemma acc_inv_init : forall progs rf cb p, acc_inv (init progs rf cb p).
Proof.
  intros. split; [|intros H; destruct H; reflexivity]. intros [i|]; simpl.
  - intros (c & H & P). apply nth_error_In in H. apply in_map_iff in H. destruct H as [x [<- _]]. discriminate.
  - destruct p; discriminate.
Qed.

(* the outcomes a step appends to those of the caller; a failure among them comes with a disconnected communicator *)
Definition fl (o : list outcome) (r : shared * cst) : Prop :=
  exists mid, outs (snd r) = o ++ mid /\ (In RFail mid -> connected (fst r) = false).

Lemma fl_ext : forall o m r, fl (o ++ m) r -> (In RFail m -> connected (fst r) = false) -> fl o r.
Proof.
  intros o m r (mid & E & H) K. exists (m ++ mid). split; [rewrite E; apply app_assoc_reverse|].
  intros I. apply in_app_or in I. destruct I; auto.
Qed.

Lemma fl_same : forall o r, outs (snd r) = o -> fl o r.
Proof. intros o r E. exists []. split; [rewrite app_nil_r; exact E|intros []]. Qed.

Lemma run_ops_fl : forall now ops s o, fl o (run_ops now s o ops).
Proof.
  intros now ops. induction ops as [|[x|xs|d] r IH]; intros s o; simpl; try (apply fl_same; reflexivity).
  destruct (begin_exch now s) as [[s' p]|] eqn:E; [apply fl_same; reflexivity|].
  eapply fl_ext; [apply IH|]. intros _.
  rewrite (f_run_ops interval _ connected (fun _ _ => eq_refl)). eapply begin_exch_none; eauto.
Qed.

Lemma fail_op_fl : forall now s c, connected s = false -> fl (outs c) (fail_op now s c).
Proof.
  intros now s c D. unfold Model.fail_op. eapply fl_ext; [apply run_ops_fl|]. intros _.
  rewrite (f_run_ops interval _ connected (fun _ _ => eq_refl)). destruct (inmulti c); exact D.
Qed.

Lemma next_fl : forall now s c, fl (outs c) (next_in_multi now s c).
Proof.
  intros now s c. unfold Model.next_in_multi. destruct (tl (cur c)) as [|x r].
  - eapply fl_ext; [apply run_ops_fl|]. intros [H|[]]. discriminate.
  - destruct (begin_exch now s) as [[s' p]|] eqn:E; [apply fl_same; reflexivity|].
    apply fail_op_fl. eapply begin_exch_none; eauto.
Qed.

Lemma finish_fl : forall now s c r, fl (outs c) (finish_exch now s c r).
Proof.
  intros now s c r. unfold Model.finish_exch. destruct (inmulti c).
  - destruct (cur c) as [|x xs]; [apply (next_fl now (release s) (mk (pc c) [] true _ (rest c) (outs c)))|].
    destruct (x_delay x =? 0); [apply (next_fl now (release s) (mk (pc c) (x :: xs) true _ (rest c) (outs c)))|].
    apply fl_same. reflexivity.
  - eapply fl_ext; [apply run_ops_fl|]. intros [H|[]]. discriminate.
Qed.

(* the exception: the time-out on a silent device keeps the connection and stores the error text *)
Definition timed_out (now : Z) (s : shared) (c : cst) (r : shared * cst) : Prop :=
  exists e sl, pc c = CRecv e sl /\ e <= now /\ head_ready now (queue s) = false /\
               connected (fst r) = connected s /\ last_error (fst r) = true.

Lemma flush_then_fl : forall now s1 c p, connected s1 = conn s1 -> fl (outs c) (flush_then now s1 c p).
Proof.
  intros now s1 c p V.
  destruct (flush_then_cases interval now s1 c p) as [(q & _ & _ & ->)|[(q & _ & _ & ->)|(CN & ->)]].
  - apply fail_op_fl. reflexivity.
  - apply fl_same. reflexivity.
  - apply fail_op_fl. simpl. congruence.
Qed.

Lemma caller_step_fl : forall i now s c, connected s = conn s -> (pc c = CConnect -> connected s = false) ->
  let r := caller_step i now s c in fl (outs c) r \/ timed_out now s c r.
Proof.
  intros i now s c V AC. unfold Model.caller_step. destruct (pc c) eqn:P.
  - (* CStart *) left. apply run_ops_fl.
  - (* CAccess *) left. destruct (connected s); apply fl_same; reflexivity.
  - (* CConnect *) left. specialize (AC eq_refl). unfold pop_refuse. destruct (refuse s) as [|[|] rf].
    + apply fl_same. reflexivity.
    + apply fail_op_fl. exact AC.
    + apply fl_same. reflexivity.
  - (* CLockOuter *) left. destruct (cur c) as [|x xs].
    + eapply fl_ext; [apply run_ops_fl|]. intros [H|[]]. discriminate.
    + destruct (begin_exch now (acquire i s)) as [[s2 p]|] eqn:E; [apply fl_same; reflexivity|].
      apply fail_op_fl. eapply begin_exch_none; eauto.
  - (* CLock *) left. destruct (wait_of c =? 0); [apply flush_then_fl; exact V|apply fl_same; reflexivity].
  - (* CSend *) left. destruct (x_noreply (cur_x c)); [apply finish_fl|].
    destruct (try_frame md (x_n (cur_x c)) _) as [[r rst]|]; [apply finish_fl|apply fl_same; reflexivity].
  - (* CRecv *) apply recv_cases.
    + intros _ _. left. apply fl_same. reflexivity.
    + intros HR L. right. exists e, sl. repeat split; auto; rewrite (f_fail_op interval); intros; reflexivity.
    + left. apply fail_op_fl. reflexivity.
    + intros a d q' _ _. left. destruct (try_frame md _ _) as [[r rst]|]; [apply finish_fl|apply fl_same; reflexivity].
  - (* CSleepX *) left. apply next_fl.
  - (* CPause *) left. apply run_ops_fl.
  - (* CDone *) left. apply fl_same. reflexivity.
  - (* CWaitB *) left. destruct first; [apply flush_then_fl; exact V|apply fl_same; reflexivity].
  - (* CSendPre *) left. destruct l; apply fl_same; reflexivity.
Qed.

Definition conn_inv (st : state) : Prop := vis (sh st) /\ acc_inv st.

Lemma conn_inv_run : forall progs rf cb p sched, conn_inv (run (init progs rf cb p) sched).
Proof.
  intros. split.
  - apply (run_inv md timeout interval slice (fun st => vis (sh st)) vis_step), vis_init.
  - apply (run_inv md timeout interval slice _ acc_inv_step), acc_inv_init.
Qed.

Lemma failed_call_disconnects : forall st i now nxt c c' mid, conn_inv st ->
  nth_error (callers st) i = Some c ->
  nth_error (callers (step st (TC i, now, nxt))) i = Some c' ->
  outs c' = outs c ++ mid -> In RFail mid ->
  let s' := sh (step st (TC i, now, nxt)) in
  connected s' = false \/ timed_out now (sh st) c (s', c').
Proof.
  intros st i now nxt c c' mid ((V1 & V2) & (A & B)) Ci.
  destruct (step_cases md timeout interval slice st (TC i, now, nxt))
    as [->|[(i0 & now0 & nxt0 & c0 & X & Ci0 & EN & ->)|(now0 & nxt0 & X & _)]]; [| |discriminate]; simpl; intros Ci' E I.
  - rewrite Ci in Ci'. inversion Ci'; subst c'. rewrite <- (app_nil_r (outs c)) in E at 1.
    apply app_inv_head in E. subst mid. destruct I.
  - inversion X; subst i0 now0 nxt0. rewrite Ci in Ci0. inversion Ci0; subst c0.
    rewrite (nth_set_nth_eq _ _ _ _ Ci) in Ci'. inversion Ci'; subst c'.
    assert (AC : pc c = CConnect -> connected (sh st) = false).
    { intros P. apply B. rewrite (A (TC i)); [discriminate|exists c; auto]. }
    destruct (caller_step_fl i now (sh st) c V1 AC) as [(mid0 & E0 & H)|T].
    + rewrite E in E0. apply app_inv_head in E0. subst mid0. left. exact (H I).
    + right. destruct (caller_step i now (sh st) c). exact T.
Qed.

End G.
