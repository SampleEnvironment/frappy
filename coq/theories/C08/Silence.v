(* C08 - silence after the end of a scope (guarded by: no broadcast to this connection in flight) *)
From Coq Require Import List Arith Bool.
Import ListNotations.
Require Import FV.C08.Model FV.C08.Lemmas FV.C08.Step FV.C08.Table FV.C08.Snapshot.

Definition updates_of (p : pid) (l : list entry) : list entry :=
  filter (fun e => match e with EUpd q _ => pid_eqb q p | _ => false end) l.

(* a broadcast of p that still has to serve connection c *)
Definition uflight (s : state) (c : conn) (p : pid) : Prop :=
  exists u v all pend, u_pc (uth s u) = USend p v all pend /\ In c pend.
(* the connection's own activation still has to send p *)
Definition cflight (s : state) (c : conn) (p : pid) : Prop :=
  match pending_snapshot (c_pc (cth s c)) with Some (_, rest) => In p rest | None => False end.
Definition act_covering (p : pid) (r : req) : Prop :=
  match r with RAct sc _ => covers sc p = true | _ => False end.
(* an activate request covering p is being processed or still to come *)
Definition wants (s : state) (c : conn) (p : pid) : Prop :=
  match c_pc (cth s c) with CAcq r => act_covering p r | CAdd sc _ => covers sc p = true | _ => False end
  \/ Exists (act_covering p) (c_script (cth s c)).

Definition silent (s : state) (c : conn) (p : pid) : Prop :=
  listens s c p = false /\ ~ uflight s c p /\ ~ cflight s c p /\ ~ wants s c p.

Lemma updates_of_app : forall p l e, updates_of p (l ++ [e]) =
  updates_of p l ++ (if match e with EUpd q _ => pid_eqb q p | _ => false end then [e] else []).
Proof. intros. unfold updates_of. rewrite filter_app; simpl. destruct e; auto. Qed.

Lemma silent_own_step : forall nd s c x p, tbl_wf s -> silent s c p ->
  silent (cstep nd s (TC c, x)) c p /\ updates_of p (logs (cstep nd s (TC c, x)) c) = updates_of p (logs s c).
Proof.
  intros nd s c x p WF [L [U [C W]]]. unfold silent, uflight.
  destruct (conn_step_frame nd s c x) as [-> _]. fold (uflight s c p).
  replace (listens (cstep nd s (TC c, x)) c p) with false.
  2: { destruct (listens (cstep nd s (TC c, x)) c p) eqn:E; auto.
       destruct (own_step_listens nd s c x p WF E) as [E' | (sc & C' & _ & [E' | [id E']])]; [congruence | exfalso ..];
         apply W; left; rewrite E'; exact C'. }
  unfold cflight, wants in *.
  (* in most cases the new program counter is outside any activation and the script is kept: tauto *)
  apply conn_cases; intros; try rewrite PC in *; proj; rewrite ?upd_same; simpl; rewrite ?updates_of_app, ?app_nil_r;
    simpl in *; try (repeat split; auto; tauto).
  (* close, request: the head of the script leaves it *)
  1-2: rewrite SC in *; rewrite Exists_cons in W; simpl in *; tauto.
  - (* module without parameters: the next group, or the reply *) destruct rest; simpl in *; tauto.
  - (* last initial update of a module: not of p, which is not pending *)
    replace (pid_eqb (m, i) p) with false by (symmetry; apply pid_eqb_neq; tauto).
    destruct rest; simpl in *; rewrite app_nil_r; tauto.
  - (* initial update *)
    replace (pid_eqb (m, i) p) with false by (symmetry; apply pid_eqb_neq; tauto). rewrite app_nil_r. tauto.
  - (* subscribe, second half: the scope does not contain p, so neither does the snapshot *)
    assert (NI : ~ In p (flat (snapshot_groups nd sc))) by (intros IP; apply W; left; exact (snapshot_list_covers nd sc p IP)).
    destruct (snapshot_groups nd sc); simpl in *; tauto.
  - (* last discard: the reply of the identification request, or the end of the thread *) destruct k; simpl; tauto.
Qed.

(* a broadcast that has to serve c after a step of a driver thread had to before, or selects c at this step *)
Lemma upd_step_uflight : forall nd s u x c p,
  uflight (cstep nd s (TU u, x)) c p -> uflight s c p \/ listens s c p = true.
Proof.
  intros nd s u x c p (u' & v & al & pe & E & I). destruct (Nat.eq_dec u' u) as [-> | N].
  2: { destruct (upd_step_frame nd s u x) as (_ & _ & _ & _ & O & _). rewrite O in E by auto. left. exists u', v, al, pe. auto. }
  revert E. apply upd_cases; intros; revert E; proj; rewrite ?upd_same; simpl; try discriminate;
    try (destruct (u_script (uth s u)); discriminate); try (destruct rest; discriminate); intros E.
  - left. exists u, v, al, pe. auto.
  - inversion E; subst. right. apply listeners_spec, I.
  - inversion E; subst. left. exists u, v, al, pend. apply In_remc in I. tauto.
Qed.

Lemma silent_upd_step : forall nd s u x c p, silent s c p ->
  silent (cstep nd s (TU u, x)) c p /\ updates_of p (logs (cstep nd s (TU u, x)) c) = updates_of p (logs s c).
Proof.
  intros nd s u x c p [L [U [C W]]].
  assert (U' : ~ uflight (cstep nd s (TU u, x)) c p) by (intros F; apply upd_step_uflight in F; destruct F; [auto | congruence]).
  revert U'. unfold silent, cflight, wants in *. destruct (upd_step_frame nd s u x) as (EA & ET & _ & -> & _ & LG).
  rewrite (listens_ext s) by auto. intros U'. split; [tauto |].
  destruct (LG c) as [-> | (q & v & al & pe & E & I & ->)]; auto.
  rewrite updates_of_app. destruct (pid_eqb q p) eqn:Q; [| apply app_nil_r].
  apply pid_eqb_eq in Q. subst q. destruct U. exists u, v, al, pe. auto.
Qed.

Lemma silent_step : forall nd s st c p, tbl_wf s -> silent s c p ->
  silent (cstep nd s st) c p /\ updates_of p (logs (cstep nd s st) c) = updates_of p (logs s c).
Proof.
  intros nd s [[a | u] x] c p WF S.
  - destruct (Nat.eq_dec a c) as [-> | N]; [apply silent_own_step; auto |].
    destruct (isolation nd s a x c N) as [E1 [E2 [E3 [E4 _]]]].
    destruct S as [L [U [C W]]]. unfold silent, uflight, cflight, wants in *. rewrite E1, E2, E3, E4. repeat split; auto.
  - apply silent_upd_step; auto.
Qed.

(* once a connection does not listen to p, no broadcast of p has it in its pending set, its own activation has nothing
   left to send for p and it has no activate request covering p left: no schedule delivers an update of p to it *)
Lemma silent_forever : forall nd sched s c p, tbl_wf s -> silent s c p ->
  silent (run_from nd s sched) c p /\ updates_of p (logs (run_from nd s sched) c) = updates_of p (logs s c).
Proof.
  intros nd sched. induction sched as [| st r IH]; intros s c p WF S; simpl; [split; auto |].
  destruct (silent_step nd s st c p WF S) as [S' E]. destruct (IH _ c p (wf_step nd s st WF) S') as [S'' E'].
  split; auto. unfold run_from in *. rewrite E'; auto.
Qed.
