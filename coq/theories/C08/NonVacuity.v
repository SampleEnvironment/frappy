(* C08 - vacuity audit: every theorem of Properties.v is applied to ONE concrete, non-trivial run of the model.
   The instance is built exactly the way Run.v (`final` / `follow`) builds its states: `init (k_conns k) (k_upds k)` folded
   with `cstep (k_node k)` along a schedule; there is no oracle / environment parameter in C08 (closed transition
   system), so the premises of the theorems are reachability conditions on program counters, locks and tables.

   The run: node with 3 modules (module 0 exported with parameters exported / hidden / exported, module 1 exported with
   one exported parameter, module 2 hidden), 3 connections (global + module scope + deactivate + *IDN?; module +
   parameter scope + deactivate + close; parameter scope + deactivate), 2 driver threads (7 updates, one of a hidden
   parameter); 88 steps, every one enabled (no stuttering), all 5 threads interleaved: updates race with the snapshots of
   two activations, a close (without the dispatcher lock) is interleaved with the two halves of a subscribe, a connection
   thread and a driver thread hold two different updateLocks at the same time.  P1 .. P14 are prefixes of that run.

   No Axiom / Parameter / Admitted; proofs are `apply <theorem>` + vm_compute on closed boolean / constructor goals. *)
From Coq Require Import List Arith Bool Lia.
Import ListNotations.
Require Import FV.Gen.C08 FV.C08.Model FV.C08.Lemmas FV.C08.Table FV.C08.Snapshot FV.C08.Silence FV.C08.Subscribe
               FV.C08.Fresh FV.C08.Refuted FV.C08.Run FV.C08.Properties.

Definition ndA : node := [(true, [true; false; true]); (true, [true]); (false, [true])].
Definition csA : list (list req) :=
  [[RAct SG false; RAct (SM 1) false; RDeact SG false; RIdn];
   [RAct (SM 0) false; RAct (SP 1 0) false; RDeact (SM 0) false; RClose];
   [RAct (SP 0 2) false; RDeact (SP 0 2) false]].
Definition usA : list (list (pid * nat)) :=
  [[((0, 0), 5); ((0, 2), 7); ((0, 2), 8); ((0, 0), 6)]; [((1, 0), 9); ((0, 1), 3); ((1, 0), 11)]].
Definition c (n : nat) : tid * conn := (TC n, 0).
Definition u (n t : nat) : tid * conn := (TU n, t).

(* u0 parked at make_update of (0,0): nobody listens to it yet *)
Definition P1 := [c 2; c 2; c 2; c 1; c 1; c 0; c 0; u 0 0; u 1 0; c 2; u 0 0].
Definition P2 := P1 ++ [u 0 0].
(* c1 parked at send_reply('active', module 0); its snapshot raced with the update (0,0) := 5 *)
Definition P3 := P2 ++ [c 2; c 2; u 1 0; c 2; c 1; u 1 0; c 2; c 1; c 1; c 1; c 1; c 1; c 1].
(* u0 parked at make_update of (0,2): three listeners (parameter, module, generic), c0 is inside its activate *)
Definition P4 := P3 ++ [c 0; c 1; c 1; u 0 0].
Definition P5 := P4 ++ [u 0 0].
Definition P6 := P5 ++ [u 0 1; u 0 0; u 0 2].
(* c0 holds updateLock(0) at send_reply of an initial update, u1 holds updateLock(1) inside its broadcast *)
Definition P7 := P6 ++ [u 1 0; c 0; c 0; u 1 0; u 1 0].
(* c0 parked at send_reply('active', whole node) *)
Definition P8 := P7 ++ [c 0; c 0; c 0; u 1 0; c 0; c 0; c 0].
(* c1 parked at the dispatcher lock with `deactivate module 0`, lock free *)
Definition P9 := P8 ++ [c 1; c 0; c 0; c 1; c 1; c 1; c 1; c 1; c 1].
(* c1 has its 'inactive' reply, only `close` left; u0 still has (0,2) := 8 and (0,0) := 6 to announce *)
Definition P10 := P9 ++ [c 1; c 1].
(* continuation: broadcast of (0,2) := 8 to c2 and c0, c1 disconnects WITHOUT the dispatcher lock while c0 is between
   the two halves of subscribe(module 1) *)
Definition K11 := [u 0 0; c 0; c 1; u 0 0; c 1; u 0 2; c 1; c 0; u 0 0; c 1; c 1; c 1].
Definition P11 := P10 ++ K11.
(* c0 parked at the dispatcher lock with the global deactivate, c2 with `deactivate 0:2`, lock free *)
Definition P12 := P11 ++ [c 0; c 0; c 0; c 0; c 0; c 2].
(* c0 parked at send_reply of the identification reply, c1 done *)
Definition P13 := P12 ++ [c 0; c 0; c 0; c 0; u 0 0; c 0; c 0; u 0 0; c 0; c 0; c 0].
Definition P14 := P13 ++ [c 2; c 2; c 0].

Notation runA := (run ndA csA usA).

Ltac in_tac := vm_compute; repeat (try (left; reflexivity); right).
(* t proves the goal up to evaluation.  Left to `exact t` the comparison of the two closed statements replays the run in
   the kernel's lazy machine, once when the tactic runs and once at Qed; the cast has both evaluated by the VM. *)
Ltac by_vm t := match goal with |- ?G => exact (t <: G) end.

(* ---- the run itself: 88 enabled steps, all threads finished, logs with raced snapshots *)
Definition LA0 : list entry :=
  [EReq (RAct SG false); EUpd (0, 2) 7; EUpd (0, 0) 5; EUpd (0, 2) 7; EUpd (1, 0) 11; EUpd (1, 0) 11; ERep (RpActive SG);
   EReq (RAct (SM 1) false); EUpd (0, 2) 8; EUpd (1, 0) 11; ERep (RpActive (SM 1));
   EReq (RDeact SG false); ERep RpInactive; EReq RIdn; ERep RpIdent].
Definition LA1 : list entry :=
  [EReq (RAct (SM 0) false); EUpd (0, 0) 5; EUpd (0, 2) 0; ERep (RpActive (SM 0));
   EReq (RAct (SP 1 0) false); EUpd (0, 2) 7; EUpd (1, 0) 11; ERep (RpActive (SP 1 0));
   EReq (RDeact (SM 0) false); ERep RpInactive; EClose].
Definition LA2 : list entry :=
  [EReq (RAct (SP 0 2) false); EUpd (0, 2) 0; ERep (RpActive (SP 0 2)); EUpd (0, 2) 7; EUpd (0, 2) 8;
   EReq (RDeact (SP 0 2) false); ERep RpInactive].

Example C08_nv_run :
  length P14 = 88 /\ all_enabled ndA (init csA usA) P14 = true /\
  map (fun i => c_pc (cth (runA P14) i)) [0; 1; 2] = [CRecv; CDone; CRecv] /\
  map (fun i => c_script (cth (runA P14) i)) [0; 1; 2] = [[]; []; []] /\
  map (fun i => u_pc (uth (runA P14) i)) [0; 1] = [UDone; UDone] /\
  dlock (runA P14) = None /\
  map (logs (runA P14)) [0; 1; 2] = [LA0; LA1; LA2] /\
  bcasts (runA P14) = [((0, 2), 8, [2; 0]); ((1, 0), 11, [0]); ((0, 2), 7, [2; 1; 0])].
Proof. vm_compute. repeat split; reflexivity. Qed.

(* ---- the instance has the form of a harness case (Run.v): the state check_case examines IS `run` along the trace, and
   the audit run, written as a case (thread + label of the synchronisation point per step, observed logs / cache /
   tables), passes check_case *)
Lemma follow_is_run : forall nd tr s n s',
  follow nd s tr n = (s', None) -> s' = run_from nd s (map (fun tl => (fst tl, target (snd tl))) tr).
Proof.
  induction tr as [| [t l] r IH]; simpl; intros s n s' H.
  - inversion H; reflexivity.
  - destruct (lab_ok s t l && enabled s t (target l)); [apply IH in H; exact H | discriminate].
Qed.
Lemma check_case_state_is_run : forall k, check_case k = true ->
  fst (final k) = run (k_node k) (k_conns k) (k_upds k) (map (fun tl => (fst tl, target (snd tl))) (k_trace k)).
Proof.
  intros k. unfold check_case, final, run.
  destruct (follow (k_node k) (init (k_conns k) (k_upds k)) (k_trace k) 0) as [s [b |]] eqn:E; [discriminate |].
  intros _. simpl. apply (follow_is_run _ _ _ _ _ E).
Qed.

Definition lab_of (s : state) (st : tid * conn) : lab :=
  match fst st with
  | TC x => match c_pc (cth s x) with
            | CStart => LStart | CRecv => LRecv | CAcq _ => LAcqD
            | CAcqU _ ((m, _) :: _) => LAcqU m
            | CBuild _ m (i :: _) _ => LBuild (m, i)
            | CSendU _ _ _ _ _ _ | CSendR _ => LSend x
            | CAdd _ _ => LAdd | CDisc _ _ => LDisc | _ => LStart
            end
  | TU y => match u_pc (uth s y) with
            | UStart => LStart
            | UAcq => match u_script (uth s y) with (p, _) :: _ => LAcqU (fst p) | [] => LStart end
            | UBuild q => LBuild q
            | USend _ _ _ _ => LSend (snd st)
            | UDone => LStart
            end
  end.
Fixpoint mk_trace (nd : node) (s : state) (sched : list (tid * conn)) : list (tid * lab) :=
  match sched with [] => [] | st :: r => (fst st, lab_of s st) :: mk_trace nd (cstep nd s st) r end.
Definition kA : case :=
  {| k_node := ndA; k_conns := csA; k_upds := usA; k_trace := mk_trace ndA (init csA usA) P14;
     k_logs := [LA0; LA1; LA2]; k_cache := [((0, 0), 6); ((0, 1), 3); ((0, 2), 8); ((1, 0), 11); ((2, 0), 0)];
     k_actv := []; k_subs := []; k_keys := [SP 0 2; SM 0; SP 1 0; SM 1] |}.
Example C08_nv_check_case : check_case kA = true /\ length (k_trace kA) = 88.
Proof. vm_compute. split; reflexivity. Qed.
Example C08_nv_check_case_state :
  fst (final kA) = run ndA csA usA (map (fun tl => (fst tl, target (snd tl))) (k_trace kA)).
Proof. apply (check_case_state_is_run kA). vm_compute. reflexivity. Qed.

(* ---- C08_source_facts: no premise (closed booleans regenerated from /repo) *)
Example C08_source_facts_applies : reset_shape = true /\ subscribe_shape = true.
Proof. destruct C08_source_facts as [_ [_ [_ [_ [_ [_ [_ [S [_ [_ [_ [R _]]]]]]]]]]]]. split; assumption. Qed.

(* ---- C08_snapshot_complete: premise = a connection parked at send_reply of 'active' *)
Example C08_nonvacuous_snapshot_complete :
  c_pc (cth (runA P8) 0) = CSendR (RpActive SG) /\ c_pc (cth (runA P3) 1) = CSendR (RpActive (SM 0)) /\
  (* the inner premises `covers sc p = true -> exported nd p = true` hold for several p and fail for others *)
  map (fun p => covers SG p && exported ndA p) [(0, 0); (0, 1); (0, 2); (1, 0); (2, 0)] = [true; false; true; true; false] /\
  map (fun p => covers (SM 0) p && exported ndA p) [(0, 0); (0, 1); (0, 2); (1, 0)] = [true; false; true; false].
Proof. vm_compute. repeat split; reflexivity. Qed.

Example C08_snapshot_complete_applies_global :
  exists pre seg, logs (runA P8) 0 = pre ++ EReq (RAct SG false) :: seg /\ Forall is_upd seg /\
    forall p, covers SG p = true -> exported ndA p = true -> exists v, In (EUpd p v) seg.
Proof. apply (C08_snapshot_complete ndA csA usA P8 0 SG). vm_compute. reflexivity. Qed.

Example C08_snapshot_complete_applies_module :
  exists pre seg, logs (runA P3) 1 = pre ++ EReq (RAct (SM 0) false) :: seg /\ Forall is_upd seg /\
    forall p, covers (SM 0) p = true -> exported ndA p = true -> exists v, In (EUpd p v) seg.
Proof. apply (C08_snapshot_complete ndA csA usA P3 1 (SM 0)). vm_compute. reflexivity. Qed.

(* the segment of the global activation contains broadcast messages that raced with it *)
Example C08_snapshot_complete_segment :
  logs (runA P8) 0 = [EReq (RAct SG false); EUpd (0, 2) 7; EUpd (0, 0) 5; EUpd (0, 2) 7; EUpd (1, 0) 11; EUpd (1, 0) 11].
Proof. vm_compute. reflexivity. Qed.

(* ---- C08_broadcast_selects_all_listeners: premise = a driver thread parked at make_update.  Both branches of the
   conclusion occur: three listeners (second branch), no listener (first branch) *)
Example C08_broadcast_selects_applies_listeners :
  let s := runA P4 in let s' := cstep ndA s (TU 0, 0) in
  ((forall x, listens s x (0, 2) = false) /\ (u_pc (uth s' 0) = UDone \/ u_pc (uth s' 0) = UAcq)
   \/ exists all, u_pc (uth s' 0) = USend (0, 2) (cache s (0, 2)) all all /\ NoDup all /\
        forall x, In x all <-> listens s x (0, 2) = true) /\
  (* which branch: *)
  u_pc (uth s' 0) = USend (0, 2) 7 [2; 1; 0] [2; 1; 0] /\
  map (fun x => listens s x (0, 2)) [0; 1; 2; 3] = [true; true; true; false].
Proof.
  cbv zeta. split.
  - apply (C08_broadcast_selects_all_listeners ndA (runA P4) 0 0 (0, 2)). vm_compute. reflexivity.
  - vm_compute. split; reflexivity.
Qed.

Example C08_broadcast_selects_applies_no_listener :
  let s := runA P1 in let s' := cstep ndA s (TU 0, 0) in
  ((forall x, listens s x (0, 0) = false) /\ (u_pc (uth s' 0) = UDone \/ u_pc (uth s' 0) = UAcq)
   \/ exists all, u_pc (uth s' 0) = USend (0, 0) (cache s (0, 0)) all all /\ NoDup all /\
        forall x, In x all <-> listens s x (0, 0) = true) /\
  u_pc (uth s' 0) = UAcq /\ cache s (0, 0) = 5.
Proof.
  cbv zeta. split.
  - apply (C08_broadcast_selects_all_listeners ndA (runA P1) 0 0 (0, 0)). vm_compute. reflexivity.
  - vm_compute. split; reflexivity.
Qed.

(* ---- C08_every_listener_receives: premise = a completed broadcast with a selected listener *)
Example C08_every_listener_receives_applies :
  In (EUpd (0, 2) 7) (logs (runA P11) 1) /\ In (EUpd (0, 2) 8) (logs (runA P11) 0) /\ In (EUpd (1, 0) 11) (logs (runA P11) 0).
Proof.
  split; [| split].
  - apply (C08_every_listener_receives ndA csA usA P11 (0, 2) 7 [2; 1; 0] 1); in_tac.
  - apply (C08_every_listener_receives ndA csA usA P11 (0, 2) 8 [2; 0] 0); in_tac.
  - apply (C08_every_listener_receives ndA csA usA P11 (1, 0) 11 [0] 0); in_tac.
Qed.

(* ---- C08_scope_isolation: premise a <> b only; instance: the (enabled, effective) deactivate step of c1 while c0 and
   c2 listen and u0 has updates left *)
Example C08_scope_isolation_applies :
  let s := runA P9 in let s' := cstep ndA s (TC 1, 0) in
  (logs s' 0 = logs s 0 /\ cth s' 0 = cth s 0 /\ (forall p, listens s' 0 p = listens s 0 p) /\
   uth s' = uth s /\ cache s' = cache s /\ bcasts s' = bcasts s) /\
  (* the step is not a stuttering step: it changes what c1 listens to *)
  cenabled s 1 = true /\ listens s 1 (0, 0) = true /\ listens s' 1 (0, 0) = false /\ listens s 0 (0, 0) = true.
Proof.
  cbv zeta. split.
  - apply (C08_scope_isolation ndA (runA P9) 1 0 0). discriminate.
  - vm_compute. repeat split; reflexivity.
Qed.

(* ---- C08_deactivate_removes_its_scope: premises = parked at the dispatcher lock with a valid deactivate, lock free.
   All three scope kinds; results both true and false *)
Example C08_nonvacuous_deactivate :
  c_pc (cth (runA P9) 1) = CAcq (RDeact (SM 0) false) /\ dlock (runA P9) = None /\
  c_pc (cth (runA P12) 0) = CAcq (RDeact SG false) /\ c_pc (cth (runA P12) 2) = CAcq (RDeact (SP 0 2) false) /\
  dlock (runA P12) = None.
Proof. vm_compute. repeat split; reflexivity. Qed.

Example C08_deactivate_removes_applies_module :
  let s := runA P9 in
  listens (cstep ndA s (TC 1, 0)) 1 (0, 2) = memc 1 (actv s) /\
  listens (cstep ndA s (TC 1, 0)) 1 (1, 0) = listens s 1 (1, 0) /\
  listens s 1 (0, 2) = true /\ memc 1 (actv s) = false /\ listens s 1 (1, 0) = true.
Proof.
  cbv zeta. destruct C08_nonvacuous_deactivate as (PC & DL & _).
  pose proof (fun p => C08_deactivate_removes_its_scope ndA (runA P9) 1 0 (SM 0) p PC DL) as T.
  split; [by_vm (T (0, 2)) |]. split; [by_vm (T (1, 0)) |]. vm_compute. repeat apply conj; reflexivity.
Qed.

Example C08_deactivate_removes_applies_global :
  let s := runA P12 in
  listens (cstep ndA s (TC 0, 0)) 0 (1, 0) = mems 0 (SP 1 0) (subs s) || mems 0 (SM 1) (subs s) /\
  listens (cstep ndA s (TC 0, 0)) 0 (0, 2) = mems 0 (SP 0 2) (subs s) || mems 0 (SM 0) (subs s) /\
  mems 0 (SM 1) (subs s) = true /\ mems 0 (SP 0 2) (subs s) || mems 0 (SM 0) (subs s) = false /\ listens s 0 (0, 2) = true.
Proof.
  cbv zeta. destruct C08_nonvacuous_deactivate as (_ & _ & PC & _ & DL).
  pose proof (fun p => C08_deactivate_removes_its_scope ndA (runA P12) 0 0 SG p PC DL) as T.
  split; [by_vm (T (1, 0)) |]. split; [by_vm (T (0, 2)) |]. vm_compute. repeat apply conj; reflexivity.
Qed.

Example C08_deactivate_removes_applies_parameter :
  let s := runA P12 in
  listens (cstep ndA s (TC 2, 0)) 2 (0, 2) = mems 2 (SM 0) (subs s) || memc 2 (actv s) /\
  listens (cstep ndA s (TC 2, 0)) 2 (0, 0) = listens s 2 (0, 0) /\
  listens s 2 (0, 2) = true /\ mems 2 (SM 0) (subs s) || memc 2 (actv s) = false.
Proof.
  cbv zeta. destruct C08_nonvacuous_deactivate as (_ & _ & _ & PC & DL).
  pose proof (fun p => C08_deactivate_removes_its_scope ndA (runA P12) 2 0 (SP 0 2) p PC DL) as T.
  split; [by_vm (T (0, 2)) |]. split; [by_vm (T (0, 0)) |]. vm_compute. repeat apply conj; reflexivity.
Qed.

Example C08_ident_and_disconnect_applies :
  (* part 1, identification: c0 listened (module 1) before, parked at the reply now *)
  (c_pc (cth (runA P13) 0) = CSendR RpIdent /\ listens (runA P12) 0 (1, 0) = true /\ forall p, listens (runA P13) 0 p = false) /\
  (* part 1, disconnect: c1 listened ((1,0)) before its close, finished now *)
  (c_pc (cth (runA P11) 1) = CDone /\ listens (runA P10) 1 (1, 0) = true /\ forall p, listens (runA P11) 1 p = false) /\
  (* part 2: c1 parked at receive, `close` next, other requests of other threads pending *)
  (let s := runA P10 in let s' := cstep ndA s (TC 1, 0) in
   c_pc (cth s 1) = CRecv /\ c_script (cth s 1) = [RClose] /\
   logs s' 1 = logs s 1 ++ [EClose] /\ c_pc (cth s' 1) = CDisc (reset_targets s) KClose /\
   (forall p, listens s' 1 p = listens s 1 p) /\ reset_targets s = [TSet 0; TSet 1; TSet 2; TActv]).
Proof.
  destruct C08_ident_and_disconnect_remove_all as [I1 I2]. split; [| split].
  - split; [vm_compute; reflexivity |]. split; [vm_compute; reflexivity |].
    apply (I1 ndA csA usA P13 0). left. vm_compute. reflexivity.
  - split; [vm_compute; reflexivity |]. split; [vm_compute; reflexivity |].
    apply (I1 ndA csA usA P11 1). right. vm_compute. reflexivity.
  - cbv zeta.
    assert (A : c_pc (cth (runA P10) 1) = CRecv) by (vm_compute; reflexivity).
    assert (B : c_script (cth (runA P10) 1) = RClose :: []) by (vm_compute; reflexivity).
    destruct (I2 ndA (runA P10) 1 0 [] A B) as [L [Q R]].
    split; [exact A |]. split; [exact B |]. split; [exact L |]. split; [exact Q |]. split; [exact R |].
    vm_compute. reflexivity.
Qed.

(* ---- C08_subscribe_survives_concurrent_disconnect: no outer premise; inner premises:
   (3) a connection inside its activation, (4) a step of another thread *)
Definition Q11 := P10 ++ firstn 8 K11.   (* c0 after the add of subscribe(module 1), c1 in the middle of its disconnect *)
Example C08_subscribe_survives_applies :
  (* the state: c0 inside `activate module 1`, c1 inside reset_connection (no dispatcher lock), u0 inside a broadcast *)
  (c_pc (cth (runA Q11) 0) = CAcqU (SM 1) [(1, [0])] /\ c_pc (cth (runA Q11) 1) = CDisc [TSet 2; TSet 3; TActv] KClose /\
   u_pc (uth (runA Q11) 0) = USend (0, 2) 8 [2; 0] [0] /\ dlock (runA Q11) = Some 0) /\
  tbl_wf (runA Q11) /\
  (* (2) with a non-empty extension *)
  (shape (runA P7) = [(0, SP 0 2); (1, SM 0)] /\ shape (runA (P7 ++ skipn (length P7) P14)) = shape (runA P7) ++ [(2, SP 1 0); (3, SM 1)]) /\
  (* (3) at two program counters and two scope kinds *)
  (listens (runA Q11) 0 (1, 0) = true /\ listens (runA P7) 0 (0, 2) = true /\ listens (runA P7) 0 (1, 0) = true) /\
  (* (4) for the next discard of the disconnecting c1 and for a send of the driver *)
  (forall p, listens (cstep ndA (runA Q11) (TC 1, 0)) 0 p = listens (runA Q11) 0 p) /\
  (forall p, listens (cstep ndA (runA Q11) (TU 0, 0)) 0 p = listens (runA Q11) 0 p).
Proof.
  destruct (C08_subscribe_survives_concurrent_disconnect ndA csA usA Q11) as [W [_ [A L]]].
  destruct (C08_subscribe_survives_concurrent_disconnect ndA csA usA P7) as [_ [S [A7 _]]].
  split; [vm_compute; repeat split; reflexivity |]. split; [exact W |]. split; [| split; [| split]].
  - split; [vm_compute; reflexivity |]. destruct (S (skipn (length P7) P14)) as [ext E].
    vm_compute. reflexivity.
  - split; [| split].
    + apply (A 0 (SM 1)); vm_compute; reflexivity.
    + apply (A7 0 SG); vm_compute; reflexivity.
    + apply (A7 0 SG); vm_compute; reflexivity.
  - apply (L 0 (TC 1, 0)). simpl. discriminate.
  - apply (L 0 (TU 0, 0)). simpl. discriminate.
Qed.

(* ---- C08_silent_after_scope_ended_except_late_update: all five premises at a reachable state with a non-trivial
   continuation (the parameter is updated and broadcast to two other connections, c1 itself goes on to disconnect) *)
Lemma no_usend_P10 : forall x, match u_pc (uth (runA P10) x) with USend _ _ _ _ | UBuild _ => False | _ => True end.
Proof. intros [| [| x]]; vm_compute; exact I. Qed.

Example C08_nonvacuous_silent :
  let s := runA P10 in
  tbl_wf s /\ listens s 1 (0, 2) = false /\ ~ cflight s 1 (0, 2) /\ ~ wants s 1 (0, 2) /\ ~ uflight s 1 (0, 2).
Proof.
  cbv zeta.
  assert (A : c_pc (cth (runA P10) 1) = CRecv) by (vm_compute; reflexivity).
  assert (B : c_script (cth (runA P10) 1) = [RClose]) by (vm_compute; reflexivity).
  split; [apply wf_run |]. split; [vm_compute; reflexivity |]. split; [| split].
  - unfold cflight. rewrite A. simpl. tauto.
  - unfold wants. rewrite A, B. intros [[] | E]. inversion E as [? ? H | ? ? H]; [exact H | inversion H].
  - intros [x [v [al [pe [E _]]]]]. pose proof (no_usend_P10 x) as N. rewrite E in N. exact N.
Qed.

Example C08_silent_applies :
  let s := runA P10 in
  updates_of (0, 2) (logs (run_from ndA s K11) 1) = updates_of (0, 2) (logs s 1) /\
  (* non-trivial: c1 holds updates of the parameter, the continuation broadcasts a new value to the others, and the
     log of c1 itself grows *)
  updates_of (0, 2) (logs s 1) = [EUpd (0, 2) 0; EUpd (0, 2) 7] /\
  bcasts (run_from ndA s K11) = ((0, 2), 8, [2; 0]) :: bcasts s /\
  updates_of (0, 2) (logs (run_from ndA s K11) 2) = updates_of (0, 2) (logs s 2) ++ [EUpd (0, 2) 8] /\
  logs (run_from ndA s K11) 1 = logs s 1 ++ [EClose] /\
  all_enabled ndA s K11 = true.
Proof.
  cbv zeta. destruct C08_nonvacuous_silent as [W [L [C [Wn U]]]]. split.
  - exact (C08_silent_after_scope_ended_except_late_update ndA (runA P10) K11 1 (0, 2) W L C Wn U).
  - vm_compute. repeat split; reflexivity.
Qed.

(* ---- C08_quiescent_fresh: four premises; c2 idle and listening while c0 is in the middle of another activation;
   then c0 itself (three parameters, two of them raced with broadcasts) *)
Lemma upd_idle_P11 : forall x, upd_idle (runA P11) x.
Proof. intros [| [| x]]; vm_compute; exact I. Qed.
Lemma upd_idle_P12 : forall x, upd_idle (runA P12) x.
Proof. intros [| [| x]]; vm_compute; exact I. Qed.

Example C08_quiescent_fresh_applies :
  (last_upd (0, 2) (logs (runA P11) 2) = Some (cache (runA P11) (0, 2)) /\ cache (runA P11) (0, 2) = 8 /\
   c_pc (cth (runA P11) 0) = CAcqU (SM 1) [(1, [0])]) /\
  (last_upd (0, 0) (logs (runA P12) 0) = Some (cache (runA P12) (0, 0)) /\
   last_upd (0, 2) (logs (runA P12) 0) = Some (cache (runA P12) (0, 2)) /\
   last_upd (1, 0) (logs (runA P12) 0) = Some (cache (runA P12) (1, 0)) /\
   map (cache (runA P12)) [(0, 0); (0, 2); (1, 0)] = [5; 8; 11]).
Proof.
  split.
  - split; [| vm_compute; split; reflexivity].
    apply (C08_quiescent_fresh ndA csA usA P11 2 (0, 2));
      [vm_compute; reflexivity | vm_compute; reflexivity | apply upd_idle_P11 | vm_compute; exact I].
  - split; [| split; [| split; [| vm_compute; reflexivity]]].
    + apply (C08_quiescent_fresh ndA csA usA P12 0 (0, 0));
        [vm_compute; reflexivity | vm_compute; reflexivity | apply upd_idle_P12 | vm_compute; exact I].
    + apply (C08_quiescent_fresh ndA csA usA P12 0 (0, 2));
        [vm_compute; reflexivity | vm_compute; reflexivity | apply upd_idle_P12 | vm_compute; exact I].
    + apply (C08_quiescent_fresh ndA csA usA P12 0 (1, 0));
        [vm_compute; reflexivity | vm_compute; reflexivity | apply upd_idle_P12 | vm_compute; exact I].
Qed.

(* ---- C08_update_lock_discipline: no outer premise; the inner premises (somebody holds an updateLock / a built
   message) at a state in which a connection thread and a driver thread hold two different module locks *)
Example C08_update_lock_discipline_applies :
  let s := runA P7 in
  (c_pc (cth s 0) = CSendU SG 0 0 5 [2] [(1, [0])] /\ u_pc (uth s 1) = USend (1, 0) 11 [0] [0]) /\
  holds s (TC 0) 0 /\ holds s (TU 1) 1 /\
  ulock s 0 = Some (TC 0) /\ ulock s 1 = Some (TU 1) /\ cache s (1, 0) = 11 /\ cache s (0, 0) = 5.
Proof.
  cbv zeta. destruct (C08_update_lock_discipline ndA csA usA P7) as [L [V1 V2]].
  assert (A : c_pc (cth (runA P7) 0) = CSendU SG 0 0 5 [2] [(1, [0])]) by (vm_compute; reflexivity).
  assert (B : u_pc (uth (runA P7) 1) = USend (1, 0) 11 [0] [0]) by (vm_compute; reflexivity).
  assert (H0 : holds (runA P7) (TC 0) 0) by (unfold holds; rewrite A; reflexivity).
  assert (H1 : holds (runA P7) (TU 1) 1).
  { exists (1, 0). split; [| reflexivity]. right. exists 11, [0], [0]. exact B. }
  split; [split; [exact A | exact B] |]. split; [exact H0 |]. split; [exact H1 |].
  split; [apply (L (TC 0) 0 H0) |]. split; [apply (L (TU 1) 1 H1) |].
  split; [apply (V1 1 (1, 0) 11 [0] [0] B) | apply (V2 0 SG 0 0 5 [2] [(1, [0])] A)].
Qed.

(* ---- the refutation theorems are closed existential statements (their witnesses are in Refuted.v, every step of the
   witness schedules enabled); the audit run above also contains the refuted pattern's guard: at P5 the broadcast of
   (0,2) with c1 pending is in flight, i.e. `uflight` - the premise `~ uflight` of the silence theorem is a real
   restriction, not an always-true one *)
Example C08_uflight_occurs : uflight (runA P5) 1 (0, 2) /\ uflight (runA P5) 0 (0, 2).
Proof. split; exists 0, 7, [2; 1; 0], [2; 1; 0]; (split; [vm_compute; reflexivity | in_tac]). Qed.

Print Assumptions C08_snapshot_complete_applies_global.
Print Assumptions C08_silent_applies.
Print Assumptions C08_quiescent_fresh_applies.
Print Assumptions C08_subscribe_survives_applies.
Print Assumptions C08_update_lock_discipline_applies.
