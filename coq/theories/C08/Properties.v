(* C08 - the property theorems, each read off the invariants and step lemmas of Step.v / Table.v / Snapshot.v / Silence.v /
   Subscribe.v / Unsubscribe.v / Fresh.v (refutations: Refuted.v); at the end four runs of the model as examples.
   `sched` ranges over every interleaving of connection threads (one per connection: receive, dispatcher lock,
   set.add inside subscribe, updateLock of each module of the snapshot, make_update, send_reply, one set.discard per event
   inside reset_connection) and driver threads (updateLock, make_update, send_reply per listener) at their
   synchronisation points, `nd` over every node (modules / parameters, exported or hidden), `cs` over every set of
   request scripts (activate / deactivate with global, module, parameter scope, valid or refused, *IDN?, close) on any
   number of connections, `us` over every set of update scripts on any number of driver threads.  A step of a thread
   that is not enabled (lock taken, script exhausted) leaves the state unchanged, so every list is a schedule. *)
From Coq Require Import List Arith Bool.
Import ListNotations.
Require Import FV.Gen.C08 FV.C08.Model FV.C08.Lemmas FV.C08.Step FV.C08.Table FV.C08.Snapshot FV.C08.Silence FV.C08.Subscribe FV.C08.Unsubscribe FV.C08.Fresh FV.C08.Refuted.

(* obligations on the facts regenerated from /repo (Gen/C08.v): the code has the modelled shape *)
Theorem C08_source_facts :
  request_under_dispatcher_lock = true /\ announce_under_update_lock = true /\ announce_update_shape = true /\
  broadcast_listeners_shape = true /\ activate_registers_before_snapshot = true /\
  snapshot_under_module_lock = true /\ broadcast_takes_no_dispatcher_lock = true /\
  subscribe_shape = true /\ subscription_entries_never_removed = true /\ unsubscribe_shape = true /\
  unsubscribe_reaches_specific_loop = true /\ deactivate_shape = true /\ reset_shape = true /\
  handler_replies_after_dispatch = true.
Proof. repeat split; reflexivity. Qed.

(* all schedules: when the 'active' reply of an activate request is about to be handed to the connection, the log of
   the connection since that request consists of update messages only and holds one for every exported parameter of
   the scope (whole node, one module, one parameter) - whatever the driver threads and other connections do meanwhile *)
Theorem C08_snapshot_complete : forall nd cs us sched c sc,
  let s := run nd cs us sched in
  c_pc (cth s c) = CSendR (RpActive sc) ->
  exists pre seg, logs s c = pre ++ EReq (RAct sc false) :: seg /\ Forall is_upd seg /\
    forall p, covers sc p = true -> exported nd p = true -> exists v, In (EUpd p v) seg.
Proof.
  intros nd cs us sched c sc s H. pose proof (snap_inv_run nd cs us sched c) as I. fold s in I.
  unfold snap_inv in I. rewrite H in I. destruct I as [seg [[pre [E F]] K]].
  exists pre, seg. repeat split; auto. intros p C X. destruct (K p (snapshot_list_complete nd sc p C X)) as [[] | Y]; auto.
Qed.

(* from then on the connection receives every later update in scope, part 1: the listeners of a broadcast are selected
   at its make_update step and are exactly the connections listening to the parameter at that moment *)
Theorem C08_broadcast_selects_all_listeners : forall nd s u x p,
  u_pc (uth s u) = UBuild p ->
  let s' := cstep nd s (TU u, x) in
  (forall c, listens s c p = false) /\ (u_pc (uth s' u) = UDone \/ u_pc (uth s' u) = UAcq)
  \/ exists all, u_pc (uth s' u) = USend p (cache s p) all all /\ NoDup all /\ forall c, In c all <-> listens s c p = true.
Proof.
  intros nd s u x p H s'. unfold s', cstep, cstep_gen, cstep_upd, uenabled; simpl. rewrite H; simpl.
  destruct (listeners s p) eqn:E.
  - left. split.
    + intros c. destruct (listens s c p) eqn:F; auto. apply listeners_spec in F. rewrite E in F. destruct F.
    + proj. rewrite upd_same. simpl. destruct (u_script (uth s u)); auto.
  - right. exists (listeners s p). rewrite <- E. simpl. rewrite upd_same; simpl. split; auto. split; [apply listeners_nodup |].
    intros; apply listeners_spec.
Qed.

(* part 2, all schedules: every selected listener of a completed broadcast holds its message *)
Theorem C08_every_listener_receives : forall nd cs us sched p v all c,
  In (p, v, all) (bcasts (run nd cs us sched)) -> In c all -> In (EUpd p v) (logs (run nd cs us sched) c).
Proof.
  intros nd cs us sched p v all c B. exact (proj1 (deliver_inv_run nd cs us sched) p v all B c).
Qed.

(* the scopes of other connections are unaffected: a step on behalf of connection a (request, registration,
   deactivation, identification, disconnect, snapshot) changes neither the log nor the thread nor any subscription
   of a connection b, nor the cache *)
Theorem C08_scope_isolation : forall nd s a x b, a <> b ->
  let s' := cstep nd s (TC a, x) in
  logs s' b = logs s b /\ cth s' b = cth s b /\ (forall p, listens s' b p = listens s b p) /\
  uth s' = uth s /\ cache s' = cache s /\ bcasts s' = bcasts s.
Proof. exact isolation. Qed.

(* the matching deactivate removes exactly its scope (a module scope also the parameter scopes below it) and leaves
   the other scopes of the same connection *)
Theorem C08_deactivate_removes_its_scope : forall nd s c x sc p,
  c_pc (cth s c) = CAcq (RDeact sc false) -> dlock s = None ->
  listens (cstep nd s (TC c, x)) c p =
  match sc with
  | SG => mems c (SP (fst p) (snd p)) (subs s) || mems c (SM (fst p)) (subs s)
  | SM m => if Nat.eqb m (fst p) then memc c (actv s) else listens s c p
  | SP m q => if Nat.eqb m (fst p) && Nat.eqb q (snd p) then mems c (SM (fst p)) (subs s) || memc c (actv s)
              else listens s c p
  end.
Proof.
  intros nd s c x sc p PC DL. rewrite (cstep_acq nd s c x _ PC DL); simpl.
  rewrite <- listens_unregister_self. apply listens_ext; unfold set_cpc; simpl; auto.
Qed.

(* a module-wide deactivate ends every parameter scope of the module, WHATEVER the history of the subscription table.
   `s` is ANY state (in particular every state reached by any scripts under any schedule - also one in which nobody ever
   activated the bare module, so that the event `m` has no entry in the table, or one in which it has) in which the
   connection is about to run `deactivate m` under the dispatcher lock.  After that step:
   (1) the reply is `inactive`; (2) the table is the one the statement-by-statement transcription of
   Dispatcher.unsubscribe gives (the loop over the more specific events runs unconditionally);
   (3, 4) the connection is a member of no set bound to `m:q` (any q) or to `m`; (5) every other membership - other
   events, other connections - is what it was; (6) the generic subscribers are untouched;
   (7) whatever the other threads (connections and drivers) do before the connection's own next step (the handing over
   of `inactive`), it listens to a parameter of m only through a global activation;
   (8) and if it has no global scope, no broadcast that selected it earlier is still in flight (the open finding
   late-update, exact guard) and its script holds no later activate covering the parameter, then NO continuation
   schedule delivers another update of that parameter to it. *)
Theorem C08_deactivate_module_removes_parameter_scopes : forall nd s c x m,
  c_pc (cth s c) = CAcq (RDeact (SM m) false) -> dlock s = None ->
  let s1 := cstep nd s (TC c, x) in
  c_pc (cth s1 c) = CSendR RpInactive /\
  tbl s1 = tbl (unsubscribe_code s c (SM m)) /\
  (forall q, mems c (SP m q) (subs s1) = false) /\ mems c (SM m) (subs s1) = false /\
  (forall c' sc', mems c' sc' (subs s1) = mems c' sc' (subs s) && negb (Nat.eqb c' c && key_hits (SM m) sc')) /\
  actv s1 = actv s /\
  (forall others, Forall (fun st : tid * conn => fst st <> TC c) others ->
     let s2 := run_from nd s1 others in
     c_pc (cth s2 c) = CSendR RpInactive /\ forall q, listens s2 c (m, q) = memc c (actv s)) /\
  (forall q sched, tbl_wf s -> memc c (actv s) = false -> ~ uflight s c (m, q) ->
     ~ Exists (act_covering (m, q)) (c_script (cth s c)) ->
     updates_of (m, q) (logs (run_from nd s1 sched) c) = updates_of (m, q) (logs s c)).
Proof.
  intros nd s c x m PC DL s1.
  assert (E : s1 = set_cpc (unregister s c (SM m)) c (CSendR RpInactive)) by (apply deactivate_step; auto).
  assert (P1 : c_pc (cth s1 c) = CSendR RpInactive) by (rewrite E; simpl; rewrite upd_same; reflexivity).
  assert (M : forall c' sc', mems c' sc' (subs s1) = mems c' sc' (subs s) && negb (Nat.eqb c' c && key_hits (SM m) sc')).
  { intros. rewrite !mems_subs, E. simpl. apply memt_unsub. }
  assert (L : forall q, listens s1 c (m, q) = memc c (actv s)).
  { intros q. unfold s1. rewrite (C08_deactivate_removes_its_scope nd s c x (SM m) (m, q) PC DL). simpl.
    rewrite Nat.eqb_refl. reflexivity. }
  split; [exact P1 |]. split; [rewrite E, <- unregister_is_code by discriminate; reflexivity |].
  split; [intros q; rewrite M; simpl; rewrite !Nat.eqb_refl; simpl; apply andb_false_r |].
  split; [rewrite M; simpl; rewrite !Nat.eqb_refl; simpl; apply andb_false_r |].
  split; [exact M |]. split; [rewrite E; reflexivity |]. split.
  - intros others F s2. destruct (others_keep nd others s1 c F) as [EC EL]. split.
    + unfold s2. rewrite EC. exact P1.
    + intros q. unfold s2. rewrite EL. apply L.
  - intros q sched WF A U W.
    assert (WF1 : tbl_wf s1) by (apply wf_step; auto).
    assert (S : silent s1 c (m, q)).
    { unfold silent. rewrite L. split; [exact A |]. split; [| split].
      - intros [u [v [all [pend [X I]]]]]. apply U. exists u, v, all, pend. split; auto.
        rewrite E in X. simpl in X. exact X.
      - unfold cflight. rewrite P1. simpl. auto.
      - unfold wants. rewrite P1. intros [[] | X]. apply W. rewrite E in X. simpl in X. rewrite upd_same in X. exact X. }
    destruct (silent_forever nd sched s1 c (m, q) WF1 S) as [_ R]. rewrite R.
    rewrite E. simpl. reflexivity.
Qed.

(* NOT the code: the variant of unsubscribe that returns when the event itself has no entry (before the loop over the
   more specific events).  On a fresh table - connection c activated `m:q` only, nobody the bare module - the variant
   leaves the connection listening after `deactivate m`; the code does not.  Every step of the witness is enabled. *)
Theorem C08_refuted_parameter_scope_survives_if_unsubscribe_returns_early :
  exists nd cs us sched c m q,
    all_enabled nd (init cs us) sched = true /\
    let s := run nd cs us sched in
    logs s c = [EReq (RAct (SP m q) false); EUpd (m, q) 0; ERep (RpActive (SP m q))] /\
    find_key (SM m) (tbl s) = None /\
    listens (unsubscribe_early_return s c (SM m)) c (m, q) = true /\
    listens (unsubscribe_code s c (SM m)) c (m, q) = false.
Proof. exact refuted_early_return_keeps_parameter_scope. Qed.

(* an identification request and a disconnect remove every scope of the connection.  reset_connection is a sequence of
   steps (one discard per event, then the generic subscribers; a disconnect runs it WITHOUT the dispatcher lock, so
   other connections subscribe and unsubscribe meanwhile).  All schedules: when the reply of the identification request
   is about to be handed over, and when the thread of a closed connection has finished, the connection listens to
   nothing.  The step that receives the close marks the log and starts the loop over the sets bound at that moment. *)
Theorem C08_ident_and_disconnect_remove_all :
  (forall nd cs us sched c,
     let s := run nd cs us sched in
     c_pc (cth s c) = CSendR RpIdent \/ c_pc (cth s c) = CDone -> forall p, listens s c p = false) /\
  (forall nd s c x rest, c_pc (cth s c) = CRecv -> c_script (cth s c) = RClose :: rest ->
     let s' := cstep nd s (TC c, x) in
     logs s' c = logs s c ++ [EClose] /\ c_pc (cth s' c) = CDisc (reset_targets s) KClose /\
     forall p, listens s' c p = listens s c p).
Proof.
  split.
  - intros nd cs us sched c s H p. apply nomember_listens.
    pose proof (reset_inv_run nd cs us sched c) as I. fold s in I. unfold reset_inv in I.
    destruct H as [H | H]; rewrite H in I; exact I.
  - intros nd s c x rest PC SC s'. unfold s', cstep, cstep_gen, cstep_conn_gen, cenabled; simpl. rewrite PC, SC; simpl.
    rewrite !upd_same.
    repeat split; auto.
Qed.

(* a disconnect of one connection inside the activate of another one: Dispatcher.subscribe is two steps (lookup-or-create
   of the per-event set, then add) and remove_connection runs in the thread of the closing connection without the
   dispatcher lock.  All schedules:
   (1) the table is well formed: set identities are distinct and below the allocation counter, and the set object a
       thread holds between the two halves of subscribe is the one bound to its event;
   (2) entries of the table are never removed or rebound - for every continuation the bound set objects of now are still
       bound, to the same events, at the same places (only their members change);
   (3) hence, while the initial updates are sent and when the 'active' reply is about to be handed over, the connection
       listens to every parameter of the scope - whatever disconnects, identifications and (de)activations of other
       connections were interleaved;
   (4) and no step of another thread (connection or driver) changes what it listens to.
   With C08_broadcast_selects_all_listeners and C08_every_listener_receives: every later update in scope reaches it. *)
Theorem C08_subscribe_survives_concurrent_disconnect : forall nd cs us sched,
  let s := run nd cs us sched in
  tbl_wf s /\
  (forall sched', exists ext, shape (run nd cs us (sched ++ sched')) = shape s ++ ext) /\
  (forall c sc, in_scope (c_pc (cth s c)) = Some sc -> forall p, covers sc p = true -> listens s c p = true) /\
  (forall c st, fst st <> TC c -> forall p, listens (cstep nd s st) c p = listens s c p).
Proof.
  intros nd cs us sched s. split; [apply wf_run |]. split; [| split].
  - intros sched'. unfold s, run. rewrite run_from_app. apply run_shape_prefix.
  - intros c sc H. pose proof (act_inv_run nd cs us sched c) as A. fold s in A. unfold act_inv in A. rewrite H in A. exact A.
  - intros c st N. apply (listening_persists nd s st c N).
Qed.

(* FULL STATEMENT (refuted, see C08_refuted_late_update): once connection c does not listen to p any more and has no
   activate request covering p left, no update of p is delivered to it.
   Proved with the exact guard `~ uflight s c p`: no broadcast of p that selected c before is still in flight.
   From every such state with a well-formed table (every reachable state is, C08_subscribe_survives_concurrent_disconnect),
   for every continuation schedule, the updates of p in the log of c stay what they are. *)
Theorem C08_silent_after_scope_ended_except_late_update : forall nd s sched c p,
  tbl_wf s ->
  listens s c p = false -> ~ cflight s c p -> ~ wants s c p ->
  ~ uflight s c p ->
  updates_of p (logs (run_from nd s sched) c) = updates_of p (logs s c).
Proof. intros nd s sched c p WF L C W U. apply (silent_forever nd sched s c p); auto. repeat split; auto. Qed.

(* ALL schedules (no exception: the stale-snapshot defect is repaired by c1c8ab8, the initial updates of a
   module are built and sent under its updateLock): once no broadcast and no snapshot of the connection is in progress,
   the last update message a listening connection holds for an exported parameter equals the cache - even when the
   activation raced with concurrent updates. *)
Theorem C08_quiescent_fresh : forall nd cs us sched c p,
  let s := run nd cs us sched in
  listens s c p = true -> exported nd p = true ->
  (forall u, upd_idle s u) -> conn_idle s c ->
  last_upd p (logs s c) = Some (cache s p).
Proof.
  intros nd cs us sched c p s LS EX UI CI. destruct (all_inv_run nd cs us sched) as (_ & _ & I & _). fold s in I.
  destruct (I c p LS EX) as [F | [[u F] | F]]; auto; exfalso.
  - specialize (UI u). unfold upd_idle in UI. destruct (u_pc (uth s u)); simpl in *; contradiction.
  - unfold conn_idle in CI. unfold cflight in F.
    destruct (c_pc (cth s c)); simpl in F; try contradiction. destruct r; destruct F.
Qed.

(* the lock discipline behind it, all schedules: whoever is between make_update and the last send_reply of a module
   (a driver thread in its broadcast, a connection thread in the initial updates) owns the updateLock of that module,
   and the message it holds carries the cached value *)
Theorem C08_update_lock_discipline : forall nd cs us sched,
  let s := run nd cs us sched in
  (forall t m, holds s t m -> ulock s m = Some t) /\
  (forall u p v all pend, u_pc (uth s u) = USend p v all pend -> cache s p = v) /\
  (forall c sc m i v todo g, c_pc (cth s c) = CSendU sc m i v todo g -> cache s (m, i) = v).
Proof.
  intros nd cs us sched s. destruct (all_inv_run nd cs us sched) as (L & V & _). fold s in L, V. split; [| split].
  - intros t m H. apply L, holds_held, H.
  - intros u p v all pend E. apply (V (TU u)). simpl. rewrite E. reflexivity.
  - intros c sc m i v todo g E. apply (V (TC c)). simpl. rewrite E. reflexivity.
Qed.

(* refutations on the faithful model; the witness schedules are real executions of the current code (corpus/C08) *)
Theorem C08_refuted_late_update :
  exists nd cs us sched c p,
    all_enabled nd (init cs us) sched = true /\
    let s := run nd cs us sched in
    listens s c p = false /\
    logs s c = [EReq (RAct SG false); EUpd p 0; ERep (RpActive SG); EReq (RDeact SG false); ERep RpInactive; EUpd p 1].
Proof. exact refuted_late_update. Qed.

Theorem C08_refuted_late_update_after_disconnect :
  exists nd cs us sched c p,
    all_enabled nd (init cs us) sched = true /\
    let s := run nd cs us sched in
    c_pc (cth s c) = CDone /\
    logs s c = [EReq (RAct (SP 0 0) false); EUpd p 0; ERep (RpActive (SP 0 0)); EClose; EUpd p 1].
Proof. exact refuted_late_update_after_close. Qed.

(* NOT the code: the variant of reset_connection that deletes the entry of a set that has become empty
   (`if not conns: del self._subscriptions[evt]`, model flag del = true).  Connection 0, the only subscriber of
   module 0, disconnects between the two halves of the subscribe of connection 1: connection 1 is added to the orphaned
   set object, gets its snapshot and the 'active' reply, and the later update (cache 1) is never delivered. *)
Theorem C08_refuted_subscribe_lost_if_empty_entries_are_deleted :
  exists nd cs us sched c p,
    all_enabled_gen true nd (init cs us) sched = true /\
    let s := run_from_gen true nd (init cs us) sched in
    logs s c = [EReq (RAct (SM 0) false); EUpd p 0; ERep (RpActive (SM 0))] /\
    c_pc (cth s c) = CRecv /\ c_script (cth s c) = [] /\
    cache s p = 1 /\ u_pc (uth s 0) = UDone /\ listens s c p = false /\ tbl s = [].
Proof. exact refuted_variant_loses_subscription. Qed.

(* non-vacuity: two connections (global / one parameter), one driver thread; sequential schedule: both snapshots, the
   later update reaches both, the deactivation of connection 0 leaves connection 1 listening and fresh *)
Example C08_demo :
  let nd := [(true, [true; false])] in
  let cs := [[RAct SG false; RDeact SG false]; [RAct (SP 0 0) false]] in
  let us := [[((0, 0), 5); ((0, 1), 6)]] in
  let c0 := (TC 0, 0) in let c1 := (TC 1, 0) in
  let sched := [c0; c0; c0; c0; c0; c0; c0; c1; c1; c1; c1; c1; c1; c1; c1;
                (TU 0, 0); (TU 0, 0); (TU 0, 0); (TU 0, 1); (TU 0, 0); (TU 0, 0); c0; c0; c0] in
  let s := run nd cs us sched in
  all_enabled nd (init cs us) sched = true /\
  logs s 0 = [EReq (RAct SG false); EUpd (0, 0) 0; ERep (RpActive SG); EUpd (0, 0) 5; EReq (RDeact SG false); ERep RpInactive] /\
  logs s 1 = [EReq (RAct (SP 0 0) false); EUpd (0, 0) 0; ERep (RpActive (SP 0 0)); EUpd (0, 0) 5] /\
  listens s 0 (0, 0) = false /\ listens s 1 (0, 0) = true /\ last_upd (0, 0) (logs s 1) = Some (cache s (0, 0)) /\
  bcasts s = [((0, 0), 5, [1; 0])].
Proof. vm_compute. repeat split; reflexivity. Qed.

(* non-vacuity of C08_subscribe_survives_concurrent_disconnect: the interleaving of the refutation above on the model of
   the code - connection 1 keeps its subscription and receives the later update *)
Example C08_demo_subscribe_race :
  let sched := lost_sched ++ [(TU 0, 1)] in
  let s := run one [[RAct (SM 0) false; RClose]; [RAct (SM 0) false]] [[(P00, 1)]] sched in
  all_enabled one (init [[RAct (SM 0) false; RClose]; [RAct (SM 0) false]] [[(P00, 1)]]) sched = true /\
  logs s 1 = [EReq (RAct (SM 0) false); EUpd P00 0; ERep (RpActive (SM 0)); EUpd P00 1] /\ listens s 1 P00 = true.
Proof. exact code_keeps_subscription. Qed.

(* non-vacuity of C08_deactivate_module_removes_parameter_scopes: `activate m0:value; deactivate m0` on a fresh table,
   then the driver announces value := 1 - the hypotheses of the theorem hold in the state before the deactivate step
   (no global scope, nothing in flight, no later activate), the connection gets `inactive` and no further update; and
   the control history (bare module activated and left by connection 1 before) *)
Example C08_demo_deactivate_module_fresh_table :
  let cs := [[RAct (SP 0 0) false; RDeact (SM 0) false]] in
  let us := [[(P00, 1)]] in
  let s := run one cs us (repeat (TC 0, 0) 9) in
  let s' := run one cs us (repeat (TC 0, 0) 11 ++ repeat (TU 0, 0) 3) in
  all_enabled one (init cs us) (repeat (TC 0, 0) 11 ++ repeat (TU 0, 0) 3) = true /\
  c_pc (cth s 0) = CAcq (RDeact (SM 0) false) /\ dlock s = None /\ find_key (SM 0) (tbl s) = None /\
  memc 0 (actv s) = false /\ c_script (cth s 0) = [] /\ listens s 0 P00 = true /\
  logs s' 0 = [EReq (RAct (SP 0 0) false); EUpd P00 0; ERep (RpActive (SP 0 0)); EReq (RDeact (SM 0) false); ERep RpInactive] /\
  cache s' P00 = 1 /\ u_pc (uth s' 0) = UDone /\ listens s' 0 P00 = false.
Proof. vm_compute. repeat split; reflexivity. Qed.
Example C08_demo_deactivate_module_control :
  let cs := [[RAct (SP 0 0) false]; [RAct (SM 0) false; RDeact (SM 0) false]] in
  let s := run one cs [] control_sched in
  all_enabled one (init cs []) control_sched = true /\
  find_key (SM 0) (tbl s) = Some 0 /\ listens s 0 P00 = true /\
  listens (unsubscribe_early_return s 0 (SM 0)) 0 P00 = false /\
  listens (unsubscribe_code s 0 (SM 0)) 0 P00 = false.
Proof. exact early_return_control. Qed.

Print Assumptions C08_source_facts.
Print Assumptions C08_snapshot_complete.
Print Assumptions C08_broadcast_selects_all_listeners.
Print Assumptions C08_every_listener_receives.
Print Assumptions C08_scope_isolation.
Print Assumptions C08_deactivate_removes_its_scope.
Print Assumptions C08_deactivate_module_removes_parameter_scopes.
Print Assumptions C08_refuted_parameter_scope_survives_if_unsubscribe_returns_early.
Print Assumptions C08_ident_and_disconnect_remove_all.
Print Assumptions C08_subscribe_survives_concurrent_disconnect.
Print Assumptions C08_silent_after_scope_ended_except_late_update.
Print Assumptions C08_quiescent_fresh.
Print Assumptions C08_update_lock_discipline.
Print Assumptions C08_refuted_late_update.
Print Assumptions C08_refuted_late_update_after_disconnect.
Print Assumptions C08_refuted_subscribe_lost_if_empty_entries_are_deleted.
