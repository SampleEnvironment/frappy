(* C08 - a subscribe that races with the disconnect of another connection lands in the bound set object, and a
   connection whose reset_connection has finished is a member of nothing.  All schedules of the model of the code. *)
From Coq Require Import List Arith Bool.
Import ListNotations.
Require Import FV.C08.Model FV.C08.Lemmas FV.C08.Step FV.C08.Table.

Lemma listening_persists : forall nd s st c, fst st <> TC c ->
  cth (cstep nd s st) c = cth s c /\ forall p, listens (cstep nd s st) c p = listens s c p.
Proof.
  intros nd s [[a | u] x] c N; simpl in N.
  - assert (A : a <> c) by congruence. destruct (isolation nd s a x c A) as [_ [E [L _]]]. auto.
  - destruct (upd_step_frame nd s u x) as (E1 & E2 & _ & -> & _). split; auto.
    intros. apply listens_ext; auto.
Qed.

Definition in_scope (pc : cpc) : option scope :=
  match pc with
  | CAcqU sc _ | CBuild sc _ _ _ | CSendU sc _ _ _ _ _ | CSendR (RpActive sc) => Some sc
  | _ => None
  end.
(* from the add (module / parameter scope) or the registration (whole node) on, the connection listens to every
   parameter of the scope *)
Definition act_inv (s : state) (c : conn) : Prop :=
  match in_scope (c_pc (cth s c)) with
  | Some sc => forall p, covers sc p = true -> listens s c p = true
  | None => True
  end.

Lemma in_scope_enter : forall sc g, in_scope (enter_pc sc g) = Some sc.
Proof. destruct g; reflexivity. Qed.

Lemma act_inv_step : forall nd s st c, tbl_wf s -> act_inv s c -> act_inv (cstep nd s st) c.
Proof.
  intros nd s st c WF A. destruct (tid_eq_dec (fst st) (TC c)) as [E | N].
  2:{ destruct (listening_persists nd s st c N) as [E1 E2]. unfold act_inv in *. rewrite E1.
      destruct (in_scope (c_pc (cth s c))); auto. intros; rewrite E2; auto. }
  destruct st as [t x]; simpl in E; subst t. unfold act_inv in *.
  apply conn_cases; intros; try rewrite PC in A; proj; rewrite ?upd_same; simpl; auto.
  - rewrite in_scope_enter. intros p _. change (listens (register_g s c) c p = true).
    rewrite listens_register_g, Nat.eqb_refl. apply orb_true_r.
  - rewrite in_scope_enter. exact A.
  - rewrite in_scope_enter. exact A.
  - (* subscribe, second half: the set object is the one bound to the event *)
    rewrite in_scope_enter. destruct (wf_live s c sc id WF PC) as [LV NG]. intros p C.
    apply (listens_add_live s c id sc p); auto. apply live_spec; auto.
  - destruct k; exact I.
Qed.

(* all schedules: while the initial updates are sent and when the 'active' reply is about to be handed over, the
   connection listens to every parameter of the scope *)
Lemma act_inv_run : forall nd cs us sched c, act_inv (run nd cs us sched) c.
Proof.
  intros nd cs us sched c. apply (run_invariant nd (fun s => tbl_wf s /\ act_inv s c)).
  - intros s st [W A]. split; [apply wf_step | apply act_inv_step]; auto.
  - split; [apply wf_init | exact I].
Qed.

(* ---- reset_connection: what is left to discard covers every membership of the connection *)
Definition nomember (s : state) (c : conn) : Prop :=
  (forall e, In e (tbl s) -> ~ In c (e_mem e)) /\ ~ In c (actv s).

Lemma nomember_listens : forall s c p, nomember s c -> listens s c p = false.
Proof.
  intros s c p [M A]. rewrite listens_memt.
  assert (K : forall sc, memt c sc (tbl s) = false).
  { intros sc. destruct (memt c sc (tbl s)) eqn:E; auto. apply memt_true in E. destruct E as [e [I [_ X]]]. destruct (M e I X). }
  rewrite !K. destruct (memc c (actv s)) eqn:E; [apply memc_In in E; contradiction | reflexivity].
Qed.

Definition covered (s : state) (c : conn) (ts : list target) : Prop :=
  (forall e, In e (tbl s) -> In c (e_mem e) -> In (TSet (e_id e)) ts) /\ (In c (actv s) -> In TActv ts).

Definition reset_inv (s : state) (c : conn) : Prop :=
  match c_pc (cth s c) with
  | CDisc ts _ => covered s c ts
  | CSendR RpIdent => nomember s c
  | CDone => nomember s c
  | _ => True
  end.

Lemma mono_covered : forall s s' c ts, mono s s' c -> covered s c ts -> covered s' c ts.
Proof.
  intros s s' c ts [M1 M2] [C1 C2]. split; auto. intros e' I M. destruct (M1 e' I M) as (e & I0 & E & _ & M0). rewrite <- E. auto.
Qed.
Lemma mono_nomember : forall s s' c, mono s s' c -> nomember s c -> nomember s' c.
Proof.
  intros s s' c [M1 M2] [C1 C2]. split; auto. intros e' I M. destruct (M1 e' I M) as (e & I0 & _ & _ & M0). eapply C1; eauto.
Qed.

Lemma mono_other : forall nd s st c, fst st <> TC c -> mono s (cstep nd s st) c.
Proof.
  intros nd s [[a | u] x] c N.
  2: { destruct (upd_step_frame nd s u x) as (E1 & E2 & _). apply mono_same; auto. }
  apply conn_cases; intros; rewrite ?enter_groups_eq, ?after_reset_eq; try (apply mono_same; reflexivity).
  - exact (mono_unregister s a sc c).
  - split; simpl; [intros e I M; exists e; auto |]. intros [E | I]; auto. subst a. contradiction N; auto.
  - exact (mono_lookup s sc c).
  - apply (mono_add_other s a id c). intros ->. apply N; auto.
  - exact (mono_discard s a t c).
  - exact (mono_discard s a t c).
Qed.

Lemma discard_covered : forall s c t ts, covered s c (t :: ts) -> covered (discard_target false s c t) c ts.
Proof.
  intros s c t ts [C1 C2]. destruct t as [id |]; split; simpl.
  - intros e' I M. apply in_map_iff in I. destruct I as [e [<- I]]. unfold mem_del in *.
    destruct (Nat.eqb (e_id e) id) eqn:E; simpl in *.
    + apply In_remc in M. tauto.
    + destruct (C1 e I M) as [X | X]; auto. inversion X. apply Nat.eqb_neq in E. congruence.
  - intros A. destruct (C2 A) as [X | X]; auto. discriminate.
  - intros e I M. destruct (C1 e I M) as [X | X]; auto. discriminate.
  - intros A. apply In_remc in A. tauto.
Qed.
Lemma covered_nil : forall s c, covered s c [] -> nomember s c.
Proof. intros s c [C1 C2]. split; [intros e I M; apply (C1 e I M) | intros A; apply (C2 A)]. Qed.
Lemma covered_all : forall s c, covered s c (reset_targets s).
Proof.
  intros. unfold reset_targets. split; intros; apply in_or_app; [left | right; simpl; auto].
  apply in_map_iff. exists e; auto.
Qed.

Lemma reset_inv_step : forall nd s st c, reset_inv s c -> reset_inv (cstep nd s st) c.
Proof.
  intros nd s st c A. destruct (tid_eq_dec (fst st) (TC c)) as [E | N].
  2:{ destruct (listening_persists nd s st c N) as [E1 _]. pose proof (mono_other nd s st c N) as M.
      unfold reset_inv in *. rewrite E1. destruct (c_pc (cth s c)); auto.
      - destruct r; auto. eapply mono_nomember; eauto.
      - eapply mono_covered; eauto.
      - eapply mono_nomember; eauto. }
  destruct st as [t x]; simpl in E; subst t. unfold reset_inv in *.
  apply conn_cases; intros; try rewrite PC in A; proj; rewrite ?upd_same; simpl; auto; try (apply enter_pc_elim; exact I).
  - exact (covered_all s c).
  - exact (covered_all s c).
  - apply discard_covered, covered_nil in A. destruct k; exact A.
  - exact (discard_covered s c t _ A).
Qed.

(* all schedules: at the reply of an identification request, and when the thread of a closed connection has finished,
   the connection is a member of nothing *)
Lemma reset_inv_run : forall nd cs us sched c, reset_inv (run nd cs us sched) c.
Proof. intros. apply (run_invariant nd (fun s => reset_inv s c)); [intros; apply reset_inv_step; auto | exact I]. Qed.
