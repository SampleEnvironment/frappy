(* C08 - what the operations on the subscription table do to membership and to `listens` (equations per operation, and `mono`:
   memberships that only shrink), the snapshot list as the set of exported parameters of a scope, induction over schedules *)
From Coq Require Import List Arith Bool Lia Btauto.
Import ListNotations.
Require Import FV.C08.Model.

Lemma pid_eqb_eq : forall a b, pid_eqb a b = true <-> a = b.
Proof.
  intros [a1 a2] [b1 b2]; unfold pid_eqb; simpl. rewrite andb_true_iff, !Nat.eqb_eq.
  split; [intros [-> ->]; reflexivity | intros H; inversion H; auto].
Qed.
Lemma pid_eqb_refl : forall a, pid_eqb a a = true.
Proof. intros; apply pid_eqb_eq; reflexivity. Qed.
Lemma pid_eqb_neq : forall a b, pid_eqb a b = false <-> a <> b.
Proof.
  intros a b; split; intros H.
  - intros E; apply pid_eqb_eq in E; congruence.
  - destruct (pid_eqb a b) eqn:E; auto. apply pid_eqb_eq in E; contradiction.
Qed.
Lemma scope_eqb_eq : forall a b, scope_eqb a b = true <-> a = b.
Proof.
  intros [|m|m p] [|m'|m' p']; simpl; try (split; [discriminate | congruence]); try tauto.
  - rewrite Nat.eqb_eq; split; congruence.
  - rewrite andb_true_iff, !Nat.eqb_eq; split; [intros [-> ->]; auto | intros H; inversion H; auto].
Qed.
Lemma scope_eqb_refl : forall a, scope_eqb a a = true.
Proof. intros; apply scope_eqb_eq; reflexivity. Qed.

Lemma upd_same : forall A (f : nat -> A) k v, upd f k v k = v.
Proof. intros; unfold upd; rewrite Nat.eqb_refl; reflexivity. Qed.
Lemma upd_other : forall A (f : nat -> A) k v k', k' <> k -> upd f k v k' = f k'.
Proof. intros; unfold upd. destruct (Nat.eqb k' k) eqn:E; auto. apply Nat.eqb_eq in E; contradiction. Qed.
Lemma updp_same : forall A (f : pid -> A) k v, updp f k v k = v.
Proof. intros; unfold updp; rewrite pid_eqb_refl; reflexivity. Qed.
Lemma updp_other : forall A (f : pid -> A) k v k', k' <> k -> updp f k v k' = f k'.
Proof. intros; unfold updp. destruct (pid_eqb k' k) eqn:E; auto. apply pid_eqb_eq in E; contradiction. Qed.

Lemma memc_In : forall c l, memc c l = true <-> In c l.
Proof.
  induction l; simpl; [split; [discriminate | tauto] |].
  rewrite orb_true_iff, Nat.eqb_eq, IHl. split; intros [H | H]; auto.
Qed.
Lemma mems_In : forall c sc l, mems c sc l = true <-> In (c, sc) l.
Proof.
  induction l as [| [x y] l]; simpl; [split; [discriminate | tauto] |].
  rewrite orb_true_iff, andb_true_iff, Nat.eqb_eq, scope_eqb_eq, IHl.
  split; intros [H | H]; auto.
  - destruct H; subst; auto.
  - inversion H; auto.
Qed.
Lemma In_remc : forall c x l, In c (remc x l) <-> In c l /\ c <> x.
Proof.
  intros; unfold remc; rewrite filter_In, negb_true_iff, Nat.eqb_neq; tauto.
Qed.
Lemma memc_remc : forall c x l, memc c (remc x l) = memc c l && negb (Nat.eqb c x).
Proof. intros. apply eq_true_iff_eq. rewrite andb_true_iff, negb_true_iff, Nat.eqb_neq, !memc_In, In_remc. reflexivity. Qed.
Lemma memc_remc_self : forall c l, memc c (remc c l) = false.
Proof. intros. rewrite memc_remc, Nat.eqb_refl. apply andb_false_r. Qed.
Lemma memc_remc_other : forall c x l, c <> x -> memc c (remc x l) = memc c l.
Proof. intros c x l N. rewrite memc_remc. apply Nat.eqb_neq in N. rewrite N. apply andb_true_r. Qed.
Lemma mems_filter : forall c sc f l, mems c sc (filter f l) = mems c sc l && f (c, sc).
Proof.
  intros. apply eq_true_iff_eq. rewrite andb_true_iff, !mems_In, filter_In. reflexivity.
Qed.

(* ---- the table: membership through the set objects *)
Definition memt (c : conn) (sc : scope) (t : list sentry) : bool :=
  existsb (fun e => scope_eqb sc (e_key e) && memc c (e_mem e)) t.

Lemma mems_app : forall c sc l1 l2, mems c sc (l1 ++ l2) = mems c sc l1 || mems c sc l2.
Proof. induction l1 as [| [x y] l1]; simpl; intros; auto. rewrite IHl1, orb_assoc; auto. Qed.
Lemma mems_map_key : forall c sc key l, mems c sc (map (fun x => (x, key)) l) = scope_eqb sc key && memc c l.
Proof.
  induction l; simpl; [rewrite andb_false_r; auto |]. rewrite IHl.
  destruct (scope_eqb sc key); simpl; [rewrite andb_true_r; auto | rewrite andb_false_r; auto].
Qed.
Lemma mems_subs : forall s c sc, mems c sc (subs s) = memt c sc (tbl s).
Proof.
  intros. unfold subs, memt. induction (tbl s) as [| e t IH]; simpl; auto.
  rewrite mems_app, mems_map_key, IH; auto.
Qed.
Lemma listens_memt : forall s c p,
  listens s c p = memt c (SP (fst p) (snd p)) (tbl s) || memt c (SM (fst p)) (tbl s) || memc c (actv s).
Proof. intros. unfold listens. rewrite !mems_subs; auto. Qed.
Lemma memt_true : forall c sc t, memt c sc t = true <-> exists e, In e t /\ e_key e = sc /\ In c (e_mem e).
Proof.
  intros. unfold memt. rewrite existsb_exists. split; intros [e [I H]]; exists e; split; auto.
  - apply andb_true_iff in H. destruct H as [H1 H2]. apply scope_eqb_eq in H1. apply memc_In in H2. auto.
  - destruct H as [H1 H2]. apply andb_true_iff. split; [apply scope_eqb_eq; auto | apply memc_In; auto].
Qed.

(* set.add on the set object id *)
Lemma memt_add : forall c id c' sc t,
  memt c' sc (map (mem_add c id) t) =
  memt c' sc t || (Nat.eqb c' c && existsb (fun e => Nat.eqb (e_id e) id && scope_eqb sc (e_key e)) t).
Proof.
  intros. unfold memt. induction t as [| e t IH]; simpl; [rewrite andb_false_r; auto |]. rewrite IH. clear IH.
  unfold mem_add. destruct (Nat.eqb (e_id e) id); simpl; [| btauto].
  destruct (Nat.eqb c' c); simpl; btauto.
Qed.
(* set.discard on the set object id *)
Lemma memt_del_other : forall c id c' sc t, c' <> c -> memt c' sc (map (mem_del c id) t) = memt c' sc t.
Proof.
  intros. unfold memt. induction t as [| e t IH]; simpl; auto. rewrite IH. f_equal.
  unfold mem_del. destruct (Nat.eqb (e_id e) id); simpl; auto. rewrite memc_remc_other; auto.
Qed.
Lemma memt_filter_le : forall f c sc t, memt c sc (filter f t) = true -> memt c sc t = true.
Proof.
  intros f c sc t H. apply memt_true in H. destruct H as [e [I H]]. apply filter_In in I. apply memt_true. exists e; tauto.
Qed.
(* unsubscribe: discard from every set whose event the scope hits *)
Lemma memt_unsub : forall c sc c' sc' t,
  memt c' sc' (map (mem_unsub c sc) t) = memt c' sc' t && negb (Nat.eqb c' c && key_hits sc sc').
Proof.
  intros. unfold memt. induction t as [| e t IH]; simpl; auto. rewrite IH. clear IH.
  unfold mem_unsub. destruct (scope_eqb sc' (e_key e)) eqn:K; simpl.
  - apply scope_eqb_eq in K. subst sc'. destruct (key_hits sc (e_key e)); simpl; rewrite scope_eqb_refl, ?memc_remc; btauto.
  - destruct (key_hits sc (e_key e)); simpl; rewrite K; btauto.
Qed.

Lemma listeners_spec : forall s p c, In c (listeners s p) <-> listens s c p = true.
Proof.
  intros. unfold listeners, listens. rewrite nodup_In, in_app_iff, !orb_true_iff, !mems_In, memc_In, in_map_iff.
  split.
  - intros [[[x sc] [E H]] | H]; auto. simpl in E; subst x. apply filter_In in H. destruct H as [H C].
    unfold covering in C; simpl in C. destruct sc; try discriminate.
    + apply Nat.eqb_eq in C; subst; auto.
    + apply andb_true_iff in C. destruct C as [C1 C2]. apply Nat.eqb_eq in C1, C2; subst.
      destruct p; simpl; auto.
  - intros [[H | H] | H]; auto; left; eexists; (split; [| apply filter_In; split; [exact H |]]); simpl; auto;
      unfold covering; simpl; rewrite ?Nat.eqb_refl; auto.
Qed.
Lemma listeners_nodup : forall s p, NoDup (listeners s p).
Proof. intros; apply NoDup_nodup. Qed.

Lemma covers_SP : forall m q p, covers (SP m q) p = true <-> p = (m, q).
Proof.
  intros m q [a b]; simpl. rewrite andb_true_iff, !Nat.eqb_eq. split; [intros [-> ->]; auto | intros H; inversion H; auto].
Qed.

(* listens only looks at the tables *)
Lemma listens_ext : forall s s' c p, actv s' = actv s -> tbl s' = tbl s -> listens s' c p = listens s c p.
Proof. intros. rewrite !listens_memt. rewrite H, H0; reflexivity. Qed.
Lemma subs_ext : forall s s', tbl s' = tbl s -> subs s' = subs s.
Proof. intros. unfold subs. rewrite H; reflexivity. Qed.
Lemma listeners_ext : forall s s' p, actv s' = actv s -> tbl s' = tbl s -> listeners s' p = listeners s p.
Proof. intros. unfold listeners. rewrite H, (subs_ext s s') by auto; reflexivity. Qed.

(* activate of the whole node *)
Lemma listens_register_g : forall s c c' p, listens (register_g s c) c' p = listens s c' p || Nat.eqb c' c.
Proof.
  intros. rewrite !listens_memt. simpl. destruct (Nat.eqb c' c); simpl; rewrite ?orb_true_r, ?orb_false_r; auto.
Qed.

(* subscribe, first half: the table gains at most an empty set *)
Lemma lookup_cases (s : state) (sc : scope) (R : state * nat -> Prop) :
  (forall id, find_key sc (tbl s) = Some id -> R (s, id)) ->
  (find_key sc (tbl s) = None ->
   R (set_nsets (set_tbl s (tbl s ++ [{| e_id := nsets s; e_key := sc; e_mem := [] |}])) (S (nsets s)), nsets s)) ->
  R (lookup s sc).
Proof. intros H1 H2. unfold lookup. destruct (find_key sc (tbl s)) eqn:E; auto. Qed.
Lemma memt_app_empty : forall c sc t e, e_mem e = [] -> memt c sc (t ++ [e]) = memt c sc t.
Proof. intros. unfold memt. rewrite existsb_app; simpl. rewrite H; simpl. rewrite andb_false_r; simpl. apply orb_false_r. Qed.
Lemma listens_lookup : forall s sc c p, listens (fst (lookup s sc)) c p = listens s c p.
Proof.
  intros. apply (lookup_cases s sc (fun r => listens (fst r) c p = listens s c p)); simpl; intros; auto.
  rewrite !listens_memt. simpl. rewrite !memt_app_empty by auto. auto.
Qed.
Lemma find_key_In : forall sc t id, find_key sc t = Some id -> exists e, In e t /\ e_id e = id /\ e_key e = sc.
Proof.
  intros sc t id. unfold find_key. destruct (find (fun e => scope_eqb (e_key e) sc) t) as [e |] eqn:F; [| discriminate].
  intros H; inversion H; subst. apply find_some in F. destruct F as [I K]. apply scope_eqb_eq in K. exists e; auto.
Qed.
Lemma find_key_None : forall sc t, find_key sc t = None -> forall e, In e t -> e_key e <> sc.
Proof.
  intros sc t. unfold find_key. destruct (find (fun e => scope_eqb (e_key e) sc) t) as [e |] eqn:F; [discriminate |].
  intros _ e I K. apply (find_none _ _ F) in I. apply scope_eqb_eq in K. congruence.
Qed.
(* the set object that was returned is bound to the event *)
Lemma lookup_live : forall s sc,
  exists e, In e (tbl (fst (lookup s sc))) /\ e_id e = snd (lookup s sc) /\ e_key e = sc.
Proof.
  intros. apply (lookup_cases s sc (fun r => exists e, In e (tbl (fst r)) /\ e_id e = snd r /\ e_key e = sc)); simpl.
  - intros id F. apply find_key_In; auto.
  - intros _. eexists. split; [apply in_or_app; right; left; reflexivity |]. auto.
Qed.

(* subscribe, second half *)
Lemma listens_add_other : forall s c id c' p, c' <> c -> listens (add_to s c id) c' p = listens s c' p.
Proof.
  intros. rewrite !listens_memt. simpl. rewrite !memt_add. apply Nat.eqb_neq in H. rewrite H; simpl. rewrite !orb_false_r; auto.
Qed.
Lemma listens_add_ge : forall s c id c' p, listens s c' p = true -> listens (add_to s c id) c' p = true.
Proof.
  intros s c id c' p. rewrite !listens_memt. simpl. rewrite !memt_add. rewrite !orb_true_iff. tauto.
Qed.
Definition key_covers (key : scope) (p : pid) : bool :=
  match key with SG => false | _ => covers key p end.
Lemma key_covers_cases : forall key p, key_covers key p = true <-> key = SP (fst p) (snd p) \/ key = SM (fst p).
Proof.
  intros [| m | m q] p; simpl.
  - split; [discriminate | intros [H | H]; discriminate].
  - rewrite Nat.eqb_eq. split; [intros ->; auto | intros [H | H]; inversion H; auto].
  - rewrite andb_true_iff, !Nat.eqb_eq. split; [intros [-> ->]; auto | intros [H | H]; inversion H; auto].
Qed.
Lemma key_covers_split : forall key p,
  key_covers key p = scope_eqb (SP (fst p) (snd p)) key || scope_eqb (SM (fst p)) key.
Proof.
  intros [| m | m q] p; simpl; auto.
  - apply Nat.eqb_sym.
  - rewrite orb_false_r. rewrite (Nat.eqb_sym m), (Nat.eqb_sym q); auto.
Qed.
Lemma existsb_key_covers : forall id p t,
  existsb (fun e => Nat.eqb (e_id e) id && key_covers (e_key e) p) t =
  existsb (fun e => Nat.eqb (e_id e) id && scope_eqb (SP (fst p) (snd p)) (e_key e)) t
  || existsb (fun e => Nat.eqb (e_id e) id && scope_eqb (SM (fst p)) (e_key e)) t.
Proof.
  induction t as [| e t IH]; [reflexivity |]. cbn [existsb]. rewrite IH, key_covers_split. btauto.
Qed.
(* after the add, the connection is a member of every bound set with that identity *)
Lemma listens_add_self : forall s c id p,
  listens (add_to s c id) c p =
  listens s c p || existsb (fun e => Nat.eqb (e_id e) id && key_covers (e_key e) p) (tbl s).
Proof.
  intros. rewrite !listens_memt. cbn [add_to set_tbl tbl actv]. rewrite !memt_add, Nat.eqb_refl, existsb_key_covers. btauto.
Qed.
Lemma listens_add_live : forall s c id sc p,
  (exists e, In e (tbl s) /\ e_id e = id /\ e_key e = sc) -> sc <> SG -> covers sc p = true ->
  listens (add_to s c id) c p = true.
Proof.
  intros s c id sc p [e [I [E K]]] N C. rewrite listens_add_self. apply orb_true_iff. right.
  apply existsb_exists. exists e. split; auto. rewrite E, Nat.eqb_refl, K. simpl. destruct sc; simpl; auto; congruence.
Qed.
Lemma listens_add_only : forall s c id sc p,
  (forall e, In e (tbl s) -> e_id e = id -> e_key e = sc) ->
  listens (add_to s c id) c p = true -> listens s c p = true \/ covers sc p = true.
Proof.
  intros s c id sc p U. rewrite listens_add_self, orb_true_iff. intros [H | H]; auto. right.
  apply existsb_exists in H. destruct H as [e [I H]]. apply andb_true_iff in H. destruct H as [H1 H2].
  apply Nat.eqb_eq in H1. rewrite (U e I H1) in H2. destruct sc; simpl in *; auto.
Qed.

(* one discard of reset_connection (the code: del = false) *)
Lemma listens_discard_other : forall s c t c' p, c' <> c -> listens (discard_target false s c t) c' p = listens s c' p.
Proof.
  intros. rewrite !listens_memt. destruct t as [id |]; simpl.
  - rewrite !memt_del_other by auto. auto.
  - rewrite memc_remc_other; auto.
Qed.

(* deactivation of one scope: what remains for this connection, nothing changes for the others *)
Lemma listens_unregister_other : forall s c sc c' p, c' <> c -> listens (unregister s c sc) c' p = listens s c' p.
Proof.
  intros. rewrite !listens_memt. unfold unregister. apply Nat.eqb_neq in H. destruct sc; simpl.
  - rewrite memc_remc_other; auto. apply Nat.eqb_neq; auto.
  - rewrite !memt_unsub, H. simpl. rewrite !andb_true_r; auto.
  - rewrite !memt_unsub, H. simpl. rewrite !andb_true_r; auto.
Qed.
Lemma listens_unregister_self : forall s c sc p,
  listens (unregister s c sc) c p =
  match sc with
  | SG => mems c (SP (fst p) (snd p)) (subs s) || mems c (SM (fst p)) (subs s)
  | SM m => if Nat.eqb m (fst p) then memc c (actv s) else listens s c p
  | SP m q => if Nat.eqb m (fst p) && Nat.eqb q (snd p) then mems c (SM (fst p)) (subs s) || memc c (actv s)
              else listens s c p
  end.
Proof.
  intros. rewrite !listens_memt, !mems_subs. unfold unregister. destruct sc as [| m | m q]; simpl.
  - rewrite memc_remc_self, orb_false_r; auto.
  - rewrite !memt_unsub. simpl. rewrite Nat.eqb_refl. destruct (Nat.eqb m (fst p)); simpl; btauto.
  - rewrite !memt_unsub. simpl. rewrite Nat.eqb_refl. destruct (Nat.eqb m (fst p) && Nat.eqb q (snd p)); simpl; btauto.
Qed.
(* ---- the memberships of c in s' are memberships in s: what the operations of other connections, and the removing
   operations of c itself, do to c *)
Definition mono (s s' : state) (c : conn) : Prop :=
  (forall e', In e' (tbl s') -> In c (e_mem e') ->
     exists e, In e (tbl s) /\ e_id e = e_id e' /\ e_key e = e_key e' /\ In c (e_mem e))
  /\ (In c (actv s') -> In c (actv s)).

Lemma mono_same : forall s s' c, tbl s' = tbl s -> actv s' = actv s -> mono s s' c.
Proof. intros s s' c E1 E2. split; rewrite ?E1, ?E2; auto. intros e I M. exists e; auto. Qed.
Lemma mono_map : forall s s' c f, tbl s' = map f (tbl s) ->
  (forall e, e_id (f e) = e_id e /\ e_key (f e) = e_key e /\ (In c (e_mem (f e)) -> In c (e_mem e))) ->
  (In c (actv s') -> In c (actv s)) -> mono s s' c.
Proof.
  intros s s' c f E F A. split; auto. rewrite E. intros e' I M. apply in_map_iff in I. destruct I as [e [<- I]].
  destruct (F e) as (F1 & F2 & F3). exists e. auto.
Qed.
Lemma mono_unregister : forall s a sc c, mono s (unregister s a sc) c.
Proof.
  intros s a sc c.
  assert (K : forall e, e_id (mem_unsub a sc e) = e_id e /\ e_key (mem_unsub a sc e) = e_key e /\
                        (In c (e_mem (mem_unsub a sc e)) -> In c (e_mem e))).
  { intros e. unfold mem_unsub. destruct (key_hits sc (e_key e)); simpl; repeat split; auto. intros I; apply In_remc in I; tauto. }
  destruct sc; [| eapply mono_map; [reflexivity | exact K | auto] ..].
  split; simpl; [intros e I M; exists e; auto | intros I; apply In_remc in I; tauto].
Qed.
Lemma mono_discard : forall s a t c, mono s (discard_target false s a t) c.
Proof.
  intros s a [id |] c.
  - apply (mono_map _ _ c (mem_del a id)); auto. intros e. unfold mem_del.
    destruct (Nat.eqb (e_id e) id); simpl; repeat split; auto. intros I; apply In_remc in I; tauto.
  - split; simpl; [intros e I M; exists e; auto | intros I; apply In_remc in I; tauto].
Qed.
Lemma mono_lookup : forall s sc c, mono s (fst (lookup s sc)) c.
Proof.
  intros. apply (lookup_cases s sc (fun r => mono s (fst r) c)); simpl; intros.
  - apply mono_same; auto.
  - split; simpl; auto. intros e I M. apply in_app_or in I. destruct I as [I | [<- | []]]; [exists e; auto | destruct M].
Qed.
Lemma mono_add_other : forall s a id c, c <> a -> mono s (add_to s a id) c.
Proof.
  intros. apply (mono_map _ _ c (mem_add a id)); auto. intros e. unfold mem_add.
  destruct (Nat.eqb (e_id e) id); simpl; repeat split; auto. intros [E | I]; [congruence | auto].
Qed.
Lemma mono_listens : forall s s' c p, mono s s' c -> listens s' c p = true -> listens s c p = true.
Proof.
  intros s s' c p [M A]. rewrite !listens_memt, !orb_true_iff, !memt_true, !memc_In.
  intros [[H | H] | H]; auto; [left; left | left; right]; destruct H as (e' & I & K & X);
    destruct (M e' I X) as (e & I0 & _ & K0 & X0); exists e; repeat split; auto; congruence.
Qed.

(* ---- the snapshot list is the set of exported parameters of the scope *)
Lemma pidx_of_spec : forall nd m i, In i (pidx_of nd m) <-> exported nd (m, i) = true.
Proof.
  intros nd m i. unfold pidx_of, exported; simpl.
  destruct (nth_error nd m) as [[e ps] |] eqn:E; [| simpl; split; [tauto | discriminate]].
  destruct e; [| simpl; split; [tauto | discriminate]]. simpl. rewrite filter_In, in_seq. split; [tauto |].
  intros H. split; auto. split; [lia |]. simpl.
  destruct (Nat.lt_ge_cases i (length ps)); auto. rewrite nth_overflow in H; auto; discriminate.
Qed.
Lemma params_of_spec : forall nd m p, In p (params_of nd m) <-> fst p = m /\ exported nd p = true.
Proof.
  intros nd m [a b]. unfold params_of. rewrite in_map_iff. simpl. split.
  - intros [i [H F]]. inversion H; subst. split; auto. apply pidx_of_spec; auto.
  - intros [-> H]. exists b; split; auto. apply pidx_of_spec; auto.
Qed.
Lemma exported_mod : forall nd p, exported nd p = true -> mod_exported nd (fst p) = true /\ fst p < length nd.
Proof.
  intros nd p H. unfold exported in H. unfold mod_exported.
  destruct (nth_error nd (fst p)) as [[e ps] |] eqn:E; [| discriminate]. apply andb_true_iff in H. destruct H as [-> _].
  split; auto. apply nth_error_Some. congruence.
Qed.
Lemma in_flat : forall groups p, In p (flat groups) <-> exists g, In g groups /\ fst p = fst g /\ In (snd p) (snd g).
Proof.
  intros groups [a b]. unfold flat, group_pids. rewrite in_flat_map. simpl. split.
  - intros [g [G H]]. apply in_map_iff in H. destruct H as [i [E I]]. inversion E; subst. exists g; auto.
  - intros [g [G [E I]]]. exists g. split; auto. apply in_map_iff. exists b. subst a; auto.
Qed.
Lemma snapshot_list_covers : forall nd sc p, In p (snapshot_list nd sc) -> covers sc p = true.
Proof.
  intros nd sc p. unfold snapshot_list. rewrite in_flat. destruct sc as [| m | m q]; simpl; auto.
  - intros [g [[<- | []] [E _]]]. simpl in E. subst. apply Nat.eqb_refl.
  - destruct p as [a b]. intros [g [[<- | []] [E [I | []]]]]. simpl in *. subst. rewrite !Nat.eqb_refl; auto.
Qed.
Lemma snapshot_list_complete : forall nd sc p,
  covers sc p = true -> exported nd p = true -> In p (snapshot_list nd sc).
Proof.
  intros nd sc p C E. unfold snapshot_list. apply in_flat. destruct sc as [| m | m q]; simpl.
  - exists (fst p, pidx_of nd (fst p)). simpl. destruct (exported_mod nd p E) as [M L].
    split; [| split; auto; apply pidx_of_spec; destruct p; auto].
    apply in_map_iff. exists (fst p). split; auto. apply filter_In. split; auto. apply in_seq. lia.
  - simpl in C. apply Nat.eqb_eq in C. subst m. exists (fst p, pidx_of nd (fst p)). simpl. split; [left; reflexivity | split; [reflexivity |]].
    apply pidx_of_spec. destruct p; auto.
  - apply covers_SP in C. subst p. exists (m, [q]); simpl; auto.
Qed.
Lemma snapshot_list_spec : forall nd sc p, act_error nd sc = None ->
  (In p (snapshot_list nd sc) <-> covers sc p = true /\ exported nd p = true).
Proof.
  intros nd sc p A. split; [| intros [C E]; apply snapshot_list_complete; auto].
  intros I. split; [exact (snapshot_list_covers nd sc p I) |].
  revert I. unfold snapshot_list. rewrite in_flat. intros [g [G [E I]]]. destruct sc as [| m | m q]; simpl in *.
  - apply in_map_iff in G. destruct G as [m [<- _]]. simpl in *. apply pidx_of_spec in I. rewrite <- E in I. destruct p; auto.
  - destruct G as [<- | []]. simpl in *. apply pidx_of_spec in I. rewrite <- E in I. destruct p; auto.
  - destruct (mod_exported nd m); [| discriminate]. destruct (exported nd (m, q)) eqn:X; [| discriminate].
    destruct G as [<- | []]. destruct I as [I | []]. destruct p; simpl in *; subst; auto.
Qed.

Lemma run_from_app : forall nd s a b, run_from nd s (a ++ b) = run_from nd (run_from nd s a) b.
Proof. intros; unfold run_from; apply fold_left_app. Qed.

Lemma run_invariant (nd : node) (I : state -> Prop) :
  (forall s st, I s -> I (cstep nd s st)) ->
  forall sched s, I s -> I (run_from nd s sched).
Proof.
  intros STEP sched. induction sched as [| st r IH]; simpl; intros s H; auto.
Qed.

(* ---- enter_groups: either the reply (snapshot finished, dispatcher lock released) or the next module lock *)
Lemma enter_groups_cases (s : state) (c : conn) (sc : scope) (groups : list (nat * list nat)) (R : state -> Prop) :
  (groups = [] -> R (set_cpc (set_dlock s None) c (CSendR (RpActive sc)))) ->
  (groups <> [] -> R (set_cpc s c (CAcqU sc groups))) ->
  R (enter_groups s c sc groups).
Proof. intros H1 H2. destruct groups; simpl; [apply H1; auto | apply H2; discriminate]. Qed.
