(* C08 - freshness at quiescence for ALL schedules (since the repair c1c8ab8 the initial updates of a module are built and
   sent under its updateLock), with the lock discipline of Module.updateLock as auxiliary invariant; last, the delivery
   invariant: every selected listener of a completed broadcast holds its message *)
From Coq Require Import List Arith Bool.
Import ListNotations.
Require Import FV.C08.Model FV.C08.Lemmas FV.C08.Step FV.C08.Table FV.C08.Snapshot FV.C08.Silence.

(* value of the last update message for p in a log *)
Definition last_upd (p : pid) (l : list entry) : option nat :=
  fold_left (fun acc e => match e with EUpd q v => if pid_eqb q p then Some v else acc | _ => acc end) l None.

Lemma last_upd_app : forall p l e, last_upd p (l ++ [e]) =
  match e with EUpd q v => if pid_eqb q p then Some v else last_upd p l | _ => last_upd p l end.
Proof. intros. unfold last_upd. rewrite fold_left_app; simpl. destruct e; auto. Qed.

(* ---- lock discipline: a driver thread between its store and the end of its broadcast, and a connection thread
   between make_update and send_reply of the initial updates of a module, own the updateLock of that module *)
Definition in_bcast (s : state) (u : nat) (p : pid) : Prop :=
  u_pc (uth s u) = UBuild p \/ exists v all pend, u_pc (uth s u) = USend p v all pend.
Definition holds (s : state) (t : tid) (m : nat) : Prop :=
  match t with
  | TU u => exists p, in_bcast s u p /\ fst p = m
  | TC c => match c_pc (cth s c) with CBuild _ m' _ _ | CSendU _ m' _ _ _ _ => m' = m | _ => False end
  end.

(* the program counter of a thread says which updateLock it is inside and which built message it is about to send *)
Definition cheld (pc : cpc) : option nat :=
  match pc with CBuild _ m _ _ | CSendU _ m _ _ _ _ => Some m | _ => None end.
Definition uheld (pc : upc) : option nat := match pc with UBuild p | USend p _ _ _ => Some (fst p) | _ => None end.
Definition csent (pc : cpc) : option (pid * nat) :=
  match pc with CSendU _ m i v _ _ => Some ((m, i), v) | _ => None end.
Definition usent (pc : upc) : option (pid * nat) := match pc with USend p v _ _ => Some (p, v) | _ => None end.
Definition held (s : state) (t : tid) : option nat :=
  match t with TC c => cheld (c_pc (cth s c)) | TU u => uheld (u_pc (uth s u)) end.
Definition sent (s : state) (t : tid) : option (pid * nat) :=
  match t with TC c => csent (c_pc (cth s c)) | TU u => usent (u_pc (uth s u)) end.

Lemma holds_held : forall s t m, holds s t m <-> held s t = Some m.
Proof.
  intros s [c | u] m; simpl.
  - destruct (c_pc (cth s c)); simpl; split; try tauto; try discriminate; congruence.
  - unfold in_bcast. split.
    + intros [p [[E | [v [al [pe E]]]] <-]]; rewrite E; reflexivity.
    + destruct (u_pc (uth s u)) eqn:E; simpl; try discriminate; intros X; inversion X; exists p; eauto 6.
Qed.
Lemma sent_held : forall s t p v, sent s t = Some (p, v) -> held s t = Some (fst p).
Proof.
  intros s [c | u] q w; simpl; [destruct (c_pc (cth s c)) | destruct (u_pc (uth s u))]; intros E; inversion E; reflexivity.
Qed.

Lemma cheld_enter : forall sc g, cheld (enter_pc sc g) = None. Proof. destruct g; reflexivity. Qed.
Lemma csent_enter : forall sc g, csent (enter_pc sc g) = None. Proof. destruct g; reflexivity. Qed.
Lemma cheld_after : forall k, cheld (after_pc k) = None. Proof. destruct k; reflexivity. Qed.
Lemma csent_after : forall k, csent (after_pc k) = None. Proof. destruct k; reflexivity. Qed.
Lemma uheld_next : forall l, uheld (next_pc l) = None. Proof. destruct l; reflexivity. Qed.
Lemma usent_next : forall l, usent (next_pc l) = None. Proof. destruct l; reflexivity. Qed.

(* whoever is inside a module's updateLock owns it, and a built message carries the cached value *)
Definition lock_inv (s : state) : Prop := forall t m, held s t = Some m -> ulock s m = Some t.
Definition val_inv (s : state) : Prop := forall t p v, sent s t = Some (p, v) -> cache s p = v.

Lemma other_thread : forall nd s st t, t <> fst st ->
  held (cstep nd s st) t = held s t /\ sent (cstep nd s st) t = sent s t.
Proof.
  intros nd s [[a | u] x] [b | u'] N; simpl in *.
  - destruct (isolation nd s a x b) as (_ & -> & _); auto; congruence.
  - destruct (conn_step_frame nd s a x) as [-> _]; auto.
  - destruct (upd_step_frame nd s u x) as (_ & _ & _ & -> & _); auto.
  - destruct (upd_step_frame nd s u x) as (_ & _ & _ & _ & -> & _); auto; congruence.
Qed.

(* what the stepping thread t has to respect: it owns the locks it is inside, takes only free locks and gives back
   only its own, sends what is cached, and stores only under a lock that was free *)
Definition own_ok (s s' : state) (t : tid) : Prop :=
  (forall m, held s' t = Some m -> ulock s' m = Some t) /\
  (forall m, ulock s' m = ulock s m \/ ulock s m = None \/ ulock s m = Some t) /\
  (forall p v, sent s' t = Some (p, v) -> cache s' p = v) /\
  (cache s' = cache s \/ exists p v, ulock s (fst p) = None /\ cache s' = updp (cache s) p v).

Lemma own_ok_inv : forall s s' t, lock_inv s -> val_inv s ->
  (forall t', t' <> t -> held s' t' = held s t' /\ sent s' t' = sent s t') -> own_ok s s' t -> lock_inv s' /\ val_inv s'.
Proof.
  intros s s' t L V O (A & B & C & D).
  split; intros t'; (destruct (tid_eq_dec t' t) as [-> | N]; [auto | destruct (O t' N) as [O1 O2]; rewrite ?O1, ?O2]).
  - intros m H. apply L in H. destruct (B m) as [E | [E | E]]; congruence.
  - intros p v H. pose proof (V _ _ _ H) as X. destruct D as [-> | (q & w & F & ->)]; auto.
    rewrite updp_other; auto. intros ->. apply sent_held, L in H. congruence.
Qed.

Lemma upd_lock : forall (f : nat -> option tid) m v t m0,
  f m = None \/ f m = Some t -> upd f m v m0 = f m0 \/ f m0 = None \/ f m0 = Some t.
Proof. intros. destruct (Nat.eq_dec m0 m) as [-> | N]; [tauto | left; apply upd_other; auto]. Qed.

Lemma own_step_ok : forall nd s st, lock_inv s -> val_inv s -> own_ok s (cstep nd s st) (fst st).
Proof.
  intros nd s [[a | u] x] L V; simpl.
  - pose proof (L (TC a)) as La. pose proof (V (TC a)) as Va. simpl in La, Va.
    apply conn_cases; intros; try rewrite PC in La, Va; unfold own_ok; proj; rewrite ?upd_same; simpl;
     rewrite ?cheld_enter, ?csent_enter, ?cheld_after, ?csent_after;
     (split; [intros m' E | split; [intros m' | split; [intros q w E |]]]); try discriminate; auto.
    + (* module lock taken: it was free *) inversion E; subst. apply upd_same.
    + apply upd_lock; auto.
    + (* build: the message is the cached value *) inversion E; subst. reflexivity.
    + (* last initial update of the module: the lock given back was held *)
      apply upd_lock. right. apply La. reflexivity.
  - pose proof (L (TU u)) as Lu. pose proof (V (TU u)) as Vu. simpl in Lu, Vu.
    apply upd_cases; intros; try rewrite PC in Lu, Vu; unfold own_ok; proj; rewrite ?upd_same; simpl;
     rewrite ?uheld_next, ?usent_next;
     (split; [intros m' E | split; [intros m' | split; [intros q w E |]]]); try discriminate; auto.
    + (* store of an exported parameter: lock taken, it was free *) inversion E; subst. apply upd_same.
    + apply upd_lock; auto.
    + right; eauto.
    + (* store of a hidden parameter *) right; eauto.
    + (* no listeners: lock given back *) apply upd_lock. right. apply Lu. reflexivity.
    + (* listeners selected: the message is the cached value *) inversion E; subst. reflexivity.
    + (* last send: lock given back *) apply upd_lock. right. apply Lu. reflexivity.
Qed.

Lemma locks_step : forall nd s st, lock_inv s /\ val_inv s -> lock_inv (cstep nd s st) /\ val_inv (cstep nd s st).
Proof.
  intros nd s st [L V]. apply (own_ok_inv s _ (fst st)); auto; [apply other_thread | apply own_step_ok; auto].
Qed.

(* driver thread u still has to hand the current value of p to connection c *)
Definition drv (pc : upc) (c : conn) (p : pid) : Prop :=
  match pc with UBuild q => q = p | USend q _ _ pend => q = p /\ In c pend | _ => False end.
Definition fresh_at (s : state) (c : conn) (p : pid) : Prop :=
  last_upd p (logs s c) = Some (cache s p) \/ (exists u, drv (u_pc (uth s u)) c p) \/ cflight s c p.
Definition fresh_inv (nd : node) (s : state) : Prop :=
  forall c p, listens s c p = true -> exported nd p = true -> fresh_at s c p.

Lemma last_upd_deliver : forall s l p q v, cache s q = v ->
  last_upd p l = Some (cache s p) \/ q = p -> last_upd p (l ++ [EUpd q v]) = Some (cache s p).
Proof.
  intros. rewrite last_upd_app. destruct (pid_eqb q p) eqn:E; [apply pid_eqb_eq in E; congruence | apply pid_eqb_neq in E; tauto].
Qed.

(* the own step of a connection: what it held or had still to send of p, it holds or has still to send *)
Lemma own_step_fresh : forall nd s c x p, val_inv s ->
  last_upd p (logs s c) = Some (cache s p) \/ cflight s c p ->
  last_upd p (logs (cstep nd s (TC c, x)) c) = Some (cache s p) \/ cflight (cstep nd s (TC c, x)) c p.
Proof.
  intros nd s c x p V. pose proof (V (TC c)) as Vc. simpl in Vc. unfold cflight.
  apply conn_cases; intros; try rewrite PC in *; proj; rewrite ?upd_same; simpl; rewrite ?pending_enter;
    simpl in *; rewrite ?last_upd_app; try tauto.
  (* an initial update is sent: it carries the cached value *)
  1-2: destruct (pid_eqb (m, i) p) eqn:E;
    [apply pid_eqb_eq in E; subst p; left; f_equal; symmetry; auto | apply pid_eqb_neq in E; tauto].
  - destruct r; simpl in *; tauto.
Qed.

(* the step of a driver thread: what connection c held or had still to get of p from that thread, it holds or still gets *)
Lemma upd_step_fresh : forall nd s u x c p, val_inv s -> listens s c p = true -> exported nd p = true ->
  last_upd p (logs s c) = Some (cache s p) \/ drv (u_pc (uth s u)) c p ->
  last_upd p (logs (cstep nd s (TU u, x)) c) = Some (cache (cstep nd s (TU u, x)) p) \/
  drv (u_pc (uth (cstep nd s (TU u, x)) u)) c p.
Proof.
  intros nd s u x c p V LS EX F. pose proof (V (TU u)) as Vu. simpl in Vu.
  apply upd_cases; intros; try rewrite PC in *; proj; rewrite ?upd_same; simpl in *; auto;
    try (destruct F as [F | []]; left; exact F).
  - (* store: of p itself, and then the broadcast is to come, or of another parameter *)
    destruct (pid_eqb p p0) eqn:E; [apply pid_eqb_eq in E; auto | apply pid_eqb_neq in E; rewrite updp_other by auto; tauto].
  - left. rewrite updp_other by (intros ->; congruence). tauto.
  - (* no listeners: then c does not listen to that parameter *)
    left. destruct F as [F | ->]; auto. apply listeners_spec in LS. rewrite NL in LS. destruct LS.
  - destruct F as [F | ->]; auto. right. split; auto. apply listeners_spec; auto.
  - (* last send: nobody is left pending *)
    left. destruct (Nat.eq_dec c x) as [-> | N]; [rewrite upd_same; apply last_upd_deliver; auto; tauto | rewrite upd_other by auto].
    destruct F as [F | [_ IC]]; auto. assert (Y : In c (remc x pend)) by (apply In_remc; auto). rewrite RM in Y. destruct Y.
  - destruct (Nat.eq_dec c x) as [-> | N]; [left; rewrite upd_same; apply last_upd_deliver; auto; tauto | rewrite upd_other by auto].
    destruct F as [F | [E IC]]; auto. right. split; auto. apply In_remc; auto.
Qed.

Lemma fresh_inv_step : forall nd s st, tbl_wf s -> val_inv s -> fresh_inv nd s -> fresh_inv nd (cstep nd s st).
Proof.
  intros nd s [[a | u] x] WF V Inv c p LS EX; unfold fresh_at.
  - destruct (conn_step_frame nd s a x) as (EU & EC & _). rewrite EU, EC.
    destruct (Nat.eq_dec a c) as [-> | N].
    2: { destruct (isolation nd s a x c N) as (E1 & E2 & E3 & _). unfold cflight. rewrite E1, E2. rewrite E3 in LS. apply Inv; auto. }
    destruct (own_step_listens nd s c x p WF LS) as [L0 | (sc & C & E & _)].
    + pose proof (own_step_fresh nd s c x p V). destruct (Inv c p L0 EX) as [F | [F | F]]; tauto.
    + (* what the connection listens to in addition is in the snapshot still to be sent *)
      right; right. unfold cflight. rewrite E. apply snapshot_list_complete; auto.
  - destruct (upd_step_frame nd s u x) as (EA & ET & _ & EC & O & _).
    rewrite (listens_ext s) in LS by auto. unfold cflight. rewrite EC. fold (cflight s c p).
    pose proof (upd_step_fresh nd s u x c p V LS EX) as K.
    destruct (Inv c p LS EX) as [F | [[u' F] | F]]; auto.
    + destruct K as [K | K]; eauto.
    + destruct (Nat.eq_dec u' u) as [-> | N]; [destruct K as [K | K]; eauto |].
      right; left. exists u'. rewrite O; auto.
Qed.

Definition all_inv (nd : node) (s : state) : Prop := lock_inv s /\ val_inv s /\ fresh_inv nd s /\ tbl_wf s.

Lemma all_inv_run : forall nd cs us sched, all_inv nd (run nd cs us sched).
Proof.
  intros. apply (run_invariant nd (all_inv nd)).
  - intros s st (L & V & F & W). destruct (locks_step nd s st (conj L V)) as [L' V'].
    split; [exact L' | split; [exact V' | split; [apply fresh_inv_step | apply wf_step]; auto]].
  - split; [| split; [| split; [| apply wf_init]]].
    + intros [c | u] m E; discriminate E.
    + intros [c | u] p v E; discriminate E.
    + intros c p L; unfold listens in L; simpl in L; discriminate.
Qed.

Definition conn_idle (s : state) (c : conn) : Prop :=
  match c_pc (cth s c) with CAcqU _ _ | CBuild _ _ _ _ | CSendU _ _ _ _ _ _ => False | _ => True end.
Definition upd_idle (s : state) (u : nat) : Prop :=
  match u_pc (uth s u) with UBuild _ | USend _ _ _ _ => False | _ => True end.

(* ---- every selected listener receives the message of a broadcast *)
Lemma logs_grow : forall nd s st c e, In e (logs s c) -> In e (logs (cstep nd s st) c).
Proof.
  intros nd s [[a | u] x] c e IE.
  - destruct (Nat.eq_dec a c) as [-> | N]; [| destruct (isolation nd s a x c N) as [-> _]; auto].
    apply conn_cases; intros; proj; rewrite ?upd_same; auto using in_or_app.
  - destruct (upd_step_frame nd s u x) as (_ & _ & _ & _ & _ & L).
    destruct (L c) as [-> | (p & v & _ & _ & _ & _ & ->)]; auto using in_or_app.
Qed.

(* a running broadcast has served the selected listeners that are not pending any more *)
Definition served (s : state) (pc : upc) (c : conn) : Prop :=
  match pc with USend p v all pend => In c all -> In c pend \/ In (EUpd p v) (logs s c) | _ => True end.
Definition deliver_inv (s : state) : Prop :=
  (forall p v all, In (p, v, all) (bcasts s) -> forall c, In c all -> In (EUpd p v) (logs s c)) /\
  (forall u c, served s (u_pc (uth s u)) c).

Lemma served_send : forall s x p v all pend c, served s (USend p v all pend) c -> In c all ->
  In c (remc x pend) \/ In (EUpd p v) (upd (logs s) x (logs s x ++ [EUpd p v]) c).
Proof.
  intros s x p v all pend c S IC.
  destruct (Nat.eq_dec c x) as [-> | N]; [right; rewrite upd_same | rewrite upd_other by auto; destruct (S IC)]; auto.
  - destruct (S IC); apply in_or_app; simpl; auto.
  - left. apply In_remc; auto.
Qed.

Lemma deliver_inv_step : forall nd s st, deliver_inv s -> deliver_inv (cstep nd s st).
Proof.
  intros nd s st [D1 D2].
  assert (G : forall c e, In e (logs s c) -> In e (logs (cstep nd s st) c)) by (intros; apply logs_grow; auto).
  assert (K : forall pc c, served s pc c -> served (cstep nd s st) pc c).
  { intros [] c; simpl; auto. intros S IC. destruct (S IC); auto. }
  destruct st as [[a | u] x].
  - destruct (conn_step_frame nd s a x) as (EU & _ & EB). split; [rewrite EB | rewrite EU]; eauto.
  - destruct (upd_step_frame nd s u x) as (_ & _ & _ & _ & O & _).
    assert (K' : forall u' c, u' <> u -> served (cstep nd s (TU u, x)) (u_pc (uth (cstep nd s (TU u, x)) u')) c)
      by (intros; rewrite O; auto).
    clear O. pose proof (D2 u) as Du. revert G K K'.
    apply upd_cases; intros; try rewrite PC in Du; (split; [| intros u' c; destruct (Nat.eq_dec u' u) as [-> | N]; auto]);
      unfold release in *; rewrite ?next_upd_eq in *; simpl in *; rewrite ?upd_same; simpl; eauto;
      try (destruct (u_script _); exact I); try (destruct rest; exact I).
    + (* last send: the broadcast is complete *)
      intros q w al [E | IB] c IC; [inversion E; subst q w al | apply G; eapply D1; eauto].
      destruct (served_send s x p v all pend c (Du c) IC) as [Y | Y]; [rewrite RM in Y; destruct Y | exact Y].
    + exact (served_send s x p v all pend c (Du c)).
Qed.

Lemma deliver_inv_run : forall nd cs us sched, deliver_inv (run nd cs us sched).
Proof.
  intros. apply (run_invariant nd deliver_inv); [intros; apply deliver_inv_step; auto |].
  split; simpl; intros; [contradiction | exact I].
Qed.
