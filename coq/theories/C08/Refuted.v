(* C08 - refutations on the faithful model: the race of the current code that is still open (late update).  The
   witness schedules are real executions of the implementation (corpus/C08).  There is no stale-snapshot witness: since
   the repair c1c8ab8 freshness at quiescence is a theorem for all schedules (Fresh.v).
   Last: the VARIANT of reset_connection that deletes the entry of a set that has become empty (del = true; not the
   code) loses a subscription - the counterpart of Subscribe.v. *)
From Coq Require Import List Arith Bool.
Import ListNotations.
Require Import FV.C08.Model.

(* every step of the schedule is enabled (no stuttering step) *)
Fixpoint all_enabled_gen (del : bool) (nd : node) (s : state) (sched : list (tid * conn)) : bool :=
  match sched with
  | [] => true
  | st :: r => match fst st with TC c => cenabled s c | TU u => uenabled s u (snd st) end
               && all_enabled_gen del nd (cstep_gen del nd s st) r
  end.
Definition all_enabled := all_enabled_gen false.

Definition one : node := [(true, [true])].
Definition P00 : pid := (0, 0).

(* deactivate racing with a broadcast: listeners selected before, send after the 'inactive' reply.
   c0: start recv acquire:disp acquire:upd0 build send | u0: start acquire:upd0 build |
   c0: send(active) recv acquire:disp send(inactive) | u0: send *)
Definition late_sched : list (tid * conn) :=
  [(TC 0, 0); (TC 0, 0); (TC 0, 0); (TC 0, 0); (TC 0, 0); (TC 0, 0); (TU 0, 0); (TU 0, 0); (TU 0, 0);
   (TC 0, 0); (TC 0, 0); (TC 0, 0); (TC 0, 0); (TU 0, 0)].

Lemma refuted_late_update :
  exists nd cs us sched c p,
    all_enabled nd (init cs us) sched = true /\
    let s := run nd cs us sched in
    listens s c p = false /\
    logs s c = [EReq (RAct SG false); EUpd p 0; ERep (RpActive SG); EReq (RDeact SG false); ERep RpInactive; EUpd p 1].
Proof.
  exists one, [[RAct SG false; RDeact SG false]], [[(P00, 1)]], late_sched, 0, P00. vm_compute. repeat split; reflexivity.
Qed.

(* the same after a disconnect: the update is handed to a connection that was already removed *)
(* c0: start recv acquire:disp add acquire:upd0 build send send(active) | u0: start acquire:upd0 build |
   c0: recv(close) discard discard | u0: send *)
Definition late_close_sched : list (tid * conn) :=
  [(TC 0, 0); (TC 0, 0); (TC 0, 0); (TC 0, 0); (TC 0, 0); (TC 0, 0); (TC 0, 0); (TC 0, 0); (TU 0, 0); (TU 0, 0); (TU 0, 0);
   (TC 0, 0); (TC 0, 0); (TC 0, 0); (TU 0, 0)].

Lemma refuted_late_update_after_close :
  exists nd cs us sched c p,
    all_enabled nd (init cs us) sched = true /\
    let s := run nd cs us sched in
    c_pc (cth s c) = CDone /\
    logs s c = [EReq (RAct (SP 0 0) false); EUpd p 0; ERep (RpActive (SP 0 0)); EClose; EUpd p 1].
Proof.
  exists one, [[RAct (SP 0 0) false; RClose]], [[(P00, 1)]], late_close_sched, 0, P00. vm_compute. repeat split; reflexivity.
Qed.

(* ---- the variant that deletes empty entries: connection 0 (the only subscriber of module 0) disconnects between the
   two halves of the subscribe of connection 1.
   c0: start recv acquire:disp add acquire:upd0 build send send(active) | c1: start recv acquire:disp (lookup: the set of c0) |
   c0: recv(close) discard (set empty: entry deleted) discard | c1: add (into the orphaned set) acquire:upd0 build send
   send(active) recv-end | u0: start acquire:upd0 build (no listener) *)
Definition lost_sched : list (tid * conn) :=
  [(TC 0, 0); (TC 0, 0); (TC 0, 0); (TC 0, 0); (TC 0, 0); (TC 0, 0); (TC 0, 0); (TC 0, 0);
   (TC 1, 0); (TC 1, 0); (TC 1, 0);
   (TC 0, 0); (TC 0, 0); (TC 0, 0);
   (TC 1, 0); (TC 1, 0); (TC 1, 0); (TC 1, 0); (TC 1, 0);
   (TU 0, 0); (TU 0, 0); (TU 0, 0)].

Lemma refuted_variant_loses_subscription :
  exists nd cs us sched c p,
    all_enabled_gen true nd (init cs us) sched = true /\
    let s := run_from_gen true nd (init cs us) sched in
    logs s c = [EReq (RAct (SM 0) false); EUpd p 0; ERep (RpActive (SM 0))] /\
    c_pc (cth s c) = CRecv /\ c_script (cth s c) = [] /\
    cache s p = 1 /\ u_pc (uth s 0) = UDone /\ listens s c p = false /\ tbl s = [].
Proof.
  exists one, [[RAct (SM 0) false; RClose]; [RAct (SM 0) false]], [[(P00, 1)]], lost_sched, 1, P00.
  vm_compute. repeat split; reflexivity.
Qed.

(* the same interleaving on the model of the code: the update is delivered *)
Lemma code_keeps_subscription :
  let sched := lost_sched ++ [(TU 0, 1)] in
  let s := run one [[RAct (SM 0) false; RClose]; [RAct (SM 0) false]] [[(P00, 1)]] sched in
  all_enabled one (init [[RAct (SM 0) false; RClose]; [RAct (SM 0) false]] [[(P00, 1)]]) sched = true /\
  logs s 1 = [EReq (RAct (SM 0) false); EUpd P00 0; ERep (RpActive (SM 0)); EUpd P00 1] /\ listens s 1 P00 = true.
Proof. vm_compute. repeat split; reflexivity. Qed.

(* NOT the code: the variant of unsubscribe that returns early when the event itself has no entry in the table
   (unsubscribe_early_return), skipping the loop over the more specific events.  Fresh table: connection 0 has activated
   m0:value only (c0: start recv acquire:disp add acquire:upd0 build send send(active)) and nobody ever the bare module
   m0.  `deactivate m0`: the variant leaves the connection listening to m0:value, the code removes it. *)
Definition fresh_sched : list (tid * conn) := repeat (TC 0, 0) 8.
Lemma refuted_early_return_keeps_parameter_scope :
  exists nd cs us sched c m q,
    all_enabled nd (init cs us) sched = true /\
    let s := run nd cs us sched in
    logs s c = [EReq (RAct (SP m q) false); EUpd (m, q) 0; ERep (RpActive (SP m q))] /\
    find_key (SM m) (tbl s) = None /\
    listens (unsubscribe_early_return s c (SM m)) c (m, q) = true /\
    listens (unsubscribe_code s c (SM m)) c (m, q) = false.
Proof.
  exists one, [[RAct (SP 0 0) false]], [], fresh_sched, 0, 0, 0. vm_compute. repeat split; reflexivity.
Qed.
(* control: once anybody (here connection 1, which has left again) has activated the bare module, its entry stays in
   the table for good and the variant behaves like the code - the defect of the variant shows on a fresh table only *)
Definition control_sched : list (tid * conn) := repeat (TC 1, 0) 11 ++ repeat (TC 0, 0) 8.
Lemma early_return_control :
  let cs := [[RAct (SP 0 0) false]; [RAct (SM 0) false; RDeact (SM 0) false]] in
  let s := run one cs [] control_sched in
  all_enabled one (init cs []) control_sched = true /\
  find_key (SM 0) (tbl s) = Some 0 /\ listens s 0 P00 = true /\
  listens (unsubscribe_early_return s 0 (SM 0)) 0 P00 = false /\
  listens (unsubscribe_code s 0 (SM 0)) 0 P00 = false.
Proof. vm_compute. repeat split; reflexivity. Qed.
