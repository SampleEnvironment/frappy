(* C08 - Dispatcher.unsubscribe: the loop over the more specific events does not depend on the bare module event
   having an entry.  The one-pass model is the transcription of the code; the early-return variant is not.  Then the
   deactivate step as an equation, and what steps of other threads keep for a connection. *)
From Coq Require Import List Arith Bool.
Import ListNotations.
Require Import FV.C08.Model FV.C08.Lemmas FV.C08.Step FV.C08.Subscribe.

(* the one-pass model of unsubscribe is the statement-by-statement transcription *)
Lemma unregister_is_code : forall s c sc, sc <> SG -> unregister s c sc = unsubscribe_code s c sc.
Proof.
  intros s c sc N. destruct sc as [| m | m q]; [congruence | |]; unfold unregister, unsubscribe_code; f_equal.
  - unfold discard_event, discard_below. rewrite map_map. apply map_ext. intros [id key mem].
    unfold mem_unsub, mem_remc; destruct key as [| m' | m' q']; simpl; auto.
    + rewrite (Nat.eqb_sym m' m). destruct (Nat.eqb m m'); auto.
    + destruct (Nat.eqb m m'); simpl; auto.
  - unfold discard_event. apply map_ext. intros [id key mem].
    unfold mem_unsub, mem_remc; destruct key as [| m' | m' q']; simpl; auto.
    rewrite (Nat.eqb_sym m' m), (Nat.eqb_sym q' q). destruct (Nat.eqb m m' && Nat.eqb q q'); auto.
Qed.

(* when the event has an entry the early-return variant is the code; without one it does nothing at all *)
Lemma early_return_bound : forall s c sc id, find_key sc (tbl s) = Some id ->
  unsubscribe_early_return s c sc = unsubscribe_code s c sc.
Proof. intros. unfold unsubscribe_early_return. rewrite H. reflexivity. Qed.
Lemma early_return_fresh : forall s c sc, find_key sc (tbl s) = None -> unsubscribe_early_return s c sc = s.
Proof. intros. unfold unsubscribe_early_return. rewrite H. reflexivity. Qed.

Lemma deactivate_step : forall nd s c x sc, c_pc (cth s c) = CAcq (RDeact sc false) -> dlock s = None ->
  cstep nd s (TC c, x) = set_cpc (unregister s c sc) c (CSendR RpInactive).
Proof. intros. rewrite (cstep_acq nd s c x _ H H0). reflexivity. Qed.

Lemma others_keep : forall nd others s c, Forall (fun st : tid * conn => fst st <> TC c) others ->
  cth (run_from nd s others) c = cth s c /\ forall p, listens (run_from nd s others) c p = listens s c p.
Proof.
  intros nd others. induction others as [| st r IH]; intros s c F; simpl; [split; auto |].
  inversion F; subst. destruct (listening_persists nd s st c H1) as [E L].
  destruct (IH (cstep nd s st) c H2) as [E' L']. unfold run_from in *. split; [rewrite E'; auto |].
  intros p. rewrite L'. auto.
Qed.

