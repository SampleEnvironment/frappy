(* C08 - the snapshot of an activation is complete: invariant over all schedules *)
From Coq Require Import List Arith Bool.
Import ListNotations.
Require Import FV.C08.Model FV.C08.Lemmas FV.C08.Step.

Definition is_upd (e : entry) : Prop := match e with EUpd _ _ => True | _ => False end.

(* the log ends with: request r, then only update messages *)
Definition since_req (log : list entry) (r : req) (seg : list entry) : Prop :=
  exists pre, log = pre ++ EReq r :: seg /\ Forall is_upd seg.

(* since the activate request every parameter of the snapshot list was delivered, except those in rest *)
Definition snap_ok (nd : node) (log : list entry) (sc : scope) (rest : list pid) : Prop :=
  exists seg, since_req log (RAct sc false) seg /\
    forall p, In p (snapshot_list nd sc) -> In p rest \/ exists v, In (EUpd p v) seg.

(* the activation in progress: its scope and the parameters whose initial update is still to be sent *)
Definition pending_snapshot (pc : cpc) : option (scope * list pid) :=
  match pc with
  | CAcqU sc g => Some (sc, flat g)
  | CBuild sc m todo g => Some (sc, map (fun i => (m, i)) todo ++ flat g)
  | CSendU sc m i _ todo g => Some (sc, (m, i) :: map (fun j => (m, j)) todo ++ flat g)
  | CSendR (RpActive sc) => Some (sc, [])
  | _ => None
  end.

Lemma pending_enter : forall sc g, pending_snapshot (enter_pc sc g) = Some (sc, flat g).
Proof. destruct g; reflexivity. Qed.

Definition snap_inv_of (nd : node) (pc : cpc) (log : list entry) : Prop :=
  match pc with
  | CAcq r => exists seg, since_req log r seg
  | CAdd sc _ => exists seg, since_req log (RAct sc false) seg
  | _ => match pending_snapshot pc with Some (sc, rest) => snap_ok nd log sc rest | None => True end
  end.
Definition snap_inv (nd : node) (s : state) (c : conn) : Prop := snap_inv_of nd (c_pc (cth s c)) (logs s c).

Lemma since_req_app_upd : forall log r seg p v,
  since_req log r seg -> since_req (log ++ [EUpd p v]) r (seg ++ [EUpd p v]).
Proof.
  intros log r seg p v [pre [E F]]. exists pre. split.
  - rewrite E, <- app_assoc; reflexivity.
  - apply Forall_app; split; auto. constructor; simpl; auto.
Qed.
Lemma since_req_new : forall log r, since_req (log ++ [EReq r]) r [].
Proof. intros. exists log. split; auto. Qed.

Lemma snap_ok_app_upd : forall nd log sc rest p v,
  snap_ok nd log sc rest -> snap_ok nd (log ++ [EUpd p v]) sc rest.
Proof.
  intros nd log sc rest p v [seg [S H]]. exists (seg ++ [EUpd p v]). split; [apply since_req_app_upd; auto |].
  intros q Q. destruct (H q Q) as [I | [w I]]; auto. right; exists w; apply in_or_app; auto.
Qed.
Lemma snap_ok_send : forall nd log sc p v todo,
  snap_ok nd log sc (p :: todo) -> snap_ok nd (log ++ [EUpd p v]) sc todo.
Proof.
  intros nd log sc p v todo [seg [S H]]. exists (seg ++ [EUpd p v]). split; [apply since_req_app_upd; auto |].
  intros q Q. destruct (H q Q) as [[<- | I] | [w I]]; auto.
  - right; exists v; apply in_or_app; right; simpl; auto.
  - right; exists w; apply in_or_app; auto.
Qed.

Lemma snap_inv_app_upd : forall nd pc log p v, snap_inv_of nd pc log -> snap_inv_of nd pc (log ++ [EUpd p v]).
Proof.
  intros nd pc log p v. unfold snap_inv_of. destruct pc; simpl; auto; try apply snap_ok_app_upd.
  - intros [seg H]. eexists; apply since_req_app_upd; eauto.
  - destruct r; auto. apply snap_ok_app_upd.
  - intros [seg H]. eexists; apply since_req_app_upd; eauto.
Qed.

Lemma snap_inv_enter : forall nd sc g log, snap_ok nd log sc (flat g) -> snap_inv_of nd (enter_pc sc g) log.
Proof. destruct g; auto. Qed.
Lemma snap_ok_start : forall nd log sc,
  (exists seg, since_req log (RAct sc false) seg) -> snap_ok nd log sc (snapshot_list nd sc).
Proof. intros nd log sc [seg S]. exists seg. auto. Qed.

Lemma snap_inv_step : forall nd s st, (forall c, snap_inv nd s c) -> forall c, snap_inv nd (cstep nd s st) c.
Proof.
  intros nd s [[a | u] x] Inv c; unfold snap_inv.
  - destruct (Nat.eq_dec a c) as [-> | N].
    2: { destruct (isolation nd s a x c N) as [-> [-> _]]. apply Inv. }
    specialize (Inv c). unfold snap_inv in Inv.
    apply conn_cases; intros; try rewrite PC in Inv; proj; rewrite ?upd_same; simpl; auto.
    + (* request received *) eexists. apply since_req_new.
    + (* activate of the whole node *) apply (snap_inv_enter nd SG), snap_ok_start, Inv.
    + (* module without parameters *) apply snap_inv_enter, Inv.
    + (* last initial update of a module *) apply snap_inv_enter, snap_ok_send, Inv.
    + (* initial update *) apply snap_ok_send, Inv.
    + (* subscribe, second half *) apply snap_inv_enter, snap_ok_start, Inv.
    + destruct k; exact I.
  - destruct (upd_step_frame nd s u x) as (_ & _ & _ & -> & _ & L).
    destruct (L c) as [-> | (p & v & _ & _ & _ & _ & ->)]; [| apply snap_inv_app_upd]; apply Inv.
Qed.

(* all schedules: the log of a connection inside an activation consists, since the activate request, of update
   messages only, one for every exported parameter of the scope that is not still to be sent *)
Lemma snap_inv_run : forall nd cs us sched c, snap_inv nd (run nd cs us sched) c.
Proof.
  intros nd cs us sched. apply (run_invariant nd (fun s => forall c, snap_inv nd s c)); [apply snap_inv_step |].
  intros c. exact I.
Qed.
