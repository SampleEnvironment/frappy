(* C08 - the subscription table as a collection of set objects: entries are only appended (never removed or rebound),
   the identities are distinct, and the set object a thread holds between the two halves of Dispatcher.subscribe is the
   one bound to its event.  Invariants over all schedules of the model of the code (del = false). *)
From Coq Require Import List Arith Bool Lia.
Import ListNotations.
Require Import FV.C08.Model FV.C08.Lemmas FV.C08.Step FV.C08.Snapshot.

(* identity and event name of the bound set objects, in dict order *)
Definition shape (s : state) : list (nat * scope) := map (fun e => (e_id e, e_key e)) (tbl s).
(* the set object id is bound to the event sc *)
Definition live (s : state) (sc : scope) (id : nat) : Prop := In (id, sc) (shape s).

Lemma live_spec : forall s sc id, live s sc id <-> exists e, In e (tbl s) /\ e_id e = id /\ e_key e = sc.
Proof.
  intros. unfold live, shape. rewrite in_map_iff. split.
  - intros [e [E I]]. inversion E; subst. exists e; auto.
  - intros [e [I [E K]]]. exists e. subst; auto.
Qed.

(* ---- one step: the shape is kept or extended by one entry with the next identity *)
Definition grows (s s' : state) : Prop :=
  (shape s' = shape s /\ nsets s' = nsets s)
  \/ exists sc, shape s' = shape s ++ [(nsets s, sc)] /\ nsets s' = S (nsets s) /\ forall id, ~ live s sc id.

Lemma grows_map : forall s s' f, tbl s' = map f (tbl s) -> nsets s' = nsets s ->
  (forall e, e_id (f e) = e_id e /\ e_key (f e) = e_key e) -> grows s s'.
Proof.
  intros s s' f E N H. left. split; auto. unfold shape. rewrite E, map_map. apply map_ext.
  intros e. destruct (H e) as [-> ->]. reflexivity.
Qed.
Lemma grows_add : forall s c id, grows s (add_to s c id).
Proof. intros. apply (grows_map _ _ (mem_add c id)); auto. intros e. unfold mem_add. destruct (Nat.eqb (e_id e) id); auto. Qed.
Lemma grows_discard : forall s c t, grows s (discard_target false s c t).
Proof.
  intros s c [id |]; [| left; auto]. apply (grows_map _ _ (mem_del c id)); auto.
  intros e. unfold mem_del. destruct (Nat.eqb (e_id e) id); auto.
Qed.
Lemma grows_unregister : forall s c sc, grows s (unregister s c sc).
Proof.
  intros s c sc. assert (K : forall e, e_id (mem_unsub c sc e) = e_id e /\ e_key (mem_unsub c sc e) = e_key e)
    by (intros e; unfold mem_unsub; destruct (key_hits sc (e_key e)); auto).
  destruct sc; [left; auto | eapply grows_map; [reflexivity | reflexivity | exact K] ..].
Qed.
(* lookup-or-create: nothing, or one new entry with a new identity at the end *)
Lemma grows_lookup : forall s sc, grows s (fst (lookup s sc)).
Proof.
  intros. apply (lookup_cases s sc (fun r => grows s (fst r))); simpl; [left; auto |].
  intros F. right. exists sc. unfold shape; simpl. rewrite map_app. repeat split; auto.
  intros id L. apply live_spec in L. destruct L as [e [I [_ K]]]. eapply find_key_None; eauto.
Qed.

Lemma step_grows : forall nd s st, grows s (cstep nd s st).
Proof.
  intros nd s [[c | u] x].
  - apply conn_cases; intros; try (left; proj; auto; fail).
    + exact (grows_unregister s c sc).
    + exact (grows_lookup s sc).
    + rewrite enter_groups_eq. exact (grows_add s c id).
    + rewrite after_reset_eq. exact (grows_discard s c t).
    + exact (grows_discard s c t).
  - destruct (upd_step_frame nd s u x) as (_ & E & N & _). left. unfold shape. rewrite E. auto.
Qed.

Lemma grows_live : forall s s' sc id, grows s s' -> live s sc id -> live s' sc id.
Proof.
  intros s s' sc id [[E _] | [sc' [E _]]] L; unfold live in *; rewrite E; auto. apply in_or_app; auto.
Qed.

(* all schedules: the bound set objects of an earlier state are still bound, to the same events, at the same places *)
Lemma run_shape_prefix : forall nd sched s, exists ext, shape (run_from nd s sched) = shape s ++ ext.
Proof.
  intros nd sched. induction sched as [| st r IH]; intros s.
  - exists []. rewrite app_nil_r; reflexivity.
  - change (run_from nd s (st :: r)) with (run_from nd (cstep nd s st) r).
    destruct (IH (cstep nd s st)) as [ext E]. rewrite E.
    destruct (step_grows nd s st) as [[F _] | [sc [F _]]]; rewrite F.
    + exists ext; reflexivity.
    + exists ((nsets s, sc) :: ext). rewrite <- app_assoc; reflexivity.
Qed.

Lemma NoDup_snoc : forall (l : list nat) a, NoDup l -> ~ In a l -> NoDup (l ++ [a]).
Proof.
  induction l as [| x l IH]; simpl; intros a D N; [constructor; auto; constructor |].
  inversion D; subst. constructor.
  - rewrite in_app_iff. simpl. intros [I | [E | []]]; auto.
  - apply IH; auto.
Qed.

Definition tbl_wf (s : state) : Prop :=
  NoDup (map fst (shape s)) /\ (forall x, In x (shape s) -> fst x < nsets s) /\
  (forall c sc id, c_pc (cth s c) = CAdd sc id -> live s sc id /\ sc <> SG).

(* a thread is between the two halves of subscribe only after its own lookup, which returned a bound set object: the
   third clause of tbl_wf for one connection, on the program counter, as the induction over steps needs it *)
Definition add_inv (s : state) (c : conn) : Prop :=
  match c_pc (cth s c) with CAdd sc id => live s sc id /\ sc <> SG | _ => True end.
Lemma add_inv_step : forall nd s st c, add_inv s c -> add_inv (cstep nd s st) c.
Proof.
  intros nd s st c A.
  assert (K : cth (cstep nd s st) c = cth s c -> add_inv (cstep nd s st) c).
  { unfold add_inv in *. intros ->. destruct (c_pc (cth s c)); auto. destruct A. split; auto.
    eapply grows_live; eauto using step_grows. }
  destruct st as [[a | u] x]; [| destruct (upd_step_frame nd s u x) as (_ & _ & _ & E & _); apply K; rewrite E; auto].
  destruct (Nat.eq_dec a c) as [-> | N]; [| apply K, (isolation nd s a x c N)].
  clear K. unfold add_inv in *.
  apply conn_cases; intros; proj; rewrite ?upd_same; simpl; auto; try (apply enter_pc_elim; exact I).
  - split; auto. apply live_spec, (lookup_live s sc).
  - destruct k; exact I.
Qed.

Lemma wf_step : forall nd s st, tbl_wf s -> tbl_wf (cstep nd s st).
Proof.
  intros nd s st [D [B L]]. pose proof (step_grows nd s st) as G. split; [| split].
  - destruct G as [[E _] | [sc [E _]]]; rewrite E; auto. rewrite map_app; simpl.
    apply NoDup_snoc; auto. intros I. apply in_map_iff in I. destruct I as [x [X I]]. apply B in I. lia.
  - destruct G as [[E N] | [sc [E [N _]]]]; rewrite E, N; auto. intros x I. apply in_app_or in I.
    destruct I as [I | [<- | []]]; [apply B in I; lia | simpl; lia].
  - intros c sc id E. pose proof (add_inv_step nd s st c) as X. unfold add_inv in X. rewrite E in X. apply X.
    unfold add_inv. destruct (c_pc (cth s c)) eqn:F; auto. exact (L c _ _ F).
Qed.
Lemma wf_init : forall cs us, tbl_wf (init cs us).
Proof.
  intros. split; [constructor | split]; simpl; [intros x [] | intros c sc id E; discriminate].
Qed.
Lemma wf_run_from : forall nd sched s, tbl_wf s -> tbl_wf (run_from nd s sched).
Proof. intros nd sched s W. apply (run_invariant nd tbl_wf); auto. intros; apply wf_step; auto. Qed.
Lemma wf_run : forall nd cs us sched, tbl_wf (run nd cs us sched).
Proof. intros. apply wf_run_from. apply wf_init. Qed.

(* in a well-formed table an identity names one set object, bound to one event *)
Lemma nodup_fst_unique : forall (l : list (nat * scope)) i k k', NoDup (map fst l) -> In (i, k) l -> In (i, k') l -> k = k'.
Proof.
  induction l as [| [j x] l IH]; simpl; [tauto |]. intros i k k' D. inversion D; subst.
  intros [L | L] [L' | L'].
  - congruence.
  - inversion L; subst. exfalso. apply H1. apply in_map_iff. exists (i, k'); auto.
  - inversion L'; subst. exfalso. apply H1. apply in_map_iff. exists (i, k); auto.
  - eapply IH; eauto.
Qed.
Lemma wf_live : forall s c sc id, tbl_wf s -> c_pc (cth s c) = CAdd sc id -> live s sc id /\ sc <> SG.
Proof. intros s c sc id [_ [_ K]] H. eapply K; eauto. Qed.
Lemma wf_unique : forall s sc id, tbl_wf s -> live s sc id -> forall e, In e (tbl s) -> e_id e = id -> e_key e = sc.
Proof.
  intros s sc id [D _] L e I E. unfold live in L.
  assert (I2 : In (id, e_key e) (shape s)) by (unfold shape; apply in_map_iff; exists e; rewrite E; auto).
  eapply nodup_fst_unique; eauto.
Qed.

(* by a step of its own a connection comes to listen to p only when it enters the snapshot of an activation whose
   scope contains p: at the registration (whole node) or at the add *)
Lemma own_step_listens : forall nd s c x p, tbl_wf s -> forall LS : listens (cstep nd s (TC c, x)) c p = true,
  listens s c p = true \/
  exists sc, covers sc p = true /\
    pending_snapshot (c_pc (cth (cstep nd s (TC c, x)) c)) = Some (sc, snapshot_list nd sc) /\
    (c_pc (cth s c) = CAcq (RAct sc false) \/ exists id, c_pc (cth s c) = CAdd sc id).
Proof.
  (* only register_g and add_to add c to anything; unregister and the discards are mono, the rest keeps the tables *)
  intros nd s c x p WF. apply conn_cases; intros; rewrite ?enter_groups_eq, ?after_reset_eq in *; auto;
    try (left; assumption).
  - left. exact (mono_listens _ _ c p (mono_unregister s c sc c) LS).
  - right. exists SG. simpl. rewrite upd_same. simpl. rewrite pending_enter. auto.
  - left. rewrite <- (listens_lookup s sc c p). exact LS.
  - destruct (listens_add_only s c id sc p) as [E | E]; [apply wf_unique, (wf_live s c); auto | exact LS | auto |].
    right. exists sc. simpl. rewrite upd_same. simpl. rewrite pending_enter. eauto.
  - left. exact (mono_listens _ _ c p (mono_discard s c t c) LS).
  - left. exact (mono_listens _ _ c p (mono_discard s c t c) LS).
Qed.
