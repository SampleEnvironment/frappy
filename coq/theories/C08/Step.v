(* C08 - one step of the transition system: its cases, and what a step of one thread leaves alone *)
From Coq Require Import List Arith Bool.
Import ListNotations.
Require Import FV.C08.Model FV.C08.Lemmas.

Lemma tid_eq_dec : forall a b : tid, {a = b} + {a <> b}.
Proof. decide equality; apply Nat.eq_dec. Qed.

(* The operations that decide something inside, written as a fixed chain of field updates: what each
   of them leaves alone then follows by computation. *)
Definition enter_pc (sc : scope) (g : list (nat * list nat)) : cpc :=
  match g with [] => CSendR (RpActive sc) | _ => CAcqU sc g end.
Definition after_pc (k : dcont) : cpc := match k with KIdent => CSendR RpIdent | KClose => CDone end.
Definition next_pc (script : list (pid * nat)) : upc := match script with [] => UDone | _ => UAcq end.

Lemma enter_groups_eq : forall s c sc g,
  enter_groups s c sc g = set_cpc (set_dlock s (match g with [] => None | _ => dlock s end)) c (enter_pc sc g).
Proof. intros [] c sc []; reflexivity. Qed.
Lemma enter_pc_elim : forall (P : cpc -> Prop) sc g, P (CSendR (RpActive sc)) -> P (CAcqU sc g) -> P (enter_pc sc g).
Proof. intros P sc []; auto. Qed.
Lemma after_reset_eq : forall s c k,
  after_reset s c k = set_cpc (set_dlock s (match k with KIdent => None | KClose => dlock s end)) c (after_pc k).
Proof. intros [] c []; reflexivity. Qed.
Lemma next_upd_eq : forall s u, next_upd s u = set_upc s u (next_pc (u_script (uth s u))).
Proof. intros. unfold next_upd. destruct (u_script (uth s u)); reflexivity. Qed.

(* the table operations touch the generic subscribers, the table and the allocation counter only *)
Definition with_tables (s t : state) : state := set_nsets (set_tbl (set_actv s (actv t)) (tbl t)) (nsets t).
Lemma unregister_tables : forall s c sc, unregister s c sc = with_tables s (unregister s c sc).
Proof. intros [] c []; reflexivity. Qed.
Lemma discard_tables : forall s c t, discard_target false s c t = with_tables s (discard_target false s c t).
Proof. intros [] c []; reflexivity. Qed.
Lemma lookup_tables : forall s sc, fst (lookup s sc) = with_tables s (fst (lookup s sc)).
Proof. intros [] sc. unfold lookup. simpl. destruct (find_key sc tbl); reflexivity. Qed.

(* a step of a connection thread; R is a property of the successor state *)
Lemma conn_cases (nd : node) (s : state) (c x : conn) (R : state -> Prop) :
  R s ->
  (forall (PC : c_pc (cth s c) = CStart),
     R (set_cpc s c CRecv)) ->
  (forall rest (PC : c_pc (cth s c) = CRecv) (SC : c_script (cth s c) = RClose :: rest),
     R (pop_script (log_add s c EClose) c (CDisc (reset_targets s) KClose))) ->
  (forall r rest (PC : c_pc (cth s c) = CRecv) (SC : c_script (cth s c) = r :: rest) (NC : r <> RClose),
     R (pop_script (log_add s c (EReq r)) c (CAcq r))) ->
  (forall (PC : c_pc (cth s c) = CAcq RIdn),
     R (set_cpc (set_dlock s (Some c)) c (CDisc (reset_targets s) KIdent))) ->
  (forall sc (PC : c_pc (cth s c) = CAcq (RDeact sc false)),
     R (set_cpc (with_tables s (unregister s c sc)) c (CSendR RpInactive))) ->
  (forall r e (PC : c_pc (cth s c) = CAcq r),
     R (set_cpc s c (CSendR (RpErr e)))) ->
  (forall (PC : c_pc (cth s c) = CAcq (RAct SG false)),
     R (enter_groups (set_dlock (register_g s c) (Some c)) c SG (snapshot_groups nd SG))) ->
  (forall sc (PC : c_pc (cth s c) = CAcq (RAct sc false)) (NG : sc <> SG),
     R (set_cpc (set_dlock (with_tables s (fst (lookup s sc))) (Some c)) c (CAdd sc (snd (lookup s sc))))) ->
  (forall sc m rest (PC : c_pc (cth s c) = CAcqU sc ((m, []) :: rest)),
     R (enter_groups s c sc rest)) ->
  (forall sc m i todo rest (PC : c_pc (cth s c) = CAcqU sc ((m, i :: todo) :: rest)) (UL : ulock s m = None),
     R (set_cpc (set_ulock s (upd (ulock s) m (Some (TC c)))) c (CBuild sc m (i :: todo) rest))) ->
  (forall sc m i todo rest (PC : c_pc (cth s c) = CBuild sc m (i :: todo) rest),
     R (set_cpc s c (CSendU sc m i (cache s (m, i)) todo rest))) ->
  (forall sc m i v rest (PC : c_pc (cth s c) = CSendU sc m i v [] rest),
     R (enter_groups (set_ulock (log_add s c (EUpd (m, i) v)) (upd (ulock s) m None)) c sc rest)) ->
  (forall sc m i v j todo rest (PC : c_pc (cth s c) = CSendU sc m i v (j :: todo) rest),
     R (set_cpc (log_add s c (EUpd (m, i) v)) c (CBuild sc m (j :: todo) rest))) ->
  (forall r (PC : c_pc (cth s c) = CSendR r),
     R (set_cpc (log_add s c (ERep r)) c CRecv)) ->
  (forall sc id (PC : c_pc (cth s c) = CAdd sc id),
     R (enter_groups (add_to s c id) c sc (snapshot_groups nd sc))) ->
  (forall t k (PC : c_pc (cth s c) = CDisc [t] k),
     R (after_reset (with_tables s (discard_target false s c t)) c k)) ->
  (forall t t' ts k (PC : c_pc (cth s c) = CDisc (t :: t' :: ts) k),
     R (set_cpc (with_tables s (discard_target false s c t)) c (CDisc (t' :: ts) k))) ->
  R (cstep nd s (TC c, x)).
Proof.
  intros Stay Start Close Req Idn Deact Err ActG ActS AcqE Acq Build SendL Send Rep Add DiscL Disc.
  unfold cstep, cstep_gen, cstep_conn_gen, cenabled; simpl.
  destruct (c_pc (cth s c)) eqn:PC; simpl; auto.
  - destruct (c_script (cth s c)) as [| r rest] eqn:SC; simpl; auto.
    destruct r; try (eapply Req; eauto; discriminate). eapply Close; eauto.
  - destruct (dlock s); simpl; auto.
    destruct r as [sc [] | sc [] | | |]; simpl; eauto; [| rewrite unregister_tables; auto].
    destruct (act_error nd sc) eqn:A; eauto.
    destruct sc; [auto | rewrite lookup_tables; apply ActS; auto; discriminate ..].
  - destruct groups as [| [m todo] rest]; simpl; auto.
    destruct (ulock s m) eqn:UL; simpl; auto. destruct todo; eauto.
  - destruct todo; eauto.
  - destruct todo; eauto.
  - destruct ts as [| t [| t' ts]]; simpl; auto; rewrite discard_tables; eauto.
Qed.

(* a step of a driver thread; x is the connection served by a send *)
Lemma upd_cases (nd : node) (s : state) (u : nat) (x : conn) (R : state -> Prop) :
  R s ->
  (forall (PC : u_pc (uth s u) = UStart),
     R (next_upd s u)) ->
  (forall p v rest (PC : u_pc (uth s u) = UAcq) (SC : u_script (uth s u) = (p, v) :: rest) (UL : ulock s (fst p) = None) (EX : exported nd p = true),
     R (set_upc (set_ulock (set_uth (set_cache s (updp (cache s) p v)) (upd (uth s) u {| u_pc := UAcq; u_script := rest |}))
                   (upd (ulock s) (fst p) (Some (TU u)))) u (UBuild p))) ->
  (forall p v rest (PC : u_pc (uth s u) = UAcq) (SC : u_script (uth s u) = (p, v) :: rest) (UL : ulock s (fst p) = None) (EX : exported nd p = false),
     R (next_upd (set_uth (set_cache s (updp (cache s) p v)) (upd (uth s) u {| u_pc := UAcq; u_script := rest |})) u)) ->
  (forall p (PC : u_pc (uth s u) = UBuild p) (NL : listeners s p = []),
     R (release s u (fst p))) ->
  (forall p (PC : u_pc (uth s u) = UBuild p) (NL : listeners s p <> []),
     R (set_upc s u (USend p (cache s p) (listeners s p) (listeners s p)))) ->
  (forall p v all pend (PC : u_pc (uth s u) = USend p v all pend) (IN : In x pend) (RM : remc x pend = []),
     R (release (set_bcasts (log_add s x (EUpd p v)) ((p, v, all) :: bcasts s)) u (fst p))) ->
  (forall p v all pend (PC : u_pc (uth s u) = USend p v all pend) (IN : In x pend) (RM : remc x pend <> []),
     R (set_upc (log_add s x (EUpd p v)) u (USend p v all (remc x pend)))) ->
  R (cstep nd s (TU u, x)).
Proof.
  intros Stay Start Store Hidden None_ Sel SendL Send.
  unfold cstep, cstep_gen, cstep_upd, uenabled; simpl.
  destruct (u_pc (uth s u)) eqn:PC; simpl; auto.
  - destruct (u_script (uth s u)) as [| [p v] rest] eqn:SC; simpl; auto.
    destruct (ulock s (fst p)) eqn:UL; simpl; auto.
    destruct (exported nd p) eqn:EX; [eapply Store | eapply Hidden]; eauto.
  - destruct (listeners s p) eqn:L; [apply None_; auto |]. rewrite <- L. apply Sel; auto. congruence.
  - destruct (memc x pend) eqn:M; simpl; auto. apply memc_In in M.
    destruct (remc x pend) eqn:RM; [eapply SendL | rewrite <- RM; eapply Send]; eauto. congruence.
Qed.

(* at the free dispatcher lock the step is the request handler *)
Lemma cstep_acq : forall nd s c x r, c_pc (cth s c) = CAcq r -> dlock s = None ->
  cstep nd s (TC c, x) = handle nd s c r.
Proof. intros nd s c x r PC DL. unfold cstep, cstep_gen, cstep_conn_gen, cenabled; simpl. rewrite PC, DL; simpl. reflexivity. Qed.

(* `proj` reads a successor state off field by field; it is used after conn_cases / upd_cases in every file below.
   For that, simpl must leave `snapshot_groups nd SG` folded: the setting holds in every file that imports this one. *)
Arguments snapshot_groups : simpl never.
Ltac proj := unfold release; rewrite ?enter_groups_eq, ?after_reset_eq, ?next_upd_eq; simpl.


(* ---- steps on behalf of connection a never change what connection b holds, receives or is subscribed to *)
Lemma isolation : forall nd s a x b, a <> b ->
  let s' := cstep nd s (TC a, x) in
  logs s' b = logs s b /\ cth s' b = cth s b /\ (forall p, listens s' b p = listens s b p) /\
  uth s' = uth s /\ cache s' = cache s /\ bcasts s' = bcasts s.
Proof.
  intros nd s a x b N s'. subst s'. assert (N' : b <> a) by auto.
  apply conn_cases; intros; proj; rewrite ?upd_other by auto; repeat split; auto; intros.
  (* listens reads the tables only, and those of the successor state are those of the table operation *)
  - exact (listens_unregister_other s a sc b p N').
  - change (listens (register_g s a) b p = listens s b p). rewrite listens_register_g.
    apply Nat.eqb_neq in N'. rewrite N'. apply orb_false_r.
  - exact (listens_lookup s sc b p).
  - exact (listens_add_other s a id b p N').
  - exact (listens_discard_other s a t b p N').
  - exact (listens_discard_other s a t b p N').
Qed.

Lemma conn_step_frame : forall nd s a x,
  let s' := cstep nd s (TC a, x) in uth s' = uth s /\ cache s' = cache s /\ bcasts s' = bcasts s.
Proof. intros. apply (isolation nd s a x (S a)). auto. Qed.

(* ---- steps of driver threads touch neither the tables nor the connection threads nor the other driver threads;
   a send appends to the log of a connection the broadcast still had to serve *)
Lemma upd_step_frame : forall nd s u x,
  let s' := cstep nd s (TU u, x) in
  actv s' = actv s /\ tbl s' = tbl s /\ nsets s' = nsets s /\ cth s' = cth s /\
  (forall u', u' <> u -> uth s' u' = uth s u') /\
  forall c, logs s' c = logs s c \/
    exists p v all pend, u_pc (uth s u) = USend p v all pend /\ In c pend /\ logs s' c = logs s c ++ [EUpd p v].
Proof.
  intros nd s u x s'. subst s'. apply upd_cases; intros; proj; repeat split; auto; intros c;
    try (intros; rewrite !upd_other by auto; reflexivity);
    (destruct (Nat.eq_dec c x) as [-> | N]; [rewrite upd_same; eauto 10 | rewrite upd_other by auto; auto]).
Qed.
