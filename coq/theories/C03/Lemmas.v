(* C03 - lemmas: constructible described types (wfx); get_datatype reads the exported description of every leaf type
   back, entry by entry *)
From Coq Require Import String Ascii.
From Coq Require Import ZArith NArith Bool List Lia Eqdep_dec.
Import ListNotations.
From Flocq Require Import IEEE754.BinarySingleNaN.
Require Import FV.Base.Util FV.Base.F64 FV.Base.PyVal FV.C01.Model FV.C01.Lemmas FV.Gen.C03 FV.C03.Model.

(* float constants must never be normalised (the boundedness proof inside a finite float is huge) *)
#[local] Arguments fmaxval : simpl never.
#[local] Arguments rel0 : simpl never.
#[local] Arguments dblmin : simpl never.
#[local] Arguments fopp : simpl never.
#[local] Arguments fmt0 : simpl never.

Lemma xt_ind2 (P : xt -> Prop)
  (HF : forall mn mx a r u f, P (XFloat mn mx a r u f))
  (HI : forall mn mx, P (XInt mn mx))
  (HS : forall s mn mx a r u f, P (XScaled s mn mx a r u f))
  (HB : P XBool)
  (HE : forall n ms, P (XEnum n ms))
  (HStr : forall a b u t, P (XString a b u t))
  (HBl : forall a b, P (XBlob a b))
  (HA : forall e a b, P e -> P (XArray e a b))
  (HT : forall es, Forall P es -> P (XTuple es))
  (HSt : forall ms opt c, Forall (fun p => P (snd p)) ms -> P (XStruct ms opt c)) : forall x, P x.
Proof.
  fix IH 1. intros [mn mx a r u f|mn mx|s mn mx a r u f| |n ms|a b u t|a b|e a b|es|ms opt c].
  - apply HF. - apply HI. - apply HS. - apply HB. - apply HE. - apply HStr. - apply HBl.
  - apply HA, IH.
  - apply HT. induction es as [|e es IHes]; constructor; [apply IH|exact IHes].
  - apply HSt. induction ms as [|[n e] ms IHms]; constructor; [apply IH|exact IHms].
Qed.

(* the type get_datatype(export_datatype(x), pname) is expected to be: enums named after the parameter, TextType
   becomes StringType, every struct carries the client flag *)
Fixpoint norm (p : str) (x : xt) : xt :=
  match x with
  | XEnum _ ms => XEnum p ms
  | XString a b u _ => XString a b u false
  | XArray e a b => XArray (norm p e) a b
  | XTuple es => XTuple (map (norm p) es)
  | XStruct ms opt _ =>
      XStruct (map (fun q => (fst q, norm p (snd q))) ms) opt true
  | _ => x
  end.

Fixpoint depth (x : xt) : nat :=
  match x with
  | XArray e _ _ => S (depth e)
  | XTuple es => S (fold_right (fun e n => Nat.max (depth e) n) 0 es)
  | XStruct ms _ _ => S (fold_right (fun q n => Nat.max (depth (snd q)) n) 0 ms)
  | _ => 1
  end.

Lemma str_eqb_iff a b : str_eqb a b = true <-> a = b.
Proof. split; [apply str_eqb_eq|intros ->; apply str_eqb_refl]. Qed.
Lemma mem_str_In k l : mem_str k l = true <-> In k l.
Proof.
  induction l as [|x l IH]; cbn; [split; [discriminate|contradiction]|].
  rewrite orb_true_iff, IH, str_eqb_iff. split; intros [H|H]; auto.
Qed.
Lemma incl_str_refl l : incl_str l l = true.
Proof. apply forallb_forall. intros k Hk. apply mem_str_In, Hk. Qed.
Lemma set_neq_refl l : set_neq l l = false.
Proof. unfold set_neq. rewrite incl_str_refl. reflexivity. Qed.

Definition is_fin (b : f64) : Prop := match b with B754_finite _ _ _ _ => True | _ => False end.
Lemma fin_dblmin : is_fin dblmin. Proof. exact I. Qed.

Lemma feq_eq (a b : f64) : is_fin b -> feq a b = true -> a = b.
Proof.
  destruct b as [| | |s m e B]; try contradiction. intros _.
  destruct a as [s'|s'| |s' m' e' B'];
    [cbn; destruct s; discriminate|cbn; destruct s', s; discriminate|cbn; discriminate|].
  unfold feq, Beqb, SpecFloat.SFeqb. cbn [B2SF SpecFloat.SFcompare].
  intros H.
  assert (s' = s /\ e' = e /\ m' = m) as (-> & -> & ->).
  { destruct s', s; try discriminate;
      destruct (Z.compare e' e) eqn:Ee; try discriminate; apply Z.compare_eq in Ee; subst;
      destruct (Pos.compare_cont Eq m' m) eqn:Em; try discriminate;
      apply Pos.compare_eq in Em; subst; auto. }
  f_equal. apply UIP_dec. apply bool_dec.
Qed.
Lemma fne_false (a b : f64) : is_fin b -> fne a b = false -> a = b.
Proof. intros F H. apply negb_false_iff in H. apply feq_eq; assumption. Qed.

(* constructible (well-formed) described types:
   every property value is a fixed point of the datatype that frappy declares for that property (HasProperties
   stores only validated values), limits are ordered, scaled limits lie on the grid *)
Definition fixf (pv : pyval -> res pyval) (f : f64) : Prop := pv (PFloat f) = Ok (PFloat f).
Definition fixz (pv : pyval -> res pyval) (z : Z) : Prop := pv (PInt z) = Ok (PInt z).
Definition fixs (pv : pyval -> res pyval) (s : str) : Prop := pv (PStr s) = Ok (PStr s).

Definition grid_aligned (s x : f64) : Prop :=
  exists k kf, scaled_int x s = Ok k /\ float_of_Z k = Some kf /\ pv_float (PFloat (fmul kf s)) = Ok (PFloat x).

Fixpoint wfx (x : xt) : Prop :=
  match x with
  | XFloat mn mx a r u f =>
      fixf pv_float mn /\ fixf pv_float mx /\ fixf pv_float0 a /\ fixf pv_float0 r /\ fixs pv_unit u /\ fixs pv_fmt f /\
      has_pct f = true /\ flt mx mn = false
  | XInt mn mx => fixz pv_intU mn /\ fixz pv_intU mx /\ (mx <? mn)%Z = false
  | XScaled s mn mx a r u f =>
      fixf pv_scale s /\ fixf pv_float0 s /\ grid_aligned s mn /\ grid_aligned s mx /\ fixf pv_float0 a /\
      fixf pv_float0 r /\ fixs pv_unit u /\ fixs pv_fmt f /\ has_pct f = true /\ flt mx mn = false
  | XBool => True
  | XEnum _ ms => enum_add (map (fun q => (fst q, PInt (snd q))) ms) [] = Ok ms /\ ms <> []
  | XString a b u t => fixz pv_int0U a /\ fixz pv_int0U b /\ (b <? a)%Z = false /\ (t = true -> a = 0%Z /\ u = false)
  | XBlob a b => fixz pv_int0 a /\ fixz pv_int0 b /\ (b <? a)%Z = false
  | XArray e a b => wfx e /\ fixz pv_int0 a /\ fixz pv_int0 b /\ (b <? a)%Z = false
  | XTuple es => es <> [] /\ (fix all (l : list xt) : Prop := match l with [] => True | e :: r => wfx e /\ all r end) es
  | XStruct ms opt _ =>
      ms <> [] /\ forallb (fun n => mem_str n (map fst ms)) opt = true /\
      (set_neq opt (map fst ms) = true \/ opt = map fst ms) /\
      (fix all (l : list (str * xt)) : Prop := match l with [] => True | q :: r => wfx (snd q) /\ all r end) ms
  end.

Lemma feq_zero_fix (a : f64) : feq a fzero = true -> fixf pv_float0 a -> a = fzero.
Proof.
  intros H F. destruct a as [[|]|[|]| |[|] m e B]; try (cbv in H; discriminate H); try reflexivity.
  vm_compute in F. discriminate F.
Qed.

(* never normalise a term down to a finite float (the boundedness proof inside is huge): test through booleans *)
Definition res_is (r : res pyval) (v : pyval) : bool :=
  match r, v with
  | Ok (PFloat g), PFloat f => fsame g f
  | Ok (PInt y), PInt z => Z.eqb y z
  | Ok (PStr t), PStr s => str_eqb t s
  | _, _ => false
  end.

Lemma scale_is_finite (s : f64) : fixf pv_scale s -> is_fin s.
Proof.
  intros H. destruct s as [[|]|[|]| |]; try exact I.
  all: match type of H with fixf _ ?x =>
         assert (E : res_is (pv_scale (PFloat x)) (PFloat x) = true) by (rewrite H; reflexivity) end;
       vm_compute in E; discriminate E.
Qed.
Lemma pv_float0_int0 : pv_float0 (PInt 0) = Ok (PFloat fzero).
Proof. vm_compute. reflexivity. Qed.

#[local] Opaque pv_float pv_float0 pv_scale pv_unit pv_fmt pv_intU pv_int0 pv_int0U fmaxval rel0 dblmin fopp fmt0.

(* looking a key up in an exported dictionary.
   The lemmas are resolution steps: [eauto with dict] walks down the dictionary once and leaves the answer as nested
   conditionals on the key comparisons, which evaluation then decides. *)
Lemma assoc_ent_app k c k' (v : pyval) l o : assoc_str k l = o ->
  assoc_str k (ent c k' v ++ l) = if str_eqb k k' && c then Some v else o.
Proof. intros <-. destruct c; cbn; [destruct (str_eqb k k')|rewrite andb_false_r]; reflexivity. Qed.
Lemma assoc_cons {A} k k' (v : A) l o : assoc_str k l = o ->
  assoc_str k ((k', v) :: l) = if str_eqb k k' then Some v else o.
Proof. intros <-. reflexivity. Qed.
Lemma assoc_ent k c k' (v : pyval) : assoc_str k (ent c k' v) = if str_eqb k k' && c then Some v else None.
Proof. rewrite <- (app_nil_r (ent c k' v)). apply assoc_ent_app. reflexivity. Qed.
Lemma assoc_nil {A} k : @assoc_str A k [] = None.
Proof. reflexivity. Qed.
#[global] Hint Resolve assoc_ent_app assoc_cons assoc_ent assoc_nil : dict.
Ltac lookup_key := eapply eq_trans; [eauto 12 with dict nocore|reflexivity].

Lemma assoc_remove_key k k0 kv : str_eqb k k0 = false -> assoc_str k (remove_key k0 kv) = assoc_str k kv.
Proof.
  intros H. unfold remove_key. induction kv as [|[k' v] kv IH]; cbn [filter assoc_str fst]; [reflexivity|].
  destruct (str_eqb k' k0) eqn:E0; cbn [negb assoc_str]; rewrite IH; [|reflexivity].
  destruct (str_eqb k k') eqn:E1; [|reflexivity]. apply str_eqb_eq in E0, E1. subst. rewrite str_eqb_refl in H. discriminate.
Qed.
Lemma mem_assoc {A} k (l : list (str * A)) :
  mem_str k (map fst l) = match assoc_str k l with Some _ => true | None => false end.
Proof. induction l as [|[k' v] l IH]; cbn; [reflexivity|]. destruct (str_eqb k k'); [reflexivity|exact IH]. Qed.

(* an entry written only when the value v differs from the default d (c says whether it does), read back *)
Lemma given_or_default c (v d : pyval) : (c = false -> v = d) -> opt_or (if c then Some v else None) d = v.
Proof. destruct c; intros E; [reflexivity|symmetry; apply E; reflexivity]. Qed.
Lemma entry_or_default c (v d : pyval) (pv : pyval -> res pyval) : pv v = Ok v -> (c = false -> v = d) ->
  match (if c then Some v else None) with Some w => pv w | None => Ok d end = Ok v.
Proof. destruct c; intros H E; [exact H|rewrite E; reflexivity]. Qed.
Lemma none_or_default c x d (pv : pyval -> res pyval) : pv (PFloat x) = Ok (PFloat x) -> (c = false -> x = d) ->
  let m := opt_or (if c then Some (PFloat x) else None) PNone in
  pv (match m with PNone => PFloat d | _ => m end) = Ok (PFloat x).
Proof. destruct c; intros H E; [exact H|rewrite <- E; [exact H|reflexivity]]. Qed.

Lemma leaf_bool p kw : leaf_of p $"bool" kw = Some (Ok XBool). Proof. reflexivity. Qed.
Lemma leaf_int p kw : leaf_of p $"int" kw = Some (mk_int (arg $"int" $"min" kw) (arg $"int" $"max" kw)).
Proof. reflexivity. Qed.
Lemma leaf_double p kw : leaf_of p $"double" kw =
  Some (mk_float (arg $"double" $"min" kw) (arg $"double" $"max" kw) (farg $"double" $"unit" kw) (farg $"double" $"fmtstr" kw)
                 (farg $"double" $"absolute_resolution" kw) (farg $"double" $"relative_resolution" kw)).
Proof. reflexivity. Qed.
Lemma leaf_scaled p kw : leaf_of p $"scaled" kw =
  Some (mk_scaled (arg $"scaled" $"scale" kw) (arg_pos $"scaled" $"min" kw) (arg_pos $"scaled" $"max" kw)
                  (farg $"scaled" $"unit" kw) (farg $"scaled" $"fmtstr" kw) (farg $"scaled" $"absolute_resolution" kw)
                  (farg $"scaled" $"relative_resolution" kw)).
Proof. reflexivity. Qed.
Lemma leaf_blob p kw : leaf_of p $"blob" kw = Some (mk_blob (arg $"blob" $"minbytes" kw) (arg $"blob" $"maxbytes" kw)).
Proof. reflexivity. Qed.
Lemma leaf_string p kw : leaf_of p $"string" kw =
  Some (mk_string (arg $"string" $"minchars" kw) (arg $"string" $"maxchars" kw) (arg $"string" $"isUTF8" kw)).
Proof. reflexivity. Qed.
Lemma leaf_enum p kw : leaf_of p $"enum" kw = Some (mk_enum p (arg $"enum" $"members" kw)). Proof. reflexivity. Qed.
Lemma leaf_array p kw : leaf_of p $"array" kw = None. Proof. reflexivity. Qed.
Lemma leaf_tuple p kw : leaf_of p $"tuple" kw = None. Proof. reflexivity. Qed.
Lemma leaf_struct p kw : leaf_of p $"struct" kw = None. Proof. reflexivity. Qed.

Lemma get_dt_leaf fuel p kv ty r : assoc_str $"type" kv = Some (PStr ty) ->
  binds_ok ty (remove_key $"type" kv) = true -> leaf_of p ty (remove_key $"type" kv) = Some r ->
  get_dt (S fuel) p (PDict kv) = some_xt r.
Proof. intros Ht Hb Hl. cbn [get_dt split_json]. rewrite Ht. cbn [bind]. rewrite Hb, Hl. reflexivity. Qed.

(* the keywords of the lambda, in terms of the entries of the description *)
Lemma arg_forwarded ty k kw : tbl_forwarded ty k = true -> arg ty k kw = tbl_none_default ty k (arg_pos ty k kw).
Proof. intros F. unfold arg. rewrite F. reflexivity. Qed.
Lemma none_default_id ty k v : tbl_none_default ty k PNone = PNone -> tbl_none_default ty k v = v.
Proof. destruct v; auto. Qed.
Lemma arg_pos_dict ty k kv : str_eqb k $"type" = false ->
  arg_pos ty k (remove_key $"type" kv) =
  opt_or (assoc_str k kv) (match tbl_params ty with
                           | Some ps => match assoc_str k ps with Some (Some d) => dflt_val d | _ => PNone end
                           | None => PNone
                           end).
Proof. intros H. unfold arg_pos. rewrite assoc_remove_key by exact H. reflexivity. Qed.
Lemma farg_dict ty ps k kv : tbl_floatargs ty = true -> mem_str k floatargs_keys = true -> tbl_params ty = Some ps ->
  mem_str k (map fst ps) = false -> str_eqb k $"type" = false -> farg ty k (remove_key $"type" kv) = assoc_str k kv.
Proof. intros F M P N T. unfold farg. rewrite F, M, P, N. apply assoc_remove_key, T. Qed.

Lemma get_dt_double fuel p kv omn omx ou ofm oa orr : assoc_str $"type" kv = Some (PStr $"double") ->
  assoc_str $"pname" kv = None -> assoc_str $"min" kv = omn -> assoc_str $"max" kv = omx -> assoc_str $"unit" kv = ou ->
  assoc_str $"fmtstr" kv = ofm -> assoc_str $"absolute_resolution" kv = oa -> assoc_str $"relative_resolution" kv = orr ->
  get_dt (S fuel) p (PDict kv) = some_xt (mk_float (opt_or omn PNone) (opt_or omx PNone) ou ofm oa orr).
Proof.
  intros Ht Hp <- <- <- <- <- <-. rewrite (get_dt_leaf _ _ _ _ _ Ht) with (2 := leaf_double _ _).
  - rewrite !arg_forwarded, !none_default_id, !arg_pos_dict, !(farg_dict $"double" _) by reflexivity. reflexivity.
  - unfold binds_ok. rewrite mem_assoc, assoc_remove_key, Hp by reflexivity. reflexivity.
Qed.

Lemma get_dt_scaled fuel p kv vs vmn vmx ou ofm oa orr : assoc_str $"type" kv = Some (PStr $"scaled") ->
  assoc_str $"pname" kv = None -> assoc_str $"scale" kv = Some vs -> assoc_str $"min" kv = Some vmn ->
  assoc_str $"max" kv = Some vmx -> assoc_str $"unit" kv = ou -> assoc_str $"fmtstr" kv = ofm ->
  assoc_str $"absolute_resolution" kv = oa -> assoc_str $"relative_resolution" kv = orr ->
  get_dt (S fuel) p (PDict kv) = some_xt (mk_scaled vs vmn vmx ou ofm oa orr).
Proof.
  intros Ht Hp Hs Hmn Hmx <- <- <- <-. rewrite (get_dt_leaf _ _ _ _ _ Ht) with (2 := leaf_scaled _ _).
  - rewrite arg_forwarded, none_default_id, !arg_pos_dict, !(farg_dict $"scaled" _) by reflexivity.
    rewrite Hs, Hmn, Hmx. reflexivity.
  - unfold binds_ok.
    change (tbl_params $"scaled") with (Some [($"scale", None : option str); ($"min", None); ($"max", None)]).
    cbn [forallb fst snd]. rewrite !mem_assoc, !assoc_remove_key, Hp, Hs, Hmn, Hmx by reflexivity. reflexivity.
Qed.

Lemma get_dt_string fuel p kv omin omax ou : assoc_str $"type" kv = Some (PStr $"string") ->
  assoc_str $"pname" kv = None -> assoc_str $"minchars" kv = omin -> assoc_str $"maxchars" kv = omax ->
  assoc_str $"isUTF8" kv = ou ->
  get_dt (S fuel) p (PDict kv) =
  some_xt (mk_string (opt_or omin (PInt 0)) (tbl_none_default $"string" $"maxchars" (opt_or omax PNone))
             (opt_or ou (PBool false))).
Proof.
  intros Ht Hp <- <- <-. rewrite (get_dt_leaf _ _ _ _ _ Ht) with (2 := leaf_string _ _).
  - rewrite !arg_forwarded, (none_default_id _ $"minchars"), (none_default_id _ $"isUTF8"), !arg_pos_dict by reflexivity.
    reflexivity.
  - unfold binds_ok. rewrite mem_assoc, assoc_remove_key, Hp by reflexivity. reflexivity.
Qed.

(* with this fuel get_datatype(export_datatype(x), p) is norm p x *)
Definition rebuilds_at (fuel : nat) (p : str) (x : xt) : Prop :=
  forall j, xt_export x = Ok j -> get_dt fuel p j = Ok (Some (norm p x)).

Lemma rebuild_int fuel p mn mx : wfx (XInt mn mx) -> rebuilds_at (S fuel) p (XInt mn mx).
Proof.
  intros (Hmn & Hmx & Hle) j E. injection E as <-. cbn. unfold mk_int. rewrite Hmn, Hmx. cbn [as_z bind]. rewrite Hle. reflexivity.
Qed.

Lemma rebuild_bool fuel p : rebuilds_at (S fuel) p XBool.
Proof. intros j E. injection E as <-. reflexivity. Qed.

Lemma rebuild_blob fuel p a b : wfx (XBlob a b) -> rebuilds_at (S fuel) p (XBlob a b).
Proof.
  intros (Ha & Hb & Hle) j E. cbn [xt_export] in E. injection E as <-.
  destruct (Z.eqb_spec a 0) as [->|_]; cbn; unfold mk_blob, none_or; rewrite Ha, Hb; cbn [as_z bind]; rewrite Hle;
    reflexivity.
Qed.

Lemma rebuild_string fuel p a b u t : wfx (XString a b u t) -> rebuilds_at (S fuel) p (XString a b u t).
Proof.
  intros (Ha & Hb & Hle & _) j E. cbn [xt_export] in E. injection E as <-.
  erewrite get_dt_string; [|lookup_key..]. cbn.
  rewrite (given_or_default _ (PInt a)), (given_or_default _ (PBool u)).
  - replace (tbl_none_default _ _ _) with (PInt b) by (destruct (Z.eqb_spec b UNL) as [->|]; reflexivity).
    unfold mk_string, none_or. rewrite Ha, Hb. cbn [as_z as_b bind bool_call]. rewrite Hle. reflexivity.
  - intros ->. reflexivity.
  - intros C. apply negb_false_iff, Z.eqb_eq in C. rewrite C. reflexivity.
Qed.

Lemma rebuild_enum fuel p n ms : wfx (XEnum n ms) -> rebuilds_at (S fuel) p (XEnum n ms).
Proof.
  intros (He & Hne) j E. cbn [xt_export] in E. injection E as <-.
  cbn. unfold mk_enum. rewrite He. cbn [bind]. destruct ms; [contradiction|reflexivity].
Qed.

Lemma rebuild_float fuel p mn mx a r u f : wfx (XFloat mn mx a r u f) -> rebuilds_at (S fuel) p (XFloat mn mx a r u f).
Proof.
  intros (Hmn & Hmx & Ha & Hr & Hu & Hf & Hp & Hle) j E. cbn [xt_export] in E. injection E as <-.
  erewrite get_dt_double; [|lookup_key..]. cbn. unfold mk_float, float_props.
  rewrite (none_or_default _ _ _ _ Hmn), (none_or_default _ _ _ _ Hmx) by (apply fne_false; exact I).
  rewrite (entry_or_default _ _ _ _ Hu), (entry_or_default _ _ _ _ Hf), (entry_or_default _ _ _ _ Ha),
    (entry_or_default _ _ _ _ Hr).
  - cbn [as_f as_s bind]. rewrite Hp, Hle. reflexivity.
  - intros C. f_equal. apply fne_false; [exact I|exact C].
  - intros C. f_equal. apply negb_false_iff in C. apply feq_zero_fix; assumption.
  - intros C. f_equal. apply negb_false_iff, str_eqb_eq in C. exact C.
  - intros C. f_equal. apply negb_false_iff, str_eqb_eq in C. exact C.
Qed.

(* absolute_resolution of a scaled type is exported as 0, omitted (= scale), or as a float *)
Lemma either_entry (c1 c2 : bool) (k : str) (v1 v2 : pyval) (l : list (str * pyval)) :
  (if c1 then [(k, v1)] else if c2 then [] else [(k, v2)]) ++ l = ent c1 k v1 ++ ent (negb c1 && negb c2) k v2 ++ l.
Proof. destruct c1, c2; reflexivity. Qed.

Lemma rebuild_scaled fuel p s mn mx a r u f : wfx (XScaled s mn mx a r u f) ->
  rebuilds_at (S fuel) p (XScaled s mn mx a r u f).
Proof.
  intros (Hs & Hs0 & (k1 & kf1 & Ek1 & Ef1 & Ev1) & (k2 & kf2 & Ek2 & Ef2 & Ev2) & Ha & Hr & Hu & Hf & Hp & Hle) j E.
  cbn [xt_export] in E. rewrite Ek1, Ek2 in E. cbn [bind] in E. injection E as <-.
  rewrite either_entry. erewrite get_dt_scaled; [|lookup_key..]. cbn.
  unfold mk_scaled, float_props. cbn [py_mul is_intlike py_float bind]. rewrite Ef1, Ef2. cbn [bind py_float].
  rewrite Hs, Ev1, Ev2. cbn [as_f bind].
  rewrite (entry_or_default _ _ _ _ Hu), (entry_or_default _ _ _ _ Hf), (entry_or_default _ _ _ _ Hr).
  - cbn [as_s bind].
    replace (pv_float0 _) with (Ok (PFloat a)); [cbn [as_f bind]; rewrite Hp, Hle; reflexivity|].
    destruct (feq a fzero) eqn:C0; [rewrite (feq_zero_fix a C0 Ha); symmetry; exact pv_float0_int0|].
    destruct (feq a s) eqn:C1; [|symmetry; exact Ha].
    apply feq_eq in C1 as ->; [symmetry; exact Hs0|exact (scale_is_finite s Hs)].
  - intros C. f_equal. apply fne_false; [exact I|exact C].
  - intros C. f_equal. apply negb_false_iff, str_eqb_eq in C. exact C.
  - intros C. f_equal. apply negb_false_iff, str_eqb_eq in C. exact C.
Qed.

Definition export_list : list xt -> res (list pyval) :=
  fix go (l : list xt) : res (list pyval) :=
    match l with [] => Ok [] | e :: r => xt_export e >>= fun j => go r >>= fun js => Ok (j :: js) end.
Definition export_members : list (str * xt) -> res (list (str * pyval)) :=
  fix go (l : list (str * xt)) : res (list (str * pyval)) :=
    match l with [] => Ok [] | (n, e) :: r => xt_export e >>= fun j => go r >>= fun js => Ok ((n, j) :: js) end.
Definition get_list (fuel : nat) (p : str) : list pyval -> res (list xt) :=
  fix go (l : list pyval) : res (list xt) :=
    match l with
    | [] => Ok []
    | t :: r => get_dt fuel p t >>= need_xt >>= fun e => go r >>= fun es => Ok (e :: es)
    end.
Definition get_members (fuel : nat) (p : str) : list (str * pyval) -> res (list (str * xt)) :=
  fix go (l : list (str * pyval)) : res (list (str * xt)) :=
    match l with
    | [] => Ok []
    | (n, t) :: r => get_dt fuel p t >>= need_xt >>= fun e => go r >>= fun es => Ok ((n, e) :: es)
    end.

Lemma get_list_ok p f es : Forall (rebuilds_at f p) es ->
  forall js, export_list es = Ok js -> get_list f p js = Ok (map (norm p) es).
Proof.
  induction 1 as [|e es He _ IH]; intros js E.
  - injection E as <-. reflexivity.
  - cbn [export_list] in E. apply bind_ok in E as (j & Ej & E). apply bind_ok in E as (js' & Ejs & E). injection E as <-.
    cbn [get_list]. rewrite (He j Ej). cbn [bind need_xt]. fold (get_list f p). rewrite (IH js' Ejs). reflexivity.
Qed.

Lemma get_members_ok p f ms : Forall (fun q => rebuilds_at f p (snd q)) ms ->
  forall js, export_members ms = Ok js -> get_members f p js = Ok (map (fun q => (fst q, norm p (snd q))) ms).
Proof.
  induction 1 as [|[n e] ms He _ IH]; intros js E.
  - injection E as <-. reflexivity.
  - cbn [export_members] in E. apply bind_ok in E as (j & Ej & E). apply bind_ok in E as (js' & Ejs & E). injection E as <-.
    cbn [get_members]. rewrite (He j Ej). cbn [bind need_xt]. fold (get_members f p). rewrite (IH js' Ejs). reflexivity.
Qed.

Lemma all_Forall {A} (P : A -> Prop) (l : list A) :
  (fix all (l : list A) : Prop := match l with [] => True | e :: r => P e /\ all r end) l <-> Forall P l.
Proof.
  split; [|induction 1; [exact I|split; assumption]].
  induction l as [|e l IH]; intros H; constructor; [apply H|apply IH, H].
Qed.

Lemma depth_list_le f es : fold_right (fun e n => Nat.max (depth e) n) 0 es <= f -> Forall (fun e => depth e <= f) es.
Proof. induction es as [|e es IH]; cbn; intros H; constructor; [lia|apply IH; lia]. Qed.
Lemma depth_members_le f (ms : list (str * xt)) :
  fold_right (fun q n => Nat.max (depth (snd q)) n) 0 ms <= f -> Forall (fun q => depth (snd q) <= f) ms.
Proof. induction ms as [|e ms IH]; cbn; intros H; constructor; [lia|apply IH; lia]. Qed.
