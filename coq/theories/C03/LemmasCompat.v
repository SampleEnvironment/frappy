(* C03 - compatible(): on the same-kind fragment (int, bool, string/text, blob, arrays of these) the verdict is
   exactly "the limits are nested", and nested limits mean nested value sets (C01's in_setb).  Then [accepts], the
   notion of every later soundness theorem, BoolType against any type, the loop over an int range (int_loop_sound,
   int_loop_complete) and IntRange against BoolType. *)
From Coq Require Import String Ascii.
From Coq Require Import ZArith NArith Bool List Lia.
Import ListNotations.
Require Import FV.Base.Util FV.Base.F64 FV.Base.PyVal FV.C01.Model FV.C01.Lemmas FV.Gen.C03 FV.C03.Model FV.C03.Lemmas.

Fixpoint widens (a b : xt) {struct a} : Prop :=
  match a, b with
  | XInt a1 a2, XInt b1 b2 => (b1 <= a1 /\ a2 <= b2)%Z
  | XBool, XBool => True
  | XString a1 a2 u _, XString b1 b2 u' _ => (b1 <= a1 /\ a2 <= b2)%Z /\ (u = true -> u' = true)
  | XBlob a1 a2, XBlob b1 b2 => (b1 <= a1 /\ a2 <= b2)%Z
  | XArray e a1 a2, XArray e' b1 b2 => widens e e' /\ (b1 <= a1 /\ a2 <= b2)%Z
  | _, _ => False
  end.

(* the pairings this characterisation covers: both sides of the same kind among int / bool / string / blob / arrays
   of these (numbers into other number kinds are decided by validate with tolerances; bool against a number is the
   finding bool-into-number-ignores-limits) *)
Fixpoint same_kind (a b : xt) {struct a} : Prop :=
  match a, b with
  | XInt _ _, XInt _ _ | XBool, XBool | XString _ _ _ _, XString _ _ _ _ | XBlob _ _, XBlob _ _ => True
  | XArray e _ _, XArray e' _ _ => same_kind e e'
  | _, _ => False
  end.

Lemma in_set_int mn mx v : in_setb (TInt mn mx) v = true -> exists z, v = PInt z /\ (mn <= z <= mx)%Z.
Proof.
  destruct v; try discriminate. cbn. intros H. apply andb_prop in H as [H1 H2]. apply Z.leb_le in H1, H2. eauto.
Qed.

Lemma int_validate_int mn mx z r : int_validate mn mx (PInt z) = Ok r -> r = PInt z /\ (mn <= z <= mx)%Z.
Proof.
  unfold int_validate, int_call. cbn [py_add0 py_int_num].
  destruct (float_of_Z z) as [f|]; cbn [bind wrap_wrong]; [|discriminate].
  destruct (cmp_Z_f (fround f) f) as [[| |]|]; try discriminate.
  destruct ((mn <=? z)%Z && (z <=? mx)%Z) eqn:C; [|discriminate]. intros H. injection H as <-.
  apply andb_true_iff in C as [C1 C2]. apply Z.leb_le in C1, C2. auto.
Qed.

Lemma int_validate_widen mn mx mn' mx' z : int_validate mn mx (PInt z) = Ok (PInt z) -> (mn' <= z <= mx')%Z ->
  int_validate mn' mx' (PInt z) = Ok (PInt z).
Proof.
  unfold int_validate. destruct (int_call (PInt z)) as [[| |z'| | | | | | | |]|]; try discriminate.
  destruct ((mn <=? z')%Z && (z' <=? mx)%Z); [|discriminate]. intros H. injection H as ->. intros [H1 H2].
  apply Z.leb_le in H1, H2. rewrite H1, H2. reflexivity.
Qed.

Lemma attr_wrong_ok (r : res unit) : attr_wrong r = Ok tt <-> r = Ok tt.
Proof. destruct r as [[]|[]]; cbn; split; intros H; try discriminate; reflexivity. Qed.

(* passes only if the limits are nested *)
Theorem compat_only_if_nested : forall a b, same_kind a b -> compat a b = Ok tt -> widens a b.
Proof.
  induction a as [ |a1 a2| | | |a1 a2 u t|a1 a2|e a1 a2 IHe| | ] using xt_ind2; intros b0 HK HC;
    destruct b0 as [ |b1 b2| | | |b1 b2 u' t'|b1 b2|e' b1 b2| | ]; try contradiction.
  - (* int *)
    cbn in HC. unfold vboth in HC. cbn [erase dt_validate] in HC.
    apply bind_ok in HC as (r1 & H1 & HC). apply bind_ok in HC as (r2 & H2 & _).
    apply int_validate_int in H1 as [_ H1], H2 as [_ H2]. cbn. lia.
  - exact I.
  - (* string *)
    cbn in HC. cbn. destruct (a1 <? b1)%Z eqn:C1, (b2 <? a2)%Z eqn:C2, u, u'; cbn in HC; try discriminate;
      apply Z.ltb_ge in C1, C2; (split; [lia|]); intros; congruence.
  - (* blob *)
    cbn in HC. cbn. destruct (a1 <? b1)%Z eqn:C1, (b2 <? a2)%Z eqn:C2; cbn in HC; try discriminate;
      apply Z.ltb_ge in C1, C2; lia.
  - (* array *)
    cbn in HC, HK. cbn. destruct (a1 <? b1)%Z eqn:C1, (b2 <? a2)%Z eqn:C2; cbn in HC; try discriminate.
    apply Z.ltb_ge in C1, C2. apply (proj1 (attr_wrong_ok _)) in HC. split; [apply IHe; assumption|lia].
Qed.

(* and it does pass when they are (for constructible types) *)
Theorem compat_if_nested : forall a b, wfx a -> widens a b -> compat a b = Ok tt.
Proof.
  induction a as [ |a1 a2| | | |a1 a2 u t|a1 a2|e a1 a2 IHe| | ] using xt_ind2; intros b0 HW HN;
    destruct b0 as [ |b1 b2| | | |b1 b2 u' t'|b1 b2|e' b1 b2| | ]; try contradiction.
  - destruct HW as (H1 & H2 & Hle). cbn in HN. apply Z.ltb_ge in Hle.
    cbn. unfold vboth. cbn [erase dt_validate].
    rewrite (int_validate_widen _ _ b1 b2 a1 H1 ltac:(lia)), (int_validate_widen _ _ b1 b2 a2 H2 ltac:(lia)). reflexivity.
  - reflexivity.
  - cbn in HN. destruct HN as [[H1 H2] Hu]. cbn.
    destruct (a1 <? b1)%Z eqn:C1; [apply Z.ltb_lt in C1; lia|].
    destruct (b2 <? a2)%Z eqn:C2; [apply Z.ltb_lt in C2; lia|].
    destruct u; [rewrite (Hu eq_refl)|]; reflexivity.
  - cbn in HN. cbn.
    destruct (a1 <? b1)%Z eqn:C1; [apply Z.ltb_lt in C1; lia|].
    destruct (b2 <? a2)%Z eqn:C2; [apply Z.ltb_lt in C2; lia|]. reflexivity.
  - cbn in HN. destruct HN as [He [H1 H2]]. destruct HW as (HWe & _). cbn.
    destruct (a1 <? b1)%Z eqn:C1; [apply Z.ltb_lt in C1; lia|].
    destruct (b2 <? a2)%Z eqn:C2; [apply Z.ltb_lt in C2; lia|]. cbn.
    rewrite (IHe _ HWe He). reflexivity.
Qed.

(* nested limits are nested value sets *)
Theorem widens_value_sets : forall a b, widens a b -> forall v, in_setb (erase a) v = true -> in_setb (erase b) v = true.
Proof.
  induction a as [ |a1 a2| | | |a1 a2 u t|a1 a2|e a1 a2 IHe| | ] using xt_ind2; intros b0 HN v HV;
    destruct b0 as [ |b1 b2| | | |b1 b2 u' t'|b1 b2|e' b1 b2| | ]; try contradiction.
  - cbn in *. destruct v; try discriminate. apply andb_true_iff in HV as [H1 H2]. apply Z.leb_le in H1, H2.
    apply andb_true_iff; split; apply Z.leb_le; lia.
  - exact HV.
  - cbn in *. destruct v; try discriminate. destruct HN as [[H1 H2] Hu]. unfold str_ok in *.
    apply andb_true_iff in HV as [HV H4]. apply andb_true_iff in HV as [HV H3]. apply andb_true_iff in HV as [H0 H2'].
    apply Z.leb_le in H2', H3. rewrite H4, andb_true_r.
    apply andb_true_iff; split; [apply andb_true_iff; split|]; try (apply Z.leb_le; lia).
    destruct u; [rewrite (Hu eq_refl); reflexivity|]. cbn in H0. rewrite H0. apply orb_true_r.
  - cbn in *. destruct v; try discriminate. apply andb_true_iff in HV as [H1 H2]. apply Z.leb_le in H1, H2.
    apply andb_true_iff; split; apply Z.leb_le; lia.
  - cbn in HN. destruct HN as [He [H1 H2]]. cbn [erase in_setb] in *. destruct v; try discriminate.
    apply andb_true_iff in HV as [HV H5]. apply andb_true_iff in HV as [H3 H4]. apply Z.leb_le in H3, H4.
    apply andb_true_iff; split; [apply andb_true_iff; split; apply Z.leb_le; lia|].
    rewrite forallb_forall in *. intros y Hy. apply (IHe _ He), H5, Hy.
Qed.

Theorem compat_sound_same_kind : forall a b, same_kind a b -> compat a b = Ok tt ->
  forall v, in_setb (erase a) v = true -> in_setb (erase b) v = true.
Proof. intros a b HK HC. apply widens_value_sets, compat_only_if_nested; assumption. Qed.

(* bool (repaired: validate instead of __call__) *)
Definition accepts (b : xt) (v : pyval) : Prop := exists r, dt_validate (erase b) v PNone = Ok r.

(* BoolType against ANY other type: passes only if both values of a bool are valid for the other type *)
Theorem compat_bool_sound : forall b v, compat XBool b = Ok tt -> in_setb (erase XBool) v = true -> accepts b v.
Proof.
  intros b v HC HV. cbn in HV. destruct v as [| x | | | | | | | | |]; try discriminate.
  cbn [compat] in HC. unfold vboth in HC. apply bind_ok in HC as (r1 & H1 & HC). apply bind_ok in HC as (r2 & H2 & _).
  destruct x; [exists r2|exists r1]; assumption.
Qed.
Theorem compat_bool_complete : forall b, accepts b (PBool false) -> accepts b (PBool true) -> compat XBool b = Ok tt.
Proof. intros b [r1 H1] [r2 H2]. cbn [compat]. unfold vboth. rewrite H1, H2. reflexivity. Qed.

(* for i in range(min, max + 1): other(i) *)
Lemma int_loop_sound d : forall fuel i mx, int_loop d fuel i mx = Ok tt ->
  forall z, (i <= z <= mx)%Z -> exists r, dt_call d (PInt z) = Ok r.
Proof.
  induction fuel as [|f IH]; intros i mx H z Hz; [discriminate|]. cbn [int_loop] in H.
  destruct (mx <? i)%Z eqn:C; [apply Z.ltb_lt in C; lia|].
  apply bind_ok in H as (r & Hr & H). destruct (Z.eq_dec z i) as [->|Hne]; [eauto|].
  apply (IH _ _ H). lia.
Qed.

Lemma int_loop_complete d : forall fuel i mx,
  (forall z, (i <= z <= mx)%Z -> exists r, dt_call d (PInt z) = Ok r) ->
  (Z.max 0 (mx - i + 1) < Z.of_nat fuel)%Z -> int_loop d fuel i mx = Ok tt.
Proof.
  induction fuel as [|f IH]; intros i mx H Hf; [lia|]. cbn [int_loop].
  destruct (mx <? i)%Z eqn:C; [reflexivity|]. apply Z.ltb_ge in C.
  destruct (H i ltac:(lia)) as [r Hr]. rewrite Hr. cbn [bind]. apply IH; [intros z Hz; apply H; lia|lia].
Qed.

(* IntRange against BoolType (repaired: return after the loop): passes exactly when the range lies in {0, 1} *)
Lemma bool_call_int_ok z : (z = 0 \/ z = 1)%Z -> exists r, bool_call (PInt z) = Ok r.
Proof. intros [-> | ->]; eexists; reflexivity. Qed.
Lemma bool_call_int_inv z r : bool_call (PInt z) = Ok r -> (z = 0 \/ z = 1)%Z.
Proof. destruct z as [|[p|p|]|p]; try discriminate; auto. Qed.

Theorem compat_int_bool_iff : forall mn mx, (mn <= mx)%Z ->
  (compat (XInt mn mx) XBool = Ok tt <-> (0 <= mn /\ mx <= 1)%Z).
Proof.
  intros mn mx Hle. cbn [compat erase]. split.
  - intros H. destruct (int_loop_sound _ _ _ _ H mn ltac:(lia)) as [r1 H1]. destruct (int_loop_sound _ _ _ _ H mx ltac:(lia)) as [r2 H2].
    apply bool_call_int_inv in H1, H2. lia.
  - intros [H0 H1]. apply int_loop_complete; [|lia]. intros z Hz. apply bool_call_int_ok. lia.
Qed.

Theorem compat_int_bool_sound : forall mn mx z, compat (XInt mn mx) XBool = Ok tt ->
  in_setb (erase (XInt mn mx)) (PInt z) = true -> accepts XBool (PInt z).
Proof.
  cbn [compat erase in_setb]. intros mn mx z HC HV. apply andb_prop in HV as [H1 H2]. apply Z.leb_le in H1, H2.
  exact (int_loop_sound _ _ _ _ HC z (conj H1 H2)).
Qed.
