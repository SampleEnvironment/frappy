(* C03 - compatible() with a FloatRange as second type (first type FloatRange, ScaledInteger or IntRange): the verdict
   validates only the two end points of the first type against the second.  With the tolerance max(|x| * relres, absres) of
   FloatRange.validate this is sound for every value in between when, on each side, the limit is nested outright, or the
   tolerance can only grow towards the inside of the interval (end point on the far side of zero), or the tolerance is
   constant (relres = 0).  Outside this guard the verdict is NOT sound in general (Refuted.v: relres 2, relres 1).
   float_src_into_float and int_src_into_float are what LemmasCover.number_pair_sound uses; the completeness lemmas
   for nested limits follow. *)
From Coq Require Import String Ascii.
From Coq Require Import ZArith NArith Bool List Lia Reals Lra.
Import ListNotations.
From Flocq Require Import IEEE754.BinarySingleNaN.
Require Import FV.Base.Util FV.Base.F64 FV.Base.F64Lemmas FV.Base.PyVal FV.C01.Model FV.C01.Lemmas FV.Gen.C03 FV.C03.Model
  FV.C03.Lemmas FV.Base.F64Facts FV.C03.F64Mono FV.C03.LemmasCompat.

(* unification must not unfold the float constants (a finite float carries a huge boundedness proof) *)
#[local] Opaque fmaxval fopp.

(* the two comparisons of FloatRange.validate on the converted value *)
Definition fchk (bmn bmx a r f : f64) : bool :=
  fle (fsub bmn (tol r a f)) f && fle f (fadd bmx (tol r a f)).

Lemma float_validate_chk bmn bmx a r v f : float_call v = Ok (PFloat f) ->
  float_validate bmn bmx a r v = if fchk bmn bmx a r f then Ok (PFloat (fclamp bmn f bmx)) else Err ERange.
Proof. intros H. unfold float_validate. rewrite H. reflexivity. Qed.

Lemma float_validate_ok_chk bmn bmx a r v f x : float_call v = Ok (PFloat f) ->
  float_validate bmn bmx a r v = Ok x -> fchk bmn bmx a r f = true.
Proof. intros H. rewrite (float_validate_chk _ _ _ _ _ _ H). destruct (fchk bmn bmx a r f); [reflexivity|discriminate]. Qed.

Lemma float_validate_chk_ok bmn bmx a r v f : float_call v = Ok (PFloat f) ->
  fchk bmn bmx a r f = true -> exists x, float_validate bmn bmx a r v = Ok x.
Proof. intros H C. rewrite (float_validate_chk _ _ _ _ _ _ H), C. eexists. reflexivity. Qed.

(* what the constructor guarantees of the second type *)
Record ftarget (bmn bmx a r : f64) : Prop := {
  ft_mn : is_finite bmn = true; ft_mx : is_finite bmx = true;
  ft_r : is_finite r = true; ft_r0 : (0 <= B2R r)%R; ft_a : notnan a }.

Section Between.
  Variables bmn bmx a r : f64.
  Hypothesis T : ftarget bmn bmx a r.

  (* a value inside the limits is accepted whatever the tolerance *)
  Lemma fchk_inside x : is_finite x = true -> (B2R bmn <= B2R x <= B2R bmx)%R -> fchk bmn bmx a r x = true.
  Proof.
    intros Fx [H1 H2]. destruct T as [Fmn Fmx Fr Hr Na].
    destruct (tol_key r a x Fx Fr Hr Na) as (Nt & _ & Pt).
    destruct (fsub_le_self bmn _ Fmn Nt Pt) as [N1 L1]. destruct (fadd_ge_self bmx _ Fmx Nt Pt) as [N2 L2].
    rewrite (key_finite _ Fmn) in L1. rewrite (key_finite _ Fmx) in L2.
    unfold fchk. apply andb_true_intro. split; apply fle_true; try assumption; try (apply finite_notnan; assumption);
      rewrite (key_finite _ Fx); lra.
  Qed.

  (* both end points pass, the guards hold: everything in between passes *)
  Lemma fchk_between lo x hi :
    is_finite lo = true -> is_finite x = true -> is_finite hi = true ->
    (B2R lo <= B2R x <= B2R hi)%R ->
    fchk bmn bmx a r lo = true -> fchk bmn bmx a r hi = true ->
    (B2R bmn <= B2R lo \/ 0 <= B2R lo \/ B2R r = 0)%R ->
    (B2R hi <= B2R bmx \/ B2R hi <= 0 \/ B2R r = 0)%R ->
    fchk bmn bmx a r x = true.
  Proof.
    intros Flo Fx Fhi [Hlx Hxh] Clo Chi GL GU. destruct T as [Fmn Fmx Fr Hr Na].
    destruct (tol_key r a x Fx Fr Hr Na) as (Ntx & _ & Ptx).
    destruct (tol_key r a lo Flo Fr Hr Na) as (Ntl & _ & Ptl).
    destruct (tol_key r a hi Fhi Fr Hr Na) as (Nth & _ & Pth).
    unfold fchk in *. apply andb_prop in Clo as [Clo _]. apply andb_prop in Chi as [_ Chi].
    apply keys_of_fle in Clo as (_ & _ & Clo). apply keys_of_fle in Chi as (_ & _ & Chi).
    rewrite (key_finite _ Flo) in Clo. rewrite (key_finite _ Fhi) in Chi.
    pose proof (finite_notnan _ Fx) as Nx.
    apply andb_true_intro. split.
    - (* lower side *)
      destruct GL as [G|G].
      + destruct (fsub_le_self bmn _ Fmn Ntx Ptx) as [N1 L1]. rewrite (key_finite _ Fmn) in L1.
        apply fle_true; [exact N1|exact Nx|]. rewrite (key_finite _ Fx). lra.
      + assert (Hm : (key (tol r a lo) <= key (tol r a x))%R).
        { destruct G as [G|G].
          - apply tol_mono; try assumption. rewrite !Rabs_pos_eq by lra. exact Hlx.
          - right. apply tol_const; assumption. }
        destruct (fsub_antimono bmn _ _ Fmn Ntl Ntx Hm) as (_ & N1 & L1).
        apply fle_true; [exact N1|exact Nx|]. rewrite (key_finite _ Fx). lra.
    - (* upper side *)
      destruct GU as [G|G].
      + destruct (fadd_ge_self bmx _ Fmx Ntx Ptx) as [N1 L1]. rewrite (key_finite _ Fmx) in L1.
        apply fle_true; [exact Nx|exact N1|]. rewrite (key_finite _ Fx). lra.
      + assert (Hm : (key (tol r a hi) <= key (tol r a x))%R).
        { destruct G as [G|G].
          - apply tol_mono; try assumption. rewrite !Rabs_left1 by lra. lra.
          - right. apply tol_const; assumption. }
        destruct (fadd_mono bmx _ _ Fmx Nth Ntx Hm) as (_ & N1 & L1).
        apply fle_true; [exact Nx|exact N1|]. rewrite (key_finite _ Fx). lra.
  Qed.
End Between.

(* what wfx says about float limits *)
Lemma float_validate_out_range lo hi a r y x : fle lo hi = true -> is_finite lo = true -> is_finite hi = true ->
  float_validate lo hi a r (PFloat y) = Ok (PFloat x) -> fle lo x = true /\ fle x hi = true /\ is_finite x = true.
Proof.
  intros Hle Flo Fhi H. unfold float_validate in H. pose proof (float_call_float (PFloat y)) as F.
  destruct (float_call (PFloat y)) as [z|e]; [|discriminate]. destruct (F z eq_refl) as [g ->].
  destruct (fle (fsub lo _) g && fle g (fadd hi _)) eqn:E; [|discriminate].
  apply andb_prop in E as [E1 _]. destruct (fle_true_notnan _ _ E1) as [_ Ng].
  injection H as H.
  destruct (fclamp_between lo g hi (finite_notnan _ Flo) Ng (finite_notnan _ Fhi) Hle) as (A & B & _).
  rewrite H in A, B. split; [exact A|]. split; [exact B|exact (finite_between _ _ _ Flo Fhi A B)].
Qed.

Lemma fmax_facts : fle (fopp fmaxval) fmaxval = true /\ is_finite (fopp fmaxval) = true /\ is_finite fmaxval = true /\
  fle fzero fmaxval = true.
Proof. vm_compute. repeat apply conj; reflexivity. Qed.

Lemma fix_pv_float x : fixf pv_float x -> fle (fopp fmaxval) x = true /\ fle x fmaxval = true /\ is_finite x = true.
Proof.
  destruct fmax_facts as (A & B & C & _). unfold fixf, pv_float. apply float_validate_out_range; assumption.
Qed.
Lemma fix_pv_float0 x : fixf pv_float0 x -> is_finite x = true /\ (0 <= B2R x)%R.
Proof.
  destruct fmax_facts as (_ & _ & C & D). unfold fixf, pv_float0. intros H.
  destruct (float_validate_out_range fzero fmaxval _ _ x x D eq_refl C H) as (A & _ & F). split; [exact F|].
  exact (fle_R fzero x eq_refl F A).
Qed.

Lemma wfx_ftarget bmn bmx a r u f : wfx (XFloat bmn bmx a r u f) -> ftarget bmn bmx a r.
Proof.
  intros (Hmn & Hmx & Ha & Hr & _). destruct (fix_pv_float _ Hmn) as (_ & _ & F1). destruct (fix_pv_float _ Hmx) as (_ & _ & F2).
  destruct (fix_pv_float0 _ Hr) as [F3 P3]. destruct (fix_pv_float0 _ Ha) as [F4 _].
  constructor; try assumption. apply finite_notnan, F4.
Qed.

(* float(x) + 0.0 clamped to +-max of a number within +-max is that number *)
Lemma float_call_finite f : fle (fopp fmaxval) f = true -> fle f fmaxval = true ->
  exists g, float_call (PFloat f) = Ok (PFloat g) /\ is_finite g = true /\ B2R g = B2R f.
Proof.
  intros A B. destruct fmax_facts as (Hle & Fl & Fh & _). pose proof (finite_between _ _ _ Fl Fh A B) as Ff.
  destruct (fadd_zero f Ff) as [Fg Eg]. exists (fadd f fzero). split; [|split; assumption].
  unfold float_call. cbn [py_add0 wrap_wrong]. do 2 f_equal.
  destruct (fclamp_between (fopp fmaxval) (fadd f fzero) fmaxval (finite_notnan _ Fl) (finite_notnan _ Fg)
              (finite_notnan _ Fh) Hle) as (_ & _ & C).
  apply C; apply R_fle; try assumption; rewrite Eg; apply fle_R; assumption.
Qed.

Definition lo_guard (bmn r lo : f64) : bool := fle bmn lo || fle fzero lo || feq r fzero.
Definition hi_guard (bmx r hi : f64) : bool := fle hi bmx || fle hi fzero || feq r fzero.

Lemma lo_guard_R bmn r lo (g : f64) : is_finite bmn = true -> is_finite r = true -> is_finite lo = true -> B2R g = B2R lo ->
  lo_guard bmn r lo = true -> (B2R bmn <= B2R g \/ 0 <= B2R g \/ B2R r = 0)%R.
Proof.
  intros Fb Fr Fl E H. unfold lo_guard in H. rewrite E.
  apply orb_prop in H as [H|H]; [apply orb_prop in H as [H|H]|].
  - left. exact (fle_R _ _ Fb Fl H).
  - right. left. exact (fle_R fzero lo eq_refl Fl H).
  - right. right. apply feq_key in H; [|apply finite_notnan, Fr|reflexivity]. rewrite (key_finite _ Fr) in H. exact H.
Qed.
Lemma hi_guard_R bmx r hi (g : f64) : is_finite bmx = true -> is_finite r = true -> is_finite hi = true -> B2R g = B2R hi ->
  hi_guard bmx r hi = true -> (B2R g <= B2R bmx \/ B2R g <= 0 \/ B2R r = 0)%R.
Proof.
  intros Fb Fr Fl E H. unfold hi_guard in H. rewrite E.
  apply orb_prop in H as [H|H]; [apply orb_prop in H as [H|H]|].
  - left. exact (fle_R _ _ Fl Fb H).
  - right. left. exact (fle_R hi fzero Fl eq_refl H).
  - right. right. apply feq_key in H; [|apply finite_notnan, Fr|reflexivity]. rewrite (key_finite _ Fr) in H. exact H.
Qed.

Lemma vboth_ok b v1 v2 : vboth b v1 v2 = Ok tt -> accepts b v1 /\ accepts b v2.
Proof.
  unfold vboth. intros H. apply bind_ok in H as (r1 & H1 & H). apply bind_ok in H as (r2 & H2 & _).
  split; eexists; eassumption.
Qed.
Lemma vboth_intro b v1 v2 : accepts b v1 -> accepts b v2 -> vboth b v1 v2 = Ok tt.
Proof. intros [r1 H1] [r2 H2]. unfold vboth. rewrite H1, H2. reflexivity. Qed.

Lemma finite_in_fmax f : fle (fopp fmaxval) f = true -> fle f fmaxval = true -> is_finite f = true.
Proof. destruct fmax_facts as (_ & Fl & Fh & _). exact (finite_between _ _ _ Fl Fh). Qed.

(* the first type offers the floats between amn and amx (a FloatRange, or a ScaledInteger on its grid) *)
Lemma float_src_into_float amn amx bmn bmx ba br :
  fle (fopp fmaxval) amn = true -> fle amn fmaxval = true -> fle (fopp fmaxval) amx = true -> fle amx fmaxval = true ->
  ftarget bmn bmx ba br -> lo_guard bmn br amn = true -> hi_guard bmx br amx = true ->
  (exists r, float_validate bmn bmx ba br (PFloat amn) = Ok r) -> (exists r, float_validate bmn bmx ba br (PFloat amx) = Ok r) ->
  forall f, fle amn f = true -> fle f amx = true -> exists r, float_validate bmn bmx ba br (PFloat f) = Ok r.
Proof.
  intros L1 L2 U1 U2 T GL GU [r1 A1] [r2 A2] f V1 V2.
  pose proof (finite_in_fmax _ L1 L2) as F1. pose proof (finite_in_fmax _ U1 U2) as F2.
  pose proof (finite_between _ _ _ F1 F2 V1 V2) as Ff.
  destruct (float_call_finite amn L1 L2) as (glo & Clo & Flo & Elo).
  destruct (float_call_finite amx U1 U2) as (ghi & Chi & Fhi & Ehi).
  destruct (float_call_finite f (fle_trans _ _ _ L1 V1) (fle_trans _ _ _ V2 U2)) as (g & Cg & Fg & Eg).
  apply (float_validate_ok_chk _ _ _ _ _ _ _ Clo) in A1. apply (float_validate_ok_chk _ _ _ _ _ _ _ Chi) in A2.
  apply (float_validate_chk_ok _ _ _ _ _ _ Cg).
  apply (fchk_between _ _ _ _ T glo g ghi Flo Fg Fhi); try assumption.
  - rewrite Elo, Eg, Ehi. split; apply fle_R; assumption.
  - apply (lo_guard_R bmn br amn); try assumption; apply T.
  - apply (hi_guard_R bmx br amx); try assumption; apply T.
Qed.

(* a ScaledInteger as first type: the value set of a scaled type is bounded by its grid-rounded limits; [grid_inside] says they lie within the declared limits (what
   "limits on the grid" means for the comparison; it is a decidable condition of the first type alone) *)
Definition grid_inside (s mn mx : f64) : bool :=
  match scaled_call s (PFloat mn), scaled_call s (PFloat mx) with
  | Ok (PFloat lo), Ok (PFloat hi) => fle mn lo && fle hi mx
  | _, _ => false
  end.

Lemma scaled_set_inside s mn mx v : grid_inside s mn mx = true -> in_setb (TScaled s mn mx) v = true ->
  exists f, v = PFloat f /\ fle mn f = true /\ fle f mx = true.
Proof.
  unfold grid_inside. destruct v as [| | |f| | | | | | |]; cbn [in_setb]; try discriminate.
  destruct (scaled_call s (PFloat mn)) as [[| | |lo| | | | | | |]|]; try discriminate.
  destruct (scaled_call s (PFloat mx)) as [[| | |hi| | | | | | |]|]; try discriminate.
  intros G V. apply andb_prop in G as [G1 G2]. apply andb_prop in V as [V1 V2].
  exists f. split; [reflexivity|]. split; eapply fle_trans; eassumption.
Qed.

Lemma wfx_scaled_limits s mn mx a r u f : wfx (XScaled s mn mx a r u f) ->
  (fle (fopp fmaxval) mn = true /\ fle mn fmaxval = true) /\ (fle (fopp fmaxval) mx = true /\ fle mx fmaxval = true).
Proof.
  intros (_ & _ & (k1 & kf1 & _ & _ & E1) & (k2 & kf2 & _ & _ & E2) & _).
  destruct fmax_facts as (A & B & C & _). unfold pv_float in E1, E2.
  destruct (float_validate_out_range _ _ _ _ _ _ A B C E1) as (L1 & L2 & _).
  destruct (float_validate_out_range _ _ _ _ _ _ A B C E2) as (U1 & U2 & _). auto.
Qed.

(* nested limits pass (the verdict is more generous than that: it also passes when an end point lies within the
   tolerance of the second type) *)
Lemma float_validate_inside bmn bmx a r v g : ftarget bmn bmx a r -> float_call v = Ok (PFloat g) -> is_finite g = true ->
  (B2R bmn <= B2R g <= B2R bmx)%R -> exists x, float_validate bmn bmx a r v = Ok x.
Proof. intros T C F B. apply (float_validate_chk_ok _ _ _ _ _ _ C), (fchk_inside _ _ _ _ T); assumption. Qed.

Theorem compat_float_float_complete amn amx aa ar au af bmn bmx ba br bu bf :
  wfx (XFloat amn amx aa ar au af) -> wfx (XFloat bmn bmx ba br bu bf) ->
  fle bmn amn = true -> fle amx bmx = true ->
  compat (XFloat amn amx aa ar au af) (XFloat bmn bmx ba br bu bf) = Ok tt.
Proof.
  intros Wa Wb N1 N2. pose proof (wfx_ftarget _ _ _ _ _ _ Wb) as T.
  destruct Wa as (Hmn & Hmx & _ & _ & _ & _ & _ & Hord).
  destruct (fix_pv_float _ Hmn) as (L1 & L2 & F1). destruct (fix_pv_float _ Hmx) as (U1 & U2 & F2).
  apply flt_false in Hord; [|apply finite_notnan, F2|apply finite_notnan, F1].
  rewrite (key_finite _ F1), (key_finite _ F2) in Hord.
  destruct (float_call_finite amn L1 L2) as (glo & Clo & Flo & Elo).
  destruct (float_call_finite amx U1 U2) as (ghi & Chi & Fhi & Ehi).
  pose proof (fle_R _ _ (ft_mn _ _ _ _ T) F1 N1). pose proof (fle_R _ _ F2 (ft_mx _ _ _ _ T) N2).
  cbn [compat]. apply vboth_intro; unfold accepts; cbn [erase dt_validate];
    eapply (float_validate_inside _ _ _ _ _ _ T); try eassumption; lra.
Qed.

Lemma unl_facts : fle (fopp fmaxval) (of_Z (- UNL)) = true /\ fle (of_Z UNL) fmaxval = true.
Proof. vm_compute. split; reflexivity. Qed.

Lemma float_call_int z : (- UNL <= z <= UNL)%Z ->
  float_call (PInt z) = Ok (PFloat (of_Z z)) /\ is_finite (of_Z z) = true.
Proof.
  intros [H1 H2]. destruct fmax_facts as (Hle & Fl & Fh & _). destruct unl_facts as [A B].
  apply keys_of_fle in A as (Nl & _ & A). apply keys_of_fle in B as (_ & Nh & B).
  pose proof (of_Z_mono _ _ H1) as M1. pose proof (of_Z_mono _ _ H2) as M2. destruct (of_Z_key z) as [Nz _].
  assert (Fz : is_finite (of_Z z) = true).
  { pose proof (finite_key_bound _ Fl). pose proof (finite_key_bound _ Fh). apply finite_of_key; [exact Nz|lra]. }
  split; [|exact Fz]. unfold float_call. cbn [py_add0]. unfold float_of_Z.
  replace (fis_finite (of_Z z)) with true by (rewrite fis_finite_is_finite; symmetry; exact Fz).
  cbn [wrap_wrong]. do 2 f_equal.
  destruct (fclamp_between (fopp fmaxval) (of_Z z) fmaxval Nl Nz Nh Hle) as (_ & _ & C).
  apply C; apply fle_true; try assumption; lra.
Qed.

Lemma wfx_int_range mn mx : wfx (XInt mn mx) -> (- UNL <= mn <= UNL)%Z /\ (- UNL <= mx <= UNL)%Z /\ (mn <= mx)%Z.
Proof.
  intros (H1 & H2 & H3). unfold fixz, pv_intU in H1, H2.
  apply int_validate_int in H1 as [_ H1]. apply int_validate_int in H2 as [_ H2]. apply Z.ltb_ge in H3. auto.
Qed.

Lemma int_src_into_float amn amx bmn bmx ba br : (- UNL <= amn <= UNL)%Z -> (- UNL <= amx <= UNL)%Z ->
  ftarget bmn bmx ba br -> lo_guard bmn br (of_Z amn) = true -> hi_guard bmx br (of_Z amx) = true ->
  (exists r, float_validate bmn bmx ba br (PInt amn) = Ok r) -> (exists r, float_validate bmn bmx ba br (PInt amx) = Ok r) ->
  forall z, (amn <= z <= amx)%Z -> exists r, float_validate bmn bmx ba br (PInt z) = Ok r.
Proof.
  intros R1 R2 T GL GU [r1 A1] [r2 A2] z [V1 V2].
  destruct (float_call_int amn R1) as [Clo Flo]. destruct (float_call_int amx R2) as [Chi Fhi].
  destruct (float_call_int z ltac:(lia)) as [Cz Fz].
  apply (float_validate_ok_chk _ _ _ _ _ _ _ Clo) in A1. apply (float_validate_ok_chk _ _ _ _ _ _ _ Chi) in A2.
  apply (float_validate_chk_ok _ _ _ _ _ _ Cz).
  pose proof (of_Z_mono _ _ V1) as M1. pose proof (of_Z_mono _ _ V2) as M2.
  rewrite (key_finite _ Flo), (key_finite _ Fz) in M1. rewrite (key_finite _ Fhi), (key_finite _ Fz) in M2.
  apply (fchk_between _ _ _ _ T (of_Z amn) (of_Z z) (of_Z amx) Flo Fz Fhi); try assumption.
  - lra.
  - apply (lo_guard_R bmn br (of_Z amn)); try assumption; [apply T|apply T|reflexivity].
  - apply (hi_guard_R bmx br (of_Z amx)); try assumption; [apply T|apply T|reflexivity].
Qed.

Theorem compat_int_float_complete amn amx bmn bmx ba br bu bf :
  wfx (XInt amn amx) -> wfx (XFloat bmn bmx ba br bu bf) ->
  fle bmn (of_Z amn) = true -> fle (of_Z amx) bmx = true ->
  compat (XInt amn amx) (XFloat bmn bmx ba br bu bf) = Ok tt.
Proof.
  intros Wa Wb N1 N2. pose proof (wfx_ftarget _ _ _ _ _ _ Wb) as T.
  destruct (wfx_int_range _ _ Wa) as (R1 & R2 & Hord).
  destruct (float_call_int amn R1) as [Clo Flo]. destruct (float_call_int amx R2) as [Chi Fhi].
  pose proof (of_Z_mono _ _ Hord) as M. rewrite (key_finite _ Flo), (key_finite _ Fhi) in M.
  pose proof (fle_R _ _ (ft_mn _ _ _ _ T) Flo N1). pose proof (fle_R _ _ Fhi (ft_mx _ _ _ _ T) N2).
  cbn [compat]. apply vboth_intro; unfold accepts; cbn [erase dt_validate];
    eapply (float_validate_inside _ _ _ _ _ _ T); try eassumption; lra.
Qed.

(* exact nesting of an int limit (as a real number) implies nesting after the conversion to float: rounding is
   monotone and leaves the float limit unchanged *)
Lemma key_sat_rnd (b : f64) : is_finite b = true -> key b = sat (rnd (B2R b)).
Proof.
  intros Fb. pose proof (finite_key_bound _ Fb) as Hb. rewrite (key_finite _ Fb) in *. rewrite rnd_B2R, sat_id; [reflexivity|exact Hb].
Qed.
Lemma exact_nested_lo (bmn : f64) z : is_finite bmn = true -> (B2R bmn <= IZR z)%R -> fle bmn (of_Z z) = true.
Proof.
  intros Fb H. destruct (of_Z_key z) as [Nz K]. apply fle_true; [apply finite_notnan, Fb|exact Nz|].
  rewrite K, (key_sat_rnd _ Fb). apply sat_le, rnd_le, H.
Qed.
Lemma exact_nested_hi (bmx : f64) z : is_finite bmx = true -> (IZR z <= B2R bmx)%R -> fle (of_Z z) bmx = true.
Proof.
  intros Fb H. destruct (of_Z_key z) as [Nz K]. apply fle_true; [exact Nz|apply finite_notnan, Fb|].
  rewrite K, (key_sat_rnd _ Fb). apply sat_le, rnd_le, H.
Qed.

(* an int within +-UNLIMITED is accepted by int() *)
Lemma int_call_int_ok z : (- UNL <= z <= UNL)%Z -> int_call (PInt z) = Ok (PInt z).
Proof.
  intros R. destruct (float_call_int z R) as [_ Fz]. unfold int_call. cbn [py_add0 py_int_num]. unfold float_of_Z.
  replace (fis_finite (of_Z z)) with true by (rewrite fis_finite_is_finite; symmetry; exact Fz). cbn [bind wrap_wrong].
  destruct (of_Z_integral z Fz) as (n & Hn). rewrite (fround_integral _ _ Hn), (cmp_Z_f_integral _ _ Fz Hn). reflexivity.
Qed.

Lemma int_validate_in_range mn mx z : (- UNL <= z <= UNL)%Z -> (mn <= z <= mx)%Z ->
  int_validate mn mx (PInt z) = Ok (PInt z).
Proof.
  intros R [H1 H2]. unfold int_validate. rewrite (int_call_int_ok z R).
  apply Z.leb_le in H1, H2. rewrite H1, H2. reflexivity.
Qed.
