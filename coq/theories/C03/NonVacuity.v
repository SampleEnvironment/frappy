(* C03 - vacuity audit: every theorem of Properties.v applied at a concrete, non-trivial instance with all premises
   discharged (existing witnesses in Properties.v: C03_sample_rebuilds, C03_compat_sound_applies,
   C03_compat_complete_applies, C03_compat_sound_float_tolerance, C03_compat_enum_examples,
   C03_compat_int_into_float_example, C03_compat_into_scaled_example, C03_compat_from_scaled_example).
   C03 has no environment / oracle: the theorems quantify over described datatype trees and Python values only. *)
From Coq Require Import String Ascii.
From Coq Require Import ZArith NArith Bool List Reals Lia Lra.
Import ListNotations.
From Flocq Require Import IEEE754.BinarySingleNaN.
Require Import FV.Base.Util FV.Base.F64 FV.Base.PyVal FV.C01.Model FV.C01.Lemmas FV.Gen.C03 FV.C03.Model FV.C03.Lemmas
  FV.C03.LemmasTree FV.Base.F64Facts FV.C03.F64Mono FV.C03.LemmasCompat FV.C03.LemmasNum FV.C03.LemmasScaledTarget
  FV.C03.LemmasCover FV.C03.Refuted FV.C03.Properties FV.C03.Run.

Lemma ok_ex {A} (r : res A) : (match r with Ok _ => true | Err _ => false end) = true -> exists x, r = Ok x.
Proof. destruct r; [eauto|discriminate]. Qed.

Lemma accepts_by_bool b v :
  (match dt_validate (erase b) v PNone with Ok _ => true | Err _ => false end) = true -> accepts b v.
Proof. intros H. exact (ok_ex _ H). Qed.

(* a tree with every kind
   struct (optional given in non-member order) of: ScaledInteger(0.5, 0, 5), FloatRange(-1.5, 10, unit, fmtstr),
   array of array of enum, tuple of IntRange / TextType / BlobType(1, 4) / BoolType / StringType(2, 8, isUTF8) *)
Definition sc : xt := XScaled (fmk 1 (-1)) fzero (fmk 5 0) (fmk 1 (-1)) rel0 [] fmt0.
Definition big : xt :=
  XStruct [($"s", sc);
           ($"f", XFloat (fmk (-3) (-1)) (fmk 10 0) (fmk 1 (-3)) rel0 $"K" $"%.3f");
           ($"arr", XArray (XArray (XEnum $"e" [($"off", 0%Z); ($"on", 1%Z); ($"auto", 5%Z)]) 0 3) 1 2);
           ($"t", XTuple [XInt (-7) 5; XString 0 UNL false true; XBlob 1 4; XBool; XString 2 8 true false])]
          [$"t"; $"s"] false.

Lemma wfx_sc : wfx sc. Proof. exact C03_scaled_wfx. Qed.

Lemma wfx_big : wfx big.
Proof. wfx_by_compute. Qed.

Lemma server_big : server_side big.
Proof. unfold big, sc. cbn [server_side snd]. repeat split. Qed.

Example C03_rebuild_applies :
  exists j, xt_export big = Ok j /\ get_dt 4 $"par" j = Ok (Some (norm $"par" big)).
Proof.
  destruct (ok_ex (xt_export big) ltac:(vm_compute; reflexivity)) as [j Hj].
  exists j. split; [exact Hj|].
  apply C03_rebuild; [exact wfx_big|exact Hj|apply Nat.leb_le; vm_compute; reflexivity].
Qed.

(* the rebuilt tree is really different from the original (enum renamed, TextType -> StringType, client flag):
   the statement is not an identity *)
Example C03_rebuild_changes_tree : xt_eqb (norm $"par" big) big = false.
Proof. vm_compute. reflexivity. Qed.

(* C03_same_datainfo_again / C03_rebuilt_validates_same carry no premise; both sides are Ok at the instance *)
Definition big_v : pyval :=
  PDict [($"f", PFloat (fmk 5 (-1)));
         ($"arr", PTuple [PTuple [PEnum $"on" 1; PEnum $"auto" 5]]);
         ($"s", PFloat (fmk 5 (-1)))].
Example C03_same_datainfo_again_applies :
  xt_export (norm $"par" big) = xt_export big /\ is_ok (xt_export big) = true.
Proof. split; [apply C03_same_datainfo_again|vm_compute; reflexivity]. Qed.
Example C03_rebuilt_validates_same_applies :
  dt_validate (erase (norm $"par" big)) big_v PNone = dt_validate (erase big) big_v PNone /\
  is_ok (dt_validate (erase big) big_v PNone) = true /\ in_setb (erase big) big_v = true.
Proof. split; [apply C03_rebuilt_validates_same|vm_compute; split; reflexivity]. Qed.

(* C03_copy_equiv, with the server_side premise of its second clause *)
Example C03_copy_equiv_applies :
  xt_copy big = Ok (unclient big) /\ unclient big = big /\ xt_export (unclient big) = xt_export big /\
  forall v prev, dt_validate (erase (unclient big)) v prev = dt_validate (erase big) v prev.
Proof.
  destruct (C03_copy_equiv big wfx_big) as (H1 & H2 & H3 & H4).
  split; [exact H1|]. split; [exact (H2 server_big)|]. split; [exact H3|exact H4].
Qed.
(* a client-side tree (as produced by get_datatype): copy() drops the flag, unclient is not the identity *)
Example C03_copy_equiv_applies_client :
  let x := norm $"par" big in
  xt_copy x = Ok (unclient x) /\ xt_eqb (unclient x) x = false.
Proof.
  cbv zeta. split; [|vm_compute; reflexivity].
  apply (C03_copy_equiv (norm $"par" big)). wfx_by_compute.
Qed.

(* compatible(): umbrella theorem at a pair that
   contains a ScaledInteger as first type (inside a struct, inside a tuple) *)
Definition cs_a : xt :=
  XStruct [($"s", sc); ($"t", XTuple [sc; XInt 0 5; XBool]);
           ($"arr", XArray (XEnum $"e" [($"off", 0%Z); ($"on", 1%Z)]) 0 3)] [$"arr"] false.
Definition cs_b : xt :=
  XStruct [($"s", XFloat fzero (fmk 10 0) fzero rel0 [] fmt0);
           ($"t", XTuple [XScaled (fmk 1 (-2)) fzero (fmk 5 0) (fmk 1 (-2)) rel0 [] fmt0; sc; XInt 0 1]);
           ($"arr", XArray XBool 0 4); ($"x", XBlob 0 3)] [$"arr"; $"x"] false.
Definition cs_v : pyval :=
  PDict [($"t", PTuple [PFloat (fmk 3 (-1)); PInt 4; PBool true]); ($"s", PFloat (fmk 5 0));
         ($"arr", PTuple [PEnum $"on" 1; PEnum $"off" 0])].
Lemma wfx_sc4 : wfx (XScaled (fmk 1 (-2)) fzero (fmk 5 0) (fmk 1 (-2)) rel0 [] fmt0).
Proof. wfx_by_compute. Qed.
Lemma wfx_cs_a : wfx cs_a.
Proof. wfx_by_compute. Qed.
Lemma wfx_cs_b : wfx cs_b.
Proof. wfx_by_compute. Qed.
Example C03_compat_sound_applies_scaled_inside :
  covered cs_a cs_b = true /\ finding_free cs_a cs_b = true /\ compat cs_a cs_b = Ok tt /\
  in_setb (erase cs_a) cs_v = true /\ accepts cs_b cs_v.
Proof.
  assert (C : covered cs_a cs_b = true) by (vm_compute; reflexivity).
  assert (G : finding_free cs_a cs_b = true) by (vm_compute; reflexivity).
  assert (HC : compat cs_a cs_b = Ok tt) by (vm_compute; reflexivity).
  assert (HV : in_setb (erase cs_a) cs_v = true) by (vm_compute; reflexivity).
  repeat (split; [assumption|]).
  exact (C03_compat_sound cs_a cs_b wfx_cs_a wfx_cs_b C G HC cs_v HV).
Qed.

Definition e12 : xt := XEnum $"e" [($"a", 1%Z); ($"b", 2%Z)].
Definition e123 : xt := XEnum $"f" [($"x", 1%Z); ($"y", 2%Z); ($"z", 3%Z)].

(* C03_compat_sound_enum into a non-enum type as well (enum into bool) *)
Example C03_compat_sound_enum_applies :
  accepts e123 (PEnum $"b" 2) /\ accepts XBool (PEnum $"on" 1).
Proof.
  split.
  - apply (C03_compat_sound_enum $"e" [($"a", 1%Z); ($"b", 2%Z)] e123); vm_compute; reflexivity.
  - apply (C03_compat_sound_enum $"sw" [($"off", 0%Z); ($"on", 1%Z)] XBool); vm_compute; reflexivity.
Qed.

(* C03_compat_enum_into_enum: both directions used, and the right hand side fails for the reversed pair *)
Example C03_compat_enum_into_enum_applies :
  (forall k z, In (k, z) [($"a", 1%Z); ($"b", 2%Z)] -> enum_by_value z [($"x", 1%Z); ($"y", 2%Z); ($"z", 3%Z)] <> None) /\
  compat e12 e123 = Ok tt /\
  ~ (forall k z, In (k, z) [($"x", 1%Z); ($"y", 2%Z); ($"z", 3%Z)] -> enum_by_value z [($"a", 1%Z); ($"b", 2%Z)] <> None).
Proof.
  match goal with |- ?A /\ _ => assert (R : A) end.
  { intros k z [E|[E|[]]]; injection E as <- <-; vm_compute; discriminate. }
  split; [exact R|]. split.
  - apply (proj2 (C03_compat_enum_into_enum $"e" _ $"f" _)). exact R.
  - intros H. apply (proj2 (C03_compat_enum_into_enum $"f" _ $"e" _)) in H. vm_compute in H. discriminate.
Qed.

(* C03_compat_enum_into_number_never_passes: the three number kinds *)
Example C03_compat_enum_into_number_applies :
  compat e12 (XInt 0 10) = Err EWrongType /\ compat e12 (XFloat fzero (fmk 10 0) fzero rel0 [] fmt0) = Err EWrongType /\
  compat e12 sc = Err EWrongType.
Proof.
  repeat apply conj; apply C03_compat_enum_into_number_never_passes; try discriminate; reflexivity.
Qed.

(* C03_compat_int_into_enum: both clauses *)
Example C03_compat_int_into_enum_applies :
  compat (XInt 1 3) e123 = Ok tt /\ in_setb (erase (XInt 1 3)) (PInt 2) = true /\ accepts e123 (PInt 2) /\
  ~ (forall z, (0 <= z <= 3)%Z -> enum_by_value z [($"x", 1%Z); ($"y", 2%Z); ($"z", 3%Z)] <> None).
Proof.
  destruct (C03_compat_int_into_enum 1 3 $"f" [($"x", 1%Z); ($"y", 2%Z); ($"z", 3%Z)]) as [I S].
  assert (HC : compat (XInt 1 3) e123 = Ok tt).
  { apply (proj2 I). intros z Hz. assert (z = 1 \/ z = 2 \/ z = 3)%Z as [->|[->| ->]] by lia; vm_compute; discriminate. }
  split; [exact HC|]. split; [vm_compute; reflexivity|]. split; [apply (S HC); vm_compute; reflexivity|].
  intros H. apply (proj2 (proj1 (C03_compat_int_into_enum 0 3 $"f" _))) in H. vm_compute in H. discriminate.
Qed.

(* number pairs, each clause applied directly *)
Definition fa : xt := XFloat (fmk 5 0) (fmk 20 0) fzero rel0 [] fmt0.
Definition fb : xt := XFloat (fmk 5368709121 (-30)) (fmk 20 0) fzero rel0 [] fmt0.   (* 5 + 2^-30 .. 20: not nested *)
Definition fi : xt := XFloat (fmk (-11) (-1)) (fmk 11 (-1)) (fmk 1 (-4)) rel0 $"V" $"%.2f".

Example C03_compat_sound_into_float_partial_applies :
  (in_setb (erase fa) (PFloat (fmk 5 0)) = true /\ accepts fb (PFloat (fmk 5 0))) /\
  (in_setb (erase (XInt (-5) 5)) (PInt (-5)) = true /\ accepts fi (PInt (-5))).
Proof.
  split; (split; [vm_compute; reflexivity|]).
  - eapply (proj1 C03_compat_sound_into_float_partial); [apply (wfxb_wfx fa); vm_compute; reflexivity|wfx_by_compute|vm_compute; reflexivity..].
  - eapply (proj2 C03_compat_sound_into_float_partial); [apply (wfxb_wfx (XInt (-5) 5)); vm_compute; reflexivity|wfx_by_compute|vm_compute; reflexivity..].
Qed.
(* the guards are not implied by the other premises: pair of the finding passes compat, guard false *)
Example C03_into_float_guard_is_a_real_restriction :
  let f0 := XFloat (fmk (-10) 0) (fmk 20 0) fzero rel0 [] fmt0 in
  let f2 := XFloat (fmk 5 0) (fmk 20 0) fzero (fmk 2 0) [] fmt0 in
  compat f0 f2 = Ok tt /\ lo_guard (fmk 5 0) (fmk 2 0) (fmk (-10) 0) = false.
Proof. vm_compute. split; reflexivity. Qed.

Example C03_compat_sound_into_scaled_applies :
  (in_setb (erase (XFloat fzero (fmk 5 (-1)) fzero rel0 [] fmt0)) (PFloat (fmk 3 (-1))) = true /\
   accepts sc (PFloat (fmk 3 (-1)))) /\
  (in_setb (erase (XInt 0 5)) (PInt 4) = true /\ accepts sc (PInt 4)).
Proof.
  split; (split; [vm_compute; reflexivity|]).
  - eapply (proj1 C03_compat_sound_into_scaled);
      [apply (wfxb_wfx (XFloat fzero (fmk 5 (-1)) fzero rel0 [] fmt0)); vm_compute; reflexivity|exact wfx_sc|vm_compute; reflexivity..].
  - eapply (proj2 C03_compat_sound_into_scaled); [apply (wfxb_wfx (XInt 0 5)); vm_compute; reflexivity|exact wfx_sc|vm_compute; reflexivity..].
Qed.

Example C03_compat_sound_from_scaled_applies :
  in_setb (erase sc) (PFloat (fmk 9 (-1))) = true /\
  accepts (XFloat fzero (fmk 10 0) fzero rel0 [] fmt0) (PFloat (fmk 9 (-1))) /\
  accepts (XScaled (fmk 1 (-2)) fzero (fmk 5 0) (fmk 1 (-2)) rel0 [] fmt0) (PFloat (fmk 9 (-1))).
Proof.
  split; [vm_compute; reflexivity|]. split.
  - eapply (proj1 C03_compat_sound_from_scaled); [exact wfx_sc|wfx_by_compute|vm_compute; reflexivity..].
  - eapply (proj2 C03_compat_sound_from_scaled); [exact wfx_sc|exact wfx_sc4|vm_compute; reflexivity..].
Qed.

(* same kind, bool, int into bool *)
Definition ka : xt := XArray (XArray (XString 2 8 true false) 0 3) 1 2.
Definition kb : xt := XArray (XArray (XString 0 20 true false) 0 5) 0 2.
Example C03_compat_same_kind_exact_applies :
  same_kind ka kb /\ widens ka kb /\ compat ka kb = Ok tt /\
  in_setb (erase ka) (PTuple [PTuple [PStr $"abc"; PStr $"de"]]) = true /\
  in_setb (erase kb) (PTuple [PTuple [PStr $"abc"; PStr $"de"]]) = true /\
  ~ widens kb ka /\ compat kb ka <> Ok tt.
Proof.
  destruct (C03_compat_same_kind_exact ka kb I) as [E S]. destruct (C03_compat_same_kind_exact kb ka I) as [E' _].
  assert (N : widens ka kb) by (cbn; repeat split; try lia; auto).
  assert (HC : compat ka kb = Ok tt) by (apply E; [wfx_by_compute|exact N]).
  assert (N' : ~ widens kb ka) by (cbn; lia).
  split; [exact I|]. split; [exact N|]. split; [exact HC|]. split; [vm_compute; reflexivity|].
  split; [apply (S HC); vm_compute; reflexivity|].
  split; [exact N'|]. intros H. apply N', E'; [wfx_by_compute|exact H].
Qed.

Example C03_compat_bool_applies :
  (* second clause, then first clause from its result *)
  compat XBool (XInt 0 1) = Ok tt /\ accepts (XInt 0 1) (PBool true) /\
  compat XBool (XEnum $"sw" [($"off", 0%Z); ($"on", 1%Z)]) = Ok tt /\
  compat XBool (XFloat (fmk (-1) 0) (fmk 5 0) fzero rel0 [] fmt0) = Ok tt.
Proof.
  assert (HC : compat XBool (XInt 0 1) = Ok tt).
  { apply (proj2 (C03_compat_bool (XInt 0 1))); apply accepts_by_bool; vm_compute; reflexivity. }
  split; [exact HC|]. split; [apply (proj1 (C03_compat_bool (XInt 0 1)) HC); vm_compute; reflexivity|].
  split; apply (proj2 (C03_compat_bool _)); apply accepts_by_bool; vm_compute; reflexivity.
Qed.

Example C03_compat_int_into_bool_applies :
  compat (XInt 0 1) XBool = Ok tt /\ accepts XBool (PInt 1) /\ compat (XInt 0 2) XBool <> Ok tt.
Proof.
  destruct (C03_compat_int_into_bool 0 1 ltac:(lia)) as [I S].
  assert (HC : compat (XInt 0 1) XBool = Ok tt) by (apply (proj2 I); lia).
  split; [exact HC|]. split; [apply (S HC); vm_compute; reflexivity|].
  intros H. apply (proj1 (proj1 (C03_compat_int_into_bool 0 2 ltac:(lia)))) in H. lia.
Qed.

(* C03_compat_complete is applied in Properties.C03_compat_complete_applies; here the int-into-float theorem with a
   non-default target *)
Example C03_compat_complete_int_into_float_exact_applies : compat (XInt (-5) 5) fi = Ok tt.
Proof.
  apply C03_compat_complete_int_into_float_exact; [wfx_by_compute|wfx_by_compute| |].
  - rewrite B2R_fmk_exact by (cbv; intuition discriminate). unfold Defs.F2R. cbn. lra.
  - rewrite B2R_fmk_exact by (cbv; intuition discriminate). unfold Defs.F2R. cbn. lra.
Qed.

(* wfx is not restricted to dyadic scales:
   ScaledInteger(0.1, 0, 0.3) as frappy stores it (max = 3 * 0.1 = 0.30000000000000004), rebuilt and copied *)
Definition s01 : f64 := fmk 3602879701896397 (-55).
Definition sc01 : xt := XScaled s01 fzero (fmk 1351079888211149 (-52)) s01 rel0 $"mm" $"%.1f".
Lemma wfx_sc01 : wfx sc01.
Proof. wfx_by_compute. Qed.
Example C03_rebuild_applies_scaled_decimal :
  exists j, xt_export (XArray sc01 0 4) = Ok j /\
            get_dt 2 $"par" j = Ok (Some (norm $"par" (XArray sc01 0 4))) /\
            xt_copy (XArray sc01 0 4) = Ok (XArray sc01 0 4).
Proof.
  assert (W : wfx (XArray sc01 0 4)) by wfx_by_compute.
  destruct (ok_ex (xt_export (XArray sc01 0 4)) ltac:(vm_compute; reflexivity)) as [j Hj].
  exists j. split; [exact Hj|]. split.
  - apply C03_rebuild; [exact W|exact Hj|apply Nat.leb_le; vm_compute; reflexivity].
  - exact (proj1 (C03_copy_equiv _ W)).
Qed.
(* ... and as first type of compatible(): grid_inside holds for it, into FloatRange(0, 1) *)
Example C03_compat_sound_from_scaled_decimal :
  grid_inside s01 fzero (fmk 1351079888211149 (-52)) = true /\
  in_setb (erase sc01) (PFloat (fmk 1 (-2))) = true /\
  accepts (XFloat fzero (fmk 1 0) fzero rel0 [] fmt0) (PFloat (fmk 1 (-2))).
Proof.
  split; [vm_compute; reflexivity|]. split; [vm_compute; reflexivity|].
  eapply (proj1 C03_compat_sound_from_scaled); [exact wfx_sc01|wfx_by_compute|vm_compute; reflexivity..].
Qed.

