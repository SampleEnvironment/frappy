(* C03 - compatible() with a ScaledInteger as second type and a number type as first: the two end points
   are validated; ScaledInteger.validate compares the offered number with min - scale and max + scale (a constant
   tolerance) and the rounding to the grid succeeds for every finite quotient, so every value in between is accepted
   too.  No side condition beyond constructibility. *)
From Coq Require Import String Ascii.
From Coq Require Import ZArith NArith Bool List Lia Reals Lra.
Import ListNotations.
From Flocq Require Import Core.Zaux Core.Raux Core.Defs Core.Generic_fmt Core.FLT IEEE754.BinarySingleNaN.
Require Import FV.Base.Util FV.Base.F64 FV.Base.F64Lemmas FV.Base.F64Repr FV.Base.PyVal FV.C01.Model FV.C01.Lemmas FV.Gen.C03
  FV.C03.Model FV.C03.Lemmas FV.Base.F64Facts FV.C03.F64Mono FV.C03.LemmasCompat FV.C03.LemmasNum.

(* the quotient x / scale *)
Lemma fdiv_finite_iff (f s : f64) : is_finite f = true -> (B2R s <> 0)%R ->
  (is_finite (fdiv f s) = true <-> (Rabs (rnd (B2R f / B2R s)) < BIG)%R).
Proof.
  intros Ff Hs. pose proof (Bdiv_correct prec emax _ _ mode_NE f s Hs) as H.
  change (round radix2 (SpecFloat.fexp prec emax) (round_mode mode_NE) (B2R f / B2R s)) with (rnd (B2R f / B2R s)) in H.
  change (bpow radix2 emax) with BIG in H. unfold fdiv.
  destruct (Rlt_bool_spec (Rabs (rnd (B2R f / B2R s))) BIG) as [Hlt|Hge].
  - destruct H as (_ & HF & _). rewrite HF, Ff. split; auto.
  - unfold binary_overflow, overflow_to_inf in H. apply inf_of_SF in H. rewrite H. cbn [is_finite]. split; [discriminate|intros X; lra].
Qed.

Lemma fdiv_finite_between (lo x hi s : f64) : is_finite lo = true -> is_finite x = true -> is_finite hi = true ->
  (0 < B2R s)%R -> (B2R lo <= B2R x <= B2R hi)%R ->
  is_finite (fdiv lo s) = true -> is_finite (fdiv hi s) = true -> is_finite (fdiv x s) = true.
Proof.
  intros Fl Fx Fh Hs [H1 H2] Ql Qh. assert (Hs' : (B2R s <> 0)%R) by lra.
  apply (fdiv_finite_iff _ _ Fl Hs') in Ql. apply (fdiv_finite_iff _ _ Fh Hs') in Qh. apply (fdiv_finite_iff _ _ Fx Hs').
  assert (M1 : (rnd (B2R lo / B2R s) <= rnd (B2R x / B2R s))%R).
  { apply rnd_le. unfold Rdiv. apply Rmult_le_compat_r; [left; apply Rinv_0_lt_compat; exact Hs|exact H1]. }
  assert (M2 : (rnd (B2R x / B2R s) <= rnd (B2R hi / B2R s))%R).
  { apply rnd_le. unfold Rdiv. apply Rmult_le_compat_r; [left; apply Rinv_0_lt_compat; exact Hs|exact H2]. }
  apply Rabs_def2 in Ql. apply Rabs_def2 in Qh. apply Rabs_def1; lra.
Qed.

(* ScaledInteger.__call__ succeeds exactly when the
   number converts to float and the quotient is finite *)
Lemma scaled_call_ok_iff s v : (exists r, scaled_call s v = Ok r) <-> (exists f, py_add0 v = Ok f /\ fis_finite (fdiv f s) = true).
Proof.
  unfold scaled_call. destruct (py_add0 v) as [f|e]; cbn [wrap_wrong].
  - unfold py_round. split.
    + intros [r H]. exists f. split; [reflexivity|].
      destruct (fis_nan (fdiv f s)) eqn:En; [discriminate|]. destruct (fis_inf (fdiv f s)) eqn:Ei; [discriminate|].
      destruct (fdiv f s); cbn in *; congruence.
    + intros (f' & E & Fq). injection E as <-.
      assert (En : fis_nan (fdiv f s) = false) by (destruct (fdiv f s); cbn in *; congruence).
      assert (Ei : fis_inf (fdiv f s) = false) by (destruct (fdiv f s); cbn in *; congruence).
      rewrite En, Ei. destruct (fround_representable _ Fq) as [zf Hz]. unfold py_int_mul_float. rewrite Hz.
      eexists. reflexivity.
  - split; [intros [r H]; discriminate|intros (f & H & _); discriminate].
Qed.

(* the parts of ScaledInteger.validate *)
Lemma scaled_validate_ok_iff s mn mx v :
  (exists r, scaled_validate s mn mx v = Ok r) <->
  ((exists q, scaled_call s v = Ok q) /\ f_lt_num (fsub mn s) v = true /\ num_lt_f v (fadd mx s) = true /\
   (exists l, scaled_call s (PFloat mn) = Ok l) /\ (exists h, scaled_call s (PFloat mx) = Ok h)).
Proof.
  unfold scaled_validate. pose proof (scaled_call_float s v) as F1.
  pose proof (scaled_call_float s (PFloat mn)) as F2. pose proof (scaled_call_float s (PFloat mx)) as F3.
  destruct (scaled_call s v) as [q|e].
  - destruct (F1 q eq_refl) as [r ->].
    destruct (f_lt_num (fsub mn s) v); [|split; [intros [x H]; discriminate|intros (_ & H & _); discriminate]].
    destruct (num_lt_f v (fadd mx s)); [|split; [intros [x H]; discriminate|intros (_ & _ & H & _); discriminate]].
    cbn [andb].
    destruct (scaled_call s (PFloat mn)) as [l|e1].
    + destruct (F2 l eq_refl) as [lo ->]. destruct (scaled_call s (PFloat mx)) as [h|e2].
      * destruct (F3 h eq_refl) as [hi ->]. split; [intros _; repeat split; eauto|intros _; eauto].
      * split; [intros [x H]; discriminate|intros (_ & _ & _ & _ & [h H]); discriminate].
    + split; [intros [x H]; discriminate|intros (_ & _ & _ & [l H] & _); discriminate].
  - split; [intros [x H]; discriminate|intros ([q H] & _); discriminate].
Qed.

(* exact int/float comparison is monotone *)
Lemma cmp_Z_f_gt_mono (a : f64) z z' : cmp_Z_f z a = Some Gt -> (z <= z')%Z -> cmp_Z_f z' a = Some Gt.
Proof.
  destruct a as [s|s| |s m e B]; cbn [cmp_Z_f]; intros H L; try discriminate.
  - injection H as H. f_equal. apply Z.compare_gt_iff in H. apply Z.compare_gt_iff. lia.
  - exact H.
  - injection H as H. f_equal. destruct (0 <=? e)%Z eqn:He.
    + apply Z.compare_gt_iff in H. apply Z.compare_gt_iff. lia.
    + apply Z.leb_gt in He. apply Z.compare_gt_iff in H. apply Z.compare_gt_iff.
      assert (P : (0 < 2 ^ (- e))%Z) by (apply Z.pow_pos_nonneg; lia). revert H P. generalize (2 ^ (- e))%Z. intros p H P. nia.
Qed.
Lemma cmp_Z_f_lt_mono (a : f64) z z' : cmp_Z_f z a = Some Lt -> (z' <= z)%Z -> cmp_Z_f z' a = Some Lt.
Proof.
  destruct a as [s|s| |s m e B]; cbn [cmp_Z_f]; intros H L; try discriminate.
  - injection H as H. f_equal. change (z < 0)%Z in H. change (z' < 0)%Z. lia.
  - exact H.
  - injection H as H. f_equal. destruct (0 <=? e)%Z eqn:He.
    + change (z < SpecFloat.cond_Zopp s (Z.pos m) * 2 ^ e)%Z in H. change (z' < SpecFloat.cond_Zopp s (Z.pos m) * 2 ^ e)%Z. lia.
    + apply Z.leb_gt in He. change (z * 2 ^ (- e) < SpecFloat.cond_Zopp s (Z.pos m))%Z in H.
      change (z' * 2 ^ (- e) < SpecFloat.cond_Zopp s (Z.pos m))%Z.
      assert (P : (0 < 2 ^ (- e))%Z) by (apply Z.pow_pos_nonneg; lia). revert H P. generalize (2 ^ (- e))%Z. intros p H P. nia.
Qed.

Lemma f_lt_int_mono a z z' : f_lt_num a (PInt z) = true -> (z <= z')%Z -> f_lt_num a (PInt z') = true.
Proof.
  cbn [f_lt_num]. intros H L. destruct (cmp_Z_f z a) as [[]|] eqn:E; try discriminate.
  rewrite (cmp_Z_f_gt_mono _ _ _ E L). reflexivity.
Qed.
Lemma int_lt_f_mono a z z' : num_lt_f (PInt z) a = true -> (z' <= z)%Z -> num_lt_f (PInt z') a = true.
Proof.
  cbn [num_lt_f]. intros H L. destruct (cmp_Z_f z a) as [[]|] eqn:E; try discriminate.
  rewrite (cmp_Z_f_lt_mono _ _ _ E L). reflexivity.
Qed.
Lemma f_lt_float_mono a x x' : flt a x = true -> fle x x' = true -> flt a x' = true.
Proof.
  intros H L. destruct (flt_true_notnan _ _ H) as [Na Nx]. apply keys_of_fle in L as (_ & Nx' & L).
  apply flt_true in H; try assumption. apply flt_true; try assumption. lra.
Qed.
Lemma float_lt_f_mono a x x' : flt x a = true -> fle x' x = true -> flt x' a = true.
Proof.
  intros H L. destruct (flt_true_notnan _ _ H) as [Nx Na]. apply keys_of_fle in L as (Nx' & _ & L).
  apply flt_true in H; try assumption. apply flt_true; try assumption. lra.
Qed.

(* what wfx says about the scale *)
Lemma dblmin_facts : fle dblmin fmaxval = true /\ is_finite dblmin = true /\ flt fzero dblmin = true.
Proof. vm_compute. repeat apply conj; reflexivity. Qed.

Lemma wfx_scale_pos s mn mx a r u f : wfx (XScaled s mn mx a r u f) -> is_finite s = true /\ (0 < B2R s)%R.
Proof.
  intros (Hs & _). destruct dblmin_facts as (A & B & C). destruct fmax_facts as (_ & _ & Fh & _).
  unfold fixf, pv_scale in Hs. destruct (float_validate_out_range dblmin fmaxval _ _ s s A B Fh Hs) as (L & _ & Fs).
  split; [exact Fs|]. apply (fle_R _ _ B Fs) in L. apply flt_true in C; [|reflexivity|apply finite_notnan, B].
  rewrite (key_finite _ B) in C. change (key fzero) with 0%R in C. lra.
Qed.

(* a number whose conversion lies between those of
   two accepted numbers, and which compares like them with the outer limits, is accepted *)
Lemma scaled_between s bmn bmx vlo v vhi flo f fhi :
  (0 < B2R s)%R -> py_add0 vlo = Ok flo -> py_add0 v = Ok f -> py_add0 vhi = Ok fhi ->
  is_finite flo = true -> is_finite f = true -> is_finite fhi = true -> (B2R flo <= B2R f <= B2R fhi)%R ->
  (forall a, f_lt_num a vlo = true -> f_lt_num a v = true) -> (forall a, num_lt_f vhi a = true -> num_lt_f v a = true) ->
  (exists r, scaled_validate s bmn bmx vlo = Ok r) -> (exists r, scaled_validate s bmn bmx vhi = Ok r) ->
  exists r, scaled_validate s bmn bmx v = Ok r.
Proof.
  intros Ps El E Eh Fl Ff Fh B ML MH A1 A2.
  apply scaled_validate_ok_iff in A1 as (Q1 & L1 & _ & L & H). apply scaled_validate_ok_iff in A2 as (Q2 & _ & U2 & _ & _).
  apply scaled_validate_ok_iff. split; [|split; [apply ML, L1|split; [apply MH, U2|split; assumption]]].
  apply scaled_call_ok_iff in Q1 as (f1 & E1 & Q1). apply scaled_call_ok_iff in Q2 as (f2 & E2 & Q2).
  rewrite El in E1. rewrite Eh in E2. injection E1 as <-. injection E2 as <-.
  apply scaled_call_ok_iff. exists f. split; [exact E|]. rewrite fis_finite_is_finite in *.
  apply (fdiv_finite_between flo f fhi s); assumption.
Qed.

Lemma float_src_into_scaled amn amx s bmn bmx : is_finite amn = true -> is_finite amx = true -> (0 < B2R s)%R ->
  (exists r, scaled_validate s bmn bmx (PFloat amn) = Ok r) -> (exists r, scaled_validate s bmn bmx (PFloat amx) = Ok r) ->
  forall x, fle amn x = true -> fle x amx = true -> exists r, scaled_validate s bmn bmx (PFloat x) = Ok r.
Proof.
  intros F1 F2 Ps A1 A2 x V1 V2. pose proof (finite_between _ _ _ F1 F2 V1 V2) as Fx.
  destruct (fadd_zero _ F1) as [G1 B1]. destruct (fadd_zero _ Fx) as [Gx Bx]. destruct (fadd_zero _ F2) as [G2 B2].
  apply (scaled_between s bmn bmx (PFloat amn) (PFloat x) (PFloat amx) _ _ _ Ps eq_refl eq_refl eq_refl G1 Gx G2);
    try assumption.
  - rewrite B1, Bx, B2. split; apply fle_R; assumption.
  - intros a H. eapply f_lt_float_mono; eassumption.
  - intros a H. eapply float_lt_f_mono; eassumption.
Qed.

Lemma int_src_into_scaled amn amx s bmn bmx : (- UNL <= amn <= UNL)%Z -> (- UNL <= amx <= UNL)%Z -> (0 < B2R s)%R ->
  (exists r, scaled_validate s bmn bmx (PInt amn) = Ok r) -> (exists r, scaled_validate s bmn bmx (PInt amx) = Ok r) ->
  forall z, (amn <= z <= amx)%Z -> exists r, scaled_validate s bmn bmx (PInt z) = Ok r.
Proof.
  intros R1 R2 Ps A1 A2 z [V1 V2].
  destruct (float_call_int amn R1) as [_ F1]. destruct (float_call_int amx R2) as [_ F2].
  destruct (float_call_int z ltac:(lia)) as [_ Fz].
  assert (PA : forall k, is_finite (of_Z k) = true -> py_add0 (PInt k) = Ok (of_Z k)).
  { intros k Fk. cbn [py_add0]. unfold float_of_Z. rewrite fis_finite_is_finite, Fk. reflexivity. }
  pose proof (of_Z_mono _ _ V1) as M1. pose proof (of_Z_mono _ _ V2) as M2.
  rewrite (key_finite _ F1), (key_finite _ Fz) in M1. rewrite (key_finite _ F2), (key_finite _ Fz) in M2.
  apply (scaled_between s bmn bmx (PInt amn) (PInt z) (PInt amx) _ _ _ Ps (PA _ F1) (PA _ Fz) (PA _ F2) F1 Fz F2);
    try assumption.
  - lra.
  - intros a H. eapply f_lt_int_mono; eassumption.
  - intros a H. eapply int_lt_f_mono; eassumption.
Qed.
