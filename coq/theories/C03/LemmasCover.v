(* C03 - soundness of the compatibility verdict for all pairings (a ScaledInteger as first type against a FloatRange or
   ScaledInteger needs its grid-rounded limits within its declared limits):
     compat a b = Ok tt -> every value of a's value set (C01's in_setb) is accepted by b.validate
   by structural induction over nested types.  Two guards exclude exactly the pairs of the two open findings
   (struct member optional in the first and mandatory in the second; float target whose tolerance the verdict relies
   on towards the zero side of an end point).  Also: the verdicts that are exact (enum into enum, int range into enum),
   number types against number types (number_pair_sound), completeness (nested limits pass). *)
From Coq Require Import String Ascii.
From Coq Require Import ZArith NArith Bool List Lia FinFun.
Import ListNotations.
From Flocq Require Import IEEE754.BinarySingleNaN.
Require Import FV.Base.Util FV.Base.F64 FV.Base.F64Lemmas FV.Base.PyVal FV.C01.Model FV.C01.Lemmas FV.Gen.C03 FV.C03.Model
  FV.C03.Lemmas FV.C03.F64Mono FV.C03.LemmasCompat FV.C03.LemmasNum FV.C03.LemmasScaledTarget.

Lemma in_setb_none d : in_setb d PNone = false.
Proof. destruct d; reflexivity. Qed.

Lemma assoc_xt_In k l m : assoc_xt k l = Some m -> In (k, m) l.
Proof.
  induction l as [|[k' v] l IH]; cbn; [discriminate|]. destruct (str_eqb k k') eqn:E.
  - intros H. injection H as ->. apply str_eqb_eq in E. subst. left. reflexivity.
  - intros H. right. apply IH, H.
Qed.
Lemma assoc_xt_mem k l m : assoc_xt k l = Some m -> mem_str k (map fst l) = true.
Proof. intros H. apply mem_str_In. apply assoc_xt_In in H. apply (in_map fst) in H. exact H. Qed.
Lemma assoc_xt_of_mem k l : mem_str k (map fst l) = true -> exists m, assoc_xt k l = Some m.
Proof.
  induction l as [|[k' v] l IH]; cbn; [discriminate|]. destruct (str_eqb k k'); [eauto|]. cbn. exact IH.
Qed.

Lemma atk_wrong_ok (r : res unit) : atk_wrong r = Ok tt <-> r = Ok tt.
Proof. destruct r as [[]|[]]; cbn; split; intros H; try discriminate; reflexivity. Qed.

Definition emap (ms : list (str * xt)) : list (str * dtype) := map (fun p => (fst p, erase (snd p))) ms.
Lemma emap_names ms : map fst (emap ms) = map fst ms.
Proof. unfold emap. rewrite map_map. reflexivity. Qed.

Definition enum_loop (d : dtype) : list (str * Z) -> res unit :=
  fix go (l : list (str * Z)) : res unit :=
    match l with [] => Ok tt | (n, z) :: r => dt_call d (PEnum n z) >>= fun _ => go r end.

Lemma compat_enum n ms b : compat (XEnum n ms) b = enum_loop (erase b) ms.
Proof. reflexivity. Qed.

Lemma enum_loop_ok d ms : enum_loop d ms = Ok tt <-> (forall n z, In (n, z) ms -> exists r, dt_call d (PEnum n z) = Ok r).
Proof.
  induction ms as [|[n z] ms IH]; cbn [enum_loop].
  - split; [intros _ n z []|reflexivity].
  - split.
    + intros H. apply bind_ok in H as (r & Hr & H). intros n' z' [E|Hin]; [injection E as <- <-; eauto|].
      apply (proj1 IH H), Hin.
    + intros H. destruct (H n z (or_introl eq_refl)) as [r Hr]. rewrite Hr. cbn [bind].
      apply IH. intros n' z' Hin. apply H. right. exact Hin.
Qed.

(* an EnumMember is accepted by __call__ only of an enum or a bool, and there validate is __call__ *)
Lemma call_enum_validate d n z r : dt_call d (PEnum n z) = Ok r -> dt_validate d (PEnum n z) PNone = Ok r.
Proof. destruct d; cbn; try discriminate; auto. Qed.

Lemma in_set_enum ms v : in_setb (TEnum ms) v = true -> exists n z, v = PEnum n z /\ In (n, z) ms.
Proof.
  destruct v; cbn; try discriminate. intros H. apply existsb_exists in H as ([n z] & Hin & H).
  apply andb_prop in H as [H1 H2]. cbn in H1, H2. apply str_eqb_eq in H1. apply Z.eqb_eq in H2. subst. eauto.
Qed.

(* EnumType against ANY type *)
Theorem compat_enum_sound n ms b : compat (XEnum n ms) b = Ok tt ->
  forall v, in_setb (erase (XEnum n ms)) v = true -> accepts b v.
Proof.
  rewrite compat_enum. intros HC v HV. cbn [erase] in HV. apply in_set_enum in HV as (n' & z & -> & Hin).
  destruct (proj1 (enum_loop_ok _ _) HC n' z Hin) as [r Hr]. exists r. apply call_enum_validate, Hr.
Qed.

(* exact: enum into enum passes iff every code of the first is a code of the second *)
Theorem compat_enum_enum_iff n ms n' ms' :
  compat (XEnum n ms) (XEnum n' ms') = Ok tt <-> (forall k z, In (k, z) ms -> enum_by_value z ms' <> None).
Proof.
  rewrite compat_enum, enum_loop_ok. cbn [erase dt_call]. split; intros H k z Hin.
  - destruct (H k z Hin) as [r Hr]. cbn in Hr. destruct (enum_by_value z ms'); [discriminate|discriminate Hr].
  - specialize (H k z Hin). cbn. destruct (enum_by_value z ms') as [[a c]|]; [eauto|contradiction].
Qed.

Theorem compat_int_enum_sound mn mx n ms : compat (XInt mn mx) (XEnum n ms) = Ok tt ->
  forall v, in_setb (erase (XInt mn mx)) v = true -> accepts (XEnum n ms) v.
Proof.
  cbn [compat erase]. intros HC v HV. destruct v; try discriminate. cbn [in_setb] in HV.
  apply andb_prop in HV as [H1 H2]. apply Z.leb_le in H1, H2.
  destruct (int_loop_sound _ _ _ _ HC z ltac:(lia)) as [r Hr]. exists r. exact Hr.
Qed.

Lemma enum_by_value_In z ms p : enum_by_value z ms = Some p -> In z (map snd ms).
Proof.
  induction ms as [|[n v] ms IH]; cbn; [discriminate|]. destruct (Z.eqb z v) eqn:E.
  - apply Z.eqb_eq in E. subst. intros _. left. reflexivity.
  - intros H. right. apply IH, H.
Qed.

Definition zrange (mn : Z) (n : nat) : list Z := map (fun k => (mn + Z.of_nat k)%Z) (seq 0 n).
Lemma zrange_nodup mn n : NoDup (zrange mn n).
Proof.
  unfold zrange. apply FinFun.Injective_map_NoDup; [|apply seq_NoDup]. intros a b H. lia.
Qed.
Lemma zrange_in mn n z : In z (zrange mn n) <-> (mn <= z < mn + Z.of_nat n)%Z.
Proof.
  unfold zrange. rewrite in_map_iff. split.
  - intros (k & <- & Hk). apply in_seq in Hk. lia.
  - intros H. exists (Z.to_nat (z - mn)). split; [lia|]. apply in_seq. lia.
Qed.

(* a range all of whose values are codes of the enum has at most as many values as the enum has members *)
Lemma range_fits_enum mn mx ms : (forall z, (mn <= z <= mx)%Z -> enum_by_value z ms <> None) ->
  (mx - mn + 1 <= Z.of_nat (length ms))%Z.
Proof.
  intros H. destruct (Z_lt_le_dec mx mn) as [Hlt|Hle]; [lia|].
  pose (n := Z.to_nat (mx - mn + 1)).
  assert (L : length (zrange mn n) <= length (map snd ms)).
  { apply NoDup_incl_length; [apply zrange_nodup|]. intros z Hz. apply zrange_in in Hz.
    specialize (H z ltac:(lia)). destruct (enum_by_value z ms) as [p|] eqn:E; [|contradiction].
    eapply enum_by_value_In; eauto. }
  unfold zrange in L. rewrite !map_length, seq_length in L. lia.
Qed.

(* exact: an int range into an enum passes iff every value of the range is a code of the enum *)
Theorem compat_int_enum_iff mn mx n ms :
  compat (XInt mn mx) (XEnum n ms) = Ok tt <-> (forall z, (mn <= z <= mx)%Z -> enum_by_value z ms <> None).
Proof.
  cbn [compat erase]. split.
  - intros HC z Hz. destruct (int_loop_sound _ _ _ _ HC z Hz) as [r Hr]. cbn in Hr.
    destruct (enum_by_value z ms); [discriminate|discriminate Hr].
  - intros H. apply int_loop_complete.
    + intros z Hz. specialize (H z Hz). cbn. destruct (enum_by_value z ms) as [[a c]|]; [eauto|contradiction].
    + pose proof (range_fits_enum _ _ _ H). lia.
Qed.

(* leaves of the same kind: a value of b's value
   set is accepted by b.validate *)
Lemma string_accepts a b u s : str_ok a b u s = true -> string_call a b u (PStr s) = Ok (PStr s).
Proof.
  unfold str_ok. intros H. apply andb_prop in H as [H H4]. apply andb_prop in H as [H H3]. apply andb_prop in H as [H1 H2].
  unfold string_call. apply Z.leb_le in H2, H3.
  replace (negb u && negb (forallb (fun c => N.ltb c 128) s)) with false
    by (destruct u, (forallb (fun c => N.ltb c 128) s); try reflexivity; discriminate).
  destruct (Z.of_nat (length s) <? a)%Z eqn:C1; [apply Z.ltb_lt in C1; lia|].
  destruct (b <? Z.of_nat (length s))%Z eqn:C2; [apply Z.ltb_lt in C2; lia|].
  apply negb_true_iff in H4. rewrite H4. reflexivity.
Qed.

Lemma blob_accepts a b s : ((a <=? Z.of_nat (length s))%Z && (Z.of_nat (length s) <=? b)%Z) = true ->
  blob_call a b (PBytes s) = Ok (PBytes s).
Proof.
  intros H. apply andb_prop in H as [H1 H2]. apply Z.leb_le in H1, H2. unfold blob_call.
  destruct (Z.of_nat (length s) <? a)%Z eqn:C1; [apply Z.ltb_lt in C1; lia|].
  destruct (b <? Z.of_nat (length s))%Z eqn:C2; [apply Z.ltb_lt in C2; lia|]. reflexivity.
Qed.

Lemma same_kind_accepts a b : compat a b = Ok tt -> same_kind a b ->
  match b with XInt _ _ => wfx b | XString _ _ _ _ | XBlob _ _ => True | _ => False end ->
  forall v, in_setb (erase a) v = true -> accepts b v.
Proof.
  intros HC K W v HV. apply (compat_sound_same_kind a b K HC) in HV.
  destruct b; try contradiction; cbn [erase in_setb] in HV; destruct v; try discriminate;
    unfold accepts; cbn [erase dt_validate].
  - apply andb_prop in HV as [H1 H2]. apply Z.leb_le in H1, H2. destruct (wfx_int_range _ _ W) as (R1 & R2 & _).
    exists (PInt z). apply int_validate_in_range; lia.
  - exists (PStr s). apply string_accepts, HV.
  - exists (PBytes b). apply blob_accepts, HV.
Qed.

(* containers: validate succeeds when it succeeds
   on every element *)
Lemma map_res_all_ok (f : pyval -> res pyval) l : (forall x, In x l -> exists y, f x = Ok y) -> exists ys, map_res f l = Ok ys.
Proof.
  induction l as [|x l IH]; intros H; [eexists; reflexivity|].
  destruct (H x (or_introl eq_refl)) as [y Hy]. destruct IH as [ys Hys]; [intros; apply H; right; assumption|].
  exists (y :: ys). cbn [map_res]. rewrite Hy. cbn [bind]. fold (map_res f). rewrite Hys. reflexivity.
Qed.

Lemma array_accepts e b1 b2 l : (b1 <= Z.of_nat (length l) <= b2)%Z ->
  (forall x, In x l -> exists r, dt_validate e x PNone = Ok r) ->
  exists r, dt_validate (TArray e b1 b2) (PTuple l) PNone = Ok r.
Proof.
  intros [L1 L2] H. cbn [dt_validate]. unfold array_check. cbn [is_str_bytes_dict py_len py_iter py_truthy].
  destruct (Z.of_nat (length l) <? b1)%Z eqn:C1; [apply Z.ltb_lt in C1; lia|].
  destruct (b2 <? Z.of_nat (length l))%Z eqn:C2; [apply Z.ltb_lt in C2; lia|]. cbn [bind].
  destruct (map_res_all_ok (fun x => dt_validate e x PNone) l H) as [ys Hys]. rewrite Hys. eexists. reflexivity.
Qed.

Lemma mapd_res_all_ok (f : dtype -> pyval -> res pyval) : forall ds l,
  Forall2 (fun d x => exists r, f d x = Ok r) ds l -> exists ys, mapd_res f ds l = Ok ys.
Proof.
  induction 1 as [|d x ds l [r Hr] _ [ys Hys]]; [eexists; reflexivity|].
  exists (r :: ys). cbn [mapd_res]. rewrite Hr. cbn [bind]. fold (mapd_res f). rewrite Hys. reflexivity.
Qed.

Lemma F2_length {A B} (R : A -> B -> Prop) l l' : Forall2 R l l' -> length l = length l'.
Proof. induction 1; cbn; congruence. Qed.

Lemma tuple_accepts ds l : Forall2 (fun d x => exists r, dt_validate d x PNone = Ok r) ds l ->
  exists r, dt_validate (TTuple ds) (PTuple l) PNone = Ok r.
Proof.
  intros H. pose proof (F2_length _ _ _ H) as L. cbn [dt_validate]. unfold tuple_check. cbn [is_str_bytes_dict py_len py_iter].
  rewrite L, Z.eqb_refl. cbn [bind].
  destruct (mapd_res_all_ok (fun d x => dt_validate d x PNone) ds l H) as [ys Hys]. rewrite Hys. eexists. reflexivity.
Qed.

Lemma dict_set_keys {A} n k (y : A) acc : mem_str n (map fst (dict_set k y acc)) = str_eqb n k || mem_str n (map fst acc).
Proof.
  induction acc as [|[k' v'] acc IH]; cbn; [reflexivity|]. destruct (str_eqb k k') eqn:E; cbn.
  - apply str_eqb_eq in E. subst. destruct (str_eqb n k'); reflexivity.
  - rewrite IH. destruct (str_eqb n k), (str_eqb n k'); reflexivity.
Qed.

Lemma struct_fold_all_ok (f : dtype -> pyval -> res pyval) ms : forall kv acc,
  (forall k x, In (k, x) kv -> x <> PNone /\ exists y, member_res f k x ms = Ok y) ->
  exists out, struct_fold f true ms kv acc = Ok out /\
              forall n, mem_str n (map fst acc) = true \/ mem_str n (map fst kv) = true -> mem_str n (map fst out) = true.
Proof.
  induction kv as [|[k x] kv IH]; intros acc H.
  - exists acc. split; [reflexivity|]. intros n [Hn|Hn]; [exact Hn|discriminate].
  - destruct (H k x (or_introl eq_refl)) as [Hx [y Hy]].
    destruct (IH (dict_set k y acc)) as (out & Hout & Hkeys); [intros; apply H; right; assumption|].
    exists out. split.
    + cbn [struct_fold]. fold (struct_fold f true ms).
      assert (Hgen : member_res f k x ms >>= (fun y => struct_fold f true ms kv (dict_set k y acc)) = Ok out)
        by (rewrite Hy; exact Hout).
      destruct x; try exact Hgen. contradiction.
    + intros n Hn. apply Hkeys. rewrite dict_set_keys. cbn [map fst mem_str] in Hn.
      destruct Hn as [Hn|Hn]; [left; rewrite Hn; apply orb_true_r|].
      apply orb_prop in Hn as [Hn|Hn]; [left; rewrite Hn; reflexivity|right; exact Hn].
Qed.

Lemma missing_nil names opt present :
  (forall n, In n names -> mem_str n opt = true \/ mem_str n present = true) ->
  filter (fun n => negb (mem_str n opt)) (filter (fun n => negb (mem_str n present)) names) = [].
Proof.
  induction names as [|n names IH]; intros H; [reflexivity|]. cbn [filter].
  assert (IH' := IH (fun m Hm => H m (or_intror Hm))).
  destruct (H n (or_introl eq_refl)) as [Ho|Hp].
  - destruct (mem_str n present); cbn [negb]; [exact IH'|]. cbn [filter]. rewrite Ho. exact IH'.
  - rewrite Hp. exact IH'.
Qed.

Lemma struct_accepts MS opt c kv :
  (forall k x, In (k, x) kv -> x <> PNone /\ mem_str k (map fst MS) = true /\
                              exists y, member_res (fun d v => dt_validate d v PNone) k x MS = Ok y) ->
  (forall n, In n (map fst MS) -> mem_str n opt = true \/ mem_str n (map fst kv) = true) ->
  exists r, dt_validate (TStruct MS opt c) (PDict kv) PNone = Ok r.
Proof.
  intros H1 H2. cbn [dt_validate].
  assert (Hc : struct_check (map fst MS) opt c true (PDict kv) = Ok tt).
  { unfold struct_check. destruct (existsb _ kv) eqn:E.
    - apply existsb_exists in E as ([k x] & Hin & E). destruct (H1 k x Hin) as (_ & Hm & _). cbn in E. rewrite Hm in E. discriminate.
    - rewrite orb_true_r, (missing_nil _ _ _ H2). reflexivity. }
  rewrite Hc. cbn [bind py_truthy is_dict negb dict_items].
  destruct (struct_fold_all_ok (fun d v => dt_validate d v PNone) MS kv []) as (out & Hout & Hkeys).
  { intros k x Hin. destruct (H1 k x Hin) as (A & _ & B). split; assumption. }
  rewrite Hout. cbn [wrap_elem bind].
  assert (Hm : check_missing (map fst MS) opt true out = Ok tt).
  { unfold check_missing. rewrite missing_nil; [reflexivity|]. intros n Hn. destruct (H2 n Hn) as [Ho|Hp]; [left; exact Ho|].
    right. apply Hkeys. right. exact Hp. }
  rewrite Hm. eexists. reflexivity.
Qed.

Lemma entry_ok_emap ms k x : entry_ok in_setb (emap ms) (k, x) = true ->
  exists m, assoc_xt k ms = Some m /\ in_setb (erase m) x = true.
Proof.
  induction ms as [|[n m] ms IH]; [discriminate|].
  change (entry_ok in_setb (emap ((n, m) :: ms)) (k, x)) with
    (if str_eqb k n then in_setb (erase m) x else entry_ok in_setb (emap ms) (k, x)).
  cbn [assoc_xt]. destruct (str_eqb k n); [eauto|exact IH].
Qed.

Lemma member_res_emap (f : dtype -> pyval -> res pyval) k x ms m : assoc_xt k ms = Some m ->
  member_res f k x (emap ms) = f (erase m) x.
Proof.
  induction ms as [|[n m0] ms IH]; [discriminate|].
  change (member_res f k x (emap ((n, m0) :: ms))) with (if str_eqb k n then f (erase m0) x else member_res f k x (emap ms)).
  cbn [assoc_xt]. destruct (str_eqb k n); [intros H; injection H as ->; reflexivity|exact IH].
Qed.

Definition tuple_loop (c : xt -> xt -> res unit) : list xt -> list xt -> res unit :=
  fix go (l l' : list xt) : res unit :=
    match l, l' with
    | e :: r, e' :: r' => c e e' >>= fun _ => go r r'
    | _, _ => Ok tt
    end.
Definition struct_loop (c : xt -> xt -> res unit) (ms' : list (str * xt)) : list (str * xt) -> res unit :=
  fix go (l : list (str * xt)) : res unit :=
    match l with
    | [] => Ok tt
    | (k, m) :: r => match assoc_xt k ms' with None => Err EKey | Some m' => c m m' >>= fun _ => go r end
    end.

Lemma compat_tuple es es' : compat (XTuple es) (XTuple es') =
  if negb (Nat.eqb (length es) (length es')) then W else tuple_loop compat es es'.
Proof. reflexivity. Qed.

Lemma compat_struct ms opt c ms' opt' c' : compat (XStruct ms opt c) (XStruct ms' opt' c') =
  atk_wrong (struct_loop compat ms' ms >>= fun _ =>
             if existsb (fun k => negb (mem_str k opt') && negb (mem_str k (map fst ms))) (map fst ms') then W else Ok tt).
Proof. reflexivity. Qed.

Lemma struct_loop_ok c ms' : forall ms, struct_loop c ms' ms = Ok tt <->
  (forall k m, In (k, m) ms -> exists m', assoc_xt k ms' = Some m' /\ c m m' = Ok tt).
Proof.
  induction ms as [|[k m] ms IH]; cbn [struct_loop].
  - split; [intros _ k m []|reflexivity].
  - split.
    + intros H. destruct (assoc_xt k ms') as [m'|] eqn:E; [|discriminate].
      apply bind_ok in H as ([] & Hc & H). intros k0 m0 [Eq|Hin]; [injection Eq as <- <-; eauto|].
      apply (proj1 IH H), Hin.
    + intros H. destruct (H k m (or_introl eq_refl)) as (m' & -> & Hc). rewrite Hc. cbn [bind].
      apply IH. intros k0 m0 Hin. apply H. right. exact Hin.
Qed.

(* the two boolean side conditions.
   [walk leaf a b] follows a and b through arrays, tuples (position by position) and structs (member of the same name)
   as long as both sides are containers of the same kind, and asks [leaf] at every other pair and at every pair of
   structs. *)
Definition walk_list (w : xt -> xt -> bool) : list xt -> list xt -> bool :=
  fix go (l l' : list xt) : bool :=
    match l, l' with
    | e :: r, e' :: r' => w e e' && go r r'
    | _, _ => true
    end.
Definition walk_members (w : xt -> xt -> bool) (ms' : list (str * xt)) : list (str * xt) -> bool :=
  fix go (l : list (str * xt)) : bool :=
    match l with
    | [] => true
    | (k, m) :: r => match assoc_xt k ms' with Some m' => w m m' | None => true end && go r
    end.

Fixpoint walk (leaf : xt -> xt -> bool) (a b : xt) {struct a} : bool :=
  match a with
  | XArray e _ _ => match b with XArray e' _ _ => walk leaf e e' | _ => leaf a b end
  | XTuple es =>
      match b with
      | XTuple es' =>
          (fix go (l l' : list xt) : bool :=
             match l, l' with
             | e :: r, e' :: r' => walk leaf e e' && go r r'
             | _, _ => true
             end) es es'
      | _ => leaf a b
      end
  | XStruct ms _ _ =>
      match b with
      | XStruct ms' _ _ =>
          leaf a b &&
          (fix go (l : list (str * xt)) : bool :=
             match l with
             | [] => true
             | (k, m) :: r => match assoc_xt k ms' with Some m' => walk leaf m m' | None => true end && go r
             end) ms
      | _ => leaf a b
      end
  | _ => leaf a b
  end.

Lemma walk_tuple leaf es es' : walk leaf (XTuple es) (XTuple es') = walk_list (walk leaf) es es'.
Proof. reflexivity. Qed.
Lemma walk_struct leaf ms o c ms' o' c' : walk leaf (XStruct ms o c) (XStruct ms' o' c') =
  leaf (XStruct ms o c) (XStruct ms' o' c') && walk_members (walk leaf) ms' ms.
Proof. reflexivity. Qed.

Lemma walk_members_In w ms' : forall ms k m m', walk_members w ms' ms = true -> In (k, m) ms -> assoc_xt k ms' = Some m' ->
  w m m' = true.
Proof.
  induction ms as [|[k0 m0] ms IH]; intros k m m' H Hin E; [destruct Hin|]. cbn [walk_members] in H.
  apply andb_prop in H as [H1 H2]. destruct Hin as [Eq|Hin].
  - injection Eq as -> ->. rewrite E in H1. exact H1.
  - eapply IH; eauto.
Qed.

(* the only side condition on the kinds: a ScaledInteger as FIRST type of a FloatRange or ScaledInteger must have its
   grid-rounded limits within its declared limits (its value set is bounded by the former, the verdict probes the latter) *)
Definition covered_leaf (a b : xt) : bool :=
  match a, b with
  | XScaled s mn mx _ _ _ _, (XFloat _ _ _ _ _ _ | XScaled _ _ _ _ _ _ _) => grid_inside s mn mx
  | _, _ => true
  end.
Definition covered : xt -> xt -> bool := walk covered_leaf.

(* the exact exception class of the finding struct-optional-into-mandatory: a member of the first struct that is
   optional there, and a mandatory member of the second *)
Definition struct_guard (ms : list (str * xt)) (opt : list str) (ms' : list (str * xt)) (opt' : list str) : bool :=
  forallb (fun k => negb (mem_str k opt && mem_str k (map fst ms') && negb (mem_str k opt'))) (map fst ms).

(* pairs of the open findings *)
Definition guard_leaf (a b : xt) : bool :=
  match a, b with
  | XFloat amn amx _ _ _ _, XFloat bmn bmx _ br _ _ => lo_guard bmn br amn && hi_guard bmx br amx
  | XInt amn amx, XFloat bmn bmx _ br _ _ => lo_guard bmn br (of_Z amn) && hi_guard bmx br (of_Z amx)
  | XScaled _ amn amx _ _ _ _, XFloat bmn bmx _ br _ _ => lo_guard bmn br amn && hi_guard bmx br amx
  | XStruct ms opt _, XStruct ms' opt' _ => struct_guard ms opt ms' opt'
  | _, _ => true
  end.
Definition finding_free : xt -> xt -> bool := walk guard_leaf.

Definition is_number_type (b : xt) : bool :=
  match b with XFloat _ _ _ _ _ _ | XInt _ _ | XScaled _ _ _ _ _ _ _ => true | _ => false end.

(* number types against number types: the verdict
   validates the two limits of the first type; every value in between follows by the lemmas on float targets
   (LemmasNum.v, under the guard) and scaled targets (LemmasScaledTarget.v) *)
Theorem number_pair_sound a b : wfx a -> wfx b -> is_number_type a = true -> is_number_type b = true ->
  covered_leaf a b = true -> guard_leaf a b = true -> compat a b = Ok tt ->
  forall v, in_setb (erase a) v = true -> accepts b v.
Proof.
  intros Wa Wb Na Nb C G HC v HV.
  destruct b; try discriminate Nb.
  - pose proof (wfx_ftarget _ _ _ _ _ _ Wb) as T.
    destruct a; try discriminate Na; cbn [guard_leaf] in G; apply andb_prop in G as [GL GU];
      cbn [compat] in HC; apply vboth_ok in HC as [A1 A2]; unfold accepts in *; cbn [erase dt_validate] in *.
    + destruct Wa as (Hmn & Hmx & _). destruct (fix_pv_float _ Hmn) as (L1 & L2 & _). destruct (fix_pv_float _ Hmx) as (U1 & U2 & _).
      destruct v as [| | |f| | | | | | |]; try discriminate. apply andb_prop in HV as [V1 V2].
      exact (float_src_into_float _ _ _ _ _ _ L1 L2 U1 U2 T GL GU A1 A2 f V1 V2).
    + destruct (wfx_int_range _ _ Wa) as (R1 & R2 & _). destruct (in_set_int _ _ _ HV) as (z & -> & V).
      exact (int_src_into_float _ _ _ _ _ _ R1 R2 T GL GU A1 A2 z V).
    + destruct (wfx_scaled_limits _ _ _ _ _ _ _ Wa) as [[L1 L2] [U1 U2]].
      destruct (scaled_set_inside _ _ _ _ C HV) as (f & -> & V1 & V2).
      exact (float_src_into_float _ _ _ _ _ _ L1 L2 U1 U2 T GL GU A1 A2 f V1 V2).
  - destruct a; try discriminate Na; try discriminate HC. exact (same_kind_accepts _ _ HC I Wb v HV).
  - destruct (wfx_scale_pos _ _ _ _ _ _ _ Wb) as [_ Ps].
    destruct a; try discriminate Na; cbn [compat] in HC; apply vboth_ok in HC as [A1 A2]; unfold accepts in *; cbn [erase dt_validate] in *.
    + destruct Wa as (Hmn & Hmx & _). destruct (fix_pv_float _ Hmn) as (_ & _ & F1). destruct (fix_pv_float _ Hmx) as (_ & _ & F2).
      destruct v as [| | |x| | | | | | |]; try discriminate. apply andb_prop in HV as [V1 V2].
      exact (float_src_into_scaled _ _ _ _ _ F1 F2 Ps A1 A2 x V1 V2).
    + destruct (wfx_int_range _ _ Wa) as (R1 & R2 & _). destruct (in_set_int _ _ _ HV) as (z & -> & V).
      exact (int_src_into_scaled _ _ _ _ _ R1 R2 Ps A1 A2 z V).
    + destruct (wfx_scaled_limits _ _ _ _ _ _ _ Wa) as [[L1 L2] [U1 U2]].
      destruct (scaled_set_inside _ _ _ _ C HV) as (x & -> & V1 & V2).
      exact (float_src_into_scaled _ _ _ _ _ (finite_in_fmax _ L1 L2) (finite_in_fmax _ U1 U2) Ps A1 A2 x V1 V2).
Qed.

Definition sound_at (a : xt) : Prop :=
  forall b, wfx a -> wfx b -> covered a b = true -> finding_free a b = true -> compat a b = Ok tt ->
  forall v, in_setb (erase a) v = true -> accepts b v.

Lemma wfx_tuple_Forall es : wfx (XTuple es) -> Forall wfx es.
Proof. intros [_ H]. apply all_Forall in H. exact H. Qed.
Lemma wfx_struct_Forall ms o c : wfx (XStruct ms o c) -> Forall (fun q => wfx (snd q)) ms.
Proof. intros (_ & _ & _ & H). apply (all_Forall (fun q : str * xt => wfx (snd q))) in H. exact H. Qed.

Lemma tuple_sound_aux : forall es es' l,
  Forall sound_at es -> Forall wfx es -> Forall wfx es' -> length es = length es' ->
  walk_list covered es es' = true -> walk_list finding_free es es' = true ->
  tuple_loop compat es es' = Ok tt -> all2 in_setb (map erase es) l = true ->
  Forall2 (fun d x => exists r, dt_validate d x PNone = Ok r) (map erase es') l.
Proof.
  induction es as [|e es IH]; intros es' l HS Wa Wb L C G HC HV.
  - destruct es'; [|discriminate]. destruct l; [constructor|discriminate].
  - destruct es' as [|e' es']; [discriminate|]. destruct l as [|x l]; [discriminate|].
    cbn [map all2] in HV. apply andb_prop in HV as [V1 V2].
    cbn [walk_list] in C, G. apply andb_prop in C as [C1 C2]. apply andb_prop in G as [G1 G2].
    cbn [tuple_loop] in HC. apply bind_ok in HC as ([] & HC1 & HC2).
    apply Forall_cons_iff in HS as [Se Ses], Wa as [We Wes], Wb as [We' Wes']. cbn [map]. constructor.
    + exact (Se e' We We' C1 G1 HC1 x V1).
    + apply IH; try assumption. cbn in L. lia.
Qed.

Theorem compat_sound : forall a, sound_at a.
Proof.
  induction a as [ | | | | | | |e a1 a2 IHe|es IHes|ms opt c IHms] using xt_ind2; intros b0 Wa Wb C G HC v HV.
  - (* FloatRange *)
    destruct (is_number_type b0) eqn:Nb; [exact (number_pair_sound _ _ Wa Wb eq_refl Nb C G HC v HV)|destruct b0; discriminate].
  - (* IntRange *)
    destruct (is_number_type b0) eqn:Nb; [exact (number_pair_sound _ _ Wa Wb eq_refl Nb C G HC v HV)|].
    destruct b0; try discriminate.
    + destruct v; try discriminate HV. eapply compat_int_bool_sound; eassumption.
    + eapply compat_int_enum_sound; eassumption.
  - (* ScaledInteger *)
    destruct (is_number_type b0) eqn:Nb; [exact (number_pair_sound _ _ Wa Wb eq_refl Nb C G HC v HV)|destruct b0; discriminate].
  - (* BoolType *) eapply compat_bool_sound; eassumption.
  - (* EnumType *) eapply compat_enum_sound; eassumption.
  - (* StringType *) destruct b0; try discriminate HC. exact (same_kind_accepts _ _ HC I I v HV).
  - (* BLOBType *) destruct b0; try discriminate HC. exact (same_kind_accepts _ _ HC I I v HV).
  - (* ArrayOf *)
    destruct b0 as [| | | | | | |e' b1 b2| |]; try discriminate HC.
    cbn [compat] in HC. destruct ((a1 <? b1)%Z || (b2 <? a2)%Z) eqn:E; [discriminate|].
    apply orb_false_elim in E as [E1 E2]. apply Z.ltb_ge in E1, E2. apply (proj1 (attr_wrong_ok _)) in HC.
    destruct Wa as (Wa & _). destruct Wb as (Wb & _).
    cbn [erase in_setb] in HV. destruct v; try discriminate. apply andb_prop in HV as [HV V3]. apply andb_prop in HV as [V1 V2].
    apply Z.leb_le in V1, V2. unfold accepts. cbn [erase]. apply array_accepts; [lia|].
    intros x Hx. rewrite forallb_forall in V3. exact (IHe e' Wa Wb C G HC x (V3 x Hx)).
  - (* TupleOf *)
    destruct b0 as [| | | | | | | |es'|]; try discriminate HC.
    rewrite compat_tuple in HC. destruct (Nat.eqb (length es) (length es')) eqn:L; [|discriminate]. cbn [negb] in HC.
    apply Nat.eqb_eq in L. unfold covered in C. unfold finding_free in G. rewrite walk_tuple in C, G.
    cbn [erase] in HV. destruct v; try discriminate. rewrite in_setb_tuple in HV.
    unfold accepts. cbn [erase]. apply tuple_accepts.
    apply tuple_sound_aux with (es := es); try assumption; [apply wfx_tuple_Forall, Wa|apply wfx_tuple_Forall, Wb].
  - (* StructOf *)
    destruct b0 as [| | | | | | | | |ms' opt' c']; try discriminate HC.
    rewrite compat_struct in HC. apply (proj1 (atk_wrong_ok _)) in HC. apply bind_ok in HC as ([] & HL & HM).
    destruct (existsb _ (map fst ms')) eqn:EM; [discriminate|]. clear HM.
    unfold covered in C. unfold finding_free in G. rewrite walk_struct in C, G.
    apply andb_prop in C as [_ C]. apply andb_prop in G as [GS G]. cbn [guard_leaf] in GS.
    pose proof (wfx_struct_Forall _ _ _ Wa) as WA. pose proof (wfx_struct_Forall _ _ _ Wb) as WB.
    rewrite Forall_forall in IHms, WA, WB. pose proof (proj1 (struct_loop_ok _ _ _) HL) as HL'.
    cbn [erase] in HV. fold (emap ms) in HV. destruct v; try discriminate. rewrite in_setb_struct in HV.
    apply andb_prop in HV as [V1 V2]. rewrite forallb_forall in V1, V2. rewrite emap_names in V2.
    unfold accepts. cbn [erase]. fold (emap ms'). apply struct_accepts.
    + intros k x Hin. destruct (entry_ok_emap _ _ _ (V1 _ Hin)) as (m & Em & Vm).
      pose proof (assoc_xt_In _ _ _ Em) as Im. destruct (HL' k m Im) as (m' & Em' & Cm).
      split; [intros ->; rewrite in_setb_none in Vm; discriminate|].
      split; [rewrite emap_names; eapply assoc_xt_mem; eauto|].
      rewrite (member_res_emap _ _ _ _ _ Em').
      exact (IHms (k, m) Im m' (WA _ Im) (WB _ (assoc_xt_In _ _ _ Em')) (walk_members_In _ _ _ _ _ _ C Im Em')
               (walk_members_In _ _ _ _ _ _ G Im Em') Cm x Vm).
    + rewrite emap_names. intros n Hn.
      destruct (mem_str n opt') eqn:Eo; [left; reflexivity|right].
      (* n is mandatory in the second struct: the verdict says it is a member of the first ... *)
      assert (Hna : mem_str n (map fst ms) = true).
      { destruct (mem_str n (map fst ms)) eqn:E; [reflexivity|]. exfalso.
        assert (X : existsb (fun k => negb (mem_str k opt') && negb (mem_str k (map fst ms))) (map fst ms') = true).
        { apply existsb_exists. exists n. split; [exact Hn|]. rewrite Eo, E. reflexivity. }
        congruence. }
      (* ... the guard says it is mandatory there too, so every value of the first struct has it *)
      apply mem_str_In in Hna. unfold struct_guard in GS. rewrite forallb_forall in GS. specialize (GS n Hna).
      rewrite Eo, (proj2 (mem_str_In n (map fst ms')) Hn) in GS. cbn in GS. rewrite !andb_true_r in GS. apply negb_true_iff in GS.
      specialize (V2 n Hna). rewrite GS in V2. exact V2.
Qed.

(* completeness: the supported pairings pass when
   the value sets are nested.  [nested a b] is the limit-wise description of nesting for each supported pairing (for a
   struct: every member of a is a member of b with nested types, every mandatory member of b is a member of a -
   which is what the code tests and is implied by "mandatory in a"). *)
Definition nested_list (n : xt -> xt -> Prop) : list xt -> list xt -> Prop :=
  fix go (l l' : list xt) : Prop :=
    match l, l' with
    | [], [] => True
    | e :: r, e' :: r' => n e e' /\ go r r'
    | _, _ => False
    end.
Definition nested_members (n : xt -> xt -> Prop) (ms' : list (str * xt)) : list (str * xt) -> Prop :=
  fix go (l : list (str * xt)) : Prop :=
    match l with
    | [] => True
    | (k, m) :: r => match assoc_xt k ms' with Some m' => n m m' | None => False end /\ go r
    end.

Fixpoint nested (a b : xt) {struct a} : Prop :=
  match a with
  | XFloat a1 a2 _ _ _ _ =>
      match b with XFloat b1 b2 _ _ _ _ => fle b1 a1 = true /\ fle a2 b2 = true | _ => False end
  | XInt a1 a2 =>
      match b with
      | XInt b1 b2 => (b1 <= a1 /\ a2 <= b2)%Z
      | XFloat b1 b2 _ _ _ _ => fle b1 (of_Z a1) = true /\ fle (of_Z a2) b2 = true
      | XBool => (0 <= a1 /\ a2 <= 1)%Z
      | XEnum _ ms => forall z, (a1 <= z <= a2)%Z -> enum_by_value z ms <> None
      | _ => False
      end
  | XScaled _ _ _ _ _ _ _ => False
  | XBool => accepts b (PBool false) /\ accepts b (PBool true)
  | XEnum _ ms =>
      match b with
      | XEnum _ ms' => forall k z, In (k, z) ms -> enum_by_value z ms' <> None
      | XBool => forall k z, In (k, z) ms -> z = 0%Z \/ z = 1%Z
      | _ => False
      end
  | XString a1 a2 u _ =>
      match b with XString b1 b2 u' _ => (b1 <= a1 /\ a2 <= b2)%Z /\ (u = true -> u' = true) | _ => False end
  | XBlob a1 a2 => match b with XBlob b1 b2 => (b1 <= a1 /\ a2 <= b2)%Z | _ => False end
  | XArray e a1 a2 => match b with XArray e' b1 b2 => nested e e' /\ (b1 <= a1 /\ a2 <= b2)%Z | _ => False end
  | XTuple es =>
      match b with
      | XTuple es' =>
          (fix go (l l' : list xt) : Prop :=
             match l, l' with
             | [], [] => True
             | e :: r, e' :: r' => nested e e' /\ go r r'
             | _, _ => False
             end) es es'
      | _ => False
      end
  | XStruct ms _ _ =>
      match b with
      | XStruct ms' opt' _ =>
          (fix go (l : list (str * xt)) : Prop :=
             match l with
             | [] => True
             | (k, m) :: r => match assoc_xt k ms' with Some m' => nested m m' | None => False end /\ go r
             end) ms /\
          (forall k, In k (map fst ms') -> mem_str k opt' = false -> mem_str k (map fst ms) = true)
      | _ => False
      end
  end.

Lemma nested_tuple es es' : nested (XTuple es) (XTuple es') = nested_list nested es es'.
Proof. reflexivity. Qed.
Lemma nested_struct ms o c ms' o' c' : nested (XStruct ms o c) (XStruct ms' o' c') =
  (nested_members nested ms' ms /\ (forall k, In k (map fst ms') -> mem_str k o' = false -> mem_str k (map fst ms) = true)).
Proof. reflexivity. Qed.

Definition complete_at (a : xt) : Prop := forall b, wfx a -> wfx b -> nested a b -> compat a b = Ok tt.

Lemma tuple_complete_aux : forall es es', Forall complete_at es -> Forall wfx es -> Forall wfx es' ->
  nested_list nested es es' -> length es = length es' /\ tuple_loop compat es es' = Ok tt.
Proof.
  induction es as [|e es IH]; intros es' HP Wa Wb N; destruct es' as [|e' es']; try contradiction.
  - split; reflexivity.
  - destruct N as [N1 N2]. apply Forall_cons_iff in HP as [Pe Pes], Wa as [We Wes], Wb as [We' Wes'].
    destruct (IH es' Pes Wes Wes' N2) as [L T]. split; [cbn; congruence|].
    cbn [tuple_loop]. rewrite (Pe e' We We' N1). cbn [bind]. exact T.
Qed.

Theorem compat_complete : forall a, complete_at a.
Proof.
  induction a as [ | | | | | | |e a1 a2 IHe|es IHes|ms opt c IHms] using xt_ind2; intros b0 Wa Wb N.
  - destruct b0; try contradiction. destruct N as [N1 N2]. apply compat_float_float_complete; assumption.
  - destruct b0; try contradiction.
    + destruct N as [N1 N2]. apply compat_int_float_complete; assumption.
    + apply compat_if_nested; assumption.
    + destruct (wfx_int_range _ _ Wa) as (_ & _ & Hle). apply (compat_int_bool_iff mn mx Hle). exact N.
    + apply compat_int_enum_iff. exact N.
  - contradiction.
  - destruct N as [N1 N2]. apply compat_bool_complete; assumption.
  - destruct b0; try contradiction.
    + rewrite compat_enum. apply enum_loop_ok. intros k z Hin. destruct (N k z Hin) as [-> | ->]; eexists; reflexivity.
    + apply compat_enum_enum_iff. exact N.
  - destruct b0; try contradiction. apply compat_if_nested; assumption.
  - destruct b0; try contradiction. apply compat_if_nested; assumption.
  - destruct b0 as [| | | | | | |e' b1 b2| |]; try contradiction. destruct N as [Ne [N1 N2]].
    destruct Wa as (Wa & _). destruct Wb as (Wb & _). cbn [compat].
    destruct (a1 <? b1)%Z eqn:C1; [apply Z.ltb_lt in C1; lia|].
    destruct (b2 <? a2)%Z eqn:C2; [apply Z.ltb_lt in C2; lia|]. cbn [orb].
    rewrite (IHe e' Wa Wb Ne). reflexivity.
  - destruct b0 as [| | | | | | | |es'|]; try contradiction. rewrite nested_tuple in N.
    destruct (tuple_complete_aux es es' IHes (wfx_tuple_Forall _ Wa) (wfx_tuple_Forall _ Wb) N) as [L T].
    rewrite compat_tuple. rewrite L, Nat.eqb_refl. exact T.
  - destruct b0 as [| | | | | | | | |ms' opt' c']; try contradiction. rewrite nested_struct in N. destruct N as [NM NO].
    pose proof (wfx_struct_Forall _ _ _ Wa) as WA. pose proof (wfx_struct_Forall _ _ _ Wb) as WB.
    rewrite Forall_forall in WB.
    rewrite compat_struct.
    assert (HL : struct_loop compat ms' ms = Ok tt).
    { clear NO Wa. induction ms as [|[k m] ms IH]; [reflexivity|].
      destruct NM as [N1 N2]. apply Forall_cons_iff in IHms as [Pm Pms], WA as [Wm Wms]. cbn [struct_loop].
      destruct (assoc_xt k ms') as [m'|] eqn:E; [|contradiction].
      cbn [snd] in *. rewrite (Pm m' Wm (WB _ (assoc_xt_In _ _ _ E)) N1). cbn [bind]. apply IH; assumption. }
    rewrite HL. cbn [bind].
    destruct (existsb _ (map fst ms')) eqn:E; [|reflexivity]. exfalso.
    apply existsb_exists in E as (k & Hk & E). apply andb_prop in E as [E1 E2].
    apply negb_true_iff in E1, E2. rewrite (NO k Hk E1) in E2. discriminate.
Qed.
