(* C03 (private helper) - monotonicity of the binary64 operations used by FloatRange.validate, through the order
   embedding [key] of Base/F64Lemmas.v and the rounding [rnd] of Base/F64Facts.v: for finite operands the result of
   + - * is the correctly rounded real result, saturated to +-2^1024 (= +-inf) on overflow; rounding and saturation
   are monotone.  Nothing here is specific to frappy. *)
From Coq Require Import ZArith Bool Reals Lra Lia.
From Flocq Require Import Core.Zaux Core.Raux Core.Defs Core.Float_prop Core.Generic_fmt Core.Round_NE Core.FLT
  IEEE754.BinarySingleNaN.
Require Import FV.Base.F64 FV.Base.F64Lemmas FV.Base.F64Facts.

Local Open Scope R_scope.

#[local] Instance vexp64 : Valid_exp (SpecFloat.fexp prec emax) := fexp_correct prec emax prec_gt_0_64.

Definition sat (y : R) : R := Rmax (- BIG) (Rmin BIG y).

Lemma rnd_abs x : rnd (Rabs x) = Rabs (rnd x).
Proof. unfold rnd. apply round_NE_abs. auto with typeclass_instances. Qed.
Lemma rnd_nonneg x : 0 <= x -> 0 <= rnd x.
Proof. intros H. rewrite <- rnd_0. apply rnd_le, H. Qed.
Lemma rnd_nonpos x : x <= 0 -> rnd x <= 0.
Proof. intros H. rewrite <- rnd_0. apply rnd_le, H. Qed.

Lemma sat_le x y : x <= y -> sat x <= sat y.
Proof. intros H. unfold sat. apply Rle_max_compat_l. apply Rle_min_compat_l. exact H. Qed.
Lemma sat_id y : - BIG < y < BIG -> sat y = y.
Proof. intros [H1 H2]. unfold sat. rewrite Rmin_right by lra. rewrite Rmax_right by lra. reflexivity. Qed.
Lemma sat_hi y : BIG <= y -> sat y = BIG.
Proof. intros H. pose proof BIG_pos. unfold sat. rewrite Rmin_left by lra. rewrite Rmax_right by lra. reflexivity. Qed.
Lemma sat_lo y : y <= - BIG -> sat y = - BIG.
Proof. intros H. pose proof BIG_pos. unfold sat. rewrite Rmin_right by lra. rewrite Rmax_left by lra. reflexivity. Qed.
Lemma sat_nonneg y : 0 <= y -> 0 <= sat y.
Proof.
  intros H. pose proof BIG_pos. unfold sat. apply Rle_trans with (Rmin BIG y); [|apply Rmax_r].
  apply Rmin_glb; lra.
Qed.
Lemma sat_bounds y : - BIG <= sat y <= BIG.
Proof.
  pose proof BIG_pos. unfold sat. split; [apply Rmax_l|]. apply Rmax_lub; [lra|apply Rmin_l].
Qed.

Lemma key_bounds (x : f64) : notnan x -> - BIG <= key x <= BIG.
Proof.
  intros Hn. pose proof BIG_pos. destruct (is_finite x) eqn:F.
  - pose proof (finite_key_bound x F). lra.
  - destruct x as [s|[|]| |s m e B]; try discriminate; cbn [key]; lra.
Qed.

Lemma abs_ge_big_nonneg y : 0 <= y -> BIG <= Rabs y -> BIG <= y.
Proof. intros H1 H2. rewrite Rabs_pos_eq in H2; assumption. Qed.
Lemma abs_ge_big_nonpos y : y <= 0 -> BIG <= Rabs y -> y <= - BIG.
Proof. intros H1 H2. rewrite Rabs_left1 in H2 by assumption. lra. Qed.

(* the shape of Flocq's correctness statements: the correctly rounded value if that is below 2^1024, else the infinity
   of the sign of the exact result *)
Lemma rounded_key (z : f64) (v : R) (sgn : bool) (Fin Ovf : Prop) :
  (if Rlt_bool (Rabs (round radix2 (SpecFloat.fexp prec emax) (round_mode mode_NE) v)) (bpow radix2 emax) then Fin else Ovf) ->
  (Fin -> B2R z = rnd v /\ is_finite z = true) ->
  (Ovf -> B2SF z = binary_overflow prec emax mode_NE sgn /\ if sgn then v <= 0 else 0 <= v) ->
  notnan z /\ key z = sat (rnd v).
Proof.
  intros H HF HO. change (round _ _ _ v) with (rnd v) in H. change (bpow radix2 emax) with BIG in H.
  destruct (Rlt_bool_spec (Rabs (rnd v)) BIG) as [Hlt|Hge].
  - destruct (HF H) as [HR Hf]. split; [apply finite_notnan, Hf|].
    rewrite (key_finite _ Hf), HR. symmetry. apply sat_id. apply Rabs_def2 in Hlt. lra.
  - destruct (HO H) as [HS Sg]. unfold binary_overflow, overflow_to_inf in HS. apply inf_of_SF in HS. rewrite HS.
    split; [reflexivity|]. cbn [key].
    destruct sgn; symmetry; [apply sat_lo, abs_ge_big_nonpos|apply sat_hi, abs_ge_big_nonneg]; try exact Hge;
      [apply rnd_nonpos|apply rnd_nonneg]; exact Sg.
Qed.

Lemma fadd_key (x y : f64) : is_finite x = true -> is_finite y = true ->
  notnan (fadd x y) /\ key (fadd x y) = sat (rnd (B2R x + B2R y)).
Proof.
  intros Fx Fy. apply (rounded_key _ _ (Bsign x) _ _ (Bplus_correct prec emax _ _ mode_NE x y Fx Fy)).
  - intros (HR & HF & _). split; assumption.
  - intros (HS & Hsign). split; [exact HS|]. destruct (Bsign x) eqn:Sx.
    + pose proof (sign_nonpos x Fx Sx). pose proof (sign_nonpos y Fy (eq_sym Hsign)). lra.
    + pose proof (sign_nonneg x Fx Sx). pose proof (sign_nonneg y Fy (eq_sym Hsign)). lra.
Qed.

Lemma fadd_inf (b : f64) s : is_finite b = true -> fadd b (B754_infinity s) = B754_infinity s.
Proof. destruct b; try discriminate; reflexivity. Qed.

(* b + p is monotone in p, infinities included *)
Lemma fadd_mono (b p p' : f64) : is_finite b = true -> notnan p -> notnan p' -> key p <= key p' ->
  notnan (fadd b p) /\ notnan (fadd b p') /\ key (fadd b p) <= key (fadd b p').
Proof.
  intros Fb Np Np' Hle. pose proof BIG_pos as HB.
  assert (N : forall q, notnan q -> notnan (fadd b q)).
  { intros q Nq. destruct (is_finite q) eqn:Fq; [apply fadd_key; assumption|].
    destruct q as [|s| |]; try discriminate. rewrite fadd_inf by exact Fb. reflexivity. }
  split; [exact (N p Np)|]. split; [exact (N p' Np')|].
  pose proof (key_bounds _ (N p Np)). pose proof (key_bounds _ (N p' Np')).
  destruct (is_finite p) eqn:Fp, (is_finite p') eqn:Fp'.
  - destruct (fadd_key b p Fb Fp) as [_ K]. destruct (fadd_key b p' Fb Fp') as [_ K']. rewrite K, K'.
    apply sat_le, rnd_le. rewrite (key_finite _ Fp), (key_finite _ Fp') in Hle. lra.
  - pose proof (finite_key_bound _ Fp). destruct p' as [|[|]| |]; try discriminate; cbn [key] in Hle; [lra|].
    rewrite fadd_inf by exact Fb. cbn [key]. lra.
  - pose proof (finite_key_bound _ Fp'). destruct p as [|[|]| |]; try discriminate; cbn [key] in Hle; [|lra].
    rewrite fadd_inf by exact Fb. cbn [key]. lra.
  - destruct p as [|[|]| |], p' as [|[|]| |]; try discriminate; rewrite !fadd_inf by exact Fb; cbn [key] in *; lra.
Qed.

Lemma notnan_fopp (p : f64) : notnan p -> notnan (fopp p).
Proof. destruct p; auto. Qed.

Lemma fsub_antimono (b p p' : f64) : is_finite b = true -> notnan p -> notnan p' -> key p <= key p' ->
  notnan (fsub b p) /\ notnan (fsub b p') /\ key (fsub b p') <= key (fsub b p).
Proof.
  intros Fb Np Np' H. rewrite !fsub_fadd.
  destruct (fadd_mono b (fopp p') (fopp p) Fb (notnan_fopp _ Np') (notnan_fopp _ Np)) as (A & B & C); [rewrite !key_fopp; lra|auto].
Qed.

(* |x * r| for a factor r >= 0 *)
Lemma fmulabs_key (x r : f64) : is_finite x = true -> is_finite r = true -> 0 <= B2R r ->
  notnan (fabs (fmul x r)) /\ key (fabs (fmul x r)) = sat (rnd (Rabs (B2R x) * B2R r)).
Proof.
  intros Fx Fr Hr. pose proof (Bmult_correct prec emax _ _ mode_NE x r) as H.
  change (round radix2 (SpecFloat.fexp prec emax) (round_mode mode_NE) (B2R x * B2R r)) with (rnd (B2R x * B2R r)) in H.
  change (bpow radix2 emax) with BIG in H. unfold fabs, fmul.
  assert (E : rnd (Rabs (B2R x) * B2R r) = Rabs (rnd (B2R x * B2R r))).
  { rewrite <- rnd_abs, Rabs_mult, (Rabs_pos_eq (B2R r)) by exact Hr. reflexivity. }
  destruct (Rlt_bool_spec (Rabs (rnd (B2R x * B2R r))) BIG) as [Hlt|Hge].
  - destruct H as (HR & HF & _). rewrite Fx, Fr in HF. cbn in HF.
    assert (HFa : is_finite (Babs (Bmult mode_NE x r)) = true) by (rewrite is_finite_Babs; exact HF).
    split; [apply finite_notnan, HFa|].
    rewrite (key_finite _ HFa), B2R_Babs, HR, E. symmetry. apply sat_id.
    pose proof (Rabs_pos (rnd (B2R x * B2R r))). pose proof BIG_pos. lra.
  - unfold binary_overflow, overflow_to_inf in H. apply inf_of_SF in H. rewrite H. cbn [Babs key].
    split; [reflexivity|]. rewrite E. symmetry. apply sat_hi. exact Hge.
Qed.

Lemma pymax_key (u v : f64) : notnan u -> notnan v -> notnan (pymax u v) /\ key (pymax u v) = Rmax (key u) (key v).
Proof.
  intros Nu Nv. unfold pymax. destruct (flt u v) eqn:E.
  - apply flt_true in E; [|assumption|assumption]. split; [exact Nv|]. rewrite Rmax_right by lra. reflexivity.
  - apply flt_false in E; [|assumption|assumption]. split; [exact Nu|]. rewrite Rmax_left by lra. reflexivity.
Qed.

(* the tolerance of FloatRange.validate: max(abs(x * relres), absres) *)
Definition tol (r a x : f64) : f64 := pymax (fabs (fmul x r)) a.

Lemma tol_key (r a x : f64) : is_finite x = true -> is_finite r = true -> 0 <= B2R r -> notnan a ->
  notnan (tol r a x) /\ key (tol r a x) = Rmax (sat (rnd (Rabs (B2R x) * B2R r))) (key a) /\ 0 <= key (tol r a x).
Proof.
  intros Fx Fr Hr Na. destruct (fmulabs_key x r Fx Fr Hr) as [N K].
  destruct (pymax_key _ a N Na) as [N' K']. unfold tol. split; [exact N'|]. rewrite K', K. split; [reflexivity|].
  apply Rle_trans with (sat (rnd (Rabs (B2R x) * B2R r))); [|apply Rmax_l].
  apply sat_nonneg, rnd_nonneg. apply Rmult_le_pos; [apply Rabs_pos|exact Hr].
Qed.

Lemma tol_mono (r a x y : f64) : is_finite x = true -> is_finite y = true -> is_finite r = true -> 0 <= B2R r -> notnan a ->
  Rabs (B2R x) <= Rabs (B2R y) -> key (tol r a x) <= key (tol r a y).
Proof.
  intros Fx Fy Fr Hr Na H. destruct (tol_key r a x Fx Fr Hr Na) as (_ & K1 & _). destruct (tol_key r a y Fy Fr Hr Na) as (_ & K2 & _).
  rewrite K1, K2. apply Rle_max_compat_r. apply sat_le, rnd_le. apply Rmult_le_compat_r; assumption.
Qed.

Lemma tol_const (r a x y : f64) : is_finite x = true -> is_finite y = true -> is_finite r = true -> B2R r = 0 -> notnan a ->
  key (tol r a x) = key (tol r a y).
Proof.
  intros Fx Fy Fr Hr Na. assert (Hr' : 0 <= B2R r) by lra.
  destruct (tol_key r a x Fx Fr Hr' Na) as (_ & K1 & _). destruct (tol_key r a y Fy Fr Hr' Na) as (_ & K2 & _).
  rewrite K1, K2, Hr, !Rmult_0_r. reflexivity.
Qed.

Lemma of_Z_key (z : Z) : notnan (of_Z z) /\ key (of_Z z) = sat (rnd (IZR z)).
Proof.
  pose proof (binary_normalize_correct prec emax _ _ mode_NE z 0 false) as H. cbv zeta in H.
  assert (E : F2R (Float radix2 z 0) = IZR z) by (unfold F2R; cbn; lra).
  rewrite E in H. apply (rounded_key _ _ (Rlt_bool (IZR z) 0) _ _ H).
  - intros (HR & HF & _). split; assumption.
  - intros HS. split; [exact HS|]. destruct (Rlt_bool_spec (IZR z) 0); lra.
Qed.

Lemma of_Z_mono (z z' : Z) : (z <= z')%Z -> key (of_Z z) <= key (of_Z z').
Proof.
  intros H. destruct (of_Z_key z) as [_ K]. destruct (of_Z_key z') as [_ K']. rewrite K, K'.
  apply sat_le, rnd_le, IZR_le, H.
Qed.

Lemma feq_key (a b : f64) : notnan a -> notnan b -> feq a b = true -> key a = key b.
Proof.
  intros Na Nb. unfold feq, Beqb, SpecFloat.SFeqb. fold (Bcompare a b). rewrite (compare_key a b Na Nb).
  case Rcompare_spec; intros H E; try discriminate. exact H.
Qed.

Lemma fle_R (a b : f64) : is_finite a = true -> is_finite b = true -> fle a b = true -> B2R a <= B2R b.
Proof. intros Fa Fb. apply fle_finite; assumption. Qed.
Lemma R_fle (a b : f64) : is_finite a = true -> is_finite b = true -> B2R a <= B2R b -> fle a b = true.
Proof. intros Fa Fb. apply fle_finite; assumption. Qed.


