(* C03 - rebuild and copy of whole datatype trees; norm and unclient are invisible to export and validate; wfx of a
   concrete tree by evaluation *)
From Coq Require Import String Ascii.
From Coq Require Import ZArith NArith Bool List Lia.
Import ListNotations.
Require Import FV.Base.Util FV.Base.F64 FV.Base.F64Lemmas FV.Base.PyVal FV.C01.Model FV.C01.Lemmas FV.Gen.C03 FV.C03.Model FV.C03.Lemmas.

Lemma map_fst_norm p (ms : list (str * xt)) : map fst (map (fun q => (fst q, norm p (snd q))) ms) = map fst ms.
Proof. rewrite map_map. reflexivity. Qed.

Lemma mk_struct_list (ms : list (str * xt)) opt c : ms <> [] -> forallb (fun n => mem_str n (map fst ms)) opt = true ->
  mk_struct ms (PList (map PStr opt)) c = Ok (XStruct ms opt c).
Proof.
  intros Hne Hopt. unfold mk_struct. destruct ms as [|m0 ms]; [contradiction|]. cbn [py_iter].
  remember (map fst (m0 :: ms)) as names.
  match goal with |- ?go _ >>= _ = _ => assert (G : go (map PStr opt) = Ok opt) end; [|rewrite G; reflexivity].
  induction opt as [|s opt IH]; [reflexivity|]. cbn [forallb] in Hopt. apply andb_true_iff in Hopt as [H1 H2].
  cbn [map]. rewrite H1, (IH H2). reflexivity.
Qed.
Lemma mk_struct_none (ms : list (str * xt)) c : ms <> [] -> mk_struct ms PNone c = Ok (XStruct ms (map fst ms) c).
Proof. intros Hne. unfold mk_struct. destruct ms; [contradiction|reflexivity]. Qed.
Lemma map_nonempty {A B} (f : A -> B) l : l <> [] -> map f l <> [].
Proof. destruct l; [contradiction|discriminate]. Qed.

Theorem rebuild_ok p : forall x, wfx x -> forall fuel, depth x <= fuel -> rebuilds_at fuel p x.
Proof.
  induction x as [ | | | | | | | |es IHes|ms opt c IHms] using xt_ind2; intros HW fuel HD; (destruct fuel as [|fl]; [cbn in HD; lia|]).
  - apply rebuild_float, HW.
  - apply rebuild_int, HW.
  - apply rebuild_scaled, HW.
  - apply rebuild_bool.
  - apply rebuild_enum, HW.
  - apply rebuild_string, HW.
  - apply rebuild_blob, HW.
  - intros j E. destruct HW as (HWe & Ha & Hb & Hle). cbn in HD.
    cbn [xt_export] in E. apply bind_ok in E as (je & Eje & E). injection E as <-.
    cbn. rewrite (IHx HWe fl ltac:(lia) je Eje). cbn [bind norm].
    unfold mk_array, none_or. cbv beta iota. rewrite Ha, Hb. cbn [as_z bind]. rewrite Hle. reflexivity.
  - intros j E. destruct HW as (Hne & HWs). cbn in HD. apply all_Forall in HWs.
    cbn [xt_export] in E. fold export_list in E. apply bind_ok in E as (js & Ejs & E). injection E as <-.
    assert (HDs : Forall (fun e => depth e <= fl) es) by (apply depth_list_le; lia).
    assert (G : Forall (rebuilds_at fl p) es) by (rewrite Forall_forall in *; auto).
    apply get_list_ok with (js := js) in G; [|exact Ejs].
    destruct es as [|e0 es]; [contradiction|].
    destruct js as [|j0 js]; [cbn in Ejs; apply bind_ok in Ejs as (? & _ & Ejs); apply bind_ok in Ejs as (? & _ & Ejs); discriminate|].
    cbn. unfold get_list in G. cbn beta iota in G. rewrite G. reflexivity.
  - intros j E. destruct HW as (Hne & Hopt & Hform & HWs). cbn in HD. apply all_Forall in HWs.
    cbn [xt_export] in E. fold export_members in E. apply bind_ok in E as (js & Ejs & E). injection E as <-.
    assert (HDs : Forall (fun q => depth (snd q) <= fl) ms) by (apply depth_members_le; lia).
    assert (G : Forall (fun q => rebuilds_at fl p (snd q)) ms) by (rewrite Forall_forall in *; auto).
    apply get_members_ok with (js := js) in G; [|exact Ejs].
    destruct Hform as [Hneq| ->].
    + rewrite Hneq. cbn. fold (get_members fl p). rewrite G. cbn [bind].
      rewrite mk_struct_list; [reflexivity|apply map_nonempty, Hne|rewrite map_fst_norm; exact Hopt].
    + rewrite set_neq_refl. cbn. fold (get_members fl p). rewrite G. cbn [bind].
      rewrite mk_struct_none; [|apply map_nonempty, Hne]. rewrite map_fst_norm. reflexivity.
Qed.

Fixpoint unclient (x : xt) : xt :=
  match x with
  | XArray e a b => XArray (unclient e) a b
  | XTuple es => XTuple (map unclient es)
  | XStruct ms opt _ => XStruct (map (fun q => (fst q, unclient (snd q))) ms) opt false
  | _ => x
  end.

(* DataType.copy: get_datatype(self.export_datatype()) with an empty parameter name *)
Lemma rebuild_copy x j : wfx x -> depth x <= 2 -> xt_export x = Ok j -> rebuild 2 x = Ok (norm [] x).
Proof. intros HW HD E. unfold rebuild. rewrite E. cbn [bind]. rewrite (rebuild_ok [] x HW 2 HD j E). reflexivity. Qed.

Theorem copy_ok : forall x, wfx x -> xt_copy x = Ok (unclient x).
Proof.
  induction x as [ | | | | | | | |es IHes|ms opt c IHms] using xt_ind2; intros HW; try exact (rebuild_copy _ _ HW (le_S _ _ (le_n _)) eq_refl).
  - pose proof HW as (_ & _ & (k1 & _ & Ek1 & _) & (k2 & _ & Ek2 & _) & _).
    eapply (rebuild_copy _ _ HW (le_S _ _ (le_n _))). cbn [xt_export]. rewrite Ek1, Ek2. reflexivity.
  - reflexivity.
  - destruct t; [|exact (rebuild_copy _ _ HW (le_S _ _ (le_n _)) eq_refl)].
    destruct HW as (_ & _ & _ & Ht). destruct (Ht eq_refl) as [-> ->]. reflexivity.
  - destruct HW as (HWe & _). cbn [xt_copy unclient]. rewrite (IHx HWe). reflexivity.
  - destruct HW as (_ & HWs). apply all_Forall in HWs. cbn [xt_copy unclient].
    match goal with |- ?go es >>= _ = _ => assert (G : go es = Ok (map unclient es)) end.
    { revert HWs. induction IHes as [|e es He _ IH]; intros HWs; [reflexivity|].
      apply Forall_cons_iff in HWs as [We Wes]. rewrite (He We). cbn [bind]. rewrite (IH Wes). reflexivity. }
    rewrite G. reflexivity.
  - destruct HW as (_ & _ & _ & HWs). apply all_Forall in HWs. cbn [xt_copy unclient].
    match goal with |- ?go ms >>= _ = _ => assert (G : go ms = Ok (map (fun q => (fst q, unclient (snd q))) ms)) end.
    { revert HWs. induction IHms as [|[n e] ms He _ IH]; intros HWs; [reflexivity|].
      apply Forall_cons_iff in HWs as [We Wes]. cbn [snd] in He, We. rewrite (He We). cbn [bind]. rewrite (IH Wes). reflexivity. }
    rewrite G. reflexivity.
Qed.

(* a tree built by the constructors carries no client flag: its copy has the same description *)
Fixpoint server_side (x : xt) : Prop :=
  match x with
  | XArray e _ _ => server_side e
  | XTuple es => (fix all (l : list xt) : Prop := match l with [] => True | e :: r => server_side e /\ all r end) es
  | XStruct ms _ c =>
      c = false /\
      (fix all (l : list (str * xt)) : Prop := match l with [] => True | q :: r => server_side (snd q) /\ all r end) ms
  | _ => True
  end.

Lemma unclient_server : forall x, server_side x -> unclient x = x.
Proof.
  induction x as [ | | | | | | | |es IHes|ms opt c IHms] using xt_ind2; intros HS; try reflexivity.
  - cbn in *. rewrite (IHx HS). reflexivity.
  - cbn in *. apply all_Forall in HS. f_equal.
    revert HS. induction IHes as [|e es He _ IH]; intros HS; [reflexivity|].
    apply Forall_cons_iff in HS as [Se Ses]. cbn. rewrite (He Se), (IH Ses). reflexivity.
  - cbn in *. destruct HS as [-> HS]. apply all_Forall in HS. f_equal.
    revert HS. induction IHms as [|[n e] ms He _ IH]; intros HS; [reflexivity|].
    apply Forall_cons_iff in HS as [Se Ses]. cbn in *. rewrite (He Se), (IH Ses). reflexivity.
Qed.

(* the rebuilt type validates like the original:
   erase forgets enum name / TextType; the client flag is not consulted by validate (allow_optional = True) *)
Lemma map_res_ext f g l : (forall x, f x = g x) -> map_res f l = map_res g l.
Proof. intros H. induction l as [|x l IH]; [reflexivity|]. cbn [map_res]. rewrite H. fold (map_res f) (map_res g). rewrite IH. reflexivity. Qed.
Lemma map2_res_ext f g : (forall x p, f x p = g x p) -> forall l ps, map2_res f l ps = map2_res g l ps.
Proof.
  intros H. induction l as [|x l IH]; intros [|q ps]; try reflexivity.
  cbn [map2_res]. rewrite H. fold (map2_res f) (map2_res g). rewrite IH. reflexivity.
Qed.

Definition same_validate (a b : dtype) : Prop := forall v prev, dt_validate a v prev = dt_validate b v prev.

Lemma mapd_res_same (ds ds' : list dtype) : Forall2 same_validate ds ds' -> forall l,
  mapd_res (fun d1 x => dt_validate d1 x PNone) ds l = mapd_res (fun d1 x => dt_validate d1 x PNone) ds' l.
Proof.
  induction 1 as [|d d' ds ds' Hd Hds IH]; intros l; [reflexivity|]. destruct l as [|x l]; [reflexivity|].
  cbn [mapd_res]. rewrite (Hd x PNone).
  fold (mapd_res (fun d1 x => dt_validate d1 x PNone)). rewrite IH. reflexivity.
Qed.
Lemma mapd2_res_same (ds ds' : list dtype) : Forall2 same_validate ds ds' -> forall l ps,
  mapd2_res dt_validate ds l ps = mapd2_res dt_validate ds' l ps.
Proof.
  induction 1 as [|d d' ds ds' Hd Hds IH]; intros l ps; [reflexivity|]. destruct l as [|x l]; [reflexivity|].
  destruct ps as [|q ps]; [reflexivity|].
  cbn [mapd2_res]. rewrite (Hd x q). fold (mapd2_res dt_validate). rewrite IH. reflexivity.
Qed.
Lemma member_res_same k x (ms ms' : list (str * dtype)) :
  Forall2 (fun a b => fst a = fst b /\ same_validate (snd a) (snd b)) ms ms' ->
  member_res (fun d1 x => dt_validate d1 x PNone) k x ms = member_res (fun d1 x => dt_validate d1 x PNone) k x ms'.
Proof.
  induction 1 as [|[n d] [n' d'] ms ms' [Hn Hd] Hms IH]; [reflexivity|]. cbn in Hn, Hd. subst n'.
  cbn [member_res]. rewrite (Hd x PNone). fold (member_res (fun d1 x => dt_validate d1 x PNone) k x). rewrite IH. reflexivity.
Qed.
Lemma struct_fold_same (ms ms' : list (str * dtype)) :
  Forall2 (fun a b => fst a = fst b /\ same_validate (snd a) (snd b)) ms ms' -> forall kv acc,
  struct_fold (fun d1 x => dt_validate d1 x PNone) true ms kv acc =
  struct_fold (fun d1 x => dt_validate d1 x PNone) true ms' kv acc.
Proof.
  intros H. induction kv as [|[k x] kv IH]; intros acc; [reflexivity|].
  cbn [struct_fold]. fold (struct_fold (fun d1 x => dt_validate d1 x PNone) true ms)
                          (struct_fold (fun d1 x => dt_validate d1 x PNone) true ms').
  rewrite (member_res_same k x ms ms' H). destruct x; try (rewrite IH; reflexivity);
    destruct (member_res _ k _ ms'); cbn [bind]; try reflexivity; apply IH.
Qed.

Lemma struct_check_client names opt c c' v : struct_check names opt c true v = struct_check names opt c' true v.
Proof. unfold struct_check. rewrite !orb_true_r. reflexivity. Qed.

(* norm p and unclient are both maps over the tree that keep the containers and change in a leaf only what export
   and erase forget; the client flag they set is not consulted by validate (allow_optional = True) *)
Definition leafwise (g : xt -> xt) (x : xt) : Prop :=
  match x with
  | XArray _ _ _ | XTuple _ | XStruct _ _ _ => True
  | _ => xt_export (g x) = xt_export x /\ erase (g x) = erase x
  end.

Section TreeMap.
  Variables (g : xt -> xt) (c' : bool).
  Hypothesis g_array : forall e a b, g (XArray e a b) = XArray (g e) a b.
  Hypothesis g_tuple : forall es, g (XTuple es) = XTuple (map g es).
  Hypothesis g_struct : forall ms o c, g (XStruct ms o c) = XStruct (map (fun q => (fst q, g (snd q))) ms) o c'.
  Hypothesis g_leaf : forall x, leafwise g x.

  Lemma export_tree_map : forall x, xt_export (g x) = xt_export x.
  Proof.
    induction x as [ | | | | | | | |es IHes|ms opt c IHms] using xt_ind2; try (match goal with |- xt_export (g ?y) = _ => exact (proj1 (g_leaf y)) end).
    - rewrite g_array. cbn [xt_export]. rewrite IHx. reflexivity.
    - rewrite g_tuple. cbn [xt_export]. fold export_list. f_equal.
      induction IHes as [|e l He Hl IHl]; [reflexivity|]. cbn [map export_list]. rewrite He. fold export_list. rewrite IHl.
      reflexivity.
    - rewrite g_struct. cbn [xt_export]. fold export_members. rewrite map_map. cbn [fst]. f_equal.
      induction IHms as [|[n e] l He Hl IHl]; [reflexivity|]. cbn [map export_members fst snd] in *. rewrite He.
      fold export_members. rewrite IHl. reflexivity.
  Qed.

  Lemma validate_tree_map : forall x, same_validate (erase (g x)) (erase x).
  Proof.
    induction x as [ | | | | | | | |es IHes|ms opt c IHms] using xt_ind2; intros v prev;
      try (match goal with |- context [g ?y] => rewrite (proj2 (g_leaf y)) end; reflexivity).
    - rewrite g_array. cbn [erase dt_validate]. destruct (array_check a b v); [|reflexivity]. cbn [bind].
      destruct (py_iter v) as [items|]; [|reflexivity]. destruct (py_truthy prev).
      + destruct (py_iter prev) as [ps|]; [|reflexivity]. rewrite (map2_res_ext _ _ IHx). reflexivity.
      + rewrite (map_res_ext _ _ _ (fun x0 => IHx x0 PNone)). reflexivity.
    - rewrite g_tuple. cbn [erase dt_validate]. rewrite !map_length.
      assert (F : Forall2 same_validate (map erase (map g es)) (map erase es)).
      { induction IHes as [|e es He Hes IH]; constructor; assumption. }
      destruct (tuple_check (length es) v); [|reflexivity]. cbn [bind].
      destruct (py_iter v) as [items|]; [|reflexivity].
      destruct prev; try (rewrite (mapd_res_same _ _ F); reflexivity);
        match goal with |- context [py_iter ?q] => destruct (py_iter q); [|reflexivity] end;
        rewrite (mapd2_res_same _ _ F); reflexivity.
    - rewrite g_struct. cbn [erase dt_validate].
      assert (F : Forall2 (fun a b => fst a = fst b /\ same_validate (snd a) (snd b))
                    (map (fun q => (fst q, erase (snd q))) (map (fun q => (fst q, g (snd q))) ms))
                    (map (fun q => (fst q, erase (snd q))) ms)).
      { induction IHms as [|e es He Hes IH]; constructor; [split; [reflexivity|exact He]|assumption]. }
      rewrite !map_map. cbn [fst].
      rewrite (struct_check_client _ opt c' c v).
      rewrite !map_map in F. cbn [fst snd] in F.
      match goal with |- context [struct_check ?a ?b ?c ?d ?e] => destruct (struct_check a b c d e); [|reflexivity] end.
      cbn [bind]. destruct (if py_truthy prev then _ else _) as [start|]; [|reflexivity].
      destruct (negb (is_dict v)); [reflexivity|].
      rewrite (struct_fold_same _ _ F). reflexivity.
  Qed.
End TreeMap.

Lemma norm_leafwise p x : leafwise (norm p) x.
Proof. destruct x; try exact I; split; reflexivity. Qed.
Lemma unclient_leafwise x : leafwise unclient x.
Proof. destruct x; try exact I; split; reflexivity. Qed.

(* wfx of a concrete tree is decided by evaluation *)
Lemma res_is_eq r v : res_is r v = true -> r = Ok v.
Proof.
  unfold res_is. destruct r as [[]|], v; try discriminate; intros H;
    [apply Z.eqb_eq in H|apply fsame_eq in H|apply str_eqb_eq in H]; subst; reflexivity.
Qed.

Definition gridb (s x : f64) : bool :=
  match scaled_int x s with
  | Ok k => fis_finite (fmk k 0) && res_is (pv_float (PFloat (fmul (fmk k 0) s))) (PFloat x)
  | Err _ => false
  end.
Lemma gridb_grid s x : gridb s x = true -> grid_aligned s x.
Proof.
  unfold gridb, grid_aligned. destruct (scaled_int x s) as [k|]; [|discriminate]. intros H. apply andb_prop in H as [F R].
  exists k, (fmk k 0). split; [reflexivity|]. split; [|apply res_is_eq, R].
  unfold float_of_Z, of_Z. cbv zeta. rewrite F. reflexivity.
Qed.

Lemma list_eqb_eq {A} (eqb : A -> A -> bool) : (forall a b, eqb a b = true -> a = b) ->
  forall l l', list_eqb eqb l l' = true -> l = l'.
Proof.
  intros E. induction l as [|a l IH]; destruct l' as [|b l']; cbn; try discriminate; [reflexivity|].
  intros H. apply andb_prop in H as [H1 H2]. rewrite (E _ _ H1), (IH _ H2). reflexivity.
Qed.

Definition nonempty {A} (l : list A) : bool := match l with [] => false | _ => true end.
Lemma nonempty_ne {A} (l : list A) : nonempty l = true -> l <> [].
Proof. destruct l; [discriminate|discriminate]. Qed.

Definition fixb (pv : pyval -> res pyval) (v : pyval) : bool := res_is (pv v) v.

Fixpoint wfxb (x : xt) : bool :=
  match x with
  | XFloat mn mx a r u f =>
      fixb pv_float (PFloat mn) && fixb pv_float (PFloat mx) &&
      fixb pv_float0 (PFloat a) && fixb pv_float0 (PFloat r) &&
      fixb pv_unit (PStr u) && fixb pv_fmt (PStr f) && has_pct f && negb (flt mx mn)
  | XInt mn mx => fixb pv_intU (PInt mn) && fixb pv_intU (PInt mx) && negb (mx <? mn)%Z
  | XScaled s mn mx a r u f =>
      fixb pv_scale (PFloat s) && fixb pv_float0 (PFloat s) && gridb s mn && gridb s mx &&
      fixb pv_float0 (PFloat a) && fixb pv_float0 (PFloat r) &&
      fixb pv_unit (PStr u) && fixb pv_fmt (PStr f) && has_pct f && negb (flt mx mn)
  | XBool => true
  | XEnum _ ms =>
      match enum_add (map (fun q => (fst q, PInt (snd q))) ms) [] with
      | Ok ms' => list_eqb (pair_eqb str_eqb Z.eqb) ms' ms
      | Err _ => false
      end && nonempty ms
  | XString a b u t =>
      fixb pv_int0U (PInt a) && fixb pv_int0U (PInt b) && negb (b <? a)%Z &&
      (negb t || (Z.eqb a 0 && negb u))
  | XBlob a b => fixb pv_int0 (PInt a) && fixb pv_int0 (PInt b) && negb (b <? a)%Z
  | XArray e a b => wfxb e && fixb pv_int0 (PInt a) && fixb pv_int0 (PInt b) && negb (b <? a)%Z
  | XTuple es => nonempty es && forallb wfxb es
  | XStruct ms opt _ =>
      nonempty ms && forallb (fun n => mem_str n (map fst ms)) opt &&
      (set_neq opt (map fst ms) || list_eqb str_eqb opt (map fst ms)) && forallb (fun q => wfxb (snd q)) ms
  end.

Theorem wfxb_wfx : forall x, wfxb x = true -> wfx x.
Proof.
  induction x as [ | | | | | | |e a b IHe|es IHes|ms opt c IHms] using xt_ind2; cbn [wfxb wfx];
    unfold fixb, fixf, fixz, fixs; rewrite ?andb_true_iff, ?negb_true_iff; intros HB.
  - (* XFloat *) decompose [and] HB. repeat apply conj; auto using res_is_eq.
  - (* XInt *) decompose [and] HB. repeat apply conj; auto using res_is_eq.
  - (* XScaled *) decompose [and] HB. repeat apply conj; auto using res_is_eq, gridb_grid.
  - (* XBool *) exact I.
  - (* XEnum *) destruct HB as [He Hne]. split; [|apply nonempty_ne, Hne].
    destruct (enum_add _ []) as [ms'|]; [|discriminate]. f_equal. apply (list_eqb_eq (pair_eqb str_eqb Z.eqb)); [|exact He].
    intros [a1 a2] [b1 b2] E. apply andb_prop in E as [E1 E2]. apply str_eqb_eq in E1. apply Z.eqb_eq in E2. cbn in *. congruence.
  - (* XString *) destruct HB as [[[Ha Hb] Hle] Ht]. repeat apply conj; auto using res_is_eq.
    intros ->. cbn in Ht. apply andb_prop in Ht as [Ea Eu]. apply Z.eqb_eq in Ea. apply negb_true_iff in Eu. auto.
  - (* XBlob *) decompose [and] HB. repeat apply conj; auto using res_is_eq.
  - (* XArray *) destruct HB as [[[He Ha] Hb] Hle]. repeat apply conj; auto using res_is_eq.
  - (* XTuple *) destruct HB as [Hne Hall]. split; [apply nonempty_ne, Hne|].
    apply all_Forall. rewrite Forall_forall in *. rewrite forallb_forall in Hall. auto.
  - (* XStruct *) destruct HB as [[[Hne Hopt] Hform] Hall]. split; [apply nonempty_ne, Hne|]. split; [exact Hopt|]. split.
    + destruct (set_neq opt (map fst ms)); [left; reflexivity|right]. apply (list_eqb_eq str_eqb str_eqb_eq), Hform.
    + apply (all_Forall (fun q => wfx (snd q))). rewrite Forall_forall in *. rewrite forallb_forall in Hall. auto.
Qed.

Ltac wfx_by_compute := apply wfxb_wfx; vm_compute; reflexivity.
