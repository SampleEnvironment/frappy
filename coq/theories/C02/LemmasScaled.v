(* C02 - the numeric leaves, as binary64 arithmetic (Flocq), and with them the wire round trip of every tree.
   Rounding to nearest even is rnd on R; the model's float operations are their rounded exact results unless they
   overflow (the *_val lemmas).
   int: an int of magnitude up to 2^64 survives int() / + 0.0 / round() exactly.
   double: a finite float within its limits is unchanged by export, import (+ 0.0, clamp to +-max) and validate
   (tolerance test, clamp).
   scaled: for a normal positive scale s and a grid index k with |k| <= 2^51 the float fl(k*s) is exported as k again,
   round(fl(fl(k*s)/s)) = k (both roundings have relative error <= 2^-53, so the quotient is within
   k*(1 +- (2^-52 + 2^-106)), less than 1/2 away from k; for |k| = 2^51 the product is exact), and the whole chain
   export -> import -> validate returns the same number (rt_scaled).  Stated on the model's own functions.
   The guard of a scaled leaf type contains the window test of validate for its extreme grid values; it is proved from
   indices up to 2^50 (window_small) or from limits on the grid and indices up to 2^51 (window_aligned), and it is
   refuted in general between 2^50.68 and 2^51 (Refuted.v). *)
From Coq Require Import ZArith Bool Reals Lra Lia List.
From Flocq Require Import Core.Zaux Core.Raux Core.Defs Core.Generic_fmt Core.Float_prop Core.FLT Core.FLX Core.FIX
  Core.Round_NE IEEE754.BinarySingleNaN.
Import ListNotations.
Require Import FV.Base.Util FV.Base.F64 FV.Base.F64Lemmas FV.Base.F64Facts FV.Base.PyVal FV.C01.Model FV.C01.F64More
  FV.C01.Lemmas FV.C02.Model FV.C02.Lemmas.

Local Open Scope R_scope.

(* rnd is the rnd of Base/F64Facts.v written with literals: the two are convertible, so the lemmas there about
   rounding (rnd_le, rnd_error) apply to this one as they stand *)
Definition fexp64 := FLT_exp (-1074) 53.
Definition rnd (x : R) : R := round radix2 fexp64 ZnearestE x.
Definition fmt (x : R) : Prop := generic_format radix2 fexp64 x.

#[local] Instance p53 : Prec_gt_0 53. Proof. unfold Prec_gt_0. lia. Qed.
#[local] Instance vexp64 : Valid_exp fexp64. Proof. unfold fexp64. apply FLT_exp_valid. exact p53. Qed.

Lemma rnd_fmt x : fmt x -> rnd x = x.
Proof. intros H. unfold rnd. apply round_generic; auto with typeclass_instances. Qed.
Lemma fmt_B2R (x : f64) : fmt (B2R x).
Proof. exact (generic_format_B2R prec emax x). Qed.
Lemma fmt_bpow e : (-1074 <= e)%Z -> fmt (bpow radix2 e).
Proof. intros He. apply generic_format_bpow. unfold fexp64, FLT_exp. lia. Qed.
Lemma rnd_abs_le x y : fmt y -> Rabs x <= y -> Rabs (rnd x) <= y.
Proof. intros Fy H. unfold rnd. apply abs_round_le_generic; auto with typeclass_instances. Qed.

Local Notation BIG64 := (bpow radix2 1024).

Lemma flt_le_trans (a b c : f64) : flt a b = true -> fle b c = true -> flt a c = true.
Proof.
  intros H1 H2. destruct (flt_true_notnan _ _ H1) as [Na Nb]. destruct (fle_true_notnan _ _ H2) as [_ Nc].
  apply flt_true in H1; auto. apply fle_true in H2; auto. apply flt_true; auto. lra.
Qed.
Lemma fle_lt_trans (a b c : f64) : fle a b = true -> flt b c = true -> flt a c = true.
Proof.
  intros H1 H2. destruct (fle_true_notnan _ _ H1) as [Na Nb]. destruct (flt_true_notnan _ _ H2) as [_ Nc].
  apply fle_true in H1; auto. apply flt_true in H2; auto. apply flt_true; auto. lra.
Qed.

Lemma fclamp_in (lo v hi : f64) : fle lo v = true -> fle v hi = true -> fclamp lo v hi = v.
Proof.
  intros L1 L2. destruct (fle_true_notnan _ _ L1) as [Nl Nv]. destruct (fle_true_notnan _ _ L2) as [_ Nh].
  apply (fclamp_between lo v hi Nl Nv Nh (fle_trans _ _ _ L1 L2)); assumption.
Qed.

Lemma feq_same_number (a b : f64) : fis_finite a = true -> fis_finite b = true -> B2R a = B2R b -> feq a b = true.
Proof.
  intros Fa Fb H. rewrite fis_finite_is_finite in Fa, Fb. unfold feq.
  rewrite (Beqb_correct prec emax a b Fa Fb). apply Req_bool_true, H.
Qed.
Lemma feq_finite_R (a b : f64) : fis_finite a = true -> fis_finite b = true -> feq a b = true -> B2R a = B2R b.
Proof.
  intros Fa Fb. rewrite fis_finite_is_finite in Fa, Fb. unfold feq. rewrite (Beqb_correct prec emax a b Fa Fb).
  case Req_bool_spec; [auto|discriminate].
Qed.
Lemma feq_finite_l (a b : f64) : fis_finite b = true -> feq a b = true -> fis_finite a = true.
Proof.
  destruct a as [x|x| |x m e B]; try reflexivity; destruct b as [y|y| |y m' e' B']; cbn; try discriminate;
    destruct x; discriminate.
Qed.

(* the operations on finite operands, as long as the rounded exact result is below 2^1024 (Base/F64Facts.v), in
   the vocabulary used here *)
Lemma fadd_val (a b : f64) : fis_finite a = true -> fis_finite b = true ->
  Rabs (rnd (B2R a + B2R b)) < BIG64 ->
  fis_finite (fadd a b) = true /\ B2R (fadd a b) = rnd (B2R a + B2R b).
Proof. exact (F64Facts.fadd_val a b). Qed.
Lemma fsub_val (a b : f64) : fis_finite a = true -> fis_finite b = true ->
  Rabs (rnd (B2R a - B2R b)) < BIG64 ->
  fis_finite (fsub a b) = true /\ B2R (fsub a b) = rnd (B2R a - B2R b).
Proof. exact (F64Facts.fsub_val a b). Qed.
Lemma fmul_val (a b : f64) : fis_finite a = true -> fis_finite b = true ->
  Rabs (rnd (B2R a * B2R b)) < BIG64 ->
  fis_finite (fmul a b) = true /\ B2R (fmul a b) = rnd (B2R a * B2R b).
Proof. exact (F64Facts.fmul_val a b). Qed.
Lemma fdiv_val (f s : f64) : fis_finite f = true -> B2R s <> 0 ->
  Rabs (rnd (B2R f / B2R s)) < BIG64 ->
  fis_finite (fdiv f s) = true /\ B2R (fdiv f s) = rnd (B2R f / B2R s).
Proof. exact (F64Facts.fdiv_val f s). Qed.

Lemma fdiv_finite_val (f s : f64) : B2R s <> 0 -> fis_finite (fdiv f s) = true -> B2R (fdiv f s) = rnd (B2R f / B2R s).
Proof.
  intros Hs Fq. pose proof (Bdiv_correct prec emax prec_gt_0_64 prec_lt_emax_64 mode_NE f s Hs) as H.
  destruct (Rlt_bool _ _); [apply H|]. unfold fdiv in Fq. rewrite (inf_of_SF _ _ H) in Fq. discriminate.
Qed.

Lemma fmk_val m e : (Z.abs m < 2 ^ 53)%Z -> (-1074 <= e)%Z -> (e <= 971)%Z ->
  fis_finite (fmk m e) = true /\ B2R (fmk m e) = F2R (Float radix2 m e).
Proof. exact (fmk_exact m e). Qed.

Lemma of_Z_val k : (Z.abs k < 2 ^ 53)%Z -> fis_finite (of_Z k) = true /\ B2R (of_Z k) = IZR k.
Proof.
  intros Hk. destruct (fmk_val k 0 Hk ltac:(lia) ltac:(lia)) as [H1 H2]. unfold of_Z. split; [exact H1|].
  rewrite H2. unfold F2R. cbn. ring.
Qed.

Lemma F2R_int z : F2R (Float radix2 z 0) = IZR z.
Proof. unfold F2R. simpl. ring. Qed.

Lemma of_Z_small_finite z : (Z.abs z <= 2 ^ 64)%Z -> fis_finite (of_Z z) = true.
Proof.
  intros Hz.
  apply (no_overflow _ _ _ _ _ (binary_normalize_correct prec emax prec_gt_0_64 prec_lt_emax_64 mode_NE z 0 false)).
  rewrite F2R_int. apply Rle_lt_trans with (bpow radix2 64); [|apply bpow_lt; unfold emax; lia].
  apply rnd_abs_le; [apply fmt_bpow; lia|].
  rewrite <- abs_IZR, <- (IZR_Zpower radix2 64) by lia. apply IZR_le. exact Hz.
Qed.

Lemma int_call_exact z : fis_finite (of_Z z) = true -> int_call (PInt z) = Ok (PInt z).
Proof.
  intros Hf. unfold int_call. cbn [py_add0 py_int_num]. unfold float_of_Z. rewrite Hf. cbn [bind wrap_wrong].
  destruct (of_Z_integral z Hf) as (n & Hn).
  rewrite (fround_integral _ _ Hn), (cmp_Z_f_integral _ _ Hf Hn). reflexivity.
Qed.

Lemma rt_int E C mn mx : (- 2 ^ 64 <= mn)%Z -> (mx <= 2 ^ 64)%Z -> num_rt E C (TInt mn mx).
Proof.
  intros Hmn Hmx v Hv. destruct v; cbn [valid in_setb] in Hv; try discriminate.
  apply andb_prop in Hv. destruct Hv as [H1 H2].
  assert (Hz : (Z.abs z <= 2 ^ 64)%Z) by (apply Z.leb_le in H1; apply Z.leb_le in H2; lia).
  pose proof (int_call_exact z (of_Z_small_finite z Hz)) as Hc.
  exists (PInt z), (PInt z), (PInt z). cbn [dt_export dt_import dt_validate dt_call].
  unfold int_export, int_validate. cbn [py_int py_int_num bind]. rewrite Hc, H1, H2. cbn.
  repeat split; try constructor; discriminate.
Qed.

(* the clamp to +-sys.float_info.max leaves every finite float alone *)
Lemma clamp_fmax (g : f64) : fis_finite g = true -> fclamp (fopp fmaxval) g fmaxval = g.
Proof.
  intros Fg. assert (Fm : fis_finite fmaxval = true) by (vm_compute; reflexivity).
  assert (Fo : fis_finite (fopp fmaxval) = true) by (vm_compute; reflexivity).
  pose proof (abs_B2R_le_emax_minus_prec prec emax prec_gt_0_64 g) as Hb. apply Rabs_le_inv in Hb.
  rewrite <- B2R_fmaxval in Hb.
  apply fclamp_in; apply fle_finite; try assumption; [unfold fopp; rewrite B2R_Bopp|]; apply Hb.
Qed.

Lemma fabs_nonneg (y : f64) : notnan y -> notnan (fabs y) /\ 0 <= key (fabs y).
Proof.
  intros Hy. destruct y as [s|s| |s m e B]; try discriminate; (split; [reflexivity|]).
  - change (0 <= 0). lra.
  - change (0 <= BIG). pose proof BIG_pos. lra.
  - change (0 <= B2R (fabs (B754_finite s m e B))). unfold fabs. rewrite B2R_Babs. apply Rabs_pos.
Qed.

Lemma pymax_nonneg (x a : f64) : notnan x -> 0 <= key x -> notnan (pymax x a) /\ 0 <= key (pymax x a).
Proof.
  intros Nx Hx. unfold pymax. destruct (flt x a) eqn:Hl; [|auto].
  destruct (flt_true_notnan _ _ Hl) as [_ Na]. split; [exact Na|]. apply flt_true in Hl; auto. lra.
Qed.

(* import_value (+0.0, clamp to +-max) of a finite float *)
Lemma float_call_finite f : fis_finite f = true ->
  exists g, float_call (PFloat f) = Ok (PFloat g) /\ fis_finite g = true /\ B2R g = B2R f.
Proof.
  intros Ff. destruct (fadd_zero f Ff) as [Fg Hg]. exists (fadd f fzero).
  unfold float_call. cbn [py_add0 wrap_wrong]. rewrite (clamp_fmax _ Fg). auto.
Qed.

(* a finite float within the limits passes validate unchanged (as a number): the tolerance widens the window *)
Lemma float_validate_in_range mn mx a r g :
  fis_finite mn = true -> fis_finite mx = true -> fis_finite r = true -> fis_finite g = true ->
  fle mn g = true -> fle g mx = true ->
  exists g', float_validate mn mx a r (PFloat g) = Ok (PFloat g') /\ fis_finite g' = true /\ B2R g' = B2R g.
Proof.
  intros Fmn Fmx Fr Fg L1 L2.
  destruct (float_call_finite g Fg) as (g2 & Hc & F2 & B2).
  exists g2. unfold float_validate. rewrite Hc.
  apply fle_finite in L1, L2; try assumption. rewrite <- B2 in L1, L2.
  destruct (fabs_nonneg _ (fmul_finite_notnan g2 r F2 Fr)) as [Nx Hx].
  destruct (pymax_nonneg _ a Nx Hx) as [Np Hp].
  set (p := pymax (fabs (fmul g2 r)) a) in *.
  destruct (fsub_le_self mn p Fmn Np Hp) as [Ns Hs]. destruct (fadd_ge_self mx p Fmx Np Hp) as [Na Ha].
  rewrite (key_finite _ Fmn) in Hs. rewrite (key_finite _ Fmx) in Ha. pose proof (key_finite _ F2) as K2.
  assert (T1 : fle (fsub mn p) g2 = true) by (apply fle_true; auto using finite_notnan; lra).
  assert (T2 : fle g2 (fadd mx p) = true) by (apply fle_true; auto using finite_notnan; lra).
  rewrite T1, T2. cbn [andb]. rewrite fclamp_in by (apply fle_finite; assumption). auto.
Qed.

Lemma rt_float E C mn mx a r :
  fis_finite mn = true -> fis_finite mx = true -> fis_finite r = true -> num_rt E C (TFloat mn mx a r).
Proof.
  intros Fmn Fmx Fr v Hv. destruct v; cbn [valid in_setb] in Hv; try discriminate.
  apply andb_prop in Hv. destruct Hv as [Ff Hv]. apply andb_prop in Hv. destruct Hv as [L1 L2].
  destruct (float_call_finite f Ff) as (g & Hc & Fg & Bg).
  apply fle_finite in L1, L2; try assumption. rewrite <- Bg in L1, L2. apply fle_finite in L1, L2; try assumption.
  destruct (float_validate_in_range mn mx a r g Fmn Fmx Fr Fg L1 L2) as (g' & Hv & Fg' & Bg').
  exists (PFloat f), (PFloat g), (PFloat g'). cbn [dt_export dt_import dt_validate dt_call].
  unfold float_export. cbn [py_float bind]. rewrite Hc, Hv.
  repeat split; [|discriminate]. constructor. apply feq_same_number; auto. congruence.
Qed.

(* the error of one rounding: relative part u53 = 2^-53, absolute part eta = 2^-1075 *)
Definition u53 : R := / 9007199254740992.

Definition eta : R := bpow radix2 (-1075).

Lemma u53_val : u53 = bpow radix2 (-53).
Proof. unfold u53. change (-53)%Z with (- (53))%Z. rewrite bpow_opp. rewrite <- (IZR_Zpower radix2 53) by lia. reflexivity. Qed.

(* absolute error of one rounding *)
Lemma rnd_err x : Rabs (rnd x - x) <= u53 * Rabs x + eta.
Proof. rewrite u53_val. exact (rnd_error x). Qed.

Lemma eta_small s : bpow radix2 (-1022) <= s -> 0 < eta /\ eta <= u53 * s /\ eta <= u53.
Proof.
  intros Hs. unfold eta. split; [apply bpow_gt_0|]. rewrite u53_val. split.
  - change (-1075)%Z with (-53 + -1022)%Z. rewrite bpow_plus. apply Rmult_le_compat_l; [apply bpow_ge_0|exact Hs].
  - apply bpow_le. lia.
Qed.

Lemma IZR_abs_pow2 z n : (0 <= n)%Z -> Z.abs z = (2 ^ n)%Z -> IZR z = bpow radix2 n \/ IZR z = - bpow radix2 n.
Proof.
  intros Hn E. rewrite <- (IZR_Zpower radix2 n) by exact Hn. change (radix2 ^ n)%Z with (2 ^ n)%Z. rewrite <- opp_IZR.
  destruct (Z.abs_eq_or_opp z) as [A|A]; [left|right]; f_equal; lia.
Qed.

(* an integer of at most 53 bits is a binary64 number *)
Lemma fmt_int z : (Z.abs z <= 2 ^ 53)%Z -> fmt (IZR z).
Proof.
  intros Hz. destruct (Z.eq_dec (Z.abs z) (2 ^ 53)) as [E|N].
  - destruct (IZR_abs_pow2 z 53 ltac:(lia) E) as [-> | ->]; [|apply generic_format_opp]; apply fmt_bpow; lia.
  - replace (IZR z) with (F2R (Float radix2 z 0)) by (unfold F2R; cbn; ring).
    apply generic_format_FLT. exists (Float radix2 z 0); [reflexivity| |]; cbn; lia.
Qed.

(* scaling a binary64 number by a power of two (no upper exponent bound on R) *)
Lemma fmt_scale x (e : Z) : (0 <= e)%Z -> fmt x -> fmt (x * bpow radix2 e).
Proof.
  intros He Hx. apply FLT_format_generic in Hx; [|exact p53]. destruct Hx as [f Hf Hm Hx].
  apply generic_format_FLT. exists (Float radix2 (Fnum f) (Fexp f + e)).
  - rewrite Hf. unfold F2R. cbn [Fnum Fexp]. rewrite bpow_plus. ring.
  - exact Hm.
  - cbn [Fexp]. lia.
Qed.

(* the heart: two roundings around a multiplication and a division by s keep the quotient within 1/2 of k *)
Lemma stable_R s k : fmt s -> bpow radix2 (-1022) <= s -> (Z.abs k <= 2 ^ 51)%Z ->
  Rabs (rnd (rnd (IZR k * s) / s) - IZR k) < / 2.
Proof.
  intros Fs Hs Hk. pose proof (bpow_gt_0 radix2 (-1022)) as P.
  destruct (Z.eq_dec (Z.abs k) (2 ^ 51)) as [E|N].
  - (* exact product *)
    assert (Fk : fmt (IZR k * s)).
    { destruct (IZR_abs_pow2 k 51 ltac:(lia) E) as [-> | ->].
      - rewrite Rmult_comm. apply fmt_scale; [lia|exact Fs].
      - replace (- bpow radix2 51 * s) with (- (s * bpow radix2 51)) by ring.
        apply generic_format_opp. apply fmt_scale; [lia|exact Fs]. }
    rewrite (rnd_fmt _ Fk). replace (IZR k * s / s) with (IZR k) by (field; lra).
    rewrite (rnd_fmt _ (fmt_int k ltac:(lia))). rewrite Rminus_diag_eq by reflexivity. rewrite Rabs_R0. lra.
  - (* |k| < 2^51: the two errors add up to 2^-52 |k| + 2^-53 and a little, below 1/2 *)
    destruct (eta_small s Hs) as (_ & E1 & _).
    destruct (eta_small (/ 2)) as (_ & Eh & _); [change (/ 2) with (bpow radix2 (-1)); apply bpow_le; lia|].
    assert (K : Rabs (IZR k) <= 2251799813685247) by (rewrite <- abs_IZR; apply IZR_le; lia).
    pose proof (rnd_err (IZR k * s)) as H1. set (g := rnd (IZR k * s)) in *.
    pose proof (rnd_err (g / s)) as H2. rewrite Rabs_mult, (Rabs_pos_eq s) in H1 by lra.
    assert (D : Rabs (g / s - IZR k) <= u53 * Rabs (IZR k) + u53).
    { replace (g / s - IZR k) with ((g - IZR k * s) * / s) by (field; lra).
      rewrite Rabs_mult, Rabs_inv, (Rabs_pos_eq s) by lra.
      apply Rmult_le_reg_r with s; [lra|]. rewrite Rmult_assoc, Rinv_l, Rmult_1_r by lra. unfold u53 in *. lra. }
    assert (T : Rabs (g / s) <= Rabs (IZR k) + (u53 * Rabs (IZR k) + u53)).
    { replace (g / s) with (IZR k + (g / s - IZR k)) at 1 by ring. eapply Rle_trans; [apply Rabs_triang|]. lra. }
    replace (rnd (g / s) - IZR k) with ((rnd (g / s) - g / s) + (g / s - IZR k)) by ring.
    eapply Rle_lt_trans; [apply Rabs_triang|]. pose proof (Rabs_pos (IZR k)). unfold u53 in *. lra.
Qed.

Definition scale_ok (s : f64) : bool := fis_finite s && fle (fmk 1 (-1022)) s && fle s (fmk 1 970).

Lemma scale_ok_R s : scale_ok s = true ->
  fis_finite s = true /\ bpow radix2 (-1022) <= B2R s <= bpow radix2 970.
Proof.
  unfold scale_ok. intros H. apply andb_prop in H. destruct H as [H H3]. apply andb_prop in H. destruct H as [H1 H2].
  destruct (fmk_val 1 (-1022) ltac:(cbn; lia) ltac:(lia) ltac:(lia)) as [Fa Ba].
  destruct (fmk_val 1 970 ltac:(cbn; lia) ltac:(lia) ltac:(lia)) as [Fb Bb].
  rewrite F2R_bpow in Ba, Bb. apply fle_finite in H2, H3; try assumption. rewrite Ba in H2. rewrite Bb in H3. auto.
Qed.

(* the number fl(k * s) *)
Definition grid (s : f64) (k : Z) : R := rnd (IZR k * B2R s).

Lemma grid_bound s k : scale_ok s = true -> (Z.abs k <= 2 ^ 51)%Z -> Rabs (grid s k) <= bpow radix2 1021.
Proof.
  intros Hs Hk. destruct (scale_ok_R s Hs) as (_ & S1 & S2). pose proof (bpow_gt_0 radix2 (-1022)) as P.
  apply rnd_abs_le; [apply fmt_bpow; lia|].
  rewrite Rabs_mult, (Rabs_pos_eq (B2R s)) by lra. change 1021%Z with (51 + 970)%Z. rewrite bpow_plus.
  apply Rmult_le_compat; [apply Rabs_pos|lra| |exact S2].
  rewrite <- abs_IZR, <- (IZR_Zpower radix2 51) by lia. apply IZR_le. exact Hk.
Qed.

(* k * scale and scale * k as the model computes them *)
Lemma grid_floats s k : scale_ok s = true -> (Z.abs k <= 2 ^ 51)%Z ->
  float_of_Z k = Some (of_Z k) /\
  fis_finite (fmul (of_Z k) s) = true /\ B2R (fmul (of_Z k) s) = grid s k /\
  fis_finite (fmul s (of_Z k)) = true /\ B2R (fmul s (of_Z k)) = grid s k.
Proof.
  intros Hs Hk. destruct (scale_ok_R s Hs) as (Fs & _).
  destruct (of_Z_val k ltac:(lia)) as [Fk Bk].
  assert (Hb : Rabs (grid s k) < BIG64) by (apply Rle_lt_trans with (1 := grid_bound s k Hs Hk), bpow_lt; lia).
  unfold grid in Hb.
  split; [unfold float_of_Z; rewrite Fk; reflexivity|].
  destruct (fmul_val (of_Z k) s Fk Fs) as [A1 A2]; [rewrite Bk; exact Hb|].
  destruct (fmul_val s (of_Z k) Fs Fk) as [B1 B2]; [rewrite Bk, Rmult_comm; exact Hb|].
  rewrite Bk in A2, B2. rewrite (Rmult_comm (B2R s)) in B2. unfold grid. auto.
Qed.

(* a number between two grid values has its index between theirs *)
Lemma index_between s f k1 k2 : scale_ok s = true -> (Z.abs k1 <= 2 ^ 51)%Z -> (Z.abs k2 <= 2 ^ 51)%Z ->
  fis_finite f = true -> grid s k1 <= B2R f <= grid s k2 ->
  fis_finite (fdiv f s) = true /\ (k1 <= fround (fdiv f s) <= k2)%Z.
Proof.
  intros Hs H1 H2 Ff [L1 L2]. destruct (scale_ok_R s Hs) as (Fs & S1 & S2). pose proof (bpow_gt_0 radix2 (-1022)) as P.
  pose proof (stable_R (B2R s) k1 (fmt_B2R s) S1 H1) as St1. fold (grid s k1) in St1.
  pose proof (stable_R (B2R s) k2 (fmt_B2R s) S1 H2) as St2. fold (grid s k2) in St2.
  assert (I0 : 0 < / B2R s) by (apply Rinv_0_lt_compat; lra).
  assert (M1 : rnd (grid s k1 / B2R s) <= rnd (B2R f / B2R s)).
  { apply rnd_le. unfold Rdiv. apply Rmult_le_compat_r; lra. }
  assert (M2 : rnd (B2R f / B2R s) <= rnd (grid s k2 / B2R s)).
  { apply rnd_le. unfold Rdiv. apply Rmult_le_compat_r; lra. }
  set (z := rnd (B2R f / B2R s)) in *.
  apply Rabs_lt_inv in St1. apply Rabs_lt_inv in St2.
  assert (Kb1 : Rabs (IZR k1) <= 2251799813685248) by (rewrite <- abs_IZR; apply IZR_le; exact H1).
  assert (Kb2 : Rabs (IZR k2) <= 2251799813685248) by (rewrite <- abs_IZR; apply IZR_le; exact H2).
  apply Rabs_le_inv in Kb1. apply Rabs_le_inv in Kb2.
  destruct (fdiv_val f s Ff) as [F1 B1]; [lra| |].
  - apply Rlt_trans with (bpow radix2 52); [|apply bpow_lt; lia].
    rewrite <- (IZR_Zpower radix2 52) by lia. change (radix2 ^ 52)%Z with 4503599627370496%Z.
    fold z. apply Rabs_lt. lra.
  - split; [exact F1|]. rewrite fround_nearest, B1. fold z.
    pose proof (Znearest_half (fun x => negb (Z.even x)) z) as Hh. apply Rabs_le_inv in Hh.
    change (Znearest (fun x => negb (Z.even x)) z) with (ZnearestE z) in Hh.
    split.
    + assert (Lo : IZR k1 - 1 < IZR (ZnearestE z)) by lra. rewrite <- minus_IZR in Lo. apply lt_IZR in Lo. lia.
    + assert (Hi : IZR (ZnearestE z) < IZR k2 + 1) by lra. rewrite <- plus_IZR in Hi. apply lt_IZR in Hi. lia.
Qed.

(* export of a grid value: round(f / scale) = k *)
Theorem scaled_grid_stable s f k : scale_ok s = true -> (Z.abs k <= 2 ^ 51)%Z ->
  fis_finite f = true -> B2R f = grid s k ->
  fis_finite (fdiv f s) = true /\ fround (fdiv f s) = k.
Proof.
  intros Hs Hk Ff Bf. destruct (index_between s f k k Hs Hk Hk Ff) as [F K]; [lra|]. split; [exact F|lia].
Qed.

(* the grid index of a limit, as __call__ computes it: round((x + 0.0) / scale) *)
Definition scaled_k (s x : f64) : Z := fround (fdiv (fadd x fzero) s).

(* guard of a scaled leaf type: the scale is a positive normal number not above 2^970, the grid indices of both limits
   are at most 2^51 in magnitude, and the lowest and the highest grid value pass the window test of validate
   (min - scale < value < max + scale; implied by the index bound when the limits lie on the grid, see the notes) *)
Definition scaled_leaf_small (s mn mx : f64) : bool :=
  scale_ok s && (Z.abs (scaled_k s mn) <=? 2 ^ 51)%Z && (Z.abs (scaled_k s mx) <=? 2 ^ 51)%Z &&
  match scaled_call s (PFloat mn), scaled_call s (PFloat mx) with
  | Ok (PFloat lo), Ok (PFloat hi) => flt (fsub mn s) lo && flt hi (fadd mx s)
  | _, _ => false
  end.

(* a limit that __call__ accepts: the quotient is finite, the result is its index times the scale *)
Lemma scaled_call_inv s x lo : scaled_call s (PFloat x) = Ok (PFloat lo) ->
  fis_finite (fdiv (fadd x fzero) s) = true /\ lo = fmul (of_Z (scaled_k s x)) s.
Proof.
  unfold scaled_call, scaled_k. cbn [py_add0 wrap_wrong]. unfold py_round.
  destruct (fis_nan _) eqn:N; [discriminate|]. destruct (fis_inf _) eqn:I; [discriminate|].
  unfold py_int_mul_float, float_of_Z. destruct (fis_finite (of_Z _)); cbn; intros H; inversion H.
  split; [|reflexivity]. destruct (fdiv _ s); try discriminate; reflexivity.
Qed.

(* the guard as the facts it consists of *)
Lemma scaled_leaf_small_iff s mn mx : scaled_leaf_small s mn mx = true <->
  scale_ok s = true /\ (Z.abs (scaled_k s mn) <= 2 ^ 51)%Z /\ (Z.abs (scaled_k s mx) <= 2 ^ 51)%Z /\
  exists lo hi, scaled_call s (PFloat mn) = Ok (PFloat lo) /\ scaled_call s (PFloat mx) = Ok (PFloat hi) /\
                flt (fsub mn s) lo = true /\ flt hi (fadd mx s) = true.
Proof.
  unfold scaled_leaf_small. rewrite !andb_true_iff, !Z.leb_le. split.
  - intros [[[Hs K1] K2] W].
    destruct (scaled_call s (PFloat mn)) as [[| | | lo | | | | | | |]|]; try discriminate.
    destruct (scaled_call s (PFloat mx)) as [[| | | hi | | | | | | |]|]; try discriminate.
    apply andb_prop in W. eauto 10.
  - intros (Hs & K1 & K2 & lo & hi & -> & -> & W1 & W2). rewrite W1, W2. auto.
Qed.

(* __call__ of a grid value returns k * scale *)
Lemma scaled_call_grid s f k : scale_ok s = true -> (Z.abs k <= 2 ^ 51)%Z -> fis_finite f = true -> B2R f = grid s k ->
  scaled_call s (PFloat f) = Ok (PFloat (fmul (of_Z k) s)).
Proof.
  intros Hs Hk Ff Bf. destruct (fadd_zero f Ff) as [F0 B0]. rewrite Bf in B0.
  destruct (scaled_grid_stable s _ k Hs Hk F0 B0) as [Fq Hq].
  destruct (grid_floats s k Hs Hk) as (Hz & _).
  unfold scaled_call. cbn [py_add0 wrap_wrong]. rewrite (py_round_finite _ Fq), Hq.
  unfold py_int_mul_float. rewrite Hz. reflexivity.
Qed.

(* the limit __call__ makes of x is the grid value of its index *)
Lemma scaled_call_limit s x lo : scale_ok s = true -> (Z.abs (scaled_k s x) <= 2 ^ 51)%Z ->
  scaled_call s (PFloat x) = Ok (PFloat lo) -> fis_finite lo = true /\ B2R lo = grid s (scaled_k s x).
Proof.
  intros Hs Hk Hc. rewrite (proj2 (scaled_call_inv _ _ _ Hc)). destruct (grid_floats s _ Hs Hk) as (_ & F & B & _). auto.
Qed.

Theorem rt_scaled E C s mn mx : scaled_leaf_small s mn mx = true -> num_rt E C (TScaled s mn mx).
Proof.
  intros G v Hv. apply scaled_leaf_small_iff in G. destruct G as (Hs & K1 & K2 & lo & hi & Hlo & Hhi & W1 & W2).
  destruct v; cbn [valid in_setb] in Hv; try discriminate. rewrite Hlo, Hhi in Hv.
  apply andb_prop in Hv. destruct Hv as [Hv Hg]. apply andb_prop in Hv. destruct Hv as [L1 L2].
  destruct (scaled_call_limit s mn lo Hs K1 Hlo) as [Flo Blo]. destruct (scaled_call_limit s mx hi Hs K2 Hhi) as [Fhi Bhi].
  set (kmin := scaled_k s mn) in *. set (kmax := scaled_k s mx) in *.
  pose proof (finite_between lo f hi Flo Fhi L1 L2) as Ff.
  assert (Bf : B2R lo <= B2R f <= B2R hi) by (split; apply fle_finite; assumption). rewrite Blo, Bhi in Bf.
  destruct (index_between s f kmin kmax Hs K1 K2 Ff Bf) as [Fq Kq].
  set (k := fround (fdiv f s)) in *.
  assert (Hk : (Z.abs k <= 2 ^ 51)%Z) by lia.
  destruct (grid_floats s k Hs Hk) as (Hz & Fr & Br & Fw & Bw).
  unfold on_grid in Hg. fold k in Hg. rewrite Hz in Hg.
  pose proof (feq_finite_R _ _ Fr Ff Hg) as Efr. rewrite Br in Efr.
  exists (PInt k), (PFloat (fmul s (of_Z k))), (PFloat (fmul (of_Z k) s)).
  cbn [dt_export dt_import dt_validate]. unfold scaled_export. cbn [py_div_scale bind].
  rewrite (py_round_finite _ Fq). fold k. cbn [bind]. split; [reflexivity|].
  unfold scaled_import. cbn [bind]. rewrite Hz. cbn [wrap_wrong]. split; [reflexivity|].
  (* validate: the value lies between the extreme grid values, which pass the window test *)
  unfold scaled_validate. rewrite (scaled_call_grid s _ k Hs Hk Fw Bw). cbn [f_lt_num num_lt_f].
  assert (Lw : fle lo (fmul s (of_Z k)) = true) by (apply fle_finite; try assumption; lra).
  assert (Uw : fle (fmul s (of_Z k)) hi = true) by (apply fle_finite; try assumption; lra).
  rewrite (flt_le_trans _ _ _ W1 Lw), (fle_lt_trans _ _ _ Uw W2). cbn [andb]. rewrite Hlo, Hhi.
  rewrite fclamp_in by (apply fle_finite; try assumption; lra).
  split; [reflexivity|]. split; [|discriminate]. constructor. apply feq_same_number; auto. congruence.
Qed.

(* on R: a number b within d of x, where b is at most m and 2^-52 m + d is below s by a margin, lies strictly between
   the rounded x - s and x + s *)
Lemma window_R s x b m d : bpow radix2 (-1022) <= s -> Rabs b <= m -> Rabs (b - x) <= d ->
  2 * u53 * m + d + 4 * u53 * s < s -> rnd (x - s) < rnd b < rnd (x + s).
Proof.
  intros Hs Hm Hd Hc. pose proof (bpow_gt_0 radix2 (-1022)) as P. destruct (eta_small s Hs) as (_ & E1 & _).
  pose proof (rnd_err b) as Eb. pose proof (rnd_err (x - s)) as E2. pose proof (rnd_err (x + s)) as E3.
  assert (Hx : Rabs x <= m + d).
  { replace x with (b - (b - x)) by ring. eapply Rle_trans; [apply Rabs_triang|]. rewrite Rabs_Ropp. lra. }
  assert (A2 : Rabs (x - s) <= Rabs x + s).
  { eapply Rle_trans; [apply Rabs_triang|]. rewrite Rabs_Ropp, (Rabs_pos_eq s); lra. }
  assert (A3 : Rabs (x + s) <= Rabs x + s).
  { eapply Rle_trans; [apply Rabs_triang|]. rewrite (Rabs_pos_eq s); lra. }
  pose proof (Rabs_pos b). pose proof (Rabs_pos (b - x)).
  (* every absolute value occurs as an upper bound only, so the facts are linear as they stand: no split on signs *)
  apply Rabs_le_inv in Eb, E2, E3, Hd. unfold u53 in *. lra.
Qed.

(* indices up to 2^50: k = round(rnd (x / s)) for any x *)
Lemma window_R_small s x k : bpow radix2 (-1022) <= s ->
  Rabs (IZR k - rnd (x / s)) <= / 2 -> Rabs (IZR k) <= 1125899906842624 ->
  rnd (x - s) < rnd (IZR k * s) < rnd (x + s).
Proof.
  intros Hs Hk Kb. pose proof (bpow_gt_0 radix2 (-1022)) as P. destruct (eta_small s Hs) as (E0 & _ & E2).
  set (qa := rnd (x / s)) in *.
  assert (H1 : Rabs (qa * s - x) <= u53 * Rabs x + u53 * s).
  { replace (qa * s - x) with (s * (qa - x / s)) by (field; lra).
    rewrite Rabs_mult, (Rabs_pos_eq s) by lra.
    pose proof (rnd_err (x / s)) as He. fold qa in He.
    replace (Rabs (x / s)) with (Rabs x / s) in He
      by (unfold Rdiv; rewrite Rabs_mult, Rabs_inv, (Rabs_pos_eq s) by lra; reflexivity).
    apply Rle_trans with (s * (u53 * (Rabs x / s) + eta)); [apply Rmult_le_compat_l; lra|].
    replace (s * (u53 * (Rabs x / s) + eta)) with (u53 * Rabs x + eta * s) by (field; lra).
    apply Rplus_le_compat_l, Rmult_le_compat_r; lra. }
  assert (H2 : Rabs (IZR k * s - qa * s) <= s / 2).
  { replace (IZR k * s - qa * s) with (s * (IZR k - qa)) by ring.
    rewrite Rabs_mult, (Rabs_pos_eq s) by lra. unfold Rdiv. apply Rmult_le_compat_l; lra. }
  assert (Km : Rabs (IZR k * s) <= 1125899906842624 * s).
  { rewrite Rabs_mult, (Rabs_pos_eq s) by lra. apply Rmult_le_compat_r; lra. }
  assert (Hd : Rabs (IZR k * s - x) <= s / 2 + u53 * Rabs x + u53 * s).
  { replace (IZR k * s - x) with ((IZR k * s - qa * s) + (qa * s - x)) by ring.
    eapply Rle_trans; [apply Rabs_triang|]. lra. }
  assert (Hx : Rabs x <= 1125899906842624 * s + (s / 2 + u53 * Rabs x + u53 * s)).
  { replace x with (IZR k * s - (IZR k * s - x)) at 1 by ring. eapply Rle_trans; [apply Rabs_triang|].
    rewrite Rabs_Ropp. lra. }
  apply (window_R s x _ _ _ Hs Km Hd). unfold u53 in *. lra.
Qed.

(* limits on the grid, indices up to 2^51 *)
Lemma window_R_aligned s k : bpow radix2 (-1022) <= s -> Rabs (IZR k) <= 2251799813685248 ->
  rnd (rnd (IZR k * s) - s) < rnd (IZR k * s) < rnd (rnd (IZR k * s) + s).
Proof.
  intros Hs Kb. pose proof (bpow_gt_0 radix2 (-1022)) as P. destruct (eta_small s Hs) as (E0 & E1 & _).
  assert (Km : Rabs (IZR k * s) <= 2251799813685248 * s).
  { rewrite Rabs_mult, (Rabs_pos_eq s) by lra. apply Rmult_le_compat_r; lra. }
  pose proof (rnd_err (IZR k * s)) as Hd. rewrite Rabs_minus_sym in Hd.
  apply (window_R s _ _ _ _ Hs Km Hd). unfold u53 in *. lra.
Qed.

(* the same for the model's floats: x -+ s do not overflow *)
Lemma window_flt s x lo : scale_ok s = true -> fis_finite x = true -> fis_finite lo = true ->
  Rabs (B2R lo) <= bpow radix2 1021 -> rnd (B2R x - B2R s) < B2R lo < rnd (B2R x + B2R s) ->
  flt (fsub x s) lo = true /\ flt lo (fadd x s) = true.
Proof.
  intros Hs Fx Flo Gb [W1 W2]. destruct (scale_ok_R s Hs) as (Fs & S1 & S2). pose proof (bpow_gt_0 radix2 (-1022)) as P.
  apply Rabs_le_inv in Gb.
  assert (B970 : bpow radix2 970 * 2 <= bpow radix2 1021).
  { change 2 with (bpow radix2 1). rewrite <- bpow_plus. apply bpow_le. lia. }
  assert (B1022 : bpow radix2 1021 * 2 = bpow radix2 1022).
  { change 2 with (bpow radix2 1). rewrite <- bpow_plus. reflexivity. }
  (* x is within 2^1021 + s, or one of the rounded bounds would be beyond lo *)
  assert (Lx : - bpow radix2 1021 <= B2R x + B2R s).
  { destruct (Rle_lt_dec (- bpow radix2 1021) (B2R x + B2R s)) as [H|H]; [exact H|exfalso].
    assert (rnd (B2R x + B2R s) <= - bpow radix2 1021).
    { rewrite <- (rnd_fmt (- bpow radix2 1021)) by (apply generic_format_opp, fmt_bpow; lia). apply rnd_le. lra. }
    lra. }
  assert (Ux : B2R x - B2R s <= bpow radix2 1021).
  { destruct (Rle_lt_dec (B2R x - B2R s) (bpow radix2 1021)) as [H|H]; [exact H|exfalso].
    assert (bpow radix2 1021 <= rnd (B2R x - B2R s)).
    { rewrite <- (rnd_fmt (bpow radix2 1021)) at 1 by (apply fmt_bpow; lia). apply rnd_le. lra. }
    lra. }
  assert (R1 : Rabs (rnd (B2R x - B2R s)) <= bpow radix2 1022).
  { apply rnd_abs_le; [apply fmt_bpow; lia|]. apply Rabs_le. lra. }
  assert (R2 : Rabs (rnd (B2R x + B2R s)) <= bpow radix2 1022).
  { apply rnd_abs_le; [apply fmt_bpow; lia|]. apply Rabs_le. lra. }
  assert (Lt : bpow radix2 1022 < BIG64) by (apply bpow_lt; lia).
  destruct (fsub_val x s Fx Fs) as [Fa Ba]; [lra|]. destruct (fadd_val x s Fx Fs) as [Fb Bb]; [lra|].
  split; apply flt_finite; try assumption; lra.
Qed.

(* the window test of validate holds for the value __call__ makes of any finite x whose index is at most 2^50 *)
Lemma window_small s x lo : scale_ok s = true -> fis_finite x = true ->
  scaled_call s (PFloat x) = Ok (PFloat lo) -> (Z.abs (scaled_k s x) <= 2 ^ 50)%Z ->
  flt (fsub x s) lo = true /\ flt lo (fadd x s) = true.
Proof.
  intros Hs Fx Hc Hk. destruct (scale_ok_R s Hs) as (Fs & S1 & S2). pose proof (bpow_gt_0 radix2 (-1022)) as P.
  destruct (fadd_zero x Fx) as [F0 B0]. destruct (scaled_call_inv _ _ _ Hc) as [Fq _].
  pose proof (fdiv_finite_val _ s ltac:(lra) Fq) as Bq. rewrite B0 in Bq.
  set (k := scaled_k s x) in *.
  assert (Ek : k = ZnearestE (rnd (B2R x / B2R s))).
  { unfold k, scaled_k. rewrite fround_nearest, Bq. reflexivity. }
  assert (Hk' : (Z.abs k <= 2 ^ 51)%Z) by lia.
  destruct (scaled_call_limit s x lo Hs Hk' Hc) as [Flo Blo]. fold k in Blo.
  apply (window_flt s x lo Hs Fx Flo); rewrite Blo; [exact (grid_bound s k Hs Hk')|]. unfold grid.
  apply (window_R_small (B2R s) (B2R x) k S1).
  - rewrite Ek, Rabs_minus_sym. apply Znearest_half.
  - rewrite <- abs_IZR. apply IZR_le. exact Hk.
Qed.

(* ... and for a limit on the grid, index up to 2^51 *)
Lemma window_aligned s x k lo : scale_ok s = true -> fis_finite x = true -> (Z.abs k <= 2 ^ 51)%Z ->
  B2R x = grid s k -> scaled_call s (PFloat x) = Ok (PFloat lo) ->
  flt (fsub x s) lo = true /\ flt lo (fadd x s) = true.
Proof.
  intros Hs Fx Hk Bx Hc. destruct (scale_ok_R s Hs) as (Fs & S1 & S2). pose proof (bpow_gt_0 radix2 (-1022)) as P.
  rewrite (scaled_call_grid s x k Hs Hk Fx Bx) in Hc. inversion Hc. subst lo. clear Hc.
  destruct (grid_floats s k Hs Hk) as (_ & Flo & Blo & _).
  apply (window_flt s x _ Hs Fx Flo); rewrite Blo; [exact (grid_bound s k Hs Hk)|]. rewrite Bx. unfold grid.
  apply (window_R_aligned (B2R s) k S1). rewrite <- abs_IZR. apply IZR_le. exact Hk.
Qed.

Local Close Scope R_scope.

(* a simpler sufficient guard: indices up to 2^50, whatever the limits are *)
Definition scaled_leaf_simple (s mn mx : f64) : bool :=
  scale_ok s && fis_finite mn && fis_finite mx &&
  (Z.abs (scaled_k s mn) <=? 2 ^ 50)%Z && (Z.abs (scaled_k s mx) <=? 2 ^ 50)%Z &&
  match scaled_call s (PFloat mn), scaled_call s (PFloat mx) with
  | Ok (PFloat _), Ok (PFloat _) => true
  | _, _ => false
  end.

Theorem scaled_leaf_simple_small s mn mx : scaled_leaf_simple s mn mx = true -> scaled_leaf_small s mn mx = true.
Proof.
  unfold scaled_leaf_simple. rewrite !andb_true_iff, !Z.leb_le. intros [[[[[Hs F1] F2] K1] K2] W].
  destruct (scaled_call s (PFloat mn)) as [[| | | lo | | | | | | |]|] eqn:Hlo; try discriminate.
  destruct (scaled_call s (PFloat mx)) as [[| | | hi | | | | | | |]|] eqn:Hhi; try discriminate.
  apply scaled_leaf_small_iff. rewrite Hlo, Hhi.
  destruct (window_small s mn lo Hs F1 Hlo K1) as [A _]. destruct (window_small s mx hi Hs F2 Hhi K2) as [_ B].
  repeat split; [exact Hs|lia|lia|]. exists lo, hi. auto.
Qed.

(* limits that are grid values with indices up to 2^51 (what every client side type has): also sufficient *)
Definition scaled_leaf_aligned (s mn mx : f64) : bool :=
  scale_ok s && fis_finite mn && fis_finite mx &&
  (Z.abs (scaled_k s mn) <=? 2 ^ 51)%Z && (Z.abs (scaled_k s mx) <=? 2 ^ 51)%Z &&
  match float_of_Z (scaled_k s mn), float_of_Z (scaled_k s mx) with
  | Some a, Some b => feq (fmul a s) mn && feq (fmul b s) mx
  | _, _ => false
  end.

Theorem scaled_leaf_aligned_small s mn mx : scaled_leaf_aligned s mn mx = true -> scaled_leaf_small s mn mx = true.
Proof.
  unfold scaled_leaf_aligned. rewrite !andb_true_iff, !Z.leb_le. intros [[[[[Hs F1] F2] K1] K2] W].
  destruct (grid_floats s _ Hs K1) as (Z1 & Fl & Bl & _). destruct (grid_floats s _ Hs K2) as (Z2 & Fh & Bh & _).
  rewrite Z1, Z2 in W. apply andb_prop in W. destruct W as [E1 E2].
  pose proof (feq_finite_R _ _ Fl F1 E1) as B1. pose proof (feq_finite_R _ _ Fh F2 E2) as B2.
  rewrite Bl in B1. rewrite Bh in B2. symmetry in B1, B2.
  pose proof (scaled_call_grid s mn _ Hs K1 F1 B1) as C1. pose proof (scaled_call_grid s mx _ Hs K2 F2 B2) as C2.
  destruct (window_aligned s mn _ _ Hs F1 K1 B1 C1) as [A _]. destruct (window_aligned s mx _ _ Hs F2 K2 B2 C2) as [_ B].
  apply scaled_leaf_small_iff. eauto 10.
Qed.

(* what the constructors guarantee of double and int leaf types: limits and resolution are finite floats, int limits
   lie within +-UNLIMITED = 2^64 *)
Definition limits_okb (d : dtype) : bool :=
  match d with
  | TFloat mn mx _ r => fis_finite mn && fis_finite mx && fis_finite r
  | TInt mn mx => (- 2 ^ 64 <=? mn)%Z && (mx <=? 2 ^ 64)%Z
  | _ => true
  end.
Definition scaled_okb (d : dtype) : bool :=
  match d with TScaled s mn mx => scaled_leaf_small s mn mx | _ => true end.

(* p holds of every numeric leaf type of the tree *)
Fixpoint leavesb (p : dtype -> bool) (d : dtype) {struct d} : bool :=
  match d with
  | TFloat _ _ _ _ | TInt _ _ | TScaled _ _ _ => p d
  | TArray e _ _ => leavesb p e
  | TTuple es => forallb (leavesb p) es
  | TStruct ms _ _ => forallb (fun m => leavesb p (snd m)) ms
  | _ => true
  end.

Definition num_limits_ok (d : dtype) : bool := leavesb limits_okb d.
Definition scaled_grid_small (d : dtype) : bool := leavesb scaled_okb d.

Lemma leavesb_tuple p es : leavesb p (TTuple es) = true -> Forall (fun d => leavesb p d = true) es.
Proof. intros H. apply Forall_forall. exact (proj1 (forallb_forall _ _) H). Qed.
Lemma leavesb_struct p ms o c :
  leavesb p (TStruct ms o c) = true -> Forall (fun m : str * dtype => leavesb p (snd m) = true) ms.
Proof. intros H. apply Forall_forall. exact (proj1 (forallb_forall _ _) H). Qed.

(* the round trip of every datatype tree within the guards: structural induction, numeric leaves by rt_float, rt_int
   and rt_scaled *)
Theorem wire_roundtrip_all E C : forall d, num_limits_ok d = true -> scaled_grid_small d = true -> rt_ok E C d.
Proof.
  unfold num_limits_ok, scaled_grid_small.
  induction d as [mn mx a r|mn mx|s mn mx| |ms|a b u|a b|e a b IHe|es IHes|ms o c IHms] using dtype_nested_ind; intros H1 H2.
  - cbn in H1. apply andb_prop in H1. destruct H1 as [H1 H3]. apply andb_prop in H1. destruct H1 as [H1 H4].
    intros v Hv _. apply rt_float; assumption.
  - cbn in H1. apply andb_prop in H1. destruct H1 as [H1 H3]. apply Z.leb_le in H1. apply Z.leb_le in H3.
    intros v Hv _. apply rt_int; assumption.
  - intros v Hv _. apply rt_scaled; assumption.
  - apply rt_bool.
  - apply rt_enum.
  - apply rt_string.
  - apply rt_blob.
  - exact (rt_array E C e a b (IHe H1 H2)).
  - apply rt_tuple. exact (Forall_mp _ _ _ (Forall_mp _ _ _ IHes (leavesb_tuple _ _ H1)) (leavesb_tuple _ _ H2)).
  - apply rt_struct.
    exact (Forall_mp _ _ _ (Forall_mp _ _ _ IHms (leavesb_struct _ _ _ _ H1)) (leavesb_struct _ _ _ _ H2)).
Qed.

(* simpler guards on trees: every scaled leaf has indices up to 2^50, or limits on the grid and indices up to 2^51;
   they imply scaled_grid_small *)
Definition scaled_easy_okb (d : dtype) : bool :=
  match d with TScaled s mn mx => scaled_leaf_simple s mn mx || scaled_leaf_aligned s mn mx | _ => true end.
Definition scaled_grid_easy (d : dtype) : bool := leavesb scaled_easy_okb d.

Lemma leavesb_imp (p q : dtype -> bool) : (forall d, p d = true -> q d = true) ->
  forall d, leavesb p d = true -> leavesb q d = true.
Proof.
  intros Hpq. induction d as [a b c d|a b|a b c| |ms|a b u|a b|e a b IHe|es IHes|ms o c IHms] using dtype_nested_ind;
    cbn [leavesb]; intros H; try reflexivity; try (apply Hpq; exact H).
  - apply IHe, H.
  - apply forallb_forall. apply Forall_forall. exact (Forall_mp _ _ _ IHes (leavesb_tuple _ _ H)).
  - apply forallb_forall. apply Forall_forall. exact (Forall_mp _ _ _ IHms (leavesb_struct _ _ o c H)).
Qed.

