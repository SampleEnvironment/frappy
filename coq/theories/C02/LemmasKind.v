(* C02 - the JSON kind of the exported form: whenever export_value of a VALID value returns, the result has the kind
   SECoP prescribes for the type and is strict JSON (no NaN / Infinity); under the guards of the wire round trip the
   export does return.  Conditional variants of the soundness combinators of C01: the member value is known to be
   valid (double leaves need the finiteness of the valid value, the C01 combinators are unconditional in it). *)
From Coq Require Import ZArith NArith Bool List Lia.
Import ListNotations.
Require Import FV.Base.Util FV.Base.F64 FV.Base.PyVal FV.C01.Model FV.C01.Lemmas FV.C02.Model FV.C02.Lemmas
  FV.C02.LemmasScaled.

Local Notation kind_ok := FV.C02.Model.kind_ok.

Lemma kind_tuple es l : kind_ok (TTuple es) (PList l) = all2 kind_ok es l.
Proof. exact (all2_fix kind_ok es l). Qed.
Lemma kind_struct ms o c kv : kind_ok (TStruct ms o c) (PDict kv) = forallb (entry_ok kind_ok ms) kv.
Proof. reflexivity. Qed.

Lemma entry_strict ms : Forall (fun m : str * dtype => forall j, kind_ok (snd m) j = true -> strict_json j = true) ms ->
  forall p, entry_ok kind_ok ms p = true -> strict_json (snd p) = true.
Proof.
  induction 1 as [|[n d1] ms H1 _ IH]; intros [k x]; [discriminate|]. cbn [snd] in H1.
  rewrite entry_ok_cons. destruct (str_eqb k n); [apply H1|apply IH].
Qed.

Theorem kind_strict : forall d j, kind_ok d j = true -> strict_json j = true.
Proof.
  induction d as [a b c d|a b|a b c| |ms|a b u|a b|e a b IHe|es IHes|ms o c IHms] using dtype_nested_ind; intros j H;
    try (destruct j; try discriminate; try reflexivity; exact H).
  - destruct j; try discriminate. cbn [FV.C02.Model.kind_ok] in H. cbn [strict_json].
    revert H. apply forallb_imp. intros x. apply IHe.
  - destruct j; try discriminate. rewrite kind_tuple in H. cbn [strict_json].
    revert l H. induction IHes as [|d1 es H1 _ IH]; intros [|x l] H; cbn in H; try discriminate; [reflexivity|].
    apply andb_prop in H. destruct H as [Hx Hl]. cbn [forallb]. rewrite (H1 x Hx). cbn [andb]. apply IH, Hl.
  - destruct j; try discriminate. rewrite kind_struct in H. cbn [strict_json].
    revert H. apply forallb_imp. intros p. apply entry_strict, IHms.
Qed.

Lemma scaled_export_int s v j : scaled_export s v = Ok j -> exists k, j = PInt k.
Proof.
  unfold scaled_export. intros H. apply bind_ok in H. destruct H as (q & _ & H).
  apply bind_ok in H. destruct H as (k & _ & H). inversion H. eauto.
Qed.

Lemma enum_export_int ms v j : enum_export ms v = Ok j -> exists z, j = PInt z.
Proof.
  unfold enum_export. intros H. apply bind_ok in H. destruct H as (m & _ & H).
  destruct m; try discriminate. inversion H. eauto.
Qed.

Section Kind.
Variable C : codec.

(* what CPython's b64encode contributes: its output is RFC 4648 text.  Stated as "whenever the codec answers", so
   that tabulated codecs can meet it *)
Definition b64_text_law : Prop := forall b s, c_b64 C b = Some s -> is_b64_text s = true.
Hypothesis HT : b64_text_law.

Definition kind_sound (d : dtype) : Prop :=
  forall v j, valid d v = true -> dt_export C d v = Ok j -> kind_ok d j = true.

Lemma map_res_kind e : kind_sound e ->
  forall l js, forallb (valid e) l = true -> map_res (dt_export C e) l = Ok js -> forallb (kind_ok e) js = true.
Proof.
  intros He. induction l as [|x l IH]; intros js Hv H.
  - inversion H. reflexivity.
  - cbn [forallb] in Hv. apply andb_prop in Hv. destruct Hv as [Hx Hl]. rewrite map_res_cons in H.
    apply bind_ok in H. destruct H as (y & Hy & H). apply bind_ok in H. destruct H as (ys & Hys & H).
    inversion H; subst. cbn [forallb]. rewrite (He x y Hx Hy), (IH ys Hl Hys). reflexivity.
Qed.

Lemma mapd_res_kind es : Forall kind_sound es ->
  forall l js, all2 valid es l = true -> mapd_res (dt_export C) es l = Ok js -> all2 kind_ok es js = true.
Proof.
  induction 1 as [|d1 es H1 _ IH]; intros [|x l] js Hv H; cbn in Hv; try discriminate.
  - inversion H. reflexivity.
  - apply andb_prop in Hv. destruct Hv as [Hx Hl]. rewrite mapd_res_cons in H.
    apply bind_ok in H. destruct H as (y & Hy & H). apply bind_ok in H. destruct H as (ys & Hys & H).
    inversion H; subst. cbn [all2]. rewrite (H1 x y Hx Hy), (IH l ys Hl Hys). reflexivity.
Qed.

Lemma member_res_kind_valid ms : Forall (fun m : str * dtype => kind_sound (snd m)) ms ->
  forall k x y, entry_ok valid ms (k, x) = true -> member_res (dt_export C) k x ms = Ok y ->
  entry_ok kind_ok ms (k, y) = true.
Proof.
  induction 1 as [|[n d1] ms H1 _ IH]; intros k x y Hv H; [discriminate|]. cbn [snd] in H1.
  rewrite entry_ok_cons in Hv |- *. cbn [member_res] in H.
  destruct (str_eqb k n); [exact (H1 x y Hv H)|exact (IH k x y Hv H)].
Qed.

Lemma struct_fold_kind_valid ms : Forall (fun m : str * dtype => kind_sound (snd m)) ms ->
  forall kv acc out, forallb (entry_ok valid ms) kv = true -> forallb (entry_ok kind_ok ms) acc = true ->
  struct_fold (dt_export C) false ms kv acc = Ok out -> forallb (entry_ok kind_ok ms) out = true.
Proof.
  intros HF. induction kv as [|[k x] kv IH]; intros acc out Hv Ha H.
  - inversion H; subst. exact Ha.
  - cbn [forallb] in Hv. apply andb_prop in Hv. destruct Hv as [Hx Hv].
    rewrite struct_fold_step in H by (left; reflexivity).
    apply bind_ok in H. destruct H as (y & Hy & H).
    apply (IH (dict_set k y acc) out Hv); [|exact H].
    apply dict_set_ok; [exact Ha|]. exact (member_res_kind_valid ms HF k x y Hx Hy).
Qed.

Theorem export_kind_sound : forall d, kind_sound d.
Proof.
  induction d as [a b c d|a b|a b c| |ms|a b u|a b|e a b IHe|es IHes|ms o c IHms] using dtype_nested_ind; intros v j Hv H.
  (* int, bool, string: the exported form is the value *)
  2, 4, 6: destruct v; cbn [valid in_setb] in Hv; try discriminate; cbn in H; inversion H; subst; reflexivity.
  - (* double: the valid value is finite *)
    destruct v; cbn [valid in_setb] in Hv; try discriminate. apply andb_prop in Hv. destruct Hv as [Ff _].
    cbn in H. inversion H; subst. exact Ff.
  - cbn [dt_export] in H. destruct (scaled_export_int _ _ _ H) as (k & ->). reflexivity.
  - cbn [dt_export] in H. destruct (enum_export_int _ _ _ H) as (z & ->). reflexivity.
  - destruct v; cbn [valid in_setb] in Hv; try discriminate. cbn [dt_export blob_export] in H.
    destruct (c_b64 C b0) as [s|] eqn:Eb; [|discriminate]. inversion H; subst. exact (HT b0 s Eb).
  - destruct v; try discriminate. cbn [valid] in Hv. apply andb_prop in Hv. destruct Hv as [_ Hl].
    cbn [dt_export] in H. apply bind_ok in H. destruct H as (u & _ & H). cbn [py_iter] in H.
    apply bind_ok in H. destruct H as (js & Hjs & H). inversion H; subst.
    exact (map_res_kind e IHe l js Hl Hjs).
  - destruct v; try discriminate. rewrite valid_tuple in Hv.
    cbn [dt_export] in H. apply bind_ok in H. destruct H as (u & _ & H). cbn [py_iter] in H.
    apply bind_ok in H. destruct H as (js & Hjs & H). inversion H; subst.
    rewrite kind_tuple. exact (mapd_res_kind es IHes l js Hv Hjs).
  - destruct v; try discriminate. rewrite valid_struct in Hv. apply andb_prop in Hv. destruct Hv as [Hv _].
    apply andb_prop in Hv. destruct Hv as [_ H2].
    cbn [dt_export] in H. apply bind_ok in H. destruct H as (u & _ & H). cbn [is_dict negb dict_items] in H.
    apply bind_ok in H. destruct H as (out & Hout & H). inversion H; subst.
    rewrite kind_struct. exact (struct_fold_kind_valid ms IHms kv [] out H2 eq_refl Hout).
Qed.

Corollary export_strict : forall d v j, valid d v = true -> dt_export C d v = Ok j -> strict_json j = true.
Proof. intros d v j Hv H. apply (kind_strict d). exact (export_kind_sound d v j Hv H). Qed.

(* within the guards of the wire round trip the export exists, hence: *)
Theorem json_kind E : forall d, num_limits_ok d = true -> scaled_grid_small d = true ->
  forall v, valid d v = true -> b64_ok E C d v = true ->
  exists j, dt_export C d v = Ok j /\ kind_ok d j = true /\ strict_json j = true.
Proof.
  intros d H1 H2 v Hv Hb. destruct (wire_roundtrip_all E C d H1 H2 v Hv Hb) as (j & _ & _ & Hj & _).
  exists j. split; [exact Hj|]. split; [exact (export_kind_sound d v j Hv Hj)|exact (export_strict d v j Hv Hj)].
Qed.

End Kind.
