(* C02 - the client side datatype (get_datatype of the exported datainfo) of a tree within the guards of the wire
   round trip exists and is again within the guards: its scaled leaves have both limits on the grid
   (round(min/scale)*scale) with the same grid indices and the same lowest and highest grid value
   (client_scaled_aligned), every other leaf is unchanged. *)
From Coq Require Import ZArith NArith Bool List Lia Reals.
From Flocq Require Import IEEE754.BinarySingleNaN.
Import ListNotations.
Require Import FV.Base.Util FV.Base.F64 FV.Base.F64Lemmas FV.Base.F64Facts FV.Base.PyVal FV.C01.Model FV.C01.F64More FV.C01.Lemmas FV.C02.Model
  FV.C02.Lemmas FV.C02.LemmasScaled FV.C02.LemmasClient.

(* __call__ of an infinite or nan limit raises (round() of inf / nan): a limit accepted by __call__ is finite *)
Lemma scaled_call_finite s x lo : fis_finite s = true -> scaled_call s (PFloat x) = Ok (PFloat lo) -> fis_finite x = true.
Proof.
  intros Fs H. destruct x as [b|b| |b m e B]; try reflexivity; exfalso;
    destruct s as [c|c| |c m' e' B']; try discriminate; cbn in H; discriminate.
Qed.

(* min/scale as export_datatype divides (no + 0.0) rounds like (min + 0.0)/scale as __call__ divides *)
Lemma round_limit s x : fis_finite s = true -> fis_finite x = true ->
  py_round (fdiv x s) = py_round (fdiv (fadd x fzero) s).
Proof.
  intros Fs Fx. destruct x as [b|b| |b m e B]; try discriminate.
  - destruct s as [c|c| |c m' e' B']; try discriminate; destruct b, c; reflexivity.
  - reflexivity.
Qed.

(* the rebuilt limit k * scale of a grid index up to 2^51 is a grid value with that very index *)
Lemma regrid_index s k : scale_ok s = true -> (Z.abs k <= 2 ^ 51)%Z -> scaled_k s (fmul (of_Z k) s) = k.
Proof.
  intros Hs Hk. destruct (grid_floats s k Hs Hk) as (_ & Fa & Ba & _).
  destruct (fadd_zero _ Fa) as [F0 B0]. rewrite Ba in B0.
  unfold scaled_k. exact (proj2 (scaled_grid_stable s _ k Hs Hk F0 B0)).
Qed.

Theorem client_scaled_aligned s mn mx : scaled_leaf_small s mn mx = true ->
  exists a b, client_of (TScaled s mn mx) = Ok (TScaled s a b) /\ scaled_leaf_aligned s a b = true /\
              scaled_k s a = scaled_k s mn /\ scaled_k s b = scaled_k s mx /\
              scaled_call s (PFloat a) = scaled_call s (PFloat mn) /\
              scaled_call s (PFloat b) = scaled_call s (PFloat mx).
Proof.
  intros G. apply scaled_leaf_small_iff in G. destruct G as (Hs & K1 & K2 & lo & hi & Hlo & Hhi & _).
  destruct (scale_ok_R s Hs) as (Fs & _).
  pose proof (scaled_call_finite _ _ _ Fs Hlo) as F1. pose proof (scaled_call_finite _ _ _ Fs Hhi) as F2.
  destruct (scaled_call_inv _ _ _ Hlo) as [Q1 Elo]. destruct (scaled_call_inv _ _ _ Hhi) as [Q2 Ehi].
  pose proof (py_round_finite _ Q1) as R1. pose proof (py_round_finite _ Q2) as R2.
  fold (scaled_k s mn) in R1. fold (scaled_k s mx) in R2.
  rewrite <- (round_limit s mn Fs F1) in R1. rewrite <- (round_limit s mx Fs F2) in R2.
  set (k1 := scaled_k s mn) in *. set (k2 := scaled_k s mx) in *.
  destruct (grid_floats s k1 Hs K1) as (Z1 & Fa & Ba & _). destruct (grid_floats s k2 Hs K2) as (Z2 & Fb & Bb & _).
  exists (fmul (of_Z k1) s), (fmul (of_Z k2) s).
  pose proof (regrid_index s k1 Hs K1) as I1. pose proof (regrid_index s k2 Hs K2) as I2.
  pose proof (scaled_call_grid s _ k1 Hs K1 Fa Ba) as C1. pose proof (scaled_call_grid s _ k2 Hs K2 Fb Bb) as C2.
  rewrite C1, C2, Hlo, Hhi, Elo, Ehi. fold k1 k2.
  split; [|split; [|repeat split; assumption]].
  - cbn [client_of]. rewrite R1, R2. cbn [bind]. unfold py_int_mul_float. rewrite Z1, Z2. cbn [bind].
    unfold finite_or. rewrite Fa, Fb. reflexivity.
  - apply Z.leb_le in K1, K2. unfold scaled_leaf_aligned. rewrite Hs, Fa, Fb, I1, I2, K1, K2, Z1, Z2.
    rewrite (feq_same_number _ _ Fa Fa eq_refl), (feq_same_number _ _ Fb Fb eq_refl). reflexivity.
Qed.

Definition scaled_aligned_okb (d : dtype) : bool :=
  match d with TScaled s mn mx => scaled_leaf_aligned s mn mx | _ => true end.
(* every scaled leaf has both limits on the grid of its scale and grid indices up to 2^51 *)
Definition scaled_grid_aligned (d : dtype) : bool := leavesb scaled_aligned_okb d.

Lemma scaled_grid_aligned_easy d : scaled_grid_aligned d = true -> scaled_grid_easy d = true.
Proof.
  apply leavesb_imp. intros [a b c e|a b|s mn mx| |ms|a b u|a b|e a b|es|ms o c]; cbn; auto.
  intros H. rewrite H. apply orb_true_r.
Qed.

Definition client_list_of : list dtype -> res (list dtype) :=
  fix go (ds : list dtype) : res (list dtype) :=
    match ds with
    | [] => Ok []
    | d1 :: r => client_of d1 >>= fun c1 => go r >>= fun cs => Ok (c1 :: cs)
    end.
Definition client_members_of : list (str * dtype) -> res (list (str * dtype)) :=
  fix go (ms : list (str * dtype)) : res (list (str * dtype)) :=
    match ms with
    | [] => Ok []
    | (n, d1) :: r => client_of d1 >>= fun c1 => go r >>= fun cs => Ok ((n, c1) :: cs)
    end.

Lemma client_of_tuple es : client_of (TTuple es) = (client_list_of es >>= fun cs => Ok (TTuple cs)).
Proof. reflexivity. Qed.
Lemma client_of_struct ms o c : client_of (TStruct ms o c) =
  (client_members_of ms >>= fun cs =>
   Ok (TStruct cs (if same_names o (map fst ms) then map fst ms else o) true)).
Proof. reflexivity. Qed.

(* what is shown of the client side type of d *)
Definition client_within (d : dtype) : Prop :=
  num_limits_ok d = true -> scaled_grid_small d = true ->
  exists dc, client_of d = Ok dc /\ num_limits_ok dc = true /\ scaled_grid_aligned dc = true /\
             (enums_sorted d -> enums_sorted dc).

Lemma client_list_within es : Forall client_within es ->
  forallb (leavesb limits_okb) es = true -> forallb (leavesb scaled_okb) es = true ->
  exists cs, client_list_of es = Ok cs /\ forallb (leavesb limits_okb) cs = true /\
             forallb (leavesb scaled_aligned_okb) cs = true /\ (Forall enums_sorted es -> Forall enums_sorted cs).
Proof.
  induction 1 as [|d1 es H1 _ IH]; intros L S.
  - exists []. repeat split; auto.
  - cbn [forallb] in L, S. apply andb_prop in L. apply andb_prop in S. destruct L as [L1 L], S as [S1 S].
    destruct (H1 L1 S1) as (c1 & C1 & A1 & B1 & E1). destruct (IH L S) as (cs & Cs & A & B & E).
    exists (c1 :: cs). cbn [client_list_of]. fold client_list_of. rewrite C1, Cs. cbn [bind forallb].
    unfold num_limits_ok in A1. unfold scaled_grid_aligned in B1. rewrite A1, B1, A, B.
    repeat split; auto. intros HF. inversion HF; subst. constructor; auto.
Qed.

Lemma client_members_within ms : Forall (fun m : str * dtype => client_within (snd m)) ms ->
  forallb (fun m => leavesb limits_okb (snd m)) ms = true -> forallb (fun m => leavesb scaled_okb (snd m)) ms = true ->
  exists cs, client_members_of ms = Ok cs /\ forallb (fun m => leavesb limits_okb (snd m)) cs = true /\
             forallb (fun m => leavesb scaled_aligned_okb (snd m)) cs = true /\
             (Forall (fun m => enums_sorted (snd m)) ms -> Forall (fun m => enums_sorted (snd m)) cs).
Proof.
  induction 1 as [|[n d1] ms H1 _ IH]; intros L S.
  - exists []. repeat split; auto.
  - cbn [forallb snd] in L, S. apply andb_prop in L. apply andb_prop in S. destruct L as [L1 L], S as [S1 S].
    cbn [snd] in H1.
    destruct (H1 L1 S1) as (c1 & C1 & A1 & B1 & E1). destruct (IH L S) as (cs & Cs & A & B & E).
    exists ((n, c1) :: cs). cbn [client_members_of]. fold client_members_of. rewrite C1, Cs. cbn [bind forallb snd].
    unfold num_limits_ok in A1. unfold scaled_grid_aligned in B1. rewrite A1, B1, A, B.
    repeat split; auto. intros HF. inversion HF; subst. constructor; auto.
Qed.

Theorem client_of_within : forall d, client_within d.
Proof.
  induction d as [a b c d|a b|s mn mx| |ms|a b u|a b|e a b IHe|es IHes|ms o c IHms] using dtype_nested_ind;
    intros L S; try (eexists; split; [reflexivity|]; split; [exact L|]; split; [reflexivity|]; auto; fail).
  - destruct (client_scaled_aligned s mn mx S) as (a & b & H1 & H2 & _).
    exists (TScaled s a b). repeat split; auto.
  - exists (TEnum (sort_by_value ms)). repeat split; auto. cbn. intros H. rewrite H. exact H.
  - destruct (IHe L S) as (ec & H1 & H2 & H3 & H4).
    exists (TArray ec a b). cbn [client_of]. rewrite H1. repeat split; auto.
  - destruct (client_list_within es IHes L S) as (cs & H1 & H2 & H3 & H4).
    exists (TTuple cs). rewrite client_of_tuple, H1. repeat split; auto.
    intros HS. apply enums_sorted_tuple. apply H4. apply enums_sorted_tuple. exact HS.
  - destruct (client_members_within ms IHms L S) as (cs & H1 & H2 & H3 & H4).
    eexists. rewrite client_of_struct, H1. cbn [bind]. repeat split; auto.
    intros HS. apply enums_sorted_struct. apply H4. apply (enums_sorted_struct ms o c). exact HS.
Qed.

(* the optional list of the rebuilt struct admits the same key sets *)
Lemma required_same (o names present : list str) :
  forallb (fun n => mem_str n present || mem_str n (if same_names o names then names else o)) names =
  forallb (fun n => mem_str n present || mem_str n o) names.
Proof.
  destruct (same_names o names) eqn:Hs; [|reflexivity].
  unfold same_names in Hs. apply andb_prop in Hs. destruct Hs as [_ Hs].
  apply forallb_ext_in. intros n Hn. rewrite (mem_str_refl n names Hn), (forallb_In _ _ n Hs Hn). reflexivity.
Qed.

