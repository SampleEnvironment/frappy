(* C02 - value set, equality of values, and the round trip through the wire encoding:
   the leaves that need no float arithmetic, and each container type from its element types.  The numeric leaves
   (num_rt) and the induction over all datatype trees are in LemmasScaled.v. *)
From Coq Require Import ZArith NArith Bool List Lia.
Import ListNotations.
Require Import FV.Base.Util FV.Base.F64 FV.Base.PyVal FV.C01.Model FV.C01.Lemmas FV.C02.Model.

Fixpoint keys_nodup (l : list str) : bool :=
  match l with [] => true | k :: r => negb (mem_str k r) && keys_nodup r end.

(* a value of a scaled type lies on the grid of its scale: it is (numerically) k * scale for the integer
   k = round(value / scale) *)
Definition on_grid (s f : f64) : bool :=
  match float_of_Z (fround (fdiv f s)) with
  | Some kf => feq (fmul kf s) f
  | None => false
  end.

(* the value set of C01 (limits, lengths, membership, element-wise) in canonical internal form, plus: floats are
   finite, scaled values are grid points, struct keys are distinct, and the mandatory members of a struct are present
   (optional members may be missing, on the node as well as on the client: validate accepts and export_value
   transports such values) *)
Fixpoint valid (d : dtype) (v : pyval) {struct d} : bool :=
  match d, v with
  | TFloat mn mx _ _, PFloat f => fis_finite f && in_setb d v
  | TScaled s _ _, PFloat f => in_setb d v && on_grid s f
  | TArray e a b, PTuple l =>
      (a <=? Z.of_nat (length l))%Z && (Z.of_nat (length l) <=? b)%Z && forallb (valid e) l
  | TTuple es, PTuple l =>
      (fix go (ds : list dtype) (l : list pyval) : bool :=
         match ds, l with
         | [], [] => true
         | d1 :: ds', x :: r => valid d1 x && go ds' r
         | _, _ => false
         end) es l
  | TStruct ms opt client, PDict kv =>
      keys_nodup (map fst kv) &&
      forallb (fun p : str * pyval =>
                 (fix find (ms : list (str * dtype)) : bool :=
                    match ms with
                    | [] => false
                    | (n, d1) :: ms' => if str_eqb (fst p) n then valid d1 (snd p) else find ms'
                    end) ms) kv &&
      forallb (fun n => mem_str n (map fst kv) || mem_str n opt) (map fst ms)
  | TArray _ _ _, _ | TTuple _, _ | TStruct _ _ _, _ => false
  | _, _ => in_setb d v
  end.

Lemma valid_tuple es l : valid (TTuple es) (PTuple l) = all2 valid es l.
Proof. exact (all2_fix valid es l). Qed.
Lemma valid_struct ms o c kv : valid (TStruct ms o c) (PDict kv) =
  keys_nodup (map fst kv) && forallb (entry_ok valid ms) kv &&
  forallb (fun n => mem_str n (map fst kv) || mem_str n o) (map fst ms).
Proof. reflexivity. Qed.

(* python == on canonical values *)
Inductive py_eq : pyval -> pyval -> Prop :=
| PE_float a b : feq a b = true -> py_eq (PFloat a) (PFloat b)
| PE_int z : py_eq (PInt z) (PInt z)
| PE_bool b : py_eq (PBool b) (PBool b)
| PE_str s : py_eq (PStr s) (PStr s)
| PE_bytes s : py_eq (PBytes s) (PBytes s)
| PE_enum n n' z : py_eq (PEnum n z) (PEnum n' z)        (* EnumMember.__eq__ compares the codes *)
| PE_tuple l l' : Forall2 py_eq l l' -> py_eq (PTuple l) (PTuple l')
| PE_dict kv kv' : Forall2 (fun p q => fst p = fst q /\ py_eq (snd p) (snd q)) kv kv' -> py_eq (PDict kv) (PDict kv').

Lemma py_eq_not_none v w : py_eq v w -> w <> PNone.
Proof. intros H; inversion H; discriminate. Qed.

Lemma Forall_mp {A} (P Q : A -> Prop) l : Forall (fun x => P x -> Q x) l -> Forall P l -> Forall Q l.
Proof. induction 1; inversion 1; subst; constructor; auto. Qed.

Section RT.
Variable E : pyenv.
Variable C : codec.

(* the round trip of one value through export, import on the node and validation *)
Definition rt (d : dtype) (v : pyval) : Prop :=
  exists j w v', dt_export C d v = Ok j /\ dt_import E d j = Ok w /\ dt_validate d w PNone = Ok v' /\ py_eq v v' /\ w <> PNone.

(* ... for every valid value of a (numeric leaf) type: a fact of binary64 arithmetic *)
Definition num_rt (d : dtype) : Prop := forall v, valid d v = true -> rt d v.

(* what CPython's base64 codec contributes, stated per value (a statement for ALL byte strings could not be met by
   the finite table E, it would make every theorem below vacuous): decoding (as tabulated in E) inverts the
   encoding of every blob that occurs in the value.  Boolean, so that examples discharge it by computation. *)
Definition b64_rt (b : str) : bool :=
  match c_b64 C b with
  | Some s => match lookup_sb false s (b64_of E) with Some b' => str_eqb b' b | None => false end
  | None => false
  end.

Fixpoint b64_ok (d : dtype) (v : pyval) {struct d} : bool :=
  match d, v with
  | TBlob _ _, PBytes b => b64_rt b
  | TArray e _ _, PTuple l => forallb (b64_ok e) l
  | TTuple es, PTuple l =>
      (fix go (ds : list dtype) (l : list pyval) : bool :=
         match ds, l with
         | [], [] => true
         | d1 :: ds', x :: r => b64_ok d1 x && go ds' r
         | _, _ => false
         end) es l
  | TStruct ms _ _, PDict kv =>
      forallb (fun p : str * pyval =>
                 (fix find (ms : list (str * dtype)) : bool :=
                    match ms with
                    | [] => false
                    | (n, d1) :: ms' => if str_eqb (fst p) n then b64_ok d1 (snd p) else find ms'
                    end) ms) kv
  | _, _ => true
  end.

Lemma b64_ok_tuple es l : b64_ok (TTuple es) (PTuple l) = all2 b64_ok es l.
Proof. exact (all2_fix b64_ok es l). Qed.
Lemma b64_ok_struct ms o c kv : b64_ok (TStruct ms o c) (PDict kv) = forallb (entry_ok b64_ok ms) kv.
Proof. reflexivity. Qed.

Lemma b64_rt_law b : b64_rt b = true -> exists s, c_b64 C b = Some s /\ lookup_sb false s (b64_of E) = Some b.
Proof.
  unfold b64_rt. destruct (c_b64 C b) as [s|]; [|discriminate].
  destruct (lookup_sb false s (b64_of E)) as [b'|] eqn:L; [|discriminate].
  intros H. apply str_eqb_eq in H. subst. eauto.
Qed.

(* the round trip of every valid value whose blobs obey the base64 law *)
Definition rt_ok (d : dtype) : Prop := forall v, valid d v = true -> b64_ok d v = true -> rt d v.

Lemma map_res_cons f x r : map_res f (x :: r) = (f x >>= fun y => map_res f r >>= fun ys => Ok (y :: ys)).
Proof. reflexivity. Qed.
Lemma mapd_res_cons f d1 ds x r :
  mapd_res f (d1 :: ds) (x :: r) = (f d1 x >>= fun y => mapd_res f ds r >>= fun ys => Ok (y :: ys)).
Proof. reflexivity. Qed.

Lemma map_chain e l : rt_ok e -> forallb (valid e) l = true -> forallb (b64_ok e) l = true ->
  exists js ws vs, map_res (dt_export C e) l = Ok js /\ map_res (dt_import E e) js = Ok ws /\
    map_res (fun x => dt_validate e x PNone) ws = Ok vs /\ Forall2 py_eq l vs /\ length ws = length l /\
    length js = length l.
Proof.
  intros IH. induction l as [|x l IHl]; intros Hv Hb.
  - exists [], [], []. repeat split; constructor.
  - cbn in Hv, Hb. apply andb_prop in Hv, Hb. destruct Hv as [Hx Hl], Hb as [Bx Bl].
    destruct (IH x Hx Bx) as (j & w & v' & H1 & H2 & H3 & H4 & H5).
    destruct (IHl Hl Bl) as (js & ws & vs & G1 & G2 & G3 & G4 & G5 & G6).
    exists (j :: js), (w :: ws), (v' :: vs). rewrite !map_res_cons, H1, H2, H3, G1, G2, G3. cbn.
    repeat split; [constructor; assumption|congruence|congruence].
Qed.

Lemma mapd_chain es : Forall rt_ok es -> forall l, all2 valid es l = true -> all2 b64_ok es l = true ->
  exists js ws vs, mapd_res (dt_export C) es l = Ok js /\ mapd_res (dt_import E) es js = Ok ws /\
    mapd_res (fun d x => dt_validate d x PNone) es ws = Ok vs /\ Forall2 py_eq l vs /\
    length ws = length es /\ length js = length es.
Proof.
  induction 1 as [|d1 es Hd _ IHes]; intros [|x l] Hv Hb; cbn in Hv, Hb; try discriminate.
  - exists [], [], []. repeat split; constructor.
  - apply andb_prop in Hv, Hb. destruct Hv as [Hx Hl], Hb as [Bx Bl].
    destruct (Hd x Hx Bx) as (j & w & v' & H1 & H2 & H3 & H4 & H5).
    destruct (IHes l Hl Bl) as (js & ws & vs & G1 & G2 & G3 & G4 & G5 & G6).
    exists (j :: js), (w :: ws), (v' :: vs). rewrite !mapd_res_cons, H1, H2, H3, G1, G2, G3. cbn.
    repeat split; [constructor; assumption|congruence|congruence].
Qed.

Lemma mem_str_eq k l : mem_str k l = true <-> exists k', In k' l /\ str_eqb k k' = true.
Proof.
  induction l as [|x l IH]; cbn.
  - split; [discriminate|intros (k' & [] & _)].
  - rewrite orb_true_iff, IH. split.
    + intros [H|(k' & Hi & He)]; [exists x; auto|exists k'; auto].
    + intros (k' & [Hx|Hi] & He); [subst; auto|right; exists k'; auto].
Qed.

Lemma dict_set_fresh {A} k (y : A) acc : mem_str k (map fst acc) = false -> dict_set k y acc = acc ++ [(k, y)].
Proof.
  induction acc as [|[k' v'] acc IH]; cbn; [reflexivity|]. intros H. apply orb_false_elim in H. destruct H as [H1 H2].
  rewrite H1, (IH H2). reflexivity.
Qed.

Lemma mem_str_app k a b : mem_str k (a ++ b) = mem_str k a || mem_str k b.
Proof. induction a as [|x a IH]; cbn; [reflexivity|]. rewrite IH, orb_assoc. reflexivity. Qed.

(* the accumulator of a fold over entries with distinct keys stays disjoint from the keys still to come *)
Lemma fresh_step {A B} k (kv : list (str * A)) (acc : list (str * B)) (y : B) :
  mem_str k (map fst kv) = false ->
  (forall k0, mem_str k0 (k :: map fst kv) = true -> mem_str k0 (map fst acc) = false) ->
  forall k0, mem_str k0 (map fst kv) = true -> mem_str k0 (map fst (acc ++ [(k, y)])) = false.
Proof.
  intros Hk Hd k0 Hk0. rewrite map_app, mem_str_app. cbn. rewrite orb_false_r.
  rewrite (Hd k0) by (cbn; rewrite Hk0; apply orb_true_r). cbn.
  destruct (str_eqb k0 k) eqn:Ek; [|reflexivity]. apply str_eqb_eq in Ek. subst. congruence.
Qed.

(* one entry: member lookup, then the three conversions *)
Lemma member_chain ms : Forall (fun m => rt_ok (snd m)) ms ->
  forall k x, entry_ok valid ms (k, x) = true -> entry_ok b64_ok ms (k, x) = true ->
  exists j w v', member_res (dt_export C) k x ms = Ok j /\ member_res (dt_import E) k j ms = Ok w /\
    member_res (fun d y => dt_validate d y PNone) k w ms = Ok v' /\ py_eq x v' /\ w <> PNone.
Proof.
  induction 1 as [|[n d1] ms H1 _ IH]; intros k x Hk Bk; [discriminate|]. cbn [snd] in H1.
  rewrite entry_ok_cons in Hk, Bk. cbn [member_res]. destruct (str_eqb k n); [exact (H1 x Hk Bk)|exact (IH k x Hk Bk)].
Qed.

Lemma struct_fold_step f skip ms k x r acc :
  (skip = false \/ x <> PNone) ->
  struct_fold f skip ms ((k, x) :: r) acc = (member_res f k x ms >>= fun y => struct_fold f skip ms r (dict_set k y acc)).
Proof. intros [H|H]; [subst; destruct x; reflexivity|destruct x; try reflexivity; congruence]. Qed.

(* one entry of a struct converted by f: same key, the member's conversion of the value *)
Definition entry_conv (f : dtype -> pyval -> res pyval) (skip : bool) ms (p q : str * pyval) : Prop :=
  fst q = fst p /\ (skip = false \/ snd p <> PNone) /\ member_res f (fst p) (snd p) ms = Ok (snd q).

Lemma entry_conv_keys f skip ms kv out : Forall2 (entry_conv f skip ms) kv out -> map fst out = map fst kv.
Proof. induction 1 as [|p q kv out (H & _) _ IH]; cbn; [reflexivity|]. rewrite H, IH. reflexivity. Qed.

(* over entries with distinct keys that are new to the accumulator, struct_fold converts entry by entry and appends *)
Lemma struct_fold_nodup f skip ms kv out : Forall2 (entry_conv f skip ms) kv out -> forall acc,
  keys_nodup (map fst kv) = true ->
  (forall k, mem_str k (map fst kv) = true -> mem_str k (map fst acc) = false) ->
  struct_fold f skip ms kv acc = Ok (acc ++ out).
Proof.
  induction 1 as [|[k x] [k' y] kv out (Hk & Hs & Hm) _ IH]; intros acc Hn Hd.
  - cbn. rewrite app_nil_r. reflexivity.
  - cbn in Hk, Hs, Hm, Hn. subst k'. apply andb_prop in Hn. destruct Hn as [Hf Hn]. apply negb_true_iff in Hf.
    rewrite (struct_fold_step _ _ _ _ _ _ _ Hs), Hm. cbn [bind].
    rewrite dict_set_fresh by (apply Hd; cbn; rewrite str_eqb_refl; reflexivity).
    rewrite (IH (acc ++ [(k, y)]) Hn (fresh_step k kv acc y Hf Hd)), <- app_assoc. reflexivity.
Qed.

Lemma struct_chain ms : Forall (fun m => rt_ok (snd m)) ms ->
  forall kv, forallb (entry_ok valid ms) kv = true -> forallb (entry_ok b64_ok ms) kv = true ->
  exists js ws vs, Forall2 (entry_conv (dt_export C) false ms) kv js /\
    Forall2 (entry_conv (dt_import E) false ms) js ws /\
    Forall2 (entry_conv (fun d y => dt_validate d y PNone) true ms) ws vs /\
    Forall2 (fun p q => fst p = fst q /\ py_eq (snd p) (snd q)) kv vs.
Proof.
  intros HF. induction kv as [|[k x] kv IH]; intros Hv Hb.
  - exists [], [], []. repeat split; constructor.
  - cbn in Hv, Hb. apply andb_prop in Hv, Hb. destruct Hv as [Hx Hv], Hb as [Bx Hb].
    destruct (member_chain ms HF k x Hx Bx) as (j & w & v' & M1 & M2 & M3 & M4 & M5).
    destruct (IH Hv Hb) as (js & ws & vs & G1 & G2 & G3 & G4).
    exists ((k, j) :: js), ((k, w) :: ws), ((k, v') :: vs).
    repeat split; constructor; unfold entry_conv; cbn; auto.
Qed.

Lemma array_check_len a b v n : is_str_bytes_dict v = false -> py_len v = Some (Z.of_nat n) ->
  (a <=? Z.of_nat n)%Z = true -> (Z.of_nat n <=? b)%Z = true -> array_check a b v = Ok tt.
Proof. intros Hs Hl H1 H2. unfold array_check. rewrite Hs, Hl, !Z.ltb_antisym, H1, H2. reflexivity. Qed.

Lemma tuple_check_len n v : is_str_bytes_dict v = false -> py_len v = Some (Z.of_nat n) -> tuple_check n v = Ok tt.
Proof. intros Hs Hl. unfold tuple_check. rewrite Hs, Hl, Z.eqb_refl. reflexivity. Qed.

Lemma missing_nil (flag : bool) o (present names : list str) :
  forallb (fun n => mem_str n present || (flag && mem_str n o)) names = true ->
  (if flag then filter (fun n => negb (mem_str n o)) (filter (fun n => negb (mem_str n present)) names)
   else filter (fun n => negb (mem_str n present)) names) = [].
Proof.
  induction names as [|n names IH]; intros H2; [destruct flag; reflexivity|].
  cbn in H2. apply andb_prop in H2. destruct H2 as [Hn H2]. specialize (IH H2).
  cbn. destruct (mem_str n present); cbn; [exact IH|].
  cbn in Hn. destruct flag; cbn in *; [|discriminate]. rewrite Hn. cbn. exact IH.
Qed.

Lemma check_missing_flag (ms : list (str * dtype)) o (flag : bool) (kv : list (str * pyval)) :
  forallb (fun n => mem_str n (map fst kv) || (flag && mem_str n o)) (map fst ms) = true ->
  check_missing (map fst ms) o flag kv = Ok tt.
Proof. intros H. unfold check_missing. rewrite (missing_nil flag o _ _ H). reflexivity. Qed.

Lemma all2_length {Q} es l : all2 Q es l = true -> length l = length es.
Proof.
  revert l; induction es as [|d es IH]; intros [|x l]; cbn; try discriminate; auto.
  intros H. apply andb_prop in H. destruct H as [_ H]. f_equal. apply IH, H.
Qed.

Lemma forallb_imp {A} (f g : A -> bool) l :
  (forall x, f x = true -> g x = true) -> forallb f l = true -> forallb g l = true.
Proof.
  intros H. induction l as [|x l IH]; cbn; [reflexivity|]. intros H1. apply andb_prop in H1. destruct H1 as [Hx Hl].
  rewrite (H x Hx). apply IH, Hl.
Qed.

Lemma entry_ok_declared Q ms p : entry_ok Q ms p = true -> mem_str (fst p) (map fst ms) = true.
Proof.
  destruct p as [k x]. induction ms as [|[n d1] ms IH]; [discriminate|]. rewrite entry_ok_cons.
  cbn [map fst mem_str]. destruct (str_eqb k n); [reflexivity|exact IH].
Qed.

(* struct_check accepts a dict whose keys are those of a dict of declared members that carries the members it must *)
Lemma struct_check_valid Q (ms : list (str * dtype)) o c allow (kv l : list (str * pyval)) :
  forallb (entry_ok Q ms) kv = true -> map fst l = map fst kv ->
  forallb (fun n => mem_str n (map fst kv) || ((c || allow) && mem_str n o)) (map fst ms) = true ->
  struct_check (map fst ms) o c allow (PDict l) = Ok tt.
Proof.
  intros H1 Hk H2. unfold struct_check. rewrite Hk, (missing_nil (c || allow) o _ _ H2).
  replace (existsb _ l) with (existsb (fun k => negb (mem_str k (map fst ms))) (map fst l))
    by (clear; induction l as [|p l IH]; cbn; [|rewrite IH]; reflexivity).
  rewrite Hk. clear Hk H2. induction kv as [|p kv IH]; [reflexivity|].
  cbn in H1 |- *. apply andb_prop in H1. destruct H1 as [Hp H1]. rewrite (entry_ok_declared _ _ _ Hp). exact (IH H1).
Qed.

Lemma enum_value_found n z ms :
  existsb (fun p => str_eqb n (fst p) && Z.eqb z (snd p)) ms = true -> exists n', enum_by_value z ms = Some (n', z).
Proof.
  induction ms as [|[n1 z1] ms IH]; cbn; [discriminate|]. intros H.
  destruct (Z.eqb z z1) eqn:Ez.
  - apply Z.eqb_eq in Ez. subst. eauto.
  - rewrite andb_false_r in H. cbn in H. apply IH, H.
Qed.

Lemma rt_bool : rt_ok TBool.
Proof.
  intros v Hv _. destruct v; cbn in Hv; try discriminate. exists (PBool b), (PBool b), (PBool b).
  destruct b; cbn; repeat split; try constructor; discriminate.
Qed.

Lemma rt_enum ms : rt_ok (TEnum ms).
Proof.
  intros v Hv _. destruct v; cbn in Hv; try discriminate. destruct (enum_value_found _ _ _ Hv) as (n' & Hn).
  exists (PInt v), (PEnum n' v), (PEnum n' v). cbn. unfold enum_export. cbn. rewrite Hn. cbn.
  repeat split; try constructor; discriminate.
Qed.

Lemma string_call_ok a b u s : str_ok a b u s = true -> string_call a b u (PStr s) = Ok (PStr s).
Proof.
  unfold str_ok, string_call. intros H. apply andb_prop in H. destruct H as [H H4]. apply andb_prop in H.
  destruct H as [H H3]. apply andb_prop in H. destruct H as [H1 H2]. apply negb_true_iff in H4.
  rewrite !Z.ltb_antisym, H2, H3, H4. cbn.
  destruct u; cbn in *; [reflexivity|]. rewrite H1. reflexivity.
Qed.

Lemma rt_string a b u : rt_ok (TString a b u).
Proof.
  intros v Hv _. destruct v; cbn [valid in_setb] in Hv; try discriminate. exists (PStr s), (PStr s), (PStr s).
  cbn [dt_export dt_import dt_validate dt_call string_export].
  rewrite (string_call_ok _ _ _ _ Hv). repeat split; try constructor; discriminate.
Qed.

Lemma blob_call_ok a b s : (a <=? Z.of_nat (length s))%Z && (Z.of_nat (length s) <=? b)%Z = true ->
  blob_call a b (PBytes s) = Ok (PBytes s).
Proof.
  intros H. apply andb_prop in H. destruct H as [Ha Hb]. unfold blob_call. rewrite !Z.ltb_antisym, Ha, Hb. reflexivity.
Qed.

Lemma rt_blob a b : rt_ok (TBlob a b).
Proof.
  intros v Hv HB. destruct v; cbn [valid in_setb] in Hv; try discriminate. cbn [b64_ok] in HB.
  destruct (b64_rt_law b0 HB) as (s & H1 & H2).
  exists (PStr s), (PBytes b0), (PBytes b0). cbn [dt_export dt_import dt_validate dt_call blob_export blob_import].
  rewrite H1, H2, (blob_call_ok _ _ _ Hv). repeat split; try constructor; discriminate.
Qed.

Lemma rt_array e a b : rt_ok e -> rt_ok (TArray e a b).
Proof.
  intros IHe v Hv Hb. destruct v; try discriminate. cbn [valid] in Hv. cbn [b64_ok] in Hb.
  apply andb_prop in Hv. destruct Hv as [Hv Hl]. apply andb_prop in Hv. destruct Hv as [H1 H2].
  destruct (map_chain e l IHe Hl Hb) as (js & ws & vs & G1 & G2 & G3 & G4 & G5 & G6).
  assert (Hc : forall v, is_str_bytes_dict v = false -> py_len v = Some (Z.of_nat (length l)) -> array_check a b v = Ok tt)
    by (intros; apply (array_check_len a b _ (length l)); assumption).
  exists (PList js), (PTuple ws), (PTuple vs). cbn [dt_export dt_import dt_validate].
  rewrite !Hc by (cbn; congruence). cbn [bind py_iter]. rewrite G1. cbn [bind py_iter]. rewrite G2.
  cbn [bind py_iter py_truthy]. rewrite G3. cbn. repeat split; [constructor; exact G4|discriminate].
Qed.

Lemma rt_tuple es : Forall rt_ok es -> rt_ok (TTuple es).
Proof.
  intros IHes v Hv Hb. destruct v; try discriminate. rewrite valid_tuple in Hv. rewrite b64_ok_tuple in Hb.
  destruct (mapd_chain es IHes l Hv Hb) as (js & ws & vs & G1 & G2 & G3 & G4 & G5 & G6).
  pose proof (all2_length _ _ Hv) as Hlen.
  assert (Hc : forall v, is_str_bytes_dict v = false -> py_len v = Some (Z.of_nat (length es)) ->
                         tuple_check (length es) v = Ok tt) by (intros; apply tuple_check_len; assumption).
  exists (PList js), (PTuple ws), (PTuple vs). cbn [dt_export dt_import dt_validate].
  rewrite !Hc by (cbn; congruence). cbn [bind py_iter]. rewrite G1. cbn [bind py_iter]. rewrite G2.
  cbn [bind py_iter]. rewrite G3. cbn. repeat split; [constructor; exact G4|discriminate].
Qed.

Lemma rt_struct ms o c : Forall (fun m => rt_ok (snd m)) ms -> rt_ok (TStruct ms o c).
Proof.
  intros IHms v Hv Hb. destruct v; try discriminate. rewrite valid_struct in Hv. rewrite b64_ok_struct in Hb.
  apply andb_prop in Hv. destruct Hv as [Hv H3]. apply andb_prop in Hv. destruct Hv as [H1 H2].
  destruct (struct_chain ms IHms kv H2 Hb) as (js & ws & vs & G1 & G2 & G3 & G4).
  pose proof (entry_conv_keys _ _ _ _ _ G1) as G5. pose proof (entry_conv_keys _ _ _ _ _ G2) as G6. rewrite G5 in G6.
  pose proof (entry_conv_keys _ _ _ _ _ G3) as Kvs. rewrite G6 in Kvs.
  assert (Hf : forall f skip l out, Forall2 (entry_conv f skip ms) l out -> map fst l = map fst kv ->
                 struct_fold f skip ms l [] = Ok out).
  { intros f skip l out G K. apply (struct_fold_nodup f skip ms l out G []); [rewrite K; exact H1|reflexivity]. }
  (* allow_optional = True on the way: members that are present or optional *)
  assert (Hreq : forallb (fun n => mem_str n (map fst kv) || ((c || true) && mem_str n o)) (map fst ms) = true).
  { revert H3. apply forallb_imp. intros n Hn. rewrite orb_true_r. exact Hn. }
  assert (Hc : forall l, map fst l = map fst kv -> struct_check (map fst ms) o c true (PDict l) = Ok tt)
    by (intros l Hk; exact (struct_check_valid valid ms o c true kv l H2 Hk Hreq)).
  exists (PDict js), (PDict ws), (PDict vs). cbn [dt_export dt_import dt_validate].
  rewrite !Hc by (assumption || reflexivity). cbn [bind is_dict negb dict_items]. rewrite (Hf _ _ _ _ G1 eq_refl).
  cbn [bind is_dict negb dict_items]. rewrite (Hf _ _ _ _ G2 G5). cbn [bind py_truthy is_dict negb dict_items].
  rewrite (Hf _ _ _ _ G3 G6). cbn [bind wrap_elem].
  rewrite check_missing_flag by (rewrite Kvs; exact H3).
  cbn. repeat split; [constructor; exact G4|discriminate].
Qed.

End RT.

(* a one-member tuple is written (x,): python reads it back as a 1-tuple, and from_string hands it to __call__ *)
Lemma one_tuple_text_accepted C d1 t w y :
  lit_eval C t = Some w -> dt_call d1 w = Ok y -> from_string C (TTuple [d1]) (PT1 t) = Ok (PTuple [y]).
Proof.
  intros H1 H2. unfold from_string, generic_from_string. cbn [lit_eval]. rewrite H1.
  cbn [dt_call length]. unfold tuple_check. cbn. rewrite H2. reflexivity.
Qed.

Lemma one_tuple_to_tree C d1 x t : to_tree C d1 x = Ok t -> to_tree C (TTuple [d1]) (PTuple [x]) = Ok (PT1 t).
Proof. intros H. cbn. rewrite H. reflexivity. Qed.

(* setParameterFromString(text): from_string, export_value, then the node's import_value + validate: whenever the text
   is accepted with a value w that survives the wire, the node ends up with a value equal to w *)
Lemma setparam_roundtrip C E d t w :
  from_string C d t = Ok w -> rt E C d w -> exists v', set_from_string C E d d t = Ok v' /\ py_eq w v'.
Proof.
  intros H (j & w' & v' & H1 & H2 & H3 & H4 & _).
  exists v'. unfold set_from_string, wire. rewrite H. cbn. rewrite H1. cbn. rewrite H2. cbn. auto.
Qed.
