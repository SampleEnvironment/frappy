(* C02 — vacuity audit: the theorems of Properties.v other than those which C02_demo / C02_kind_demo / C02_text_demo
   apply to a concrete instance there are APPLIED here with every premise discharged by computation (or, for the client side
   type, from computed facts through the theorems applied before), on codecs and
   b64decode tables of the shape the harness builds (codec_of of finite tables, a finite b64_of list).
   Equalities  f args = Ok r  over binary64 records are obtained from booleans computed in the VM (ok_ex, ok_and_ex),
   never by reflexivity on float records. *)
From Coq Require Import ZArith NArith Bool List Lia.
Import ListNotations.
Require Import FV.Gen.C02 FV.Base.F64 FV.Base.PyVal FV.C01.Model FV.C01.Lemmas FV.C02.Model FV.C02.Run FV.C02.Lemmas
  FV.C02.LemmasScaled FV.C02.LemmasText FV.C02.LemmasClient FV.C02.LemmasKind
  FV.C02.LemmasClientGuards FV.C02.Refuted FV.C02.Properties.

Definition is_ok {A} (r : res A) : bool := match r with Ok _ => true | Err _ => false end.
Lemma ok_ex {A} (r : res A) : is_ok r = true -> exists x, r = Ok x.
Proof. destruct r; [eauto|discriminate]. Qed.
Definition ok_and {A} (r : res A) (p : A -> bool) : bool := match r with Ok w => p w | Err _ => false end.
Lemma ok_and_ex {A} (r : res A) p : ok_and r p = true -> exists w, r = Ok w /\ p w = true.
Proof. destruct r; cbn; [eauto|discriminate]. Qed.

(* the client side type as a term that computes *)
Definition dc_of (d : dtype) : dtype := match client_of d with Ok dc => dc | Err _ => d end.
Lemma client_of_dc_of d : is_ok (client_of d) = true -> client_of d = Ok (dc_of d).
Proof. unfold dc_of. destruct (client_of d); [reflexivity|discriminate]. Qed.
(* used with d a variable: at d = cl_d, inverting Ok (dc_of cl_d) = Ok dc would normalise the Flocq terms inside *)
Lemma dc_of_eq d dc : client_of d = Ok dc -> dc_of d = dc.
Proof. unfold dc_of. intros ->. reflexivity. Qed.

(* the instance for the client theorems: kind_d (blob, struct with enum array, tuple, scaled 0.1 on 0 .. 100) extended by
   a scaled leaf whose lower limit 0.25 is not a grid value (the client rebuilds it as 2 * 0.1) and a node side struct
   (rebuilt as a client side struct), so that the rebuilt type differs from the node's type *)
Definition cl_d : dtype :=
  TTuple [TBlob 0 10; demo_d; TScaled s01' (fmk 1 (-2)) (of_Z 100); TStruct [([97%N], TInt 0 5)] [] false].
Definition cl_v : pyval :=
  PTuple [PBytes [104;105]%N; demo_v; PFloat (fmul (of_Z 500) s01'); PDict [([97%N], PInt 3)]].
Lemma cl_H1 : valid cl_d cl_v = true. Proof. vm_compute. reflexivity. Qed.
Lemma cl_H2 : num_limits_ok cl_d = true. Proof. vm_compute. reflexivity. Qed.
Lemma cl_H3 : scaled_grid_small cl_d = true. Proof. vm_compute. reflexivity. Qed.
Lemma cl_H4 : b64_ok EB CB cl_d cl_v = true. Proof. vm_compute. reflexivity. Qed.
Lemma cl_HS : enums_sorted cl_d. Proof. cbn. repeat split; reflexivity. Qed.
Lemma cl_Hc : client_of cl_d = Ok (dc_of cl_d). Proof. apply client_of_dc_of. vm_compute. reflexivity. Qed.
Example cl_dc_differs : dtype_eqb (dc_of cl_d) cl_d = false /\ dtype_eqb cl_d cl_d = true.
Proof. vm_compute. split; reflexivity. Qed.

Lemma kind_H1 : valid kind_d kind_v = true. Proof. exact (proj1 C02_kind_demo). Qed.
Lemma kind_H2 : num_limits_ok kind_d = true. Proof. exact (proj1 (proj2 C02_kind_demo)). Qed.
Lemma kind_H3 : scaled_grid_small kind_d = true. Proof. exact (proj1 (proj2 (proj2 C02_kind_demo))). Qed.
Lemma kind_H4 : b64_ok EB CB kind_d kind_v = true. Proof. exact (proj1 (proj2 (proj2 (proj2 C02_kind_demo)))). Qed.

(* ---- C02_export_kind_sound, applied directly *)
Example C02_export_kind_sound_applies : exists j,
  dt_export CB kind_d kind_v = Ok j /\ kind_ok kind_d j = true /\ strict_json j = true.
Proof.
  destruct (ok_ex (dt_export CB kind_d kind_v) ltac:(vm_compute; reflexivity)) as [j Hj].
  exists j. split; [exact Hj|]. exact (C02_export_kind_sound CB CB_text_law kind_d kind_v j kind_H1 Hj).
Qed.

(* ---- C02_kind_is_strict_json: a form with a double leaf *)
Example C02_kind_is_strict_json_applies :
  strict_json (PList [PFloat (fmk 5 (-1)); PInt 3; PList [PBool true; PStr [97%N]]]) = true.
Proof.
  apply (C02_kind_is_strict_json
           (TTuple [TFloat fzero (of_Z 10) fzero fzero; TInt 0 5; TTuple [TBool; TString 0 5 false]])).
  vm_compute. reflexivity.
Qed.

(* ---- C02_scaled_grid_stable: scale 0.1, index 2^51 - 1 (far from zero), the float fl(k * 0.1) *)
Definition kbig : Z := (2 ^ 51 - 1)%Z.
Definition kbig_f : f64 := match float_of_Z kbig with Some x => x | None => fzero end.
Lemma kbig_float : float_of_Z kbig = Some kbig_f.
Proof.
  unfold kbig_f. destruct (float_of_Z kbig) eqn:E; [reflexivity|].
  assert (H : (match float_of_Z kbig with Some _ => true | None => false end) = true) by (vm_compute; reflexivity).
  rewrite E in H. discriminate.
Qed.
Example C02_scaled_grid_stable_applies :
  scaled_export s01' (PFloat (fmul kbig_f s01')) = Ok (PInt kbig).
Proof.
  apply (C02_scaled_grid_stable s01' kbig kbig_f (fmul kbig_f s01')).
  - vm_compute. reflexivity.
  - unfold kbig. lia.
  - exact kbig_float.
  - vm_compute. reflexivity.
Qed.

Example C02_int_leaf_exact_applies : int_call (PInt (2 ^ 63 + 12345)) = Ok (PInt (2 ^ 63 + 12345)).
Proof. apply C02_int_leaf_exact. lia. Qed.

Example C02_float_leaf_unchanged_applies : exists g',
  float_validate fzero (of_Z 10) (fmk 1 (-3)) (fmk 1 (-20)) (PFloat (fmk 5 (-1))) = Ok (PFloat g') /\
  fis_finite g' = true.
Proof.
  destruct (C02_float_leaf_unchanged fzero (of_Z 10) (fmk 1 (-3)) (fmk 1 (-20)) (fmk 5 (-1)))
    as (g' & A & B & _).
  1-6: vm_compute; reflexivity.
  exists g'. split; assumption.
Qed.

Example C02_scaled_guard_easy_applies : scaled_grid_small kind_d = true.
Proof. apply C02_scaled_guard_easy. vm_compute. reflexivity. Qed.

(* ---- C02_one_tuple_text_accepted with the tabulated codec CX *)
Example C02_one_tuple_text_accepted_applies : exists t1,
  to_string CX (TTuple [TInt 0 5]) (PTuple [PInt 5]) = Ok t1 /\
  from_string CX (TTuple [TInt 0 5]) t1 = Ok (PTuple [PInt 5]).
Proof.
  apply (C02_one_tuple_text_accepted CX (TInt 0 5) (PInt 5) (PA [53]%N) (PInt 5) (PInt 5)); vm_compute; reflexivity.
Qed.

(* ---- C02_setparam_roundtrip: one codec with text tables and base64, a struct of a tuple with int, double, string,
   bool, scaled and blob; the text {'a': (5, 2.5, 'a', True, 2.5, b'hi')} *)
Definition bhi : str := [98; 39; 104; 105; 39]%N.
Definition TXB : tables :=
  {| t_b64 := [([104;105]%N, [97;71;107;61]%N)];
     t_fmt := t_fmt TX;
     t_repr := (PBytes [104;105]%N, bhi) :: t_repr TX;
     t_lit := (bhi, PBytes [104;105]%N) :: t_lit TX |}.
Definition CXB : codec := codec_of TXB.
Definition ns_d : dtype :=
  TStruct [([97%N], TTuple [TInt 0 5; TFloat fzero (of_Z 10) fzero fzero; TString 0 5 false; TBool;
                           TScaled (fmk 1 (-1)) fzero (of_Z 10); TBlob 0 10])] [] false.
Definition ns_t : ptree :=
  PB [([39;97;39]%N, PP [PA [53]%N; PA [50;46;53]%N; PA [39;97;39]%N; PA [84;114;117;101]%N; PA [50;46;53]%N; PA bhi])].
Example C02_setparam_roundtrip_applies : exists w v',
  from_string CXB ns_d ns_t = Ok w /\ set_from_string CXB EB ns_d ns_d ns_t = Ok v' /\ py_eq w v'.
Proof.
  destruct (ok_and_ex (from_string CXB ns_d ns_t) (fun w => valid ns_d w && b64_ok EB CXB ns_d w)
              ltac:(vm_compute; reflexivity)) as (w & Hw & Hp).
  apply andb_prop in Hp. destruct Hp as [Hv Hb].
  destruct (C02_setparam_roundtrip CXB EB ns_d ns_t w ltac:(vm_compute; reflexivity) ltac:(vm_compute; reflexivity)
              Hw Hv Hb) as (v' & A & B).
  exists w, v'. repeat split; assumption.
Qed.
(* the blob really takes part: the b64 premise is false with the empty decode table *)
Example ns_b64_matters :
  ok_and (from_string CXB ns_d ns_t) (fun w => b64_ok {| int_of := []; b64_of := [] |} CXB ns_d w) = false.
Proof. vm_compute. reflexivity. Qed.

(* ---- the client theorems at cl_d (blob, enum array, tuple, scaled 0.1), client type dc_of cl_d *)
Example C02_client_imports_like_node_applies : forall j, dt_import EB (dc_of cl_d) j = dt_import EB cl_d j.
Proof. exact (C02_client_imports_like_node EB cl_d cl_HS (dc_of cl_d) cl_Hc). Qed.

Example C02_client_same_values_applies : forall v, valid (dc_of cl_d) v = valid cl_d v.
Proof. exact (C02_client_same_values cl_d cl_H3 cl_HS (dc_of cl_d) cl_Hc). Qed.

Example C02_client_roundtrip_applies : exists j w v',
  dt_export CB cl_d cl_v = Ok j /\ dt_import EB (dc_of cl_d) j = Ok w /\ dt_import EB cl_d j = Ok w /\
  dt_validate cl_d w PNone = Ok v' /\ py_eq cl_v v'.
Proof.
  destruct (C02_client_roundtrip EB CB cl_d cl_H2 cl_H3 cl_HS) as (dc & Hc & _ & _ & _ & H).
  apply dc_of_eq in Hc. subst dc.
  exact (H cl_v cl_H1 cl_H4).
Qed.

Example C02_client_side_roundtrip_applies :
  valid cl_d cl_v = true /\
  exists j w v', dt_export CB (dc_of cl_d) cl_v = Ok j /\ dt_import EB cl_d j = Ok w /\
                 dt_validate cl_d w PNone = Ok v' /\ py_eq cl_v v'.
Proof.
  destruct (C02_client_side_roundtrip EB CB cl_d cl_H2 cl_H3 cl_HS) as (dc & Hc & H).
  apply dc_of_eq in Hc. subst dc.
  (* cl_v is a valid value of the client side type because that type has the valid values of cl_d *)
  apply H; [rewrite (C02_client_same_values cl_d cl_H3 cl_HS _ cl_Hc); exact cl_H1|].
  rewrite (client_b64_same EB CB cl_d _ cl_Hc). exact cl_H4.
Qed.

(* ---- the text theorem once more with a blob leaf and the combined codec: codec_laws holds for CXB *)
Lemma CXB_laws : codec_laws CXB.
Proof.
  constructor.
  - intros z s. cbn [CXB codec_of TXB TX c_repr c_lit t_repr t_lit lookup_by pv_same].
    destruct (Z.eqb z 5) eqn:E; intros H; [injection H as <-|discriminate H]. apply Z.eqb_eq in E. subst. vm_compute. reflexivity.
  - intros b s. destruct b; cbn [CXB codec_of TXB TX c_repr c_lit t_repr t_lit lookup_by pv_same Bool.eqb];
      intros H; injection H as <-; vm_compute; reflexivity.
  - intros s. cbn [CXB codec_of TXB TX c_repr c_lit t_repr t_lit lookup_by pv_same Bool.eqb]. intros H. injection H as <-. reflexivity.
  - intros s. cbn [CXB codec_of TXB TX c_repr c_lit t_repr t_lit lookup_by pv_same Bool.eqb]. intros H. injection H as <-. reflexivity.
  - intros x s. cbn [CXB codec_of TXB TX c_repr c_lit t_repr t_lit lookup_by pv_same].
    destruct (str_eqb x [97%N]) eqn:E; intros H; [injection H as <-|discriminate H]. apply str_eqb_eq in E. subst. vm_compute. reflexivity.
  - intros x s. cbn [CXB codec_of TXB TX c_repr c_lit t_repr t_lit lookup_by pv_same].
    destruct (str_eqb x [104;105]%N) eqn:E; intros H; [injection H as <-|discriminate H]. apply str_eqb_eq in E. subst. vm_compute. reflexivity.
  - intros f s _ _. cbn [CXB codec_of TXB TX c_fmt t_fmt lookup_by].
    destruct (fsame f f25); intros H; [injection H as <-|discriminate H].
    exists (PFloat f25), (fadd f25 fzero). repeat apply conj; [reflexivity|reflexivity|vm_compute; reflexivity ..].
Qed.
Definition ns_v : pyval :=
  PDict [([97%N], PTuple [PInt 5; PFloat f25; PStr [97%N]; PBool true; PFloat f25; PBytes [104;105]%N])].
Example C02_text_roundtrip_applies_with_blob : exists w,
  from_string CXB ns_d ns_t = Ok w /\ to_string CXB ns_d w = Ok ns_t /\ eq_nf ns_d ns_v w.
Proof.
  apply (C02_text_roundtrip CXB CXB_laws ns_d ns_v ns_t); vm_compute; reflexivity.
Qed.

(* ---- REMARK (not a vacuity): codec_laws is a law of the CPython functions; a per-case table of the shape the harness
   builds (atoms of the values of the case only) need not satisfy law_float when a scaled leaf has a non-dyadic scale:
   the grid value 3 * 0.1 = 0.30000000000000004 prints as 0.3, the literal 0.3 is another float which from_string puts
   on the grid again, so the float 0.3 itself is never an atom of the case and has no percent-g entry.  The text theorem
   speaks about codecs that obey the laws (the real functions, or tables closed under re-reading such as CX, CXB). *)
Definition f3g : f64 := fmul (of_Z 3) s01'.                         (* 0.30000000000000004 *)
Definition f03 : f64 := fmk 5404319552844595 (-54).                 (* 0.3 *)
Definition TH : tables :=
  {| t_b64 := []; t_fmt := [(f3g, [48;46;51]%N)]; t_repr := []; t_lit := [([48;46;51]%N, PFloat f03)] |}.
Example C02_case_table_need_not_obey_law_float :
  fsame f3g f03 = false /\ scaled_text_ok (codec_of TH) s01' f3g = true /\ ~ codec_laws (codec_of TH).
Proof.
  split; [vm_compute; reflexivity|]. split; [vm_compute; reflexivity|].
  intros [_ _ _ _ _ _ L].
  destruct (L f3g [48;46;51]%N ltac:(vm_compute; reflexivity) ltac:(vm_compute; reflexivity)) as (n & g & A & B & _ & D).
  - cbn [codec_of c_fmt t_fmt TH lookup_by]. replace (fsame f3g f3g) with true by (vm_compute; reflexivity). reflexivity.
  - cbn [codec_of c_lit t_lit TH lookup_by] in A.
    replace (str_eqb [48;46;51]%N [48;46;51]%N) with true in A by reflexivity.
    injection A as <-. cbn [py_add0] in B. injection B as <-.
    vm_compute in D. discriminate D.
Qed.
