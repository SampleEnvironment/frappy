(* C02 - the text encoding: format_value(unit=False) / to_string followed by from_string gives a value with the identical
   text form, equal to the original on every non-float leaf.  Tree-level grammar of Model.v (the text itself is [render]
   of the tree); CPython's repr, the percent-g format and ast.literal_eval of atoms enter as the codec C with the laws
   codec_laws as Section hypothesis.  Excluded by the boolean guard [text_ok]: -0.0 (finding float-negzero-text), scaled
   values whose six digit text denotes a number that is re-gridded to a different text (finding scaled-text-regrid),
   structs lacking optional members on a node side type (from_string is __call__ there), enum names with surrounding
   white space or duplicates. *)
From Coq Require Import ZArith NArith Bool List Lia.
Import ListNotations.
Require Import FV.Base.Util FV.Base.F64 FV.Base.F64Lemmas FV.Base.PyVal FV.C01.Model FV.C01.Lemmas FV.C02.Model
  FV.C02.Lemmas FV.C02.LemmasScaled.

Definition member_type (k : str) : list (str * dtype) -> option dtype :=
  fix find (ms : list (str * dtype)) : option dtype :=
    match ms with
    | [] => None
    | (n, d1) :: ms' => if str_eqb k n then Some d1 else find ms'
    end.

(* python == on every leaf that is not a double or scaled leaf, same shape everywhere *)
Inductive eq_nf : dtype -> pyval -> pyval -> Prop :=
| EN_float mn mx a r f g : eq_nf (TFloat mn mx a r) (PFloat f) (PFloat g)
| EN_scaled s mn mx f g : eq_nf (TScaled s mn mx) (PFloat f) (PFloat g)
| EN_int mn mx z : eq_nf (TInt mn mx) (PInt z) (PInt z)
| EN_bool b : eq_nf TBool (PBool b) (PBool b)
| EN_enum ms n z : eq_nf (TEnum ms) (PEnum n z) (PEnum n z)
| EN_string a b u s : eq_nf (TString a b u) (PStr s) (PStr s)
| EN_blob a b s : eq_nf (TBlob a b) (PBytes s) (PBytes s)
| EN_array e a b l l' : Forall2 (eq_nf e) l l' -> eq_nf (TArray e a b) (PTuple l) (PTuple l')
| EN_tuple es l l' : eq_nfs es l l' -> eq_nf (TTuple es) (PTuple l) (PTuple l')
| EN_struct ms o c kv kw :
    Forall2 (fun p q => fst p = fst q /\ exists d1, member_type (fst p) ms = Some d1 /\ eq_nf d1 (snd p) (snd q)) kv kw ->
    eq_nf (TStruct ms o c) (PDict kv) (PDict kw)
with eq_nfs : list dtype -> list pyval -> list pyval -> Prop :=
| ENS_nil : eq_nfs [] [] []
| ENS_cons d ds x y l l' : eq_nf d x y -> eq_nfs ds l l' -> eq_nfs (d :: ds) (x :: l) (y :: l').

Definition enum_names_ok (ms : list (str * Z)) : bool :=
  forallb (fun m => str_eqb (strip (fst m)) (fst m)) ms && keys_nodup (map fst ms).

(* the laws of CPython, as one predicate on a codec: literal_eval(repr(x)) == x for int, bool, str, bytes; repr(True)
   and repr(False) are the words True and False; the percent-g text of a finite float other than -0.0 is a literal
   denoting a number n, n + 0.0 is a finite float and its percent-g text is the same text *)
Record codec_laws (C : codec) : Prop := {
  law_int : forall z s, c_repr C (PInt z) = Some s -> c_lit C s = Some (PInt z);
  law_bool : forall b s, c_repr C (PBool b) = Some s -> c_lit C s = Some (PBool b);
  law_true : forall s, c_repr C (PBool true) = Some s -> s = [84; 114; 117; 101]%N;
  law_false : forall s, c_repr C (PBool false) = Some s -> s = [70; 97; 108; 115; 101]%N;
  law_str : forall x s, c_repr C (PStr x) = Some s -> c_lit C s = Some (PStr x);
  law_bytes : forall x s, c_repr C (PBytes x) = Some s -> c_lit C s = Some (PBytes x);
  law_float : forall f s, fis_finite f = true -> fsame f fnegzero = false -> c_fmt C f = Some s ->
    exists n g, c_lit C s = Some n /\ py_add0 n = Ok g /\ fis_finite g = true /\ c_fmt C g = Some s
}.

Section TextLaws.
Variable C : codec.

(* the six digit text of a scaled value, read back and put on the grid again, prints the same *)
Definition scaled_text_ok (s f : f64) : bool :=
  match c_fmt C f with
  | Some t =>
      match c_lit C t with
      | Some n =>
          match scaled_call s n with
          | Ok (PFloat g) => match c_fmt C g with Some t' => str_eqb t t' | None => false end
          | _ => false
          end
      | None => false
      end
  | None => false
  end.

(* the guard of the text round trip, on a type and one of its values *)
Fixpoint text_ok (d : dtype) (v : pyval) {struct d} : bool :=
  match d, v with
  | TFloat _ _ _ _, PFloat f => negb (fsame f fnegzero)
  | TScaled s _ _, PFloat f => scaled_text_ok s f
  | TEnum ms, _ => enum_names_ok ms
  | TArray e _ _, PTuple l => forallb (text_ok e) l
  | TTuple es, PTuple l =>
      (fix go (ds : list dtype) (l : list pyval) : bool :=
         match ds, l with
         | [], [] => true
         | d1 :: ds', x :: r => text_ok d1 x && go ds' r
         | _, _ => false
         end) es l
  | TStruct ms _ client, PDict kv =>
      (client || forallb (fun n => mem_str n (map fst kv)) (map fst ms)) &&
      forallb (fun p : str * pyval =>
                 (fix find (ms : list (str * dtype)) : bool :=
                    match ms with
                    | [] => false
                    | (n, d1) :: ms' => if str_eqb (fst p) n then text_ok d1 (snd p) else find ms'
                    end) ms) kv
  | _, _ => true
  end.

Lemma text_ok_tuple es l : text_ok (TTuple es) (PTuple l) = all2 text_ok es l.
Proof. exact (all2_fix text_ok es l). Qed.
Lemma text_ok_struct ms o c kv : text_ok (TStruct ms o c) (PDict kv) =
  (c || forallb (fun n => mem_str n (map fst kv)) (map fst ms)) && forallb (entry_ok text_ok ms) kv.
Proof. reflexivity. Qed.

(* assumed to the end of the section: the lemmas below that read an atom back, and text_roundtrip, have it as a premise *)
Hypothesis L : codec_laws C.

(* the invariant of the induction over type trees, on the generic path (literal_eval, then __call__): the tree of a
   valid value within the guard is read back as some n, which __call__ turns into a value w with the same tree, equal
   to v except on float leaves *)
Definition gen_ok (d : dtype) : Prop := forall v t,
  valid d v = true -> text_ok d v = true -> to_tree C d v = Ok t ->
  exists n w, lit_eval C t = Some n /\ n <> PNone /\ dt_call d n = Ok w /\ to_tree C d w = Ok t /\ eq_nf d v w.

Lemma atom_inv o t : atom o = Ok t -> exists s, o = Some s /\ t = PA s.
Proof. destruct o as [s|]; cbn; intros H; inversion H. eauto. Qed.

Lemma gen_float mn mx a r : gen_ok (TFloat mn mx a r).
Proof.
  intros v t Hv Hg Ht. destruct v; cbn [valid] in Hv; try discriminate.
  apply andb_prop in Hv. destruct Hv as [Ff _]. cbn [text_ok] in Hg. apply negb_true_iff in Hg.
  cbn [to_tree] in Ht. destruct (atom_inv _ _ Ht) as (s & Hs & ->).
  destruct (law_float C L f s Ff Hg Hs) as (n & g & H1 & H2 & H3 & H4).
  exists n, (PFloat g). cbn [lit_eval]. split; [exact H1|]. split; [intros ->; discriminate|].
  cbn [dt_call]. unfold float_call. rewrite H2. cbn [wrap_wrong]. rewrite (clamp_fmax g H3).
  split; [reflexivity|]. cbn [to_tree]. rewrite H4. split; [reflexivity|constructor].
Qed.

Lemma gen_scaled s mn mx : gen_ok (TScaled s mn mx).
Proof.
  intros v t Hv Hg Ht. destruct v; cbn [valid in_setb] in Hv; try discriminate.
  cbn [text_ok] in Hg. unfold scaled_text_ok in Hg. cbn [to_tree] in Ht.
  destruct (atom_inv _ _ Ht) as (s0 & Hs & ->). rewrite Hs in Hg.
  destruct (c_lit C s0) as [n|] eqn:Hn; [|discriminate].
  destruct (scaled_call s n) as [[| | | g | | | | | | |]|] eqn:Hc; try discriminate.
  destruct (c_fmt C g) as [t'|] eqn:Hg'; [|discriminate]. apply str_eqb_eq in Hg. subst t'.
  exists n, (PFloat g). cbn [lit_eval]. split; [exact Hn|]. split; [intros ->; discriminate|].
  cbn [dt_call]. split; [exact Hc|]. cbn [to_tree]. rewrite Hg'. split; [reflexivity|constructor].
Qed.

(* a leaf written as the repr of x: literal_eval gives n back, which __call__ turns into the same value *)
Lemma gen_atom d v x n t : to_tree C d v = atom (c_repr C x) ->
  (forall s, c_repr C x = Some s -> c_lit C s = Some n) -> n <> PNone -> dt_call d n = Ok v -> eq_nf d v v ->
  to_tree C d v = Ok t ->
  exists n w, lit_eval C t = Some n /\ n <> PNone /\ dt_call d n = Ok w /\ to_tree C d w = Ok t /\ eq_nf d v w.
Proof.
  intros E Hl Hn Hc He Ht. rewrite E in Ht. destruct (atom_inv _ _ Ht) as (s & Hs & ->).
  exists n, v. cbn [lit_eval]. rewrite (Hl s Hs), E, Hs. auto.
Qed.

Lemma gen_int mn mx : (- 2 ^ 64 <= mn)%Z -> (mx <= 2 ^ 64)%Z -> gen_ok (TInt mn mx).
Proof.
  intros Hmn Hmx v t Hv _. destruct v; cbn [valid in_setb] in Hv; try discriminate.
  apply andb_prop in Hv. destruct Hv as [H1 H2]. apply Z.leb_le in H1. apply Z.leb_le in H2.
  apply (gen_atom _ _ (PInt z) (PInt z)); [reflexivity|apply law_int, L|discriminate| |constructor].
  exact (int_call_exact z (of_Z_small_finite z ltac:(lia))).
Qed.

Lemma gen_bool : gen_ok TBool.
Proof.
  intros v t Hv _. destruct v; cbn [valid in_setb] in Hv; try discriminate.
  apply (gen_atom _ _ (PBool b) (PBool b)); [reflexivity|apply law_bool, L|discriminate|reflexivity|constructor].
Qed.

Lemma mem_str_names n z ms :
  existsb (fun p : str * Z => str_eqb n (fst p) && Z.eqb z (snd p)) ms = true -> mem_str n (map fst ms) = true.
Proof.
  induction ms as [|[n1 z1] ms IH]; cbn; [discriminate|]. intros H. apply orb_prop in H. destruct H as [H|H].
  - apply andb_prop in H. destruct H as [H _]. rewrite H. reflexivity.
  - rewrite (IH H). apply orb_true_r.
Qed.

Lemma enum_by_name_found n z ms : keys_nodup (map fst ms) = true ->
  existsb (fun p : str * Z => str_eqb n (fst p) && Z.eqb z (snd p)) ms = true -> enum_by_name n ms = Some (n, z).
Proof.
  induction ms as [|[n1 z1] ms IH]; cbn; [discriminate|]. intros Hn H.
  apply andb_prop in Hn. destruct Hn as [Hf Hn]. apply negb_true_iff in Hf.
  destruct (str_eqb n n1) eqn:E.
  - apply str_eqb_eq in E. subst n1. cbn in H. destruct (Z.eqb z z1) eqn:Ez.
    + apply Z.eqb_eq in Ez. subst. reflexivity.
    + cbn in H. apply mem_str_names in H. congruence.
  - cbn in H. apply IH; assumption.
Qed.

Lemma gen_enum ms : gen_ok (TEnum ms).
Proof.
  intros v t Hv Hg. destruct v as [| | | | | | | | |n v|]; cbn [valid in_setb] in Hv; try discriminate.
  cbn [text_ok] in Hg. unfold enum_names_ok in Hg. apply andb_prop in Hg. destruct Hg as [_ Hg].
  apply (gen_atom _ _ (PStr n) (PStr n)); [reflexivity|apply law_str, L|discriminate| |constructor].
  cbn [dt_call enum_call]. rewrite (enum_by_name_found n v ms Hg Hv). reflexivity.
Qed.

Lemma gen_string a b u : gen_ok (TString a b u).
Proof.
  intros v t Hv _. destruct v; cbn [valid in_setb] in Hv; try discriminate.
  apply (gen_atom _ _ (PStr s) (PStr s)); [reflexivity|apply law_str, L|discriminate| |constructor].
  exact (string_call_ok _ _ _ _ Hv).
Qed.

Lemma gen_blob a b : gen_ok (TBlob a b).
Proof.
  intros v t Hv _. destruct v; cbn [valid in_setb] in Hv; try discriminate.
  apply (gen_atom _ _ (PBytes b0) (PBytes b0)); [reflexivity|apply law_bytes, L|discriminate| |constructor].
  exact (blob_call_ok _ _ _ Hv).
Qed.

Definition tree_list (f : pyval -> res ptree) : list pyval -> res (list ptree) :=
  fix go (l : list pyval) : res (list ptree) :=
    match l with
    | [] => Ok []
    | x :: r => f x >>= fun y => go r >>= fun ys => Ok (y :: ys)
    end.
Lemma tree_list_cons f x r : tree_list f (x :: r) = (f x >>= fun y => tree_list f r >>= fun ys => Ok (y :: ys)).
Proof. reflexivity. Qed.
Lemma to_tree_array e a b v : to_tree C (TArray e a b) v =
  match py_iter v with None => Err EType | Some items => tree_list (to_tree C e) items >>= fun ts => Ok (PL ts) end.
Proof. reflexivity. Qed.

Lemma list_chain e : gen_ok e -> forall l, forallb (valid e) l = true -> forallb (text_ok e) l = true ->
  forall ts, tree_list (to_tree C e) l = Ok ts ->
  exists ns ws, all_some (map (lit_eval C) ts) = Some ns /\ map_res (dt_call e) ns = Ok ws /\
    tree_list (to_tree C e) ws = Ok ts /\ Forall2 (eq_nf e) l ws /\ length ns = length l.
Proof.
  intros IH. induction l as [|x l IHl]; intros Hv Hg ts Ht.
  - cbn in Ht. inversion Ht. exists [], []. cbn. repeat split; constructor.
  - cbn in Hv, Hg. apply andb_prop in Hv. destruct Hv as [Hx Hl]. apply andb_prop in Hg. destruct Hg as [Gx Gl].
    rewrite tree_list_cons in Ht. destruct (to_tree C e x) as [y|] eqn:Ex; [|discriminate]. cbn [bind] in Ht.
    destruct (tree_list (to_tree C e) l) as [ys|] eqn:El; [|discriminate]. cbn in Ht. inversion Ht. subst ts.
    destruct (IH x y Hx Gx Ex) as (n & w & A1 & _ & A3 & A4 & A5).
    destruct (IHl Hl Gl ys eq_refl) as (ns & ws & B1 & B2 & B3 & B4 & B5).
    exists (n :: ns), (w :: ws). cbn [map all_some]. rewrite A1, B1. rewrite map_res_cons, A3, B2. cbn [bind].
    rewrite tree_list_cons, A4, B3. cbn. repeat split; [constructor; assumption|congruence].
Qed.

Lemma gen_array e a b : gen_ok e -> gen_ok (TArray e a b).
Proof.
  intros IH v t Hv Hg Ht. destruct v; cbn [valid] in Hv; try discriminate.
  apply andb_prop in Hv. destruct Hv as [Hv Hl]. apply andb_prop in Hv. destruct Hv as [H1 H2].
  cbn [text_ok] in Hg. rewrite to_tree_array in Ht. cbn [py_iter] in Ht.
  destruct (tree_list (to_tree C e) l) as [ts|] eqn:El; [|discriminate]. cbn in Ht. inversion Ht. subst t.
  destruct (list_chain e IH l Hl Hg ts El) as (ns & ws & B1 & B2 & B3 & B4 & B5).
  exists (PList ns), (PTuple ws). cbn [lit_eval]. rewrite B1. split; [reflexivity|]. split; [discriminate|].
  cbn [dt_call]. rewrite (array_check_len a b (PList ns) (length l)) by (cbn; congruence). cbn [bind py_iter]. rewrite B2.
  cbn [wrap_elem bind]. split; [reflexivity|]. rewrite to_tree_array. cbn [py_iter]. rewrite B3.
  split; [reflexivity|constructor; exact B4].
Qed.

Definition tree_zip (f : dtype -> pyval -> res ptree) : list dtype -> list pyval -> res (list ptree) :=
  fix go (ds : list dtype) (l : list pyval) : res (list ptree) :=
    match ds, l with
    | d1 :: ds', x :: r => f d1 x >>= fun y => go ds' r >>= fun ys => Ok (y :: ys)
    | _, _ => Ok []
    end.
Definition tuple_tree (ts : list ptree) : ptree := match ts with [t] => PT1 t | _ => PP ts end.
Lemma tree_zip_cons f d1 ds x r :
  tree_zip f (d1 :: ds) (x :: r) = (f d1 x >>= fun y => tree_zip f ds r >>= fun ys => Ok (y :: ys)).
Proof. reflexivity. Qed.
Lemma to_tree_tuple es v : to_tree C (TTuple es) v =
  match py_iter v with None => Err EType | Some items => tree_zip (to_tree C) es items >>= fun ts => Ok (tuple_tree ts) end.
Proof. reflexivity. Qed.

Lemma lit_eval_tuple_tree ts ns : all_some (map (lit_eval C) ts) = Some ns -> lit_eval C (tuple_tree ts) = Some (PTuple ns).
Proof.
  destruct ts as [|t1 [|t2 r]]; cbn [tuple_tree lit_eval]; intros H; try (rewrite H; reflexivity).
  cbn in H. destruct (lit_eval C t1); inversion H. reflexivity.
Qed.

Lemma zip_chain es : Forall gen_ok es -> forall l, all2 valid es l = true -> all2 text_ok es l = true ->
  forall ts, tree_zip (to_tree C) es l = Ok ts ->
  exists ns ws, all_some (map (lit_eval C) ts) = Some ns /\ mapd_res dt_call es ns = Ok ws /\
    tree_zip (to_tree C) es ws = Ok ts /\ eq_nfs es l ws /\ length ns = length es.
Proof.
  induction es as [|d1 es IHes]; intros HF [|x l] Hv Hg ts Ht; cbn in Hv; try discriminate.
  - cbn in Ht. inversion Ht. exists [], []. cbn. repeat split; constructor.
  - cbn in Hg. apply andb_prop in Hv. destruct Hv as [Hx Hl]. apply andb_prop in Hg. destruct Hg as [Gx Gl].
    inversion HF as [|? ? Hd HF']; subst.
    rewrite tree_zip_cons in Ht. destruct (to_tree C d1 x) as [y|] eqn:Ex; [|discriminate]. cbn [bind] in Ht.
    destruct (tree_zip (to_tree C) es l) as [ys|] eqn:El; [|discriminate]. cbn in Ht. inversion Ht. subst ts.
    destruct (Hd x y Hx Gx Ex) as (n & w & A1 & _ & A3 & A4 & A5).
    destruct (IHes HF' l Hl Gl ys El) as (ns & ws & B1 & B2 & B3 & B4 & B5).
    exists (n :: ns), (w :: ws). cbn [map all_some]. rewrite A1, B1. rewrite mapd_res_cons, A3, B2. cbn [bind].
    rewrite tree_zip_cons, A4, B3. cbn. repeat split; [constructor; assumption|congruence].
Qed.

Lemma gen_tuple es : Forall gen_ok es -> gen_ok (TTuple es).
Proof.
  intros IH v t Hv Hg Ht. destruct v; try discriminate. rewrite valid_tuple in Hv. rewrite text_ok_tuple in Hg.
  rewrite to_tree_tuple in Ht. cbn [py_iter] in Ht.
  destruct (tree_zip (to_tree C) es l) as [ts|] eqn:El; [|discriminate]. cbn in Ht. inversion Ht. subst t.
  destruct (zip_chain es IH l Hv Hg ts El) as (ns & ws & B1 & B2 & B3 & B4 & B5).
  exists (PTuple ns), (PTuple ws). split; [exact (lit_eval_tuple_tree ts ns B1)|]. split; [discriminate|].
  cbn [dt_call]. rewrite tuple_check_len by (cbn; congruence). cbn [bind py_iter]. rewrite B2.
  cbn [wrap_elem bind]. split; [reflexivity|]. rewrite to_tree_tuple. cbn [py_iter]. rewrite B3.
  split; [reflexivity|constructor; exact B4].
Qed.

Fixpoint tree_struct (ms : list (str * dtype)) (kv : list (str * pyval)) : res (list (str * ptree)) :=
  match kv with
  | [] => Ok []
  | (k, x) :: r =>
      match c_repr C (PStr k) with
      | None => Err EOther
      | Some ks =>
          match member_type k ms with
          | None => Err EKey
          | Some d1 => to_tree C d1 x >>= fun y => tree_struct ms r >>= fun ys => Ok ((ks, y) :: ys)
          end
      end
  end.

Lemma find_member {A} k (F : dtype -> res A) ms :
  (fix find (ms0 : list (str * dtype)) : res A :=
     match ms0 with
     | [] => Err EKey
     | (n, d1) :: ms' => if str_eqb k n then F d1 else find ms'
     end) ms
  = match member_type k ms with None => Err EKey | Some d1 => F d1 end.
Proof. induction ms as [|[n d1] ms IH]; cbn; [reflexivity|]. destruct (str_eqb k n); [reflexivity|exact IH]. Qed.

Lemma to_tree_struct ms o c kv : to_tree C (TStruct ms o c) (PDict kv) = (tree_struct ms kv >>= fun ts => Ok (PB ts)).
Proof.
  cbn [to_tree is_dict negb dict_items]. f_equal.
  induction kv as [|[k x] r IH]; [reflexivity|].
  cbn [tree_struct]. rewrite <- IH. destruct (c_repr C (PStr k)) as [ks|]; [|reflexivity].
  rewrite find_member. reflexivity.
Qed.

Definition lit_struct : list (str * ptree) -> list (str * pyval) -> option pyval :=
  fix go (l : list (str * ptree)) (acc : list (str * pyval)) : option pyval :=
    match l with
    | [] => Some (PDict acc)
    | (k, x) :: r =>
        match c_lit C k, lit_eval C x with
        | Some (PStr k'), Some v => go r (dict_set k' v acc)
        | _, _ => None
        end
    end.
Lemma lit_eval_PB l : lit_eval C (PB l) = lit_struct l [].
Proof. reflexivity. Qed.

Lemma member_res_type f k x ms :
  member_res f k x ms = match member_type k ms with None => Err EKey | Some d1 => f d1 x end.
Proof. induction ms as [|[n d1] ms IH]; cbn; [reflexivity|]. destruct (str_eqb k n); [reflexivity|exact IH]. Qed.

Lemma entry_ok_type Q ms k x :
  entry_ok Q ms (k, x) = match member_type k ms with None => false | Some d1 => Q d1 x end.
Proof.
  induction ms as [|[n d1] ms IH]; [reflexivity|]. rewrite entry_ok_cons. cbn [member_type].
  destruct (str_eqb k n); [reflexivity|exact IH].
Qed.

Lemma member_type_Forall (P : dtype -> Prop) ms k d1 :
  Forall (fun m => P (snd m)) ms -> member_type k ms = Some d1 -> P d1.
Proof.
  induction 1 as [|[n d0] ms H _ IH]; [discriminate|]. cbn [member_type].
  destruct (str_eqb k n); [|exact IH].
  intros E. inversion E. subst. exact H.
Qed.

Definition entry_eq (ms : list (str * dtype)) (p q : str * pyval) : Prop :=
  fst p = fst q /\ exists d1, member_type (fst p) ms = Some d1 /\ eq_nf d1 (snd p) (snd q).

(* what literal_eval makes of one entry of a dict display *)
Definition entry_lit (kt : str * ptree) (q : str * pyval) : Prop :=
  c_lit C (fst kt) = Some (PStr (fst q)) /\ lit_eval C (snd kt) = Some (snd q).

(* for distinct keys that are new to the accumulator, the entries are read one by one and appended *)
Lemma lit_struct_nodup ts kn : Forall2 entry_lit ts kn -> forall acc,
  keys_nodup (map fst kn) = true ->
  (forall k, mem_str k (map fst kn) = true -> mem_str k (map fst acc) = false) ->
  lit_struct ts acc = Some (PDict (acc ++ kn)).
Proof.
  induction 1 as [|[ks y] [k n] ts kn (Hk & Hy) _ IH]; intros acc Hn Hd.
  - cbn. rewrite app_nil_r. reflexivity.
  - cbn in Hk, Hy, Hn. apply andb_prop in Hn. destruct Hn as [Hf Hn]. apply negb_true_iff in Hf.
    cbn [lit_struct]. rewrite Hk, Hy. fold lit_struct.
    rewrite dict_set_fresh by (apply Hd; cbn; rewrite str_eqb_refl; reflexivity).
    rewrite (IH (acc ++ [(k, n)]) Hn (fresh_step k kn acc n Hf Hd)), <- app_assoc. reflexivity.
Qed.

Lemma struct_text_chain ms : Forall (fun m => gen_ok (snd m)) ms ->
  forall kv, forallb (entry_ok valid ms) kv = true -> forallb (entry_ok text_ok ms) kv = true ->
  forall ts, tree_struct ms kv = Ok ts ->
  exists kn kw, Forall2 entry_lit ts kn /\ Forall2 (entry_conv dt_call true ms) kn kw /\
    tree_struct ms kw = Ok ts /\ Forall2 (entry_eq ms) kv kw /\ map fst kn = map fst kv.
Proof.
  intros HF. induction kv as [|[k x] kv IH]; intros Hv Hg ts Ht.
  - cbn in Ht. inversion Ht. exists [], []. repeat split; constructor.
  - cbn [forallb] in Hv, Hg. apply andb_prop in Hv. destruct Hv as [Hx Hv]. apply andb_prop in Hg. destruct Hg as [Gx Hg].
    rewrite entry_ok_type in Hx, Gx. cbn [tree_struct] in Ht.
    destruct (c_repr C (PStr k)) as [ks|] eqn:Ek; [|discriminate].
    destruct (member_type k ms) as [d1|] eqn:Em; [|discriminate].
    destruct (to_tree C d1 x) as [y|] eqn:Ey; [|discriminate]. cbn [bind] in Ht.
    destruct (tree_struct ms kv) as [ys|] eqn:Eys; [|discriminate]. cbn in Ht. inversion Ht. subst ts.
    destruct (member_type_Forall gen_ok ms k d1 HF Em x y Hx Gx Ey) as (n & w & A1 & A2 & A3 & A4 & A5).
    destruct (IH Hv Hg ys eq_refl) as (kn & kw & G1 & G2 & G3 & G4 & G5).
    exists ((k, n) :: kn), ((k, w) :: kw). split; [|split; [|split; [|split]]].
    + constructor; [split; [exact (law_str C L k ks Ek)|exact A1]|exact G1].
    + constructor; [|exact G2]. unfold entry_conv. cbn. rewrite member_res_type, Em. auto.
    + cbn [tree_struct]. rewrite Ek, Em, A4. cbn [bind]. rewrite G3. reflexivity.
    + constructor; [|exact G4]. split; [reflexivity|]. exists d1. split; [exact Em|exact A5].
    + cbn. f_equal. exact G5.
Qed.

Lemma gen_struct ms o c : Forall (fun m => gen_ok (snd m)) ms -> gen_ok (TStruct ms o c).
Proof.
  intros IH v t Hv Hg Ht. destruct v; try discriminate. rewrite valid_struct in Hv. rewrite text_ok_struct in Hg.
  apply andb_prop in Hv. destruct Hv as [Hv H3]. apply andb_prop in Hv. destruct Hv as [H1 H2].
  apply andb_prop in Hg. destruct Hg as [Gc Gm].
  rewrite to_tree_struct in Ht. destruct (tree_struct ms kv) as [ts|] eqn:Ets; [|discriminate].
  cbn in Ht. inversion Ht. subst t.
  destruct (struct_text_chain ms IH kv H2 Gm ts Ets) as (kn & kw & G1 & G2 & G3 & G4 & G5).
  pose proof (entry_conv_keys _ _ _ _ _ G2) as G6. rewrite G5 in G6. rewrite <- G5 in H1.
  (* members that are present, or optional on a client side type; on a node side type text_ok demands all of them *)
  assert (Hreq : forallb (fun n => mem_str n (map fst kv) || (c && mem_str n o)) (map fst ms) = true).
  { destruct c; [exact H3|]. revert Gc. apply forallb_imp. intros n Hn. rewrite Hn. reflexivity. }
  exists (PDict kn), (PDict kw). rewrite lit_eval_PB, (lit_struct_nodup ts kn G1 [] H1 (fun _ _ => eq_refl)).
  split; [reflexivity|]. split; [discriminate|]. cbn [dt_call].
  rewrite (struct_check_valid valid ms o c false kv kn H2 G5) by (rewrite orb_false_r; exact Hreq).
  cbn [bind is_dict negb dict_items]. rewrite (struct_fold_nodup _ _ _ _ _ G2 [] H1 (fun _ _ => eq_refl)).
  cbn [wrap_elem bind app].
  rewrite check_missing_flag by (rewrite G6; exact Hreq). cbn [bind].
  split; [reflexivity|]. rewrite to_tree_struct, G3. split; [reflexivity|]. constructor. exact G4.
Qed.

Theorem gen_all : forall d, num_limits_ok d = true -> gen_ok d.
Proof.
  unfold num_limits_ok.
  induction d as [a b c d|a b|a b c| |ms|a b u|a b|e a b IHe|es IHes|ms o c IHms] using dtype_nested_ind; intros H.
  - apply gen_float.
  - cbn in H. apply andb_prop in H. destruct H as [H1 H2]. apply Z.leb_le in H1. apply Z.leb_le in H2.
    apply gen_int; assumption.
  - apply gen_scaled.
  - apply gen_bool.
  - apply gen_enum.
  - apply gen_string.
  - apply gen_blob.
  - apply gen_array, IHe, H.
  - apply gen_tuple. exact (Forall_mp _ _ _ IHes (leavesb_tuple _ _ H)).
  - apply gen_struct. exact (Forall_mp _ _ _ IHms (leavesb_struct _ _ _ _ H)).
Qed.

Lemma enum_name_stripped n z (ms : list (str * Z)) :
  forallb (fun m : str * Z => str_eqb (strip (fst m)) (fst m)) ms = true ->
  existsb (fun p : str * Z => str_eqb n (fst p) && Z.eqb z (snd p)) ms = true -> strip n = n.
Proof.
  induction ms as [|[n1 z1] ms IH]; cbn [forallb existsb fst snd]; [discriminate|]. intros Hs H.
  apply andb_prop in Hs. destruct Hs as [H1 Hs]. apply orb_prop in H. destruct H as [H|H].
  - apply andb_prop in H. destruct H as [H _]. apply str_eqb_eq in H. subst n1. apply str_eqb_eq, H1.
  - apply IH; assumption.
Qed.

Theorem text_roundtrip : forall d v t, num_limits_ok d = true -> valid d v = true -> text_ok d v = true ->
  to_string C d v = Ok t ->
  exists w, from_string C d t = Ok w /\ to_string C d w = Ok t /\ eq_nf d v w.
Proof.
  intros d v t HL Hv Hg Ht.
  assert (Gen : to_string C d v = to_tree C d v -> (forall w, to_string C d w = to_tree C d w) ->
                from_string C d t = generic_from_string C d t ->
                exists w, from_string C d t = Ok w /\ to_string C d w = Ok t /\ eq_nf d v w).
  { intros E1 E2 E3. rewrite E1 in Ht. destruct (gen_all d HL v t Hv Hg Ht) as (n & w & A1 & _ & A3 & A4 & A5).
    exists w. rewrite E3, E2. unfold generic_from_string. rewrite A1. auto. }
  destruct d as [a b c d|a b|a b c| |ms|a b u|a b|e a b|es|ms o c]; try (apply Gen; intros; reflexivity); clear Gen.
  - (* bool: the words True and False *)
    destruct v; cbn [valid in_setb] in Hv; try discriminate. cbn [to_string to_tree] in Ht.
    destruct (atom_inv _ _ Ht) as (s & Hs & ->). exists (PBool b). destruct b.
    + pose proof (law_true C L s Hs) as Es. subst s. split; [vm_compute; reflexivity|]. cbn [to_string to_tree]. rewrite Hs.
      split; [reflexivity|constructor].
    + pose proof (law_false C L s Hs) as Es. subst s. split; [vm_compute; reflexivity|]. cbn [to_string to_tree]. rewrite Hs.
      split; [reflexivity|constructor].
  - (* enum: the bare name *)
    destruct v as [| | | | | | | | |n z|]; cbn [valid in_setb] in Hv; try discriminate.
    cbn [text_ok] in Hg. unfold enum_names_ok in Hg. apply andb_prop in Hg. destruct Hg as [G1 G2].
    cbn [to_string] in Ht. inversion Ht. subst t. exists (PEnum n z).
    cbn [from_string render]. rewrite (enum_name_stripped n z ms G1 Hv), (enum_by_name_found n z ms G2 Hv).
    split; [reflexivity|]. split; [reflexivity|constructor].
  - (* string: the bare text *)
    destruct v; cbn [valid in_setb] in Hv; try discriminate.
    cbn [to_string] in Ht. inversion Ht. subst t. exists (PStr s).
    cbn [from_string render]. rewrite (string_call_ok _ _ _ _ Hv).
    split; [reflexivity|]. split; [reflexivity|constructor].
Qed.

End TextLaws.
