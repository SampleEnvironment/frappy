(* C02 - Valid values survive the wire encoding and the text encoding unchanged: property theorems.
   d ranges over ALL datatype trees (any depth/width), v over all valid values (Lemmas.valid: the C01 value set in
   canonical form, finite floats, scaled values on the grid of their scale, distinct struct keys, required members
   present), C over every codec (CPython's b64encode / "%g" / repr / literal_eval as functions), E over every
   tabulation of b64decode.

   (wire)  C02_wire_roundtrip: export succeeds and import_value+validate on the node gives back a value equal
           (python ==) to v, for all trees satisfying the two boolean guards
             num_limits_ok d      double leaves have finite limits/resolution, int leaves limits within +-2^64
                                  (what the constructors guarantee), and
             scaled_grid_small d  every scaled leaf has a positive normal scale <= 2^970, the grid indices
                                  round(min/scale), round(max/scale) are at most 2^51 in magnitude and its extreme grid
                                  values pass the window test of validate (min - scale < value < max + scale).
           The scaled leaf is C02_scaled_grid_stable (Flocq: two roundings of relative error 2^-53 keep
           fl(fl(k*s)/s) within 1/2 of k; exact for |k| = 2^51).  Beyond 2^51 the export is refuted
           (C02_refuted_scaled_huge); the window conjunct can fail for limits that are not grid points once the index
           exceeds about 2^50.68 (C02_refuted_scaled_window, finding scaled-limit-window) - it is a decidable condition on the type,
           and C02_scaled_guard_easy proves it from either of two plain conditions: indices up to 2^50 with
           arbitrary finite limits, or indices up to 2^51 with limits on the grid (every client side type).
   (b64)   CPython's base64 codec enters per value: b64_ok E C d v says that every blob inside v is encoded by the codec
           C to a text that the table E decodes back to it (boolean; examples compute it).  A law for ALL byte strings
           cannot be met by a finite table, the theorems would be vacuous; hence the law per value.
   (json kind)  C02_export_kind_sound: whenever export_value of a valid value returns (any tree, no guard), the result
           has the JSON kind SECoP prescribes (number for double - finite, hence strict JSON -, integer for
           int/scaled/enum, true/false, string, RFC 4648 text for blob - under the law that b64encode produces such
           text -, array, object over member names); C02_json_kind adds that within the guards it does return.
           Also checked on every case by Run.check_case and by the oracle.
   (client type)  C02_client_of_within_guards: the type rebuilt from the exported datainfo of a tree within the guards
           exists and is within the guards (scaled limits are rebuilt as grid values with the same indices), so the
           client theorems carry hypotheses on the node's tree only.  C02_client_same_values: the rebuilt type has
           the same valid values; C02_client_side_roundtrip: a value exported by the client side type (setParameter)
           survives import_value + validate on the node.
   (client) C02_client_imports_like_node - for every tree whose enums list their members by ascending code,
           import_value of the rebuilt type equals import_value of the node's type on EVERY json value; hence
           C02_client_roundtrip: the client obtains from the exported form the very value the node obtains, which
           validates to a value == v.
   (text)  C02_text_roundtrip (LemmasText.v): the text form is accepted back and maps to a value with the identical
           text form, equal to v on every non-float leaf, under the listed CPython codec laws, excluding by the
           boolean guard text_ok: -0.0 (C02_refuted_negzero_text), scaled values whose six digit text is re-gridded to
           a different text (C02_refuted_scaled_text, finding scaled-text-regrid), structs lacking optional members on a node side
           type.  setParameterFromString is from_string followed by the wire round trip: C02_setparam_roundtrip. *)
From Coq Require Import ZArith NArith Bool List.
Import ListNotations.
Require Import FV.Gen.C02 FV.Base.F64 FV.Base.PyVal FV.C01.Model FV.C01.F64More FV.C01.Lemmas FV.C02.Model FV.C02.Run FV.C02.Lemmas
  FV.C02.LemmasScaled FV.C02.LemmasText FV.C02.LemmasClient FV.C02.LemmasKind
  FV.C02.LemmasClientGuards FV.C02.Refuted.

(* obligations on the facts regenerated from /repo (Gen/C02.v) *)
Theorem C02_source_facts :
  leaf_exports = true /\ container_exports = true /\ leaf_imports = true /\ container_imports = true /\
  generic_text_forms = true /\ leaf_text_forms = true /\ container_text_forms = true /\
  bool_false_words = false_words /\ bool_true_words = true_words /\ rebuild_rows = true /\
  string_maxchars_default = true /\ rebuilt_type_is_client = true /\ set_parameter_exports = true /\
  set_parameter_from_string_exports = true /\ client_update_imports = true /\
  cache_item_str_is_to_string = true /\ frames_are_plain_json = true.
Proof. repeat split; reflexivity. Qed.
Print Assumptions C02_source_facts.

Theorem C02_wire_roundtrip : forall E C,
  forall d, num_limits_ok d = true -> scaled_grid_small d = true ->
  forall v, valid d v = true -> b64_ok E C d v = true ->
  exists j w v', dt_export C d v = Ok j /\ dt_import E d j = Ok w /\ dt_validate d w PNone = Ok v' /\ py_eq v v' /\
                 w <> PNone.
Proof. exact wire_roundtrip_all. Qed.
Print Assumptions C02_wire_roundtrip.

(* the JSON kind, no guard on the tree: whenever export_value of a valid value returns, the result is of the kind
   prescribed for the type, and strict JSON (a valid double is finite, so neither NaN nor Infinity is exported;
   the open finding C06/nan-constant concerns constants of the description, not validated values).
   b64_text_law C: whatever b64encode answers is RFC 4648 text (a statement about CPython only) *)
Theorem C02_export_kind_sound : forall C, b64_text_law C ->
  forall d v j, valid d v = true -> dt_export C d v = Ok j -> kind_ok d j = true /\ strict_json j = true.
Proof.
  intros C HT d v j Hv H. split; [exact (export_kind_sound C HT d v j Hv H)|exact (export_strict C HT d v j Hv H)].
Qed.
Print Assumptions C02_export_kind_sound.

(* ... and within the guards of the wire round trip the exported form exists *)
Theorem C02_json_kind : forall E C, b64_text_law C ->
  forall d, num_limits_ok d = true -> scaled_grid_small d = true ->
  forall v, valid d v = true -> b64_ok E C d v = true ->
  exists j, dt_export C d v = Ok j /\ kind_ok d j = true /\ strict_json j = true.
Proof. intros E C HT. exact (json_kind C HT E). Qed.
Print Assumptions C02_json_kind.

(* the prescribed kind alone excludes NaN / Infinity *)
Theorem C02_kind_is_strict_json : forall d j, kind_ok d j = true -> strict_json j = true.
Proof. exact kind_strict. Qed.
Print Assumptions C02_kind_is_strict_json.

(* the scaled leaf in the model's own functions: for a positive normal scale s <= 2^970 and a grid index k with
   |k| <= 2^51, every float f that is numerically fl(k * s) is exported as k: round(f / s) = k *)
Theorem C02_scaled_grid_stable : forall s k kf f, scale_ok s = true -> (Z.abs k <= 2 ^ 51)%Z ->
  float_of_Z k = Some kf -> feq f (fmul kf s) = true ->
  scaled_export s (PFloat f) = Ok (PInt k).
Proof.
  intros s k kf f Hs Hk Hz He. destruct (grid_floats s k Hs Hk) as (Hz' & Fr & Br & _).
  rewrite Hz in Hz'. injection Hz' as ->.
  pose proof (feq_finite_l _ _ Fr He) as Ff. pose proof (feq_finite_R _ _ Ff Fr He) as Bf. rewrite Br in Bf.
  destruct (scaled_grid_stable s f k Hs Hk Ff Bf) as [Fq Hq].
  unfold scaled_export. cbn [py_div_scale bind]. rewrite (py_round_finite _ Fq), Hq. reflexivity.
Qed.
Print Assumptions C02_scaled_grid_stable.

(* the two numeric leaf facts on their own *)
Theorem C02_int_leaf_exact : forall z, (Z.abs z <= 2 ^ 64)%Z -> int_call (PInt z) = Ok (PInt z).
Proof. intros z Hz. apply int_call_exact, of_Z_small_finite, Hz. Qed.
Print Assumptions C02_int_leaf_exact.

Theorem C02_float_leaf_unchanged : forall mn mx a r g,
  fis_finite mn = true -> fis_finite mx = true -> fis_finite r = true -> fis_finite g = true ->
  fle mn g = true -> fle g mx = true ->
  exists g', float_validate mn mx a r (PFloat g) = Ok (PFloat g') /\ fis_finite g' = true /\
             BinarySingleNaN.B2R g' = BinarySingleNaN.B2R g.
Proof. exact float_validate_in_range. Qed.
Print Assumptions C02_float_leaf_unchanged.

(* two simpler sufficient conditions for the scaled guard, per scaled leaf: (a) positive normal scale <= 2^970, finite
   limits and indices round(min/scale), round(max/scale) of magnitude at most 2^50, whatever the limits are; or
   (b) indices up to 2^51 and limits that are grid values themselves (every client side type) *)
Theorem C02_scaled_guard_easy : forall d, scaled_grid_easy d = true -> scaled_grid_small d = true.
Proof.
  apply leavesb_imp. intros [a b c e|a b|s mn mx| |ms|a b u|a b|e a b|es|ms o c]; cbn; auto.
  intros H. apply orb_prop in H. destruct H as [H|H]; [apply scaled_leaf_simple_small|apply scaled_leaf_aligned_small]; exact H.
Qed.
Print Assumptions C02_scaled_guard_easy.

(* setParameterFromString(text) = from_string, export_value, node import_value + validate: an accepted text with a valid
   value w leaves the node with a value equal to w *)
Theorem C02_setparam_roundtrip : forall C E d t w,
  num_limits_ok d = true -> scaled_grid_small d = true -> from_string C d t = Ok w -> valid d w = true ->
  b64_ok E C d w = true ->
  exists v', set_from_string C E d d t = Ok v' /\ py_eq w v'.
Proof.
  intros C E d t w H1 H2 H Hv Hb. destruct (C02_wire_roundtrip E C d H1 H2 w Hv Hb) as (j & w' & v' & R).
  apply (setparam_roundtrip C E d t w H). exists j, w', v'. exact R.
Qed.
Print Assumptions C02_setparam_roundtrip.

(* a tuple with one member is written (x,) and read back as a 1-tuple whose member is what __call__ makes of x *)
Theorem C02_one_tuple_text_accepted : forall C d1 x t w y,
  to_tree C d1 x = Ok t -> lit_eval C t = Some w -> dt_call d1 w = Ok y ->
  exists t1, to_string C (TTuple [d1]) (PTuple [x]) = Ok t1 /\ from_string C (TTuple [d1]) t1 = Ok (PTuple [y]).
Proof.
  intros C d1 x t w y H1 H2 H3. exists (PT1 t). split.
  - exact (one_tuple_to_tree C d1 x t H1).
  - exact (one_tuple_text_accepted C d1 t w y H2 H3).
Qed.
Print Assumptions C02_one_tuple_text_accepted.

(* the text encoding: for every codec obeying the listed laws of CPython (literal_eval(repr(x)) == x for int, bool, str,
   bytes; repr(True) = "True", repr(False) = "False"; the percent-g text of a finite float other than -0.0 denotes a
   number whose percent-g text is that text again), every tree with int limits within +-2^64, every valid value within
   the guard text_ok (no -0.0 leaf; scaled leaves whose six digit text re-grids to the same text; enum names without
   surrounding blanks or duplicates; no struct lacking optional members on a node side type): whenever the text form t
   exists, from_string accepts it, the value it returns has the identical text form (the same tree t, hence the same
   rendered text) and is equal to v on every leaf that is not a double or scaled leaf *)
Theorem C02_text_roundtrip : forall C, codec_laws C ->
  forall d v t, num_limits_ok d = true -> valid d v = true -> text_ok C d v = true -> to_string C d v = Ok t ->
  exists w, from_string C d t = Ok w /\ to_string C d w = Ok t /\ eq_nf d v w.
Proof. exact text_roundtrip. Qed.
Print Assumptions C02_text_roundtrip.

(* the client side of every string type is the string type itself (limits included) *)
Theorem C02_client_string_faithful : forall minc maxc u, client_of (TString minc maxc u) = Ok (TString minc maxc u).
Proof. reflexivity. Qed.
Print Assumptions C02_client_string_faithful.

(* get_datatype(export_datatype()) imports exactly like the original, for every offered json value *)
Theorem C02_client_imports_like_node : forall E d, enums_sorted d -> forall dc, client_of d = Ok dc ->
  forall j, dt_import E dc j = dt_import E d j.
Proof.
  intros E d HS dc Hc. revert d dc Hc HS. apply (client_codec_same PTuple); reflexivity.
Qed.
Print Assumptions C02_client_imports_like_node.

(* the type the client rebuilds from the exported datainfo of a tree within the guards exists and is itself within
   every guard: scaled limits are rebuilt as round(limit/scale)*scale, grid values with the same indices
   (scaled_grid_aligned, which implies scaled_grid_easy and scaled_grid_small); sorted enums stay sorted *)
Theorem C02_client_of_within_guards : forall d, num_limits_ok d = true -> scaled_grid_small d = true ->
  exists dc, client_of d = Ok dc /\ num_limits_ok dc = true /\ scaled_grid_small dc = true /\
             scaled_grid_easy dc = true /\ scaled_grid_aligned dc = true /\ (enums_sorted d -> enums_sorted dc).
Proof.
  intros d L S. destruct (client_of_within d L S) as (dc & H1 & H2 & H3 & H4). exists dc.
  pose proof (scaled_grid_aligned_easy dc H3) as H5. pose proof (C02_scaled_guard_easy dc H5) as H6.
  repeat split; assumption.
Qed.
Print Assumptions C02_client_of_within_guards.

(* hypotheses on the node's tree only: the client side type exists, is within the guards, and the client obtains from
   the exported form of every valid value the very value w the node obtains, which validates to a value == v *)
Theorem C02_client_roundtrip : forall E C,
  forall d, num_limits_ok d = true -> scaled_grid_small d = true -> enums_sorted d ->
  exists dc, client_of d = Ok dc /\ num_limits_ok dc = true /\ scaled_grid_small dc = true /\ enums_sorted dc /\
  forall v, valid d v = true -> b64_ok E C d v = true ->
  exists j w v', dt_export C d v = Ok j /\ dt_import E dc j = Ok w /\ dt_import E d j = Ok w /\
                 dt_validate d w PNone = Ok v' /\ py_eq v v'.
Proof.
  intros E C d H1 H2 HS.
  destruct (C02_client_of_within_guards d H1 H2) as (dc & Hc & G1 & G2 & _ & _ & G3).
  exists dc. repeat split; auto. intros v Hv Hb.
  destruct (C02_wire_roundtrip E C d H1 H2 v Hv Hb) as (j & w & v' & A1 & A2 & A3 & A4 & _).
  exists j, w, v'. rewrite (C02_client_imports_like_node E d HS dc Hc j). auto.
Qed.
Print Assumptions C02_client_roundtrip.

(* the rebuilt type has exactly the valid values of the node's type (the regridded scaled limits select the same lowest
   and highest grid value; an optional list that names every member is written as "all members") *)
Theorem C02_client_same_values : forall d, scaled_grid_small d = true -> enums_sorted d ->
  forall dc, client_of d = Ok dc -> forall v, valid dc v = valid d v.
Proof.
  intros d S HS dc Hc. revert S HS. revert d dc Hc.
  apply (client_of_ind (fun d dc => scaled_grid_small d = true -> enums_sorted d -> forall v, valid dc v = valid d v)).
  - intros []; try exact I; reflexivity.
  - (* scaled: the rebuilt limits have the same lowest and highest grid value *)
    intros s mn mx a b Hc S _ v. destruct (client_scaled_aligned s mn mx S) as (a' & b' & H1 & _ & _ & _ & C1 & C2).
    rewrite H1 in Hc. inversion Hc; subst. destruct v; try reflexivity. cbn [valid in_setb]. rewrite C1, C2. reflexivity.
  - intros ms _ HS v. cbn in HS. rewrite HS. reflexivity.
  - intros e ec a b IH S HS []; try reflexivity. cbn [valid]. f_equal. apply forallb_ext_in. intros x _. apply IH; assumption.
  - intros es cs HF S HS []; try reflexivity. rewrite !valid_tuple. apply all2_ext2. apply enums_sorted_tuple in HS.
    exact (Forall2_mp _ _ _ _ (Forall2_mp _ _ _ _ HF (leavesb_tuple _ _ S)) HS).
  - intros ms cs o c Hn HF S HS []; try reflexivity. rewrite !valid_struct, Hn, required_same.
    f_equal. f_equal. apply forallb_ext_in. intros p _. apply (entry_ok_ext2 _ _ _ Hn). apply enums_sorted_struct in HS.
    exact (Forall2_mp (fun m => enums_sorted (snd m)) _ _ _
             (Forall2_mp (fun m => scaled_grid_small (snd m) = true) _ _ _ HF (leavesb_struct _ _ o c S)) HS).
Qed.
Print Assumptions C02_client_same_values.

(* the other direction (setParameter): a valid value of the client side type is a valid value of the node's type; exported
   by the client side type and handed to import_value + validate of the node it arrives as a value == v.  Hypotheses on
   the node's tree only *)
Theorem C02_client_side_roundtrip : forall E C,
  forall d, num_limits_ok d = true -> scaled_grid_small d = true -> enums_sorted d ->
  exists dc, client_of d = Ok dc /\
  forall v, valid dc v = true -> b64_ok E C dc v = true ->
  valid d v = true /\
  exists j w v', dt_export C dc v = Ok j /\ dt_import E d j = Ok w /\ dt_validate d w PNone = Ok v' /\ py_eq v v'.
Proof.
  intros E C d H1 H2 HS. destruct (C02_client_of_within_guards d H1 H2) as (dc & Hc & _). exists dc. split; [exact Hc|].
  intros v Hv Hb. rewrite (C02_client_same_values d H2 HS dc Hc v) in Hv. rewrite (client_b64_same E C d dc Hc v) in Hb.
  split; [exact Hv|].
  destruct (C02_wire_roundtrip E C d H1 H2 v Hv Hb) as (j & w & v' & A1 & A2 & A3 & A4 & _).
  exists j, w, v'. rewrite (client_export_same C d HS dc Hc v). auto.
Qed.
Print Assumptions C02_client_side_roundtrip.

(* non-vacuity: a nested type with enum, bool, string, int, double and scaled leaves (decimal scale 0.1, limits 0 and
   100 - the upper limit is not bit-identical to 1000 * 0.1) satisfies every guard, and a value with a grid point far
   from zero is valid.  The demos use the witnesses of Refuted.v (the codec C0, the scaled type sw_s sw_mn sw_mx) and
   the tabulated codecs of Run.v (tables, codec_of) *)
Definition s01' : f64 := fmk 3602879701896397 (-55).          (* 0.1 *)
Definition demo_d : dtype :=
  TStruct [([97%N], TArray (TEnum [([120%N], 1%Z); ([121%N], 2%Z)]) 0 3);
           ([98%N], TTuple [TBool; TString 0 5 false; TInt 0 5; TFloat fzero (of_Z 10) fzero fzero]);
           ([99%N], TScaled s01' fzero (of_Z 100))]
          [[98%N]] true.
Definition demo_v : pyval :=
  PDict [([97%N], PTuple [PEnum [121%N] 2; PEnum [120%N] 1]); ([99%N], PFloat (fmul (of_Z 997) s01'))].
Example C02_demo : valid demo_d demo_v = true /\ num_limits_ok demo_d = true /\ scaled_grid_small demo_d = true /\
  scaled_grid_easy demo_d = true /\
  res_same (dt_export C0 demo_d demo_v) (Ok (PDict [([97%N], PList [PInt 2; PInt 1]); ([99%N], PInt 997)])) = true.
Proof.
  (* the third conjunct follows from the fourth *)
  assert (H : scaled_grid_easy demo_d = true) by (vm_compute; reflexivity).
  repeat apply conj; [| |exact (C02_scaled_guard_easy demo_d H)|exact H|]; vm_compute; reflexivity.
Qed.

(* non-vacuity of the per-value base64 hypothesis, of the b64encode law and of the JSON kind theorem: a codec and a
   b64decode table that know the blob b'hi' <-> 'aGk=', a tuple of a blob and the nested demo value; every hypothesis
   of C02_wire_roundtrip, C02_json_kind and C02_client_roundtrip computes to true, and the instantiated theorems give
   the exported form (of the prescribed kind, strict JSON) and the client side type (within the guards) *)
Definition TB : tables := {| t_b64 := [([104;105]%N, [97;71;107;61]%N)]; t_fmt := []; t_repr := []; t_lit := [] |}.
Definition CB : codec := codec_of TB.
Definition EB : pyenv := {| int_of := []; b64_of := [(false, [97;71;107;61]%N, [104;105]%N)] |}.
Lemma CB_text_law : b64_text_law CB.
Proof.
  intros b s. cbn [CB codec_of TB c_b64 t_b64 lookup_by].
  destruct (str_eqb b [104;105]%N); intros H; [injection H as <-|discriminate H]. vm_compute. reflexivity.
Qed.
Definition kind_d : dtype := TTuple [TBlob 0 10; demo_d].
Definition kind_v : pyval := PTuple [PBytes [104;105]%N; demo_v].
Example C02_kind_demo :
  valid kind_d kind_v = true /\ num_limits_ok kind_d = true /\ scaled_grid_small kind_d = true /\
  b64_ok EB CB kind_d kind_v = true /\ enums_sorted kind_d /\
  res_same (dt_export CB kind_d kind_v)
           (Ok (PList [PStr [97;71;107;61]%N; PDict [([97%N], PList [PInt 2; PInt 1]); ([99%N], PInt 997)]])) = true /\
  (exists j, dt_export CB kind_d kind_v = Ok j /\ kind_ok kind_d j = true /\ strict_json j = true) /\
  (exists j w v', dt_export CB kind_d kind_v = Ok j /\ dt_import EB kind_d j = Ok w /\
                  dt_validate kind_d w PNone = Ok v' /\ py_eq kind_v v' /\ w <> PNone) /\
  (exists dc, client_of kind_d = Ok dc /\ num_limits_ok dc = true /\ scaled_grid_small dc = true /\
              scaled_grid_easy dc = true /\ scaled_grid_aligned dc = true /\ (enums_sorted kind_d -> enums_sorted dc)).
Proof.
  assert (H1 : valid kind_d kind_v = true) by (vm_compute; reflexivity).
  assert (H2 : num_limits_ok kind_d = true) by (vm_compute; reflexivity).
  assert (H3 : scaled_grid_small kind_d = true) by (vm_compute; reflexivity).
  assert (H4 : b64_ok EB CB kind_d kind_v = true) by (vm_compute; reflexivity).
  split; [exact H1|]. split; [exact H2|]. split; [exact H3|]. split; [exact H4|].
  split; [cbn; repeat split; reflexivity|]. split; [vm_compute; reflexivity|].
  split; [exact (C02_json_kind EB CB CB_text_law kind_d H2 H3 kind_v H1 H4)|].
  split; [exact (C02_wire_roundtrip EB CB kind_d H2 H3 kind_v H1 H4)|].
  exact (C02_client_of_within_guards kind_d H2 H3).
Qed.

(* a valid value may not be NaN: the double leaf demands a finite value, so the strictness part of the kind theorem is
   about values that passed validation; nan itself is not valid for any double type *)
Example C02_nan_not_valid : forall mn mx a r, valid (TFloat mn mx a r) (PFloat fnan) = false.
Proof. intros. reflexivity. Qed.

(* the guard is sharp in both of its arithmetic conjuncts: the type of C02_refuted_scaled_window has a good scale and
   indices below 2^51 but fails the window conjunct; far_d has indices up to 2^51 and satisfies the guard *)
Example C02_guard_window_needed :
  scale_ok sw_s = true /\ (Z.abs (scaled_k sw_s sw_mn) <=? 2 ^ 51)%Z = true /\
  (Z.abs (scaled_k sw_s sw_mx) <=? 2 ^ 51)%Z = true /\ scaled_leaf_small sw_s sw_mn sw_mx = false.
Proof. vm_compute. repeat apply conj; reflexivity. Qed.
Definition far_d : dtype := TScaled s01' (fmul (of_Z (2 ^ 51 - 1000)) s01') (fmul (of_Z (2 ^ 51)) s01').
Example C02_guard_reaches_2_51 :
  scaled_grid_small far_d = true /\ scaled_grid_easy far_d = true /\ valid far_d (PFloat (fmul (of_Z (2 ^ 51 - 1)) s01')) = true.
Proof.
  assert (H : scaled_grid_easy far_d = true) by (vm_compute; reflexivity).
  repeat apply conj; [exact (C02_scaled_guard_easy far_d H)|exact H|vm_compute; reflexivity].
Qed.

(* non-vacuity of the text theorem: a tabulated codec that satisfies every law, and a nested value (struct, tuple, int,
   double, string, bool, scaled) within all guards whose text is {'a': (5, 2.5, 'a', True, 2.5)} *)
Definition f25 : f64 := fmk 5 (-1).
Definition TX : tables :=
  {| t_b64 := [];
     t_fmt := [(f25, [50;46;53]%N)];
     t_repr := [(PInt 5, [53]%N); (PStr [97%N], [39;97;39]%N); (PBool true, [84;114;117;101]%N);
                (PBool false, [70;97;108;115;101]%N)];
     t_lit := [([53]%N, PInt 5); ([39;97;39]%N, PStr [97%N]); ([84;114;117;101]%N, PBool true);
               ([70;97;108;115;101]%N, PBool false); ([50;46;53]%N, PFloat f25)] |}.
Definition CX : codec := codec_of TX.

Lemma CX_laws : codec_laws CX.
Proof.
  constructor.
  - intros z s. cbn [CX codec_of TX c_repr c_lit t_repr t_lit lookup_by pv_same].
    destruct (Z.eqb z 5) eqn:E; intros H; [injection H as <-|discriminate H]. apply Z.eqb_eq in E. subst. vm_compute. reflexivity.
  - intros b s. destruct b; cbn [CX codec_of TX c_repr c_lit t_repr t_lit lookup_by pv_same Bool.eqb];
      intros H; injection H as <-; vm_compute; reflexivity.
  - intros s. cbn [CX codec_of TX c_repr c_lit t_repr t_lit lookup_by pv_same Bool.eqb]. intros H. injection H as <-. reflexivity.
  - intros s. cbn [CX codec_of TX c_repr c_lit t_repr t_lit lookup_by pv_same Bool.eqb]. intros H. injection H as <-. reflexivity.
  - intros x s. cbn [CX codec_of TX c_repr c_lit t_repr t_lit lookup_by pv_same].
    destruct (str_eqb x [97%N]) eqn:E; intros H; [injection H as <-|discriminate H]. apply str_eqb_eq in E. subst. vm_compute. reflexivity.
  - intros x s. cbn [CX codec_of TX c_repr c_lit t_repr t_lit lookup_by pv_same]. discriminate.
  - intros f s _ _. cbn [CX codec_of TX c_fmt t_fmt lookup_by].
    destruct (fsame f f25); intros H; [injection H as <-|discriminate H].
    exists (PFloat f25), (fadd f25 fzero). repeat apply conj; [reflexivity|reflexivity|vm_compute; reflexivity ..].
Qed.

Definition text_d : dtype :=
  TStruct [([97%N], TTuple [TInt 0 5; TFloat fzero (of_Z 10) fzero fzero; TString 0 5 false; TBool;
                           TScaled (fmk 1 (-1)) fzero (of_Z 10)])] [] false.
Definition text_v : pyval := PDict [([97%N], PTuple [PInt 5; PFloat f25; PStr [97%N]; PBool true; PFloat f25])].
Definition text_t : ptree :=
  PB [([39;97;39]%N, PP [PA [53]%N; PA [50;46;53]%N; PA [39;97;39]%N; PA [84;114;117;101]%N; PA [50;46;53]%N])].
Example C02_text_demo :
  num_limits_ok text_d = true /\ scaled_grid_small text_d = true /\ valid text_d text_v = true /\
  text_ok CX text_d text_v = true /\
  (exists w, from_string CX text_d text_t = Ok w /\ to_string CX text_d w = Ok text_t /\ eq_nf text_d text_v w).
Proof.
  assert (H1 : num_limits_ok text_d = true) by (vm_compute; reflexivity).
  assert (H2 : valid text_d text_v = true) by (vm_compute; reflexivity).
  assert (H3 : text_ok CX text_d text_v = true) by (vm_compute; reflexivity).
  assert (H4 : to_string CX text_d text_v = Ok text_t) by (vm_compute; reflexivity).
  split; [exact H1|]. split; [vm_compute; reflexivity|]. split; [exact H2|]. split; [exact H3|].
  exact (C02_text_roundtrip CX CX_laws text_d text_v text_t H1 H2 H3 H4).
Qed.
