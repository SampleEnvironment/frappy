(* C02 - the client side datatype (get_datatype of the exported datainfo): what client_of does, as an induction
   principle (client_of_ind); client_codec_same, the frame by which a function over type trees that looks at a
   container's lengths and names and at its members agrees on both types (import_value and export_value do); the
   rebuilt type exports like the node's datatype and demands the same base64 facts *)
From Coq Require Import ZArith NArith Bool List Lia.
Import ListNotations.
Require Import FV.Base.Util FV.Base.F64 FV.Base.PyVal FV.C01.Model FV.C01.Lemmas FV.C02.Model FV.C02.Lemmas.

(* the members of every enum are listed by ascending code (as frappy.lib.enum.Enum keeps them) *)
Fixpoint enums_sorted (d : dtype) : Prop :=
  match d with
  | TEnum ms => sort_by_value ms = ms
  | TArray e _ _ => enums_sorted e
  | TTuple es => (fix go (l : list dtype) : Prop := match l with [] => True | x :: r => enums_sorted x /\ go r end) es
  | TStruct ms _ _ =>
      (fix go (l : list (str * dtype)) : Prop := match l with [] => True | x :: r => enums_sorted (snd x) /\ go r end) ms
  | _ => True
  end.

(* a conjunction over a list, written inline in a fixpoint over type trees, is Forall *)
Lemma and_fix_Forall {A} (P : A -> Prop) l :
  (fix go (l : list A) : Prop := match l with [] => True | x :: r => P x /\ go r end) l <-> Forall P l.
Proof. induction l as [|x r IH]; [split; auto|]. rewrite IH. split; [intros [? ?]; auto|inversion 1; auto]. Qed.

Lemma enums_sorted_tuple es : enums_sorted (TTuple es) <-> Forall enums_sorted es.
Proof. exact (and_fix_Forall enums_sorted es). Qed.
Lemma enums_sorted_struct ms o c : enums_sorted (TStruct ms o c) <-> Forall (fun p => enums_sorted (snd p)) ms.
Proof. exact (and_fix_Forall (fun p => enums_sorted (snd p)) ms). Qed.

Lemma Forall2_mp {A B} (P : A -> Prop) (Q : A -> B -> Prop) l l' :
  Forall2 (fun a b => P a -> Q a b) l l' -> Forall P l -> Forall2 Q l l'.
Proof. induction 1; inversion 1; subst; constructor; auto. Qed.
Lemma Forall2_length {A B} (R : A -> B -> Prop) l l' : Forall2 R l l' -> length l = length l'.
Proof. induction 1; cbn; congruence. Qed.

(* client_of, read as a relation between a tree and its client side type: plain leaves are kept, a scaled leaf keeps
   its scale, enums are sorted, containers are rebuilt member by member, a struct keeps its member names *)
Lemma client_of_ind (P : dtype -> dtype -> Prop) :
  (forall d, match d with TFloat _ _ _ _ | TInt _ _ | TBool | TString _ _ _ | TBlob _ _ => P d d | _ => True end) ->
  (forall s mn mx a b, client_of (TScaled s mn mx) = Ok (TScaled s a b) -> P (TScaled s mn mx) (TScaled s a b)) ->
  (forall ms, P (TEnum ms) (TEnum (sort_by_value ms))) ->
  (forall e ec a b, P e ec -> P (TArray e a b) (TArray ec a b)) ->
  (forall es cs, Forall2 P es cs -> P (TTuple es) (TTuple cs)) ->
  (forall ms cs o c, map fst cs = map fst ms -> Forall2 (fun m k => P (snd m) (snd k)) ms cs ->
     P (TStruct ms o c) (TStruct cs (if same_names o (map fst ms) then map fst ms else o) true)) ->
  forall d dc, client_of d = Ok dc -> P d dc.
Proof.
  intros Hl Hs He Ha Ht Hm.
  induction d as [a b c d|a b|s mn mx| |ms|a b u|a b|e a b IHe|es IHes|ms o c IHms] using dtype_nested_ind; intros dc Hc;
    try (inversion Hc; subst; first [apply He | match goal with |- P ?d _ => exact (Hl d) end]).
  - pose proof Hc as Hc'. cbn [client_of] in Hc'. repeat (apply bind_ok in Hc'; destruct Hc' as (? & _ & Hc')).
    inversion Hc'; subst. apply Hs, Hc.
  - cbn [client_of] in Hc. apply bind_ok in Hc. destruct Hc as (ec & Hec & Hc). inversion Hc; subst. apply Ha, IHe, Hec.
  - cbn [client_of] in Hc. apply bind_ok in Hc. destruct Hc as (cs & Hcs & Hc). inversion Hc; subst. apply Ht.
    clear Hc. revert cs Hcs. induction IHes as [|d es H1 _ IH]; intros cs Hcs.
    + inversion Hcs. constructor.
    + apply bind_ok in Hcs. destruct Hcs as (c1 & Hc1 & Hcs). apply bind_ok in Hcs. destruct Hcs as (cs' & Hcs' & Hcs).
      inversion Hcs; subst. constructor; auto.
  - cbn [client_of] in Hc. apply bind_ok in Hc. destruct Hc as (cs & Hcs & Hc). inversion Hc; subst. clear Hc.
    assert (H : map fst cs = map fst ms /\ Forall2 (fun m k => P (snd m) (snd k)) ms cs); [|apply Hm; apply H].
    revert cs Hcs. induction IHms as [|[n d] ms H1 _ IH]; intros cs Hcs.
    + inversion Hcs. split; constructor.
    + apply bind_ok in Hcs. destruct Hcs as (c1 & Hc1 & Hcs). apply bind_ok in Hcs. destruct Hcs as (cs' & Hcs' & Hcs).
      inversion Hcs; subst. destruct (IH cs' Hcs') as [Hn HF]. cbn. rewrite Hn. split; [reflexivity|constructor; auto].
Qed.

Lemma map_res_ext f g l : (forall x, f x = g x) -> map_res f l = map_res g l.
Proof. intros H. induction l as [|x l IH]; [reflexivity|]. rewrite !map_res_cons, H, IH. reflexivity. Qed.

Lemma mapd_res_ext2 (f : dtype -> pyval -> res pyval) es cs :
  Forall2 (fun d c => forall x, f c x = f d x) es cs -> forall l, mapd_res f cs l = mapd_res f es l.
Proof.
  induction 1 as [|d c es cs H _ IH]; intros l; [reflexivity|]. destruct l as [|x l]; [reflexivity|].
  rewrite !mapd_res_cons, H, IH. reflexivity.
Qed.

Lemma all2_ext2 (Q : dtype -> pyval -> bool) es cs :
  Forall2 (fun d c => forall x, Q c x = Q d x) es cs -> forall l, all2 Q cs l = all2 Q es l.
Proof.
  induction 1 as [|d c es cs H _ IH]; intros [|x l]; cbn; try reflexivity. rewrite H, IH. reflexivity.
Qed.

Lemma member_res_ext2 (f : dtype -> pyval -> res pyval) k x ms cs : map fst cs = map fst ms ->
  Forall2 (fun m c => forall y, f (snd c) y = f (snd m) y) ms cs -> member_res f k x cs = member_res f k x ms.
Proof.
  intros Hn HF. induction HF as [|[n d] [n' c] ms cs H _ IH]; [reflexivity|]. injection Hn as -> Hn.
  cbn. rewrite (IH Hn). destruct (str_eqb k n); [apply H|reflexivity].
Qed.

Lemma entry_ok_ext2 (Q : dtype -> pyval -> bool) ms cs : map fst cs = map fst ms ->
  Forall2 (fun m c : str * dtype => forall y, Q (snd c) y = Q (snd m) y) ms cs ->
  forall p, entry_ok Q cs p = entry_ok Q ms p.
Proof.
  intros Hn HF [k x]. induction HF as [|[n d] [n' c] ms cs H _ IH]; [reflexivity|]. injection Hn as -> Hn.
  rewrite !entry_ok_cons, (IH Hn). destruct (str_eqb k n); [apply H|reflexivity].
Qed.

Lemma struct_fold_ext2 (f : dtype -> pyval -> res pyval) skip ms cs : map fst cs = map fst ms ->
  Forall2 (fun m c => forall y, f (snd c) y = f (snd m) y) ms cs ->
  forall kv acc, struct_fold f skip cs kv acc = struct_fold f skip ms kv acc.
Proof.
  intros Hn HF. induction kv as [|[k x] kv IH]; intros acc; [reflexivity|].
  cbn. rewrite (member_res_ext2 f k x ms cs Hn HF).
  fold (struct_fold f skip cs kv) (struct_fold f skip ms kv).
  destruct x; try (destruct skip); rewrite ?IH; try reflexivity;
    destruct (member_res f k _ ms); cbn; rewrite ?IH; reflexivity.
Qed.

Lemma mem_str_refl n l : In n l -> mem_str n l = true.
Proof. intros H. apply mem_str_eq. exists n. split; [exact H|apply str_eqb_refl]. Qed.

Lemma forallb_In {A} (f : A -> bool) l x : forallb f l = true -> In x l -> f x = true.
Proof. intros H Hi. rewrite forallb_forall in H. apply H, Hi. Qed.

Lemma filter_none {A} (p : A -> bool) l : (forall x, In x l -> p x = false) -> filter p l = [].
Proof.
  induction l as [|x l IH]; intros H; [reflexivity|]. cbn. rewrite (H x) by (left; reflexivity).
  apply IH. intros; apply H; right; assumption.
Qed.

(* struct_check with the client's optional list and client flag, allow_optional = True *)
Lemma struct_check_client names o c j :
  struct_check names (if same_names o names then names else o) true true j = struct_check names o c true j.
Proof.
  unfold struct_check. destruct j; try reflexivity. replace (c || true) with true by (symmetry; apply orb_true_r). cbn [orb].
  destruct (same_names o names) eqn:Hs; [|reflexivity].
  destruct (existsb _ kv); [reflexivity|].
  unfold same_names in Hs. apply andb_prop in Hs. destruct Hs as [_ Hs].
  set (missing := filter (fun n => negb (mem_str n (map fst kv))) names).
  assert (Hsub : forall n, In n missing -> In n names) by (intros n Hn; apply filter_In in Hn; tauto).
  assert (H1 : filter (fun n => negb (mem_str n names)) missing = []).
  { apply filter_none. intros n Hn. rewrite mem_str_refl by (apply Hsub, Hn). reflexivity. }
  assert (H2 : filter (fun n => negb (mem_str n o)) missing = []).
  { apply filter_none. intros n Hn. rewrite (forallb_In _ _ n Hs) by (apply Hsub, Hn). reflexivity. }
  rewrite H1, H2. reflexivity.
Qed.

(* import_value and export_value treat the containers alike (length or name check, then the members, collected by K):
   a function f over type trees of that shape agrees on a tree and its client side type *)
Lemma client_codec_same (K : list pyval -> pyval) (f : dtype -> pyval -> res pyval) :
  (forall s mn mx a b x, f (TScaled s a b) x = f (TScaled s mn mx) x) ->
  (forall e a b x, f (TArray e a b) x =
     (array_check a b x >>= fun _ =>
      match py_iter x with None => Err EType | Some items => map_res (f e) items >>= fun ys => Ok (K ys) end)) ->
  (forall es x, f (TTuple es) x =
     (tuple_check (length es) x >>= fun _ =>
      match py_iter x with None => Err EType | Some items => mapd_res f es items >>= fun ys => Ok (K ys) end)) ->
  (forall ms o c x, f (TStruct ms o c) x =
     (struct_check (map fst ms) o c true x >>= fun _ =>
      if negb (is_dict x) then Err EAttr else struct_fold f false ms (dict_items x) [] >>= fun kv => Ok (PDict kv))) ->
  forall d dc, client_of d = Ok dc -> enums_sorted d -> forall x, f dc x = f d x.
Proof.
  intros Hs Ha Ht Hm. apply (client_of_ind (fun d dc => enums_sorted d -> forall x, f dc x = f d x)).
  - intros []; try exact I; reflexivity.
  - intros s mn mx a b _ _. apply Hs.
  - intros ms HS x. cbn in HS. rewrite HS. reflexivity.
  - intros e ec a b IH HS x. rewrite !Ha. destruct (array_check a b x); [|reflexivity]. cbn [bind].
    destruct (py_iter x) as [items|]; [|reflexivity]. rewrite (map_res_ext _ _ items (IH HS)). reflexivity.
  - intros es cs HF HS x. apply enums_sorted_tuple in HS. rewrite !Ht, <- (Forall2_length _ _ _ HF).
    destruct (tuple_check (length es) x); [|reflexivity]. cbn [bind].
    destruct (py_iter x) as [items|]; [|reflexivity]. rewrite (mapd_res_ext2 _ _ _ (Forall2_mp _ _ _ _ HF HS)). reflexivity.
  - intros ms cs o c Hn HF HS x. apply enums_sorted_struct in HS. rewrite !Hm, Hn, (struct_check_client (map fst ms) o c x).
    destruct (struct_check (map fst ms) o c true x); [|reflexivity]. cbn [bind].
    destruct (negb (is_dict x)); [reflexivity|].
    rewrite (struct_fold_ext2 _ false _ _ Hn (Forall2_mp (fun m => enums_sorted (snd m)) _ _ _ HF HS)). reflexivity.
Qed.

Theorem client_export_same C : forall d, enums_sorted d -> forall dc, client_of d = Ok dc ->
  forall v, dt_export C dc v = dt_export C d v.
Proof. intros d HS dc Hc. revert d dc Hc HS. apply (client_codec_same PList); reflexivity. Qed.

Theorem client_b64_same E C : forall d dc, client_of d = Ok dc -> forall v, b64_ok E C dc v = b64_ok E C d v.
Proof.
  apply (client_of_ind (fun d dc => forall v, b64_ok E C dc v = b64_ok E C d v)).
  - intros []; try exact I; reflexivity.
  - reflexivity.
  - reflexivity.
  - intros e ec a b IH [] ; try reflexivity. cbn [b64_ok]. apply forallb_ext_in. intros x _. apply IH.
  - intros es cs HF []; try reflexivity. rewrite !b64_ok_tuple. apply all2_ext2, HF.
  - intros ms cs o c Hn HF []; try reflexivity. rewrite !b64_ok_struct.
    apply forallb_ext_in. intros p _. apply (entry_ok_ext2 _ _ _ Hn HF).
Qed.
