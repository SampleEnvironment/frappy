(* C07 - UTF-8: the well-formed byte sequences and their code points (useq), against which the strict decoder, the
   encoder and (Repl.v) the replacing decoder are characterised; encoding then decoding is the identity on scalar
   values, the newline byte appears in an encoding only for the newline character *)
From Coq Require Import List Arith NArith Bool Lia.
Import ListNotations.
Require Import FV.Gen.C07 FV.C07.Model.
Local Open Scope N_scope.

Ltac bool_to_prop :=
  repeat match goal with
  | H : _ && _ = true |- _ => apply andb_true_iff in H; destruct H
  | H : _ || _ = true |- _ => apply orb_true_iff in H
  | H : (_ <? _) = true |- _ => apply N.ltb_lt in H
  | H : (_ <? _) = false |- _ => apply N.ltb_ge in H
  | H : (_ <=? _) = true |- _ => apply N.leb_le in H
  | H : (_ <=? _) = false |- _ => apply N.leb_gt in H
  | H : (_ =? _) = true |- _ => apply N.eqb_eq in H
  | H : (_ =? _) = false |- _ => apply N.eqb_neq in H
  end.

Lemma ltb_true : forall a b, a < b -> (a <? b) = true. Proof. intros; apply N.ltb_lt; assumption. Qed.
Lemma ltb_false : forall a b, b <= a -> (a <? b) = false. Proof. intros; apply N.ltb_ge; assumption. Qed.
Lemma leb_false : forall a b, b < a -> (a <=? b) = false. Proof. intros; apply N.leb_gt; assumption. Qed.
Lemma eqb_true : forall a b, a = b -> (a =? b) = true. Proof. intros; apply N.eqb_eq; assumption. Qed.
Lemma eqb_false : forall a b, a <> b -> (a =? b) = false. Proof. intros; apply N.eqb_neq; assumption. Qed.

Lemma in_rng_iff : forall lo hi b, in_rng lo hi b = true <-> lo <= b <= hi.
Proof. intros. unfold in_rng. rewrite andb_true_iff, !N.leb_le. reflexivity. Qed.

Lemma in_rng_out : forall lo hi b, b < lo \/ hi < b -> in_rng lo hi b = false.
Proof. intros lo hi b H. destruct (in_rng lo hi b) eqn:E; [apply in_rng_iff in E; lia|reflexivity]. Qed.

Lemma scalar_iff : forall c, scalar c = true <-> c < 55296 \/ 57344 <= c < 1114112.
Proof. intro c. unfold scalar. rewrite orb_true_iff, andb_true_iff, !N.ltb_lt, N.leb_le. reflexivity. Qed.

(* b0 :: p is the well-formed UTF-8 sequence of the code point c: a lead byte and the continuation bytes admissible
   after it (Unicode table 3-7: no overlong forms, no surrogates, at most U+10FFFF) *)
Inductive useq : N -> bytes -> N -> Prop :=
| useq1 b0 : b0 < 128 -> useq b0 [] b0
| useq2 b0 b1 c : in_rng 194 223 b0 = true -> cont b1 = true ->
    c = (b0 - 192) * 64 + (b1 - 128) -> useq b0 [b1] c
| useq3 b0 b1 b2 c : in_rng 224 239 b0 = true -> ok3 b0 b1 = true -> cont b2 = true ->
    c = (b0 - 224) * 4096 + (b1 - 128) * 64 + (b2 - 128) -> useq b0 [b1; b2] c
| useq4 b0 b1 b2 b3 c : in_rng 240 244 b0 = true -> ok4 b0 b1 = true -> cont b2 = true -> cont b3 = true ->
    c = (b0 - 240) * 262144 + (b1 - 128) * 4096 + (b2 - 128) * 64 + (b3 - 128) -> useq b0 [b1; b2; b3] c.

(* the strict decoder reads a well-formed sequence as its code point *)
Lemma useq_dec : forall b0 p c r, useq b0 p c -> utf8_dec (b0 :: p ++ r) = option_map (cons c) (utf8_dec r).
Proof.
  intros b0 p c r H. destruct H as [b0 L|b0 b1 c L K1 ->|b0 b1 b2 c L K1 K2 ->|b0 b1 b2 b3 c L K1 K2 K3 ->];
    cbn [utf8_dec app]; [rewrite ltb_true by exact L; reflexivity| | |]; pose proof (proj1 (in_rng_iff _ _ _) L).
  - rewrite ltb_false, L, K1 by lia. reflexivity.
  - rewrite ltb_false, (in_rng_out 194 223), L, K1, K2 by lia. reflexivity.
  - rewrite ltb_false, (in_rng_out 194 223), (in_rng_out 224 239), L, K1, K2, K3 by lia. reflexivity.
Qed.

(* its code point is a scalar value, and below 128 only when the sequence is that one byte *)
Lemma useq_scalar : forall b0 p c, useq b0 p c -> scalar c = true /\ (c < 128 -> b0 = c).
Proof.
  (* the ranges of lead byte and second byte bound the code point: away from the surrogates, not overlong *)
  intros b0 p c H. rewrite scalar_iff.
  destruct H as [b0 L|b0 b1 c L K1 E|b0 b1 b2 c L K1 K2 E|b0 b1 b2 b3 c L K1 K2 K3 E];
    unfold ok3, ok4, in_rng, cont in *; [lia|bool_to_prop; lia| |].
  - destruct (b0 =? 224) eqn:Q0; [|destruct (b0 =? 237) eqn:Q1]; bool_to_prop; lia.
  - destruct (b0 =? 240) eqn:Q0; [|destruct (b0 =? 244) eqn:Q1]; bool_to_prop; lia.
Qed.

(* the encoding of a scalar value is its well-formed sequence *)
Lemma enc1_useq : forall c, scalar c = true -> exists b0 p, enc1 c = b0 :: p /\ useq b0 p c.
Proof.
  intros c Hs. apply scalar_iff in Hs. unfold enc1.
  assert (D0 : c = 64 * (c / 64) + c mod 64) by (apply N.div_mod; discriminate).
  assert (M0 : c mod 64 < 64) by (apply N.mod_lt; discriminate).
  assert (D1 : c / 64 = 64 * (c / 4096) + (c / 64) mod 64)
    by (change 4096 with (64 * 64); rewrite <- N.div_div by discriminate; apply N.div_mod; discriminate).
  assert (M1 : (c / 64) mod 64 < 64) by (apply N.mod_lt; discriminate).
  assert (D2 : c / 4096 = 64 * (c / 262144) + (c / 4096) mod 64)
    by (change 262144 with (4096 * 64); rewrite <- N.div_div by discriminate; apply N.div_mod; discriminate).
  assert (M2 : (c / 4096) mod 64 < 64) by (apply N.mod_lt; discriminate).
  set (m0 := c mod 64) in *. set (m1 := (c / 64) mod 64) in *. set (m2 := (c / 4096) mod 64) in *.
  set (q0 := c / 64) in *. set (q1 := c / 4096) in *. set (q2 := c / 262144) in *. clearbody m0 m1 m2 q0 q1 q2.
  destruct (c <? 128) eqn:C1; [|destruct (c <? 2048) eqn:C2; [|destruct (c <? 65536) eqn:C3]];
    bool_to_prop; eexists; eexists; (split; [reflexivity|]).
  - apply useq1. exact C1.
  - apply useq2; [apply in_rng_iff| apply (in_rng_iff 128 191)|]; lia.
  - apply useq3; [apply in_rng_iff| |apply (in_rng_iff 128 191)|]; try lia.
    unfold ok3. destruct (224 + q1 =? 224) eqn:Q0; [|destruct (224 + q1 =? 237) eqn:Q1]; bool_to_prop;
      apply in_rng_iff; lia.
  - apply useq4; [apply in_rng_iff| |apply (in_rng_iff 128 191)|apply (in_rng_iff 128 191)|]; try lia.
    unfold ok4. destruct (240 + q2 =? 240) eqn:Q0; [|destruct (240 + q2 =? 244) eqn:Q1]; bool_to_prop;
      apply in_rng_iff; lia.
Qed.

Lemma utf8_roundtrip : forall s, forallb scalar s = true -> utf8_dec (utf8_enc s) = Some s.
Proof.
  induction s as [|c s IH]; intro H; [reflexivity|].
  simpl in H. apply andb_true_iff in H. destruct H as [Hc Hs].
  destruct (enc1_useq c Hc) as [b0 [p [E U]]].
  unfold utf8_enc. cbn [flat_map]. rewrite E. fold (utf8_enc s). cbn [app]. rewrite (useq_dec _ _ _ _ U), (IH Hs).
  reflexivity.
Qed.

Lemma le128_add : forall k x, 128 <= k -> 128 <= k + x.
Proof. intros k x H. apply N.le_trans with k; [exact H|apply N.le_add_r]. Qed.

Lemma enc1_high : forall c b, In b (enc1 c) -> b = c /\ c < 128 \/ 128 <= b.
Proof.
  intros c b H. unfold enc1 in H.
  destruct (c <? 128) eqn:C1.
  - bool_to_prop. destruct H as [H|[]]. left. subst. split; [reflexivity|assumption].
  - right. destruct (c <? 2048); [|destruct (c <? 65536)]; cbn [In] in H;
    repeat (destruct H as [H|H]; [rewrite <- H; apply le128_add; lia|]); destruct H.
Qed.

Lemma utf8_enc_no_eol : forall s, ~ In 10 s -> ~ In 10 (utf8_enc s).
Proof.
  intros s H Hin. unfold utf8_enc in Hin. apply in_flat_map in Hin. destruct Hin as [c [Hc Hb]].
  apply enc1_high in Hb. destruct Hb as [[Hb _]|Hb]; [subst; contradiction|lia].
Qed.

Lemma option_map_cons_some : forall (x : N) o s, option_map (cons x) o = Some s -> exists s', o = Some s' /\ s = x :: s'.
Proof. intros x o s H. destruct o as [s'|]; [|discriminate]. inversion H. eauto. Qed.
