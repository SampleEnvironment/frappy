(* C07 - which messages can be encoded: str.encode('utf-8') accepts scalar values only, a str can hold lone surrogates.
   Action and specifier of every message the request loop builds are made by bytes.decode (scalar values) or are
   constants; the data part is text of the json.dumps / str(err) oracles.  Section Chars follows a predicate P on the
   characters of action and specifier and a predicate Q on the characters of the oracle texts through the loop: every
   frame sent is the encoding of a message with P action and specifier and a Q data part.  With P := scalar and
   Q := scalar or printable ASCII such a message is encodable: the request loop is never left through a
   UnicodeEncodeError.  Wellformed.v takes P := Q := scalar and not the line terminator. *)
From Coq Require Import List Arith NArith Bool Lia.
Import ListNotations.
Require Import FV.Gen.C07 FV.C07.Model FV.C07.Lemmas FV.C07.Utf8 FV.C07.Repl FV.C07.Run.
Local Open Scope N_scope.

Lemma lstrip_incl : forall f l x, In x (lstrip f l) -> In x l.
Proof.
  intros f. induction l as [|y l IH]; intros x H; [exact H|]. simpl in H.
  destruct (f y); [right; apply IH; exact H|exact H].
Qed.

Lemma strip_incl : forall f l x, In x (strip f l) -> In x l.
Proof.
  intros f l x H. unfold strip in H. apply in_rev in H. apply lstrip_incl in H. apply in_rev in H.
  apply lstrip_incl in H. exact H.
Qed.

Section Pred.
Variable P : N -> bool.

Lemma fa_strip : forall f a, forallb P a = true -> forallb P (strip f a) = true.
Proof. intros f a. rewrite !forallb_forall. intros H x Hx. apply H, (strip_incl f). exact Hx. Qed.

Lemma fa_split1 : forall l h t, split1 l = (h, t) -> forallb P l = true -> forallb P h = true /\ qostr P t = true.
Proof.
  induction l as [|c r IH]; intros h t H G; simpl in H.
  - inversion H; subst. split; reflexivity.
  - simpl in G. apply andb_true_iff in G. destruct G as [G1 G2].
    destruct (c =? 32).
    + inversion H; subst. split; [reflexivity|exact G2].
    + destruct (split1 r) as [h' t'] eqn:S. inversion H; subst.
      destruct (IH _ _ eq_refl G2) as [A B]. split; [simpl; rewrite G1, A; reflexivity|exact B].
Qed.

Lemma fa_splitsp : forall n l, forallb P l = true -> forallb (forallb P) (splitsp n l) = true.
Proof.
  induction n as [|n IH]; intros l G; simpl; [rewrite G; reflexivity|].
  destruct (split1 l) as [h t] eqn:S. destruct (fa_split1 _ _ _ S G) as [A B].
  destruct t as [r|]; simpl; rewrite A; [|reflexivity]. simpl in B. rewrite IH by exact B. reflexivity.
Qed.

Lemma fa_nth : forall k l, forallb (forallb P) l = true -> forallb P (nth k l []) = true.
Proof.
  induction k as [|k IH]; intros [|x l] H; try reflexivity; simpl in *; apply andb_true_iff in H; destruct H as [H1 H2].
  - exact H1.
  - apply IH. exact H2.
Qed.

Lemma fa_nth_error : forall k l, forallb (forallb P) l = true -> qostr P (nth_error l k) = true.
Proof.
  induction k as [|k IH]; intros [|x l] H; try reflexivity; simpl in *; apply andb_true_iff in H; destruct H as [H1 H2].
  - exact H1.
  - apply IH. exact H2.
Qed.

Lemma fa_nonempty : forall s, forallb P s = true -> qostr P (nonempty s) = true.
Proof. intros [|c s] H; [reflexivity|exact H]. Qed.
End Pred.

Lemma forallb_mono : forall (P P' : N -> bool), (forall c, P c = true -> P' c = true) ->
  forall s, forallb P s = true -> forallb P' s = true.
Proof.
  intros P P' H. induction s as [|c s IH]; intro G; [reflexivity|]. simpl in *. apply andb_true_iff in G.
  destruct G as [G1 G2]. rewrite (H _ G1), (IH G2). reflexivity.
Qed.

Lemma printable_scalar : forall c, printable c = true -> scalar c = true.
Proof.
  intros c H. unfold printable in H. apply andb_true_iff in H. destruct H as [_ H]. apply N.leb_le in H.
  unfold scalar. rewrite (ltb_true c 55296) by lia. reflexivity.
Qed.

Lemma printable_no_eol : forall s, forallb printable s = true -> ~ In 10 s.
Proof.
  induction s as [|c s IH]; intros H Hin; [destruct Hin|]. simpl in H. apply andb_true_iff in H. destruct H as [H1 H2].
  destruct Hin as [Hc|Hin]; [|exact (IH H2 Hin)]. subst c. discriminate.
Qed.

Section Data.
Variable Q : N -> bool.

(* the oracle texts of an environment: reply data, data of the messages handlers sent, error texts *)
Definition env_q (E : env) : Prop :=
  forall i, hres_q Q (lo_h (e_line E i)) = true /\ forallb Q (lo_err (e_line E i)) = true.
(* a message sent by another thread *)
Definition ev_q (ev : event) : Prop := match ev with Chunk _ => True | Async m => qmsg Q m = true end.

(* the constants of the generated tables (checked by computation in Properties.C07_source_facts) *)
Definition consts_q : bool :=
  sstr ERRORPREFIX && sstr HELPREPLY && sstr HELPREQUEST && forallb (qmsg Q) help_frames_msgs
  && forallb (fun h => sstr (h_reply h)) handler_table && forallb (fun p => forallb Q (snd p)) error_names
  && forallb Q generic_error_name && forallb Q decode_error_name.
End Data.

(* The same with a second predicate P for the characters of action and specifier (env_q, ev_q, consts_q are the case
   P = scalar): whatever holds of the replaced text of the request lines and of the constants holds of action and
   specifier of every message sent, whatever holds of the oracle texts holds of every data part. *)
Section Chars.
Variables P Q : N -> bool.
(* the punctuation of the error report  ["name", text, {}]  *)
Hypothesis Q_punct : forallb Q (err_data [] []) = true.
(* the specifier "." that stands for an empty one *)
Hypothesis P_dot : P 46 = true.
(* the request loop only sees lines without terminator (used from drain_p on) *)
Hypothesis P_line : forall line, ~ In EOL line -> forallb P (utf8_dec_repl (bstrip line)) = true.

Definition pmsg (m : msg) : bool := let '(a, s, d) := m in forallb P a && qostr P s && qostr Q d.
Definition phres (h : hres) : bool :=
  match h with HOk d sent => qostr Q d && forallb pmsg sent | _ => true end.
Definition penv (E : env) : Prop :=
  forall i, phres (lo_h (e_line E i)) = true /\ forallb Q (lo_err (e_line E i)) = true.
Definition pev (ev : event) : Prop := match ev with Chunk _ => True | Async m => pmsg m = true end.
Definition pconsts : bool :=
  forallb P ERRORPREFIX && forallb P HELPREPLY && forallb P HELPREQUEST && forallb pmsg help_frames_msgs
  && forallb (fun h => forallb P (h_reply h)) handler_table && forallb (fun p => forallb Q (snd p)) error_names
  && forallb Q generic_error_name && forallb Q decode_error_name.

Lemma err_data_q : forall name text, forallb Q name = true -> forallb Q text = true ->
  forallb Q (err_data name text) = true.
Proof.
  intros name text Hn Ht. pose proof Q_punct as H. unfold err_data in *. rewrite !forallb_app in *.
  apply andb_true_iff in H. destruct H as [H1 H]. apply andb_true_iff in H. destruct H as [_ H].
  apply andb_true_iff in H. destruct H as [H2 H]. apply andb_true_iff in H. destruct H as [_ H3].
  rewrite H1, Hn, H2, Ht, H3. reflexivity.
Qed.

(* Q => scalar and P => scalar make the messages encodable *)
Lemma pmsg_encodable : (forall c, P c = true -> scalar c = true) -> (forall c, Q c = true -> scalar c = true) ->
  forall m, pmsg m = true -> encodable m = true.
Proof.
  intros HP HQ [[a s] d] H. unfold pmsg in H. apply andb_true_iff in H. destruct H as [H Hd].
  apply andb_true_iff in H. destruct H as [Ha Hs].
  unfold encodable, frame_text, ustrip. apply fa_strip. rewrite !forallb_app, (forallb_mono P scalar HP a Ha). simpl.
  destruct s as [s|]; destruct d as [d|]; simpl in *;
    rewrite ?(forallb_mono P scalar HP s Hs), ?(forallb_mono Q scalar HQ d Hd); reflexivity.
Qed.

Section Env.
Variable E : env.
Hypothesis HE : penv E.
Hypothesis HC : pconsts = true.

Lemma pconsts_parts :
  forallb P ERRORPREFIX = true /\ forallb P HELPREPLY = true /\ forallb P HELPREQUEST = true /\
  forallb pmsg help_frames_msgs = true /\ forallb (fun h => forallb P (h_reply h)) handler_table = true /\
  forallb (fun p => forallb Q (snd p)) error_names = true /\ forallb Q generic_error_name = true /\
  forallb Q decode_error_name = true.
Proof.
  pose proof HC as H0. unfold pconsts in H0. do 7 (apply andb_true_iff in H0; destruct H0 as [H0 ?]).
  repeat split; assumption.
Qed.

(* action and specifier of a decoded request are fields of the replaced text of the line *)
Lemma decoded_p : forall line a s d, forallb P (utf8_dec_repl (bstrip line)) = true ->
  next_message E line = Some (a, s, d) -> forallb P a = true /\ qostr P s = true.
Proof.
  intros line a s d HL H. unfold next_message in H.
  destruct (is_nil (bstrip line)).
  - inversion H; subst. split; [apply pconsts_parts|reflexivity].
  - apply decode_msg_fields in H. unfold request_fields in H.
    destruct (utf8_dec (bstrip line)) as [u|] eqn:U; [|discriminate]. rewrite (repl_strict _ _ U) in HL.
    assert (GF : forallb (forallb P) (splitsp decode_split_max u ++ [[]; []]) = true).
    { rewrite forallb_app. rewrite fa_splitsp by exact HL. reflexivity. }
    injection H as <- <-. split; [|apply fa_nonempty]; apply fa_nth; exact GF.
Qed.

Lemma err_reply_p : forall i a s name, forallb P a = true -> qostr P s = true -> forallb Q name = true ->
  pmsg (err_reply E i a s name) = true.
Proof.
  intros i a s name Ha Hs Hn. unfold err_reply, pmsg. rewrite forallb_app.
  destruct pconsts_parts as (CE & CR & CQ & CH & CT & CN & CG & CD). rewrite CE, Ha, Hs. simpl.
  destruct (HE i) as [_ Ht]. apply err_data_q; assumption.
Qed.

Lemma class_name_q : forall c, forallb Q (error_name_of_class c) = true.
Proof.
  intro c. unfold error_name_of_class. destruct pconsts_parts as (CE & CR & CQ & CH & CT & CN & CG & CD).
  destruct (find (fun p => str_eqb (fst p) c) error_names) as [p|] eqn:F; [|exact CG].
  apply find_some in F. destruct F as [Hin _]. rewrite forallb_forall in CN. apply CN. exact Hin.
Qed.

Lemma index_name_q : forall k, forallb Q (error_name_of_index k) = true.
Proof.
  intro k. unfold error_name_of_index. destruct pconsts_parts as (CE & CR & CQ & CH & CT & CN & CG & CD).
  destruct (nth_in_or_default k error_names ([], generic_error_name)) as [Hin|Hd]; [|rewrite Hd; exact CG].
  rewrite forallb_forall in CN. apply CN. exact Hin.
Qed.

Definition outcome_p (o : outcome) : Prop :=
  match o with
  | OReply pre r => forallb pmsg pre = true /\ pmsg r = true
  | OCrash pre => forallb pmsg pre = true
  end.

Lemma dispatch_p : forall i a s d, forallb P a = true -> qostr P s = true -> outcome_p (fst (dispatch E i (a, s, d))).
Proof.
  intros i a s d Ha Hs. unfold dispatch.
  destruct pconsts_parts as (CE & CR & CQ & CH & CT & CN & CG & CD).
  assert (ER : forall name (c : option call), forallb Q name = true ->
                 outcome_p (fst (OReply [] (err_reply E i a s name), c)))
    by (intros name c Hn; split; [reflexivity|apply err_reply_p; assumption]).
  destruct (negb (str_eqb a IDENTREQUEST) && is_internal a); [apply ER, class_name_q|].
  assert (Gs' : qostr P (if str_eqb a IDENTREQUEST then None else s) = true)
    by (destruct (str_eqb a IDENTREQUEST); [reflexivity|exact Hs]).
  rewrite alias_triple.
  set (s' := if str_eqb a IDENTREQUEST then None else s) in *. cbv iota beta.
  destruct (find_handler (alias a)) as [h|] eqn:F; [|apply ER, class_name_q].
  destruct (Nat.eqb (h_arity h) 3); [|apply ER, CG].
  destruct (HE i) as [Hh _]. destruct (lo_h (e_line E i)) as [data sent|k|]; [|apply ER, index_name_q|apply ER, CG].
  apply andb_true_iff in Hh. destruct Hh as [Hd Hsent].
  destruct (Nat.eqb (h_rule h) 3); [exact Hsent|]. split; [exact Hsent|]. unfold pmsg.
  apply find_handler_some in F. destruct F as [Hin _]. rewrite forallb_forall in CT. rewrite (CT _ Hin), Hd.
  rewrite andb_true_r. simpl.
  (* the specifier of the reply by the handler's rule: none, the request's (1), the request's or "." (2) *)
  destruct (h_rule h) as [|[|[|r]]]; try reflexivity; [exact Gs'|].
  destruct s' as [[|c r']|]; [simpl; rewrite P_dot; reflexivity|exact Gs'|simpl; rewrite P_dot; reflexivity].
Qed.

Lemma answer_p : forall i line, forallb P (utf8_dec_repl (bstrip line)) = true -> outcome_p (fst (answer E i line)).
Proof.
  intros i line HL. unfold answer.
  destruct (next_message E line) as [[[a s] d]|] eqn:NM.
  - destruct (decoded_p _ _ _ _ HL NM) as [Ha Hs].
    destruct (str_eqb a HELPREQUEST); [|apply dispatch_p; assumption].
    destruct pconsts_parts as (CE & CR & CQ & CH & CT & CN & CG & CD). split; [exact CH|]. unfold pmsg. rewrite CR. reflexivity.
  - split; [reflexivity|]. pose proof (fa_splitsp P error_split_max _ HL) as GF.
    apply err_reply_p; [apply fa_nth; exact GF|apply fa_nth_error; exact GF|apply pconsts_parts].
Qed.

(* every frame handed to sendall is the encoding of such a message *)
Definition frame_p (f : bytes) : Prop := exists m, f = encode_frame m /\ pmsg m = true.

Lemma sent_p : forall ms, forallb pmsg ms = true -> Forall frame_p (rev (fst (send_seq ms))).
Proof.
  intros ms H. apply Forall_rev. apply Forall_forall. intros f Hin.
  destruct (send_seq_sent _ _ Hin) as [m [A [_ C]]]. exists m. split; [exact C|].
  rewrite forallb_forall in H. apply H. exact A.
Qed.

Lemma process_p : forall st line, forallb P (utf8_dec_repl (bstrip line)) = true ->
  Forall frame_p (out st) -> Forall frame_p (out (process E st line)).
Proof.
  intros st line HL HO. pose proof (answer_p (nline st) line HL) as HG.
  unfold process. destruct (answer E (nline st) line) as [o c]. cbn [fst] in HG.
  destruct o as [pre r|pre]; cbn [outcome_p] in HG.
  - destruct HG as [G1 G2].
    assert (G : forallb pmsg (pre ++ [r]) = true) by (rewrite forallb_app, G1; simpl; rewrite G2; reflexivity).
    pose proof (sent_p _ G) as S. destruct (send_seq (pre ++ [r])) as [fs ok]. simpl in *.
    apply Forall_app. split; assumption.
  - simpl. apply Forall_app. split; [apply sent_p; exact HG|exact HO].
Qed.

Lemma drain_p : forall n st, Forall frame_p (out st) -> Forall frame_p (out (drain n E st)).
Proof.
  induction n as [|n IH]; intros st H; simpl; [exact H|].
  destruct (alive st); [|exact H].
  destruct (get_msg (buf st)) as [[l rest]|] eqn:G; [|exact H].
  apply IH. apply process_p; [apply P_line; exact (proj2 (proj1 (get_msg_some _ _ _) G))|exact H].
Qed.

Lemma step_p : forall st ev, Forall frame_p (out st) -> pev ev -> Forall frame_p (out (step E st ev)).
Proof.
  intros st [b|m] HO Hev; simpl in *.
  - unfold feed. destruct (alive st); [|exact HO]. apply drain_p. exact HO.
  - unfold push. destruct (alive st && encodable m); [|exact HO]. simpl.
    constructor; [exists m; split; [reflexivity|exact Hev]|exact HO].
Qed.

Lemma serve_p : forall evs, Forall pev evs -> Forall frame_p (out (serve E evs)).
Proof.
  intros evs. unfold serve, run. assert (H0 : Forall frame_p (out conn0)) by constructor. revert H0.
  generalize conn0. induction evs as [|ev evs IH]; intros st H Hev; simpl; [exact H|].
  inversion Hev; subst. apply IH; [apply step_p; assumption|assumption].
Qed.
End Env.
End Chars.
(* closed, the lemmas take P Q Q_punct P_dot [P_line] E HE HC in this order; P_line only from drain_p on *)

(* env_q, ev_q, consts_q, Model.qmsg are the case P = scalar: the same terms once the definitions are unfolded *)
Lemma qmsg_pmsg : forall Q m, qmsg Q m = pmsg scalar Q m. Proof. reflexivity. Qed.
Lemma env_q_penv : forall Q E, env_q Q E = penv scalar Q E. Proof. reflexivity. Qed.
Lemma ev_q_pev : forall Q ev, ev_q Q ev = pev scalar Q ev. Proof. reflexivity. Qed.
Lemma consts_q_pconsts : forall Q, consts_q Q = pconsts scalar Q. Proof. reflexivity. Qed.

(* an environment built from a finite table of oracle lines has texts of a kind when the table has *)
Lemma mk_env_penv : forall P Q json (lines : list (hres * str)),
  forallb (fun p => phres P Q (fst p) && forallb Q (snd p)) lines = true -> penv P Q (mk_env json lines).
Proof.
  intros P Q json lines H i. unfold mk_env. cbn [e_line lo_h lo_err].
  destruct (nth_in_or_default i lines (HExc, [])) as [Hin|Hd].
  - rewrite forallb_forall in H. specialize (H _ Hin). apply andb_true_iff in H. exact H.
  - rewrite Hd. split; reflexivity.
Qed.

(* oracle texts that str.encode accepts / oracle texts of json.dumps with ensure_ascii *)
Definition env_enc (E : env) : Prop := env_q scalar E.
Definition env_ascii (E : env) : Prop := env_q printable E.
Definition ev_ascii (ev : event) : Prop := ev_q printable ev.

Lemma qostr_mono : forall (P P' : N -> bool), (forall c, P c = true -> P' c = true) ->
  forall o, qostr P o = true -> qostr P' o = true.
Proof. intros P P' H [s|] G; [exact (forallb_mono P P' H s G)|reflexivity]. Qed.

Lemma qmsg_mono : forall (P P' : N -> bool), (forall c, P c = true -> P' c = true) ->
  forall m, qmsg P m = true -> qmsg P' m = true.
Proof.
  intros P P' H [[a s] d] G. unfold qmsg in *. apply andb_true_iff in G. destruct G as [G Gd].
  rewrite G, (qostr_mono P P' H d Gd). reflexivity.
Qed.

Lemma env_ascii_enc : forall E, env_ascii E -> env_enc E.
Proof.
  intros E H i. destruct (H i) as [H1 H2]. split; [|exact (forallb_mono _ _ printable_scalar _ H2)].
  destruct (lo_h (e_line E i)) as [d sent|k|]; try reflexivity. simpl in *.
  apply andb_true_iff in H1. destruct H1 as [A B]. rewrite (qostr_mono _ _ printable_scalar d A). simpl.
  clear A. induction sent as [|m sent IH]; [reflexivity|]. simpl in *. apply andb_true_iff in B. destruct B as [B1 B2].
  rewrite (qmsg_mono _ _ printable_scalar m B1), (IH B2). reflexivity.
Qed.

(* with encodable oracle texts no request line produces a message that can not be encoded *)
Lemma enc_lines : forall E, consts_q scalar = true -> env_enc E -> forall i line, line_enc E i line.
Proof.
  intros E HC HE i line pre r c H. unfold env_enc in HE. rewrite env_q_penv in HE. rewrite consts_q_pconsts in HC.
  pose proof (answer_p scalar scalar eq_refl eq_refl E HE HC i line (repl_scalar _)) as G. rewrite H in G.
  destruct G as [G1 G2]. rewrite forallb_app. cbn [forallb].
  rewrite (pmsg_encodable scalar scalar (fun c H => H) (fun c H => H) r G2), andb_true_r.
  apply forallb_forall. intros m Hm. rewrite forallb_forall in G1.
  exact (pmsg_encodable scalar scalar (fun c H => H) (fun c H => H) m (G1 m Hm)).
Qed.

(* the law check_case evaluates on every recorded case is the premise env_ascii for the environment of that case *)
Lemma case_env_ascii : forall json lines, ascii_lines lines = true -> env_ascii (mk_env json lines).
Proof. intros json lines H. exact (mk_env_penv scalar printable json lines H). Qed.

Lemma case_events_ascii : forall evs, forallb ascii_event evs = true -> Forall ev_ascii evs.
Proof.
  intros evs H. apply Forall_forall. intros ev Hin. rewrite forallb_forall in H. specialize (H _ Hin).
  destruct ev as [b|m]; [exact I|exact H].
Qed.
