(* C07 - non-vacuity audit: every theorem of Properties.v is applied to a concrete, non-degenerate instance, with
   environments built the way the correspondence driver builds them (Run.mk_env from finite tables, Conc.progs_of from
   finite thread lists).  nv_case and nvc_case are cases RECORDED ON THE IMPLEMENTATION (copied from a shard of the
   correspondence run); E1 / evs1 are hand-made in the same shape.  Only computation and applications of the theorems;
   nothing here is used by the property theorems. *)
From Coq Require Import String Ascii.
From Coq Require Import List Arith NArith Bool Lia.
Import ListNotations.
Require Import FV.Base.Util FV.Gen.C07 FV.C07.Model FV.C07.Run FV.C07.Lemmas FV.C07.Utf8 FV.C07.Enc FV.C07.Wellformed FV.C07.Codec FV.C07.Repl FV.C07.Echo FV.C07.Conc FV.C07.ConcLemmas FV.C07.ConcOrder FV.C07.Properties.
Local Open Scope N_scope.

(* ASCII text as a list of code points / bytes; ln adds the line terminator *)
Definition s (x : string) : list N := List.map N_of_ascii (list_ascii_of_string x).
Definition ln (x : string) : list N := s x ++ [10].

Lemma nv_mk_env_ok : forall json lines,
  forallb (fun p => hres_ok (fst p) && gstr (snd p)) lines = true -> env_ok (mk_env json lines).
Proof. intros json lines H. rewrite env_ok_penv. exact (mk_env_penv good good json lines H). Qed.

Definition ev_okb (ev : event) : bool :=
  match ev with Chunk b => forallb (fun x => x <? 256) b | Async m => gmsg m end.
Lemma nv_evs_ok : forall evs, forallb ev_okb evs = true -> Forall ev_ok evs.
Proof.
  intros evs H. apply Forall_forall. intros ev Hin. rewrite forallb_forall in H. specialize (H _ Hin).
  destruct ev as [b|m]; simpl in *; [|exact H].
  apply Forall_forall. intros x Hx. rewrite forallb_forall in H. apply N.ltb_lt. apply H. exact Hx.
Qed.

Lemma nv_no_eol : forall l, forallb (fun b => negb (b =? EOL)) l = true -> ~ In EOL l.
Proof.
  intros l H Hin. rewrite forallb_forall in H. specialize (H _ Hin). rewrite N.eqb_refl in H. discriminate.
Qed.

Definition nv_case : case :=
(CStream [(Chunk (B 0x170696e6720610a61637469766174650a646f206d3a5f747769636520225c7530303030f48fbfbf220a6368616e6765206d3a5f7374207b2261223a20312c202262223a2022222c20226b5c7530303030223a20327d0a72656164206d3a5f757478740a));(Async ((B 0x1757064617465), (Some (B 0x16d323a76616c7565)), (Some (B 0x15b372e302c207b2274223a20313739303735303135352e303138353539377d5d))));(Async ((B 0x1757064617465), (Some (B 0x16d323a746172676574)), (Some (B 0x15b372e302c207b2274223a20313739303735303135352e303138353836367d5d))))] [((B 0x136), (Some (B 0x136)));((U 0x100002200005c00007500003000003000003000003010ffff000022), (Some (B 0x1225c75303030305c75646266665c756466666622)));((B 0x17b2261223a20312c202262223a2022222c20226b5c7530303030223a20327d), (Some (B 0x17b2261223a20312c202262223a2022222c20226b5c7530303030223a20327d)));((B 0x137), (Some (B 0x137)))] [((HOk (Some (B 0x15b6e756c6c2c207b2274223a20313739303735303135352e303137303031327d5d)) []), []);((HOk None [((B 0x1757064617465), (Some (B 0x16d3a76616c7565)), (Some (B 0x15b312e352c207b7d5d)));((B 0x1757064617465), (Some (B 0x16d3a737461747573)), (Some (B 0x15b5b3130302c2022225d2c207b7d5d)));((B 0x1757064617465), (Some (B 0x16d3a746172676574)), (Some (B 0x15b322e302c207b7d5d)));((B 0x1757064617465), (Some (B 0x16d3a706f6c6c696e74657276616c)), (Some (B 0x15b352e302c207b7d5d)));((B 0x1757064617465), (Some (B 0x16d3a5f747874)), (Some (B 0x15b22222c207b7d5d)));((B 0x1757064617465), (Some (B 0x16d3a5f75747874)), (Some (B 0x15b22222c207b7d5d)));((B 0x1757064617465), (Some (B 0x16d3a5f7374)), (Some (B 0x15b7b2261223a20302c202262223a2022227d2c207b7d5d)));((B 0x1757064617465), (Some (B 0x16d323a76616c7565)), (Some (B 0x15b362e302c207b2274223a20313739303735303135352e303136393031357d5d)));((B 0x1757064617465), (Some (B 0x16d323a737461747573)), (Some (B 0x15b5b3130302c2022225d2c207b7d5d)));((B 0x1757064617465), (Some (B 0x16d323a746172676574)), (Some (B 0x15b362e302c207b2274223a20313739303735303135352e303136393236387d5d)));((B 0x1757064617465), (Some (B 0x16d323a706f6c6c696e74657276616c)), (Some (B 0x15b352e302c207b7d5d)));((B 0x1757064617465), (Some (B 0x16d323a5f747874)), (Some (B 0x15b22222c207b7d5d)));((B 0x1757064617465), (Some (B 0x16d323a5f75747874)), (Some (B 0x15b22222c207b7d5d)));((B 0x1757064617465), (Some (B 0x16d323a5f7374)), (Some (B 0x15b7b2261223a20302c202262223a2022227d2c207b7d5d)))]), []);((HSecop 13%nat), (B 0x12263616e206e6f7420636f6e7665727420275c5c7830305c5c5530303130666666662720746f20616e20696e7422));((HSecop 13%nat), (B 0x12273747275637420636f6e7461696e73207375706572666c756f7573206d656d626572733a206b5c753030303022));((HOk (Some (B 0x15b22222c207b7d5d)) []), [])] [(B 0x1706f6e672061205b6e756c6c2c207b2274223a20313739303735303135352e303137303031327d5d0a);(B 0x1757064617465206d3a76616c7565205b312e352c207b7d5d0a);(B 0x1757064617465206d3a737461747573205b5b3130302c2022225d2c207b7d5d0a);(B 0x1757064617465206d3a746172676574205b322e302c207b7d5d0a);(B 0x1757064617465206d3a706f6c6c696e74657276616c205b352e302c207b7d5d0a);(B 0x1757064617465206d3a5f747874205b22222c207b7d5d0a);(B 0x1757064617465206d3a5f75747874205b22222c207b7d5d0a);(B 0x1757064617465206d3a5f7374205b7b2261223a20302c202262223a2022227d2c207b7d5d0a);(B 0x1757064617465206d323a76616c7565205b362e302c207b2274223a20313739303735303135352e303136393031357d5d0a);(B 0x1757064617465206d323a737461747573205b5b3130302c2022225d2c207b7d5d0a);(B 0x1757064617465206d323a746172676574205b362e302c207b2274223a20313739303735303135352e303136393236387d5d0a);(B 0x1757064617465206d323a706f6c6c696e74657276616c205b352e302c207b7d5d0a);(B 0x1757064617465206d323a5f747874205b22222c207b7d5d0a);(B 0x1757064617465206d323a5f75747874205b22222c207b7d5d0a);(B 0x1757064617465206d323a5f7374205b7b2261223a20302c202262223a2022227d2c207b7d5d0a);(B 0x16163746976650a);(B 0x16572726f725f646f206d3a5f7477696365205b2257726f6e6754797065222c202263616e206e6f7420636f6e7665727420275c5c7830305c5c5530303130666666662720746f20616e20696e74222c207b7d5d0a);(B 0x16572726f725f6368616e6765206d3a5f7374205b2257726f6e6754797065222c202273747275637420636f6e7461696e73207375706572666c756f7573206d656d626572733a206b5c7530303030222c207b7d5d0a);(B 0x17265706c79206d3a5f75747874205b22222c207b7d5d0a);(B 0x1757064617465206d323a76616c7565205b372e302c207b2274223a20313739303735303135352e303138353539377d5d0a);(B 0x1757064617465206d323a746172676574205b372e302c207b2274223a20313739303735303135352e303138353836367d5d0a)] [(0%nat, (B 0x170696e67), (Some (B 0x161)), None);(1%nat, (B 0x16163746976617465), None, None);(2%nat, (B 0x1646f), (Some (B 0x16d3a5f7477696365)), (Some (B 0x1225c75303030305c75646266665c756466666622)));(3%nat, (B 0x16368616e6765), (Some (B 0x16d3a5f7374)), (Some (B 0x17b2261223a20312c202262223a2022222c20226b5c7530303030223a20327d)));(4%nat, (B 0x172656164), (Some (B 0x16d3a5f75747874)), None)] [] true)
.
Definition nv_chunks : list event :=
  Eval cbv beta iota delta [nv_case] in match nv_case with CStream c _ _ _ _ _ _ => c | _ => [] end.
Definition nv_json : list (str * option str) :=
  Eval cbv beta iota delta [nv_case] in match nv_case with CStream _ j _ _ _ _ _ => j | _ => [] end.
Definition nv_lines : list (hres * str) :=
  Eval cbv beta iota delta [nv_case] in match nv_case with CStream _ _ l _ _ _ _ => l | _ => [] end.
Definition nv_E : env := mk_env nv_json nv_lines.

(* the instance is not degenerate: three events (one segment with five request lines, two messages of another
   thread), five oracle lines of three kinds, 21 frames sent *)
Example nv_case_shape :
  List.length nv_chunks = 3%nat /\ List.length nv_lines = 5%nat /\ List.length nv_json = 4%nat /\
  List.length (out (serve nv_E nv_chunks)) = 21%nat /\ nline (serve nv_E nv_chunks) = 5%nat /\
  existsb (fun p => match fst p with HSecop _ => true | _ => false end) nv_lines = true /\
  existsb (fun p => match fst p with HOk _ (_ :: _) => true | _ => false end) nv_lines = true /\
  existsb (fun e => match e with Async _ => true | _ => false end) nv_chunks = true.
Proof.
  (* a name for the state: it is evaluated once, not once per conjunct (here and in the other shape examples) *)
  set (st := serve nv_E nv_chunks). vm_compute. repeat split; reflexivity.
Qed.

(* premise of C07_case_law *)
Example C07_nonvacuous_case_law : check_case nv_case = true.
Proof. vm_compute. reflexivity. Qed.

Example C07_case_law_applies : env_ascii nv_E /\ Forall ev_ascii nv_chunks.
Proof. exact (C07_case_law _ _ _ _ _ _ _ C07_nonvacuous_case_law). Qed.

Example nv_env_ascii : env_ascii nv_E. Proof. exact (proj1 C07_case_law_applies). Qed.
Example nv_env_enc : env_enc nv_E. Proof. exact (env_ascii_enc _ nv_env_ascii). Qed.
Example nv_env_ok : env_ok nv_E. Proof. apply nv_mk_env_ok. vm_compute. reflexivity. Qed.
Example nv_evs_ok_real : Forall ev_ok nv_chunks. Proof. apply nv_evs_ok. vm_compute. reflexivity. Qed.

(* C07_reply_ascii_data and C07_lines_wellformed at the recorded case: the Forall ranges over 21 frames *)
Example C07_reply_ascii_data_applies :
  env_enc nv_E /\ alive (serve nv_E nv_chunks) = true /\
  Forall (fun f => exists m, f = encode_frame m /\ qostr printable (snd m) = true /\ encodable m = true)
         (out (serve nv_E nv_chunks)).
Proof. apply C07_reply_ascii_data; [exact nv_env_ascii|exact (proj2 C07_case_law_applies)]. Qed.

Example C07_lines_wellformed_applies : Forall frame_ok (out (serve nv_E nv_chunks)).
Proof. apply C07_lines_wellformed; [exact nv_env_ok|exact nv_evs_ok_real]. Qed.

Example C07_never_terminates_applies_real :
  alive (serve nv_E nv_chunks) = true /\ get_msg (buf (serve nv_E nv_chunks)) = None.
Proof. apply C07_never_terminates. exact nv_env_enc. Qed.

Definition upd1 : msg := (s "update", Some (s "m:value"), Some (s "[1.5, {}]")).
Definition j1 : list (str * option str) :=
  [(s "3", Some (s "3")); (s "null", Some (s "null")); (s "{bad", None)].
Definition l1 : list (hres * str) :=
  [ (HOk (Some (s "[null, {}]")) [], []);            (* ping x *)
    (HOk (Some (s "[3, {}]")) [upd1], []);            (* change m:target 3, the handler sends an update first *)
    (HSecop 3%nat, s """no such module""");           (* read q:v *)
    (HExc, s """boom""");                             (* frob *)
    (HOk None [upd1; upd1], []) ].                    (* activate *)
Definition E1 : env := mk_env j1 l1.

Example E1_ascii : env_ascii E1. Proof. apply case_env_ascii. vm_compute. reflexivity. Qed.
Example E1_enc : env_enc E1. Proof. exact (env_ascii_enc _ E1_ascii). Qed.
Example E1_ok : env_ok E1. Proof. apply nv_mk_env_ok. vm_compute. reflexivity. Qed.

(* the history before: a request cut in the middle, a message of another thread in between, then the rest of the
   request and the beginning of the next one - the buffer is NOT empty when the segments under test arrive *)
Definition evs1 : list event := [Chunk (s "pi"); Async upd1; Chunk (ln "ng x" ++ s "chan")].
Definition total1 : bytes :=
  ln "ge m:target 3" ++ ln "read q:v" ++ ln "frob" ++ ln "activate" ++ s "he".
Definition cs1 : list bytes := [firstn 3 total1; firstn 20 (skipn 3 total1); skipn 23 total1].
Definition cs1' : list bytes := [firstn 14 total1; []; firstn 1 (skipn 14 total1); skipn 15 total1].

Example evs1_shape :
  buf (serve E1 evs1) = s "chan" /\ nline (serve E1 evs1) = 1%nat /\ List.length (out (serve E1 evs1)) = 2%nat /\
  list_eqb str_eqb cs1 cs1' = false /\
  nline (run E1 (serve E1 evs1) (List.map Chunk cs1)) = 5%nat /\
  List.length (out (run E1 (serve E1 evs1) (List.map Chunk cs1))) = 9%nat /\
  List.length (calls (run E1 (serve E1 evs1) (List.map Chunk cs1))) = 4%nat /\
  buf (run E1 (serve E1 evs1) (List.map Chunk cs1)) = s "he".
Proof.
  set (st0 := serve E1 evs1). set (st := run E1 st0 (List.map Chunk cs1)).
  vm_compute. repeat split; reflexivity. Qed.

Example C07_chunking_applies :
  run E1 (serve E1 evs1) (List.map Chunk cs1) = run E1 (serve E1 evs1) (List.map Chunk cs1').
Proof. apply C07_chunking; [exact E1_enc|vm_compute; reflexivity]. Qed.

Example C07_line_by_line_applies :
  run E1 (serve E1 evs1) (List.map Chunk cs1) =
  let '(ls, r) := lines_of (buf (serve E1 evs1) ++ concat cs1) in set_buf (fold_left (process E1) ls (serve E1 evs1)) r.
Proof. exact (C07_line_by_line E1 evs1 cs1 E1_enc). Qed.

Example lines_of_demo :
  lines_of (buf (serve E1 evs1) ++ concat cs1) =
  ([s "change m:target 3"; s "read q:v"; s "frob"; s "activate"], s "he").
Proof. vm_compute. reflexivity. Qed.

Example C07_lines_of_spec_applies :
  let '(ls, r) := lines_of (s "chan" ++ total1) in
  s "chan" ++ total1 = flat_map (fun l => l ++ [EOL]) ls ++ r /\ Forall (fun l => ~ In EOL l) ls /\ ~ In EOL r.
Proof. exact (C07_lines_of_spec (s "chan" ++ total1)). Qed.

Example C07_never_terminates_applies :
  alive (serve E1 (evs1 ++ List.map Chunk cs1)) = true /\ get_msg (buf (serve E1 (evs1 ++ List.map Chunk cs1))) = None.
Proof. apply C07_never_terminates. exact E1_enc. Qed.

(* one reply per line, at a state in the middle of a history; the four kinds of reply all occur with E1:
   success (change -> changed, with a message sent before), SECoP error, unhandled action, undecodable line *)
Definition st1 : conn := serve E1 evs1.
Example C07_one_reply_per_line_applies : forall line,
  exists pre r c, answer E1 (nline st1) line = (OReply pre r, c) /\
    output (process E1 st1 line) = output st1 ++ frames pre ++ [encode_frame r] /\
    nline (process E1 st1 line) = S (nline st1) /\
    alive (process E1 st1 line) = alive st1 /\
    reply_ok E1 (nline st1) line r.
Proof. intro line. apply C07_one_reply_per_line. exact E1_enc. Qed.

Example one_reply_kinds :
  fst (answer E1 1 (s "change m:target 3")) = OReply [upd1] (s "changed", Some (s "m:target"), Some (s "[3, {}]")) /\
  fst (answer E1 2 (s "read q:v")) =
    OReply [] (s "error_read", Some (s "q:v"), Some (err_data (error_name_of_index 3) (s """no such module"""))) /\
  fst (answer E1 3 (s "frob")) =
    OReply [] (s "error_frob", None, Some (err_data (error_name_of_class unhandled_error_class) (s """boom"""))) /\
  fst (answer E1 3 (s "change m:target {bad")) =
    OReply [] (s "error_change", Some (s "m:target"), Some (err_data decode_error_name (s """boom"""))) /\
  fst (answer E1 4 (s "activate")) = OReply [upd1; upd1] (s "active", None, None) /\
  fst (answer E1 4 (s "*IDN?")) = OReply [upd1; upd1] (IDENTREPLY, None, None) /\
  fst (answer E1 4 []) = OReply help_frames_msgs (HELPREPLY, None, None).
Proof. repeat split; reflexivity. Qed.

(* C07_unencodable_reply_terminates: the inner premises (all messages before the reply encodable, the reply not) hold
   for an environment whose json.dumps text holds a lone surrogate; such an environment can be written with mk_env,
   but check_case rejects it (ascii_lines) - the theorem is about what WOULD happen with ensure_ascii=False *)
Definition l_sur : list (hres * str) := [(HOk (Some [34; 55296; 34]) [upd1], s """x""")].
Definition E_sur : env := mk_env [] l_sur.
Example C07_nonvacuous_unencodable_reply_terminates :
  match fst (answer E_sur 0 (s "ping x")) with
  | OReply pre r => forallb encodable pre && negb (encodable r) && negb (is_nil pre)
  | OCrash _ => false
  end = true /\ ascii_lines l_sur = false.
Proof. vm_compute. split; reflexivity. Qed.

Example C07_unencodable_reply_terminates_applies :
  output (process E_sur conn0 (s "ping x")) = [encode_frame upd1] /\ alive (process E_sur conn0 (s "ping x")) = false.
Proof.
  destruct (C07_unencodable_reply_terminates E_sur conn0 (s "ping x")) as [pre [r [c [H [_ G]]]]].
  assert (A : answer E_sur 0 (s "ping x") =
              (OReply [upd1] (s "pong", Some (s "x"), Some [34; 55296; 34]), Some (0%nat, s "ping", Some (s "x"), None)))
    by (reflexivity).
  change (nline conn0) with 0%nat in H. rewrite A in H. inversion H; subst pre r c.
  assert (P1 : forallb encodable [upd1] = true) by (reflexivity).
  assert (P2 : encodable (s "pong", Some (s "x"), Some [34; 55296; 34]) = false) by (reflexivity).
  destruct (G P1 P2) as [G1 G2].
  split; [rewrite G1; reflexivity|exact G2].
Qed.

(* internal actions *)
Example C07_internal_actions_rejected_applies :
  dispatch E1 2 (s "_ident", Some (s "x"), None) =
    (OReply [] (err_reply E1 2 (s "_ident") (Some (s "x")) (error_name_of_class internal_error_class)), None) /\
  dispatch E1 3 (s "request", None, Some (s "3")) =
    (OReply [] (err_reply E1 3 (s "request") None (error_name_of_class internal_error_class)), None) /\
  dispatch E1 0 (s "_frob", None, None) =
    (OReply [] (err_reply E1 0 (s "_frob") None (error_name_of_class internal_error_class)), None).
Proof.
  split; [|split].
  - refine (proj1 (C07_internal_actions_rejected E1 2%nat (s "_ident") (Some (s "x")) None _ _)); vm_compute; reflexivity.
  - refine (proj1 (C07_internal_actions_rejected E1 3%nat (s "request") None (Some (s "3")) _ _)); vm_compute; reflexivity.
  - refine (proj1 (C07_internal_actions_rejected E1 0%nat (s "_frob") None None _ _)); vm_compute; reflexivity.
Qed.

(* decoded request fields: a line with surrounding white space, non-ASCII specifier, data *)
Definition line_dec : bytes := [32; 9] ++ s "change m" ++ [195; 182] ++ s ":t 3" ++ [13].
Example C07_decoded_request_fields_applies :
  request_fields line_dec = Some (s "change", Some (s "m" ++ [246] ++ s ":t")).
Proof.
  apply (C07_decoded_request_fields E1 line_dec (s "change") (Some (s "m" ++ [246] ++ s ":t")) (Some (s "3"))).
  vm_compute. reflexivity.
Qed.

(* decode errors: well-formed action and specifier, the data part is ill-formed UTF-8 (byte 255) *)
Definition line_bad : bytes := [32] ++ s "r" ++ [195; 169] ++ s "ad m" ++ [195; 182] ++ s " {" ++ [255] ++ [32].
Example C07_decode_error_echo_applies :
  exists s' d, answer E1 7 line_bad = (OReply [] (ERRORPREFIX ++ (s "r" ++ [233] ++ s "ad"), s', d), None) /\
               or_empty s' = s "m" ++ [246].
Proof. apply C07_decode_error_echo; vm_compute; reflexivity. Qed.

(* the whole line is text, the data part is rejected by json.loads (table entry None, and no table entry) *)
Example C07_decode_error_echo_text_applies :
  (exists s' d, answer E1 7 (s "change m:t {bad") = (OReply [] (ERRORPREFIX ++ s "change", s', d), None) /\
                or_empty s' = or_empty (Some (s "m:t"))) /\
  (exists s' d, answer E1 7 (s "do  [1,") = (OReply [] (ERRORPREFIX ++ s "do", s', d), None) /\
                or_empty s' = or_empty None).
Proof. split; apply C07_decode_error_echo_text; vm_compute; reflexivity. Qed.

(* ill-formed action and specifier *)
Definition line_ill : bytes := [32; 114; 233; 97; 100; 32; 120; 255; 32; 123].
Example C07_decode_error_echo_replaced_applies :
  exists s' d, answer E1 7 line_ill =
      (OReply [] (ERRORPREFIX ++ utf8_dec_repl (nth 0%nat (byte_fields line_ill) []), s', d), None) /\
    or_empty s' = utf8_dec_repl (nth 1%nat (byte_fields line_ill) []).
Proof. apply C07_decode_error_echo_replaced. vm_compute. reflexivity. Qed.
Example replaced_fields :
  utf8_dec_repl (nth 0%nat (byte_fields line_ill) []) = [114; 65533; 97; 100] /\
  utf8_dec_repl (nth 1%nat (byte_fields line_ill) []) = [120; 65533].
Proof. vm_compute. split; reflexivity. Qed.

Example C07_replace_decoder_applies :
  utf8_dec_repl [114; 195; 169; 240; 159; 152; 128] = [114; 233; 128512] /\
  forallb scalar (utf8_dec_repl [114; 237; 160; 128; 255]) = true /\
  splitsp 2 (utf8_dec_repl line_ill) = List.map utf8_dec_repl (splitsp 2 line_ill).
Proof.
  destruct (C07_replace_decoder [114; 195; 169; 240; 159; 152; 128]) as [A _].
  destruct (C07_replace_decoder [114; 237; 160; 128; 255]) as [_ [B _]].
  destruct (C07_replace_decoder line_ill) as [_ [_ C]].
  split; [apply A; reflexivity|split; [exact B|apply C]].
Qed.

(* codec: action, non-ASCII specifier, data / no data *)
Example C07_codec_inverse_applies :
  decode_msg E1 (encode_body (s "change", Some (s "m" ++ [246; 8364] ++ s ":t"), Some (s "3"))) =
    Some (s "change", Some (s "m" ++ [246; 8364] ++ s ":t"), Some (s "3")) /\
  decode_msg E1 (encode_body (s "change", None, Some (s "null"))) = Some (s "change", None, None) /\
  decode_msg E1 (encode_body (s "ping", Some (s "x"), Some (s "[1, 2]"))) = None /\
  decode_msg E1 (encode_body (s "describe", None, None)) = Some (s "describe", None, None).
Proof.
  assert (D1 : wf_data (Some (s "3"))).
  { split; [reflexivity|]. split; [exists 51, []|exists [], 51]; split; reflexivity. }
  assert (D2 : wf_data (Some (s "null"))).
  { split; [reflexivity|]. split; [exists 110, [117; 108; 108]|exists [110; 117; 108], 108]; split; reflexivity. }
  assert (D3 : wf_data (Some (s "[1, 2]"))).
  { split; [reflexivity|]. split; [exists 91, [49; 44; 32; 50; 93]|exists [91; 49; 44; 32; 50], 93]; split; reflexivity. }
  split; [|split; [|split]].
  - refine (eq_trans (proj2 (C07_codec_inverse E1 _ _ _ _ _ D1)) _); reflexivity.
  - refine (eq_trans (proj2 (C07_codec_inverse E1 _ None _ _ I D2)) _); reflexivity.
  - refine (eq_trans (proj2 (C07_codec_inverse E1 _ _ _ _ _ D3)) _); reflexivity.
  - refine (eq_trans (proj2 (C07_codec_inverse E1 _ None None _ I I)) _); reflexivity.
Qed.

(* isolation: three connections (one of them in the middle of a history), events addressed to all of them and to a
   connection that does not exist *)
Definition S3 : list conn := [conn0; serve E1 evs1; conn0].
Definition Es3 (k : nat) : env := match k with 1%nat => E1 | 2%nat => nv_E | _ => E_sur end.
Definition sys_evs : list (nat * event) :=
  [(0%nat, Chunk (ln "ping x")); (1%nat, Chunk (firstn 30 total1)); (2%nat, Chunk (s "ping a")); (7%nat, Chunk (ln "x"));
   (1%nat, Async upd1); (2%nat, Chunk (ln "")); (0%nat, Chunk (ln "ping y")); (1%nat, Chunk (skipn 30 total1))].
Example C07_isolation_applies :
  nth 1%nat (sys_run Es3 S3 sys_evs) conn0 =
    run E1 (serve E1 evs1) [Chunk (firstn 30 total1); Async upd1; Chunk (skipn 30 total1)] /\
  nth 0%nat (sys_run Es3 S3 sys_evs) conn0 = run E_sur conn0 [Chunk (ln "ping x"); Chunk (ln "ping y")] /\
  nth 2%nat (sys_run Es3 S3 sys_evs) conn0 = run nv_E conn0 [Chunk (s "ping a"); Chunk (ln "")].
Proof.
  split; [|split].
  - rewrite (C07_isolation Es3 sys_evs S3 1%nat conn0) by (vm_compute; lia). reflexivity.
  - rewrite (C07_isolation Es3 sys_evs S3 0%nat conn0) by (vm_compute; lia). reflexivity.
  - rewrite (C07_isolation Es3 sys_evs S3 2%nat conn0) by (vm_compute; lia). reflexivity.
Qed.
Example isolation_shape :
  List.length (out (nth 1%nat (sys_run Es3 S3 sys_evs) conn0)) = 10%nat /\
  alive (nth 0%nat (sys_run Es3 S3 sys_evs) conn0) = false /\
  List.length (out (nth 2%nat (sys_run Es3 S3 sys_evs) conn0)) = 1%nat.
Proof.
  set (S := sys_run Es3 S3 sys_evs).
  vm_compute. repeat split; reflexivity. Qed.

(* the peer's view *)
Example C07_peer_reads_frames_applies :
  lines_of (flat_map (fun l => l ++ [EOL]) [s "pong x [null, {}]"; []; s "update m:value [1.5, {}]"] ++ s "act") =
  ([s "pong x [null, {}]"; []; s "update m:value [1.5, {}]"], s "act").
Proof.
  apply C07_peer_reads_frames.
  - apply Forall_cons; [apply nv_no_eol; reflexivity|].
    apply Forall_cons; [apply nv_no_eol; reflexivity|].
    apply Forall_cons; [apply nv_no_eol; reflexivity|]. apply Forall_nil.
  - apply nv_no_eol; reflexivity.
Qed.

(* concurrent send path: a recorded case
   three threads, two connections; the socket of connection 1 fails in the middle of a frame *)
Definition nvc_case : case :=
(CConc [[(0%nat, ((B 0x1706f6e67), (Some (B 0x178)), (Some (B 0x15b6e756c6c2c207b2274223a20313739303735303135342e343234303530367d5d))))];[(1%nat, ((B 0x16368616e676564), (Some (B 0x16d3a746172676574)), (Some (B 0x15b332e302c207b2274223a20313739303735303135342e343233383939327d5d))))];[(0%nat, ((B 0x16c6f67), (Some (B 0x16d3a696e666f)), (Some (B 0x122746578742031205c7530306539205c22715c2222))))]] [(2%nat, Write 0%nat);(1%nat, Write 0%nat);(2%nat, Write 0%nat);(1%nat, Write 0%nat);(1%nat, Write 20%nat);(0%nat, Write 0%nat);(1%nat, Write 2%nat);(2%nat, Write 1%nat);(2%nat, Write 32%nat);(1%nat, Write 20%nat);(1%nat, Fail 1%nat);(0%nat, Write 0%nat);(0%nat, Write 1%nat);(0%nat, Write 40%nat)] 2%nat [(B 0x16c6f67206d3a696e666f2022746578742031205c7530306539205c22715c22220a706f6e672078205b6e756c6c2c207b2274223a20313739303735303135342e343234303530367d5d0a);(B 0x16368616e676564206d3a746172676574205b332e302c207b2274223a20313739303735303135342e3432)] [true;false])
.
Definition nvc_progl : list (list job) :=
  Eval cbv beta iota delta [nvc_case] in match nvc_case with CConc p _ _ _ _ => p | _ => [] end.
Definition nvc_sched : list cevent :=
  Eval cbv beta iota delta [nvc_case] in match nvc_case with CConc _ sc _ _ _ => sc | _ => [] end.
Definition nvc_progs : nat -> list job := progs_of nvc_progl.
Notation nvc_final := (crun true (cinit nvc_progs) nvc_sched) (only parsing).
(* after 8 of the 14 steps: threads 2 and 1 are inside sendall on connections 0 and 1, thread 0 waits to enter *)
Notation nvc_mid := (crun true (cinit nvc_progs) (firstn 8 nvc_sched)) (only parsing).

Example nvc_check : check_case nvc_case = true. Proof. vm_compute. reflexivity. Qed.

Example nvc_shape :
  List.length nvc_progl = 3%nat /\ List.length nvc_sched = 14%nat /\
  List.map fst nvc_sched = [2; 1; 2; 1; 1; 0; 1; 2; 2; 1; 1; 0; 0; 0]%nat /\
  lock (con nvc_mid 0%nat) = Some 2%nat /\ lock (con nvc_mid 1%nat) = Some 1%nat /\
  List.map fst (log (con nvc_final 0%nat)) = [2; 0]%nat /\ List.map fst (log (con nvc_final 1%nat)) = [1%nat] /\
  running (con nvc_final 0%nat) = true /\ running (con nvc_final 1%nat) = false /\
  (List.length (sock (con nvc_final 1%nat)) < List.length (concat (List.map snd (log (con nvc_final 1%nat)))))%nat.
Proof.
  set (mid := nvc_mid). set (final := nvc_final).
  vm_compute. repeat split; try reflexivity. lia. Qed.

Lemma nvc_all_done : forall t, todo (thr nvc_final t) = [].
Proof. intro t. destruct t as [|[|[|t]]]; vm_compute; try reflexivity. destruct t; reflexivity. Qed.

Lemma nvc_no_fail0 : forall t, ~ In (t, Fail 0%nat) nvc_sched.
Proof.
  intros t H. vm_compute in H.
  repeat (destruct H as [H|H]; [discriminate H|]). exact H.
Qed.

(* C07_frames_never_interleaved: all four parts at the final state, part 1-3 at the state in the middle *)
Example C07_frames_never_interleaved_applies_final :
  (sock (con nvc_final 0%nat) = concat (List.map snd (log (con nvc_final 0%nat))) /\
   forall t, projf t (log (con nvc_final 0%nat)) = encs 0%nat (nvc_progs t)) /\
  (forall t f, In (t, f) (log (con nvc_final 1%nat)) ->
     exists m, In (1%nat, m) (nvc_progs t) /\ encodable m = true /\ f = encode_frame m).
Proof.
  split; [apply (C07_frames_never_interleaved nvc_progs nvc_sched 0%nat); [exact nvc_all_done|vm_compute; reflexivity]|].
  apply (C07_frames_never_interleaved nvc_progs nvc_sched 1%nat).
Qed.

Example C07_frames_never_interleaved_applies_mid :
  sock (con nvc_mid 0%nat) <> concat (List.map snd (log (con nvc_mid 0%nat))) /\
  (exists done t f w r, log (con nvc_mid 0%nat) = done ++ [(t, f)] /\ f = w ++ r /\
     sock (con nvc_mid 0%nat) = concat (List.map snd done) ++ w) /\
  (forall t, projf t (log (con nvc_mid 1%nat)) = encs 1%nat (donej (thr nvc_mid t)) ++ curf (thr nvc_mid t) 1%nat) /\
  projf 1%nat (log (con nvc_mid 1%nat)) <> [].
Proof.
  pose proof (C07_frames_never_interleaved nvc_progs (firstn 8 nvc_sched) 0%nat) as H0. cbv zeta in H0.
  pose proof (C07_frames_never_interleaved nvc_progs (firstn 8 nvc_sched) 1%nat) as H1. cbv zeta in H1.
  destruct H0 as [W _]. destruct H1 as [_ [_ [P _]]].
  assert (N : sock (con nvc_mid 0%nat) <> concat (List.map snd (log (con nvc_mid 0%nat)))) by (vm_compute; discriminate).
  split; [exact N|]. split; [|split].
  - (* the theorem leaves two alternatives; here the first is false (a frame is in flight), so the second holds *)
    destruct W as [W|W]; [exfalso; exact (N W)|exact W].
  - apply P. vm_compute. reflexivity.
  - vm_compute. discriminate.
Qed.

(* C07_send_failure_releases_lock: premises of every part *)
Example C07_send_failure_releases_lock_applies :
  (* 1: a lock is held in the middle state *)
  (running (con nvc_mid 1%nat) = true /\
   exists m tl f rest, todo (thr nvc_mid 1%nat) = (1%nat, m) :: tl /\ ph (thr nvc_mid 1%nat) = PWrite f rest) /\
  (* 2: connection 1 is stopped at the end *)
  lock (con nvc_final 1%nat) = None /\
  (* 3: all calls have returned *)
  lock (con nvc_final 0%nat) = None /\
  (* 6: no failure of connection 0 in the schedule (there is one of connection 1) *)
  running (con nvc_final 0%nat) = true.
Proof.
  pose proof (C07_send_failure_releases_lock nvc_progs (firstn 8 nvc_sched) 1%nat) as M. cbv zeta in M.
  pose proof (C07_send_failure_releases_lock nvc_progs nvc_sched 1%nat) as F1. cbv zeta in F1.
  pose proof (C07_send_failure_releases_lock nvc_progs nvc_sched 0%nat) as F0. cbv zeta in F0.
  destruct M as [M1 _]. destruct F1 as [_ [F12 _]]. destruct F0 as [_ [_ [F03 [_ [_ F06]]]]].
  split; [apply (M1 1%nat); vm_compute; reflexivity|].
  split; [apply F12; vm_compute; reflexivity|].
  split; [apply F03; exact nvc_all_done|].
  apply F06. exact nvc_no_fail0.
Qed.

(* 4 and 5: the holder of the lock of connection 1 (thread 1, in the middle state) makes a step: a partial write of
   3 bytes leaves it inside sendall with less to write; a write of everything and a failing write leave the with block *)
Definition nvc_m1 : msg := snd (hd (0%nat, ([], None, None)) (nvc_progs 1%nat)).
Definition nvc_f1 : bytes := encode_frame nvc_m1.
Example nvc_mid_holder :
  todo (thr nvc_mid 1%nat) = [(1%nat, nvc_m1)] /\ ph (thr nvc_mid 1%nat) = PWrite nvc_f1 (skipn 22 nvc_f1) /\
  List.length (skipn 22 nvc_f1) = 28%nat.
Proof.
  set (mid := nvc_mid).
  vm_compute. repeat split; reflexivity. Qed.

Example C07_send_failure_releases_lock_step_applies :
  (let st' := cstep true nvc_mid (1%nat, Write 3%nat) in
   exists r', todo (thr st' 1%nat) = [(1%nat, nvc_m1)] /\ ph (thr st' 1%nat) = PWrite nvc_f1 r' /\
              (List.length r' < 28)%nat) /\
  (let st' := cstep true nvc_mid (1%nat, Write 99%nat) in
   lock (con st' 1%nat) = None /\ todo (thr st' 1%nat) = [] /\ ph (thr st' 1%nat) = PIdle) /\
  (let st' := cstep true nvc_mid (1%nat, Fail 1%nat) in
   lock (con st' 1%nat) = None /\ running (con st' 1%nat) = false /\ sock (con st' 1%nat) = sock (con nvc_mid 1%nat) /\
   todo (thr st' 1%nat) = [] /\ ph (thr st' 1%nat) = PIdle /\
   (forall c', c' <> 1%nat -> con st' c' = con nvc_mid c') /\ (forall t', t' <> 1%nat -> thr st' t' = thr nvc_mid t')).
Proof.
  pose proof (C07_send_failure_releases_lock nvc_progs (firstn 8 nvc_sched) 1%nat) as M. cbv zeta in M.
  destruct M as [_ [_ [_ [M4 [M5 _]]]]].
  destruct nvc_mid_holder as [HT [HP HL]].
  cbv zeta. split; [|split].
  - destruct (M4 1%nat nvc_m1 [] nvc_f1 (skipn 22 nvc_f1) (Write 3%nat) HT HP) as [[A _]|[r' [A [B C]]]].
    + exfalso. revert A. vm_compute. discriminate.
    + exists r'. rewrite HL in C. split; [exact A|split; [exact B|exact C]].
  - destruct (M4 1%nat nvc_m1 [] nvc_f1 (skipn 22 nvc_f1) (Write 99%nat) HT HP) as [A|[r' [A _]]].
    + exact A.
    + exfalso. revert A. vm_compute. discriminate.
  - exact (M5 1%nat nvc_m1 [] nvc_f1 (skipn 22 nvc_f1) HT HP).
Qed.

(* the conclusion of C07_frames_never_interleaved is not trivially true: it is FALSE for the run without the lock of
   C07_without_lock_frames_interleave (both alternatives of part 1 fail) *)
Example frames_conclusion_refutable :
  let st := crun false (cinit wl_progs) wl_sched in
  let lg := log (con st 0%nat) in
  ~ (sock (con st 0%nat) = concat (List.map snd lg) \/
     exists done t f w r, lg = done ++ [(t, f)] /\ f = w ++ r /\ sock (con st 0%nat) = concat (List.map snd done) ++ w).
Proof.
  cbv zeta.
  assert (L : log (con (crun false (cinit wl_progs) wl_sched) 0%nat) = [(0%nat, [97; 98; 10])] ++ [(1%nat, [99; 100; 10])])
    by (vm_compute; reflexivity).
  assert (K : sock (con (crun false (cinit wl_progs) wl_sched) 0%nat) = [97; 99; 100; 10; 98; 10])
    by (vm_compute; reflexivity).
  rewrite L, K. intros [H|[done [t [f [w [r [A [B C]]]]]]]].
  - revert H. vm_compute. discriminate.
  - apply app_inj_tail in A. destruct A as [A1 A2]. subst done. simpl in C. discriminate C.
Qed.
