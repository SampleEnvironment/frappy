(* C07 - what C07_codec_inverse (decoding an encoded message triple gives the triple back) is stated with and rests on:
   text with clean ends survives strip, tokens, the body of a frame reads back as its text *)
From Coq Require Import List Arith NArith Bool Lia.
Import ListNotations.
Require Import FV.Gen.C07 FV.C07.Model FV.C07.Lemmas FV.C07.Utf8 FV.C07.Repl.
Local Open Scope N_scope.

(* first and last element are not white space *)
Definition ends_clean (f : N -> bool) (l : list N) : Prop :=
  (exists c r, l = c :: r /\ f c = false) /\ (exists r c, l = r ++ [c] /\ f c = false).

Lemma lstrip_all : forall f ws l, forallb f ws = true -> lstrip f (ws ++ l) = lstrip f l.
Proof.
  intros f. induction ws as [|w ws IH]; intros l H; [reflexivity|]. simpl in *.
  apply andb_true_iff in H. destruct H as [H1 H2]. rewrite H1. apply IH. exact H2.
Qed.

Lemma forallb_rev : forall (f : N -> bool) l, forallb f (rev l) = forallb f l.
Proof.
  intros f. induction l as [|x l IH]; [reflexivity|]. simpl. rewrite forallb_app, IH. simpl.
  rewrite andb_true_r. apply andb_comm.
Qed.

Lemma strip_core : forall f Y ws, ends_clean f Y -> forallb f ws = true -> strip f (Y ++ ws) = Y.
Proof.
  intros f Y ws [[c [r [Hh Hc]]] [r' [c' [Hl Hc']]]] Hws. unfold strip.
  assert (L1 : lstrip f (Y ++ ws) = Y ++ ws). { rewrite Hh. simpl. rewrite Hc. reflexivity. }
  rewrite L1. rewrite rev_app_distr. rewrite lstrip_all by (rewrite forallb_rev; exact Hws).
  rewrite Hl at 1. rewrite rev_app_distr. simpl. rewrite Hc'.
  change (c' :: rev r') with (rev [c'] ++ rev r'). rewrite <- rev_app_distr, <- Hl. apply rev_involutive.
Qed.

Lemma ends_clean_app : forall f a b, ends_clean f a -> ends_clean f b -> forall m, ends_clean f (a ++ m ++ b).
Proof.
  intros f a b [[c [r [Hh Hc]]] _] [_ [r' [c' [Hl Hc']]]] m. split.
  - exists c, (r ++ m ++ b). rewrite Hh. split; [reflexivity|exact Hc].
  - exists (a ++ m ++ r'), c'. rewrite Hl. rewrite <- !app_assoc. split; [reflexivity|exact Hc'].
Qed.

(* a token: not empty, only encodable characters, no white space of any kind *)
Definition tokb (s : str) : bool := negb (is_nil s) && forallb (fun c => scalar c && negb (is_uspace c)) s.

(* a non-empty list without white space has clean ends *)
Lemma all_clean_ends : forall f l, l <> [] -> (forall x, In x l -> f x = false) -> ends_clean f l.
Proof.
  intros f l Hn H. destruct (exists_last Hn) as [r' [c' Hl]]. split.
  - destruct l as [|c r]; [contradiction|]. exists c, r. split; [reflexivity|apply H; left; reflexivity].
  - exists r', c'. split; [exact Hl|]. apply H. rewrite Hl. apply in_or_app. right. left. reflexivity.
Qed.

Lemma tok_ends : forall s, tokb s = true -> ends_clean is_uspace s.
Proof.
  intros s H. unfold tokb in H. apply andb_true_iff in H. destruct H as [Hn Hf].
  apply all_clean_ends; [destruct s; [discriminate|discriminate]|].
  intros x Hx. rewrite forallb_forall in Hf. specialize (Hf x Hx). apply andb_true_iff in Hf.
  apply negb_true_iff, Hf.
Qed.

Lemma tok_scalar : forall s, tokb s = true -> forallb scalar s = true.
Proof.
  intros s H. unfold tokb in H. apply andb_true_iff in H. destruct H as [_ Hf].
  rewrite forallb_forall in *. intros c Hin. specialize (Hf c Hin). apply andb_true_iff in Hf. apply Hf.
Qed.

Lemma tok_no_blank : forall s, tokb s = true -> ~ In 32 s.
Proof.
  intros s H Hin. unfold tokb in H. apply andb_true_iff in H. destruct H as [_ Hf].
  rewrite forallb_forall in Hf. specialize (Hf 32 Hin). vm_compute in Hf. discriminate.
Qed.

(* bytes: the encoding of text with clean ends has clean ends *)
Lemma bspace_high : forall b, 128 <= b -> is_bspace b = false.
Proof.
  intros b H. unfold is_bspace. rewrite (eqb_false b 32) by lia. rewrite (leb_false b 13) by lia.
  rewrite andb_false_r. reflexivity.
Qed.

Lemma bspace_uspace : forall c, is_uspace c = false -> is_bspace c = false.
Proof.
  intros c H. destruct (is_bspace c) eqn:B; [|reflexivity]. unfold is_bspace in B.
  destruct (c =? 32) eqn:E; [apply N.eqb_eq in E; subst c; discriminate H|].
  unfold is_uspace in H. simpl in B. rewrite B in H. discriminate H.
Qed.

Lemma enc1_ends : forall c, is_uspace c = false -> ends_clean is_bspace (enc1 c).
Proof.
  intros c H. apply all_clean_ends.
  - unfold enc1. destruct (c <? 128); [|destruct (c <? 2048); [|destruct (c <? 65536)]]; discriminate.
  - intros b Hb. destruct (enc1_high c b Hb) as [[-> _]|Hb']; [apply bspace_uspace; exact H|apply bspace_high; exact Hb'].
Qed.

Lemma utf8_enc_app : forall a b, utf8_enc (a ++ b) = utf8_enc a ++ utf8_enc b.
Proof. intros. unfold utf8_enc. apply flat_map_app. Qed.

Lemma utf8_enc_ends : forall s, ends_clean is_uspace s -> ends_clean is_bspace (utf8_enc s).
Proof.
  intros s [[c [r [Hh Hc]]] [r' [c' [Hl Hc']]]]. split.
  - destruct (enc1_ends c Hc) as [[b [t [Hb Hf]]] _]. exists b, (t ++ utf8_enc r). rewrite Hh.
    change (utf8_enc (c :: r)) with (enc1 c ++ utf8_enc r). rewrite Hb. split; [reflexivity|exact Hf].
  - destruct (enc1_ends c' Hc') as [_ [t [b [Hb Hf]]]]. exists (utf8_enc r' ++ t), b. rewrite Hl.
    rewrite utf8_enc_app. change (utf8_enc [c']) with (enc1 c' ++ []). rewrite app_nil_r, Hb.
    rewrite app_assoc. split; [reflexivity|exact Hf].
Qed.

(* the body of a frame: encode_msg_frame without the line terminator *)
Definition encode_body (m : msg) : bytes :=
  let '(a, s, d) := m in utf8_enc (ustrip (a ++ [32] ++ or_empty s ++ [32] ++ or_empty d)).

(* the text part of a well-formed triple: tokens; the JSON text is encodable and has clean ends (json.dumps output) *)
Definition wf_spec (s : option str) : Prop := match s with Some x => tokb x = true | None => True end.
Definition wf_data (d : option str) : Prop :=
  match d with Some t => forallb scalar t = true /\ ends_clean is_uspace t | None => True end.

(* a body whose text is Y followed by white space reads back as Y *)
Lemma decode_of_body : forall Y ws, forallb scalar Y = true -> ends_clean is_uspace Y -> forallb is_uspace ws = true ->
  utf8_dec (bstrip (utf8_enc (ustrip (Y ++ ws)))) = Some Y.
Proof.
  intros Y ws HS HE Hws. unfold ustrip, bstrip. rewrite (strip_core _ Y ws HE Hws).
  rewrite <- (app_nil_r (utf8_enc Y)), strip_core; [|apply utf8_enc_ends; exact HE|reflexivity].
  apply utf8_roundtrip. exact HS.
Qed.
