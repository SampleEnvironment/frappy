(* C07 - concurrent send path, second part: where the frames of a connection's stream come from (per-thread order,
   nothing lost), and that only a failure of its own socket stops a connection. *)
From Coq Require Import List Arith NArith Bool Lia.
Import ListNotations.
Require Import FV.Gen.C07 FV.C07.Model FV.C07.Lemmas FV.C07.Conc FV.C07.ConcLemmas.
Local Open Scope N_scope.

Definition enc_ok (T : thread) : Prop :=
  forall c m tl f, todo T = (c, m) :: tl -> (ph T = PEnc f \/ exists r, ph T = PWrite f r) -> encode_msg m = Some f.

(* where the log of a connection comes from: every thread's program is what it has done and what it still has to do;
   the frame a thread is about to send or is sending is the encoding of its current message; every log entry is the
   frame of a message of that thread's program for that connection; and while the connection runs, the entries of
   thread t are, in order, the frames of its finished calls on c followed by the frame of the sendall in progress *)
Definition Inv2 (progs : nat -> list job) (st : cstate) : Prop :=
  (forall t, progs t = donej (thr st t) ++ todo (thr st t)) /\
  (forall t, enc_ok (thr st t)) /\
  (forall c t f, In (t, f) (log (con st c)) -> exists m, In (c, m) (progs t) /\ encode_msg m = Some f) /\
  (forall c t, running (con st c) = true ->
     projf t (log (con st c)) = encs c (donej (thr st t)) ++ curf (thr st t) c).

Lemma projf_app : forall t a b, projf t (a ++ b) = projf t a ++ projf t b.
Proof. intros; unfold projf; rewrite filter_app, map_app; reflexivity. Qed.
Lemma projf_one_same : forall t f, projf t [(t, f)] = [f].
Proof. intros; unfold projf; simpl. rewrite Nat.eqb_refl. reflexivity. Qed.
Lemma projf_one_other : forall t t' f, t' <> t -> projf t' [(t, f)] = [].
Proof. intros; unfold projf; simpl. destruct (Nat.eqb_spec t t'); [congruence|reflexivity]. Qed.
Lemma encs_app : forall c a b, encs c (a ++ b) = encs c a ++ encs c b.
Proof. intros; unfold encs; apply flat_map_app. Qed.
Lemma curf_nowrite : forall T c, (forall f r, ph T <> PWrite f r) -> curf T c = [].
Proof.
  intros T c H. unfold curf. destruct (todo T) as [|[c' m] tl]; [reflexivity|].
  destruct (ph T) eqn:E; try reflexivity. destruct (H _ _ eq_refl).
Qed.

(* frame lemmas: a step of thread t that changes only its own record / its record and connection c0 keeps Inv2 when
   the four clauses hold for what changed; everything about other threads and connections carries over *)
Lemma Inv2_set_thr : forall progs st t T',
  Inv2 progs st -> progs t = donej T' ++ todo T' -> enc_ok T' ->
  (forall c, running (con st c) = true ->
     encs c (donej T') ++ curf T' c = encs c (donej (thr st t)) ++ curf (thr st t) c) ->
  Inv2 progs (set_thr st t T').
Proof.
  intros progs st t T' [A [B [C D]]] HA HB HD. repeat split.
  - intros t'. simpl. destruct (Nat.eqb_spec t' t); [subst; exact HA|apply A].
  - intros t'. simpl. destruct (Nat.eqb_spec t' t); [exact HB|apply B].
  - exact C.
  - intros c t' Hr. simpl. simpl in Hr. destruct (Nat.eqb_spec t' t); [subst|apply D; exact Hr].
    rewrite (HD c Hr). apply D. exact Hr.
Qed.

Lemma Inv2_set_both : forall progs st t T' c0 C',
  Inv2 progs st -> progs t = donej T' ++ todo T' -> enc_ok T' ->
  (forall t' f, In (t', f) (log C') ->
     In (t', f) (log (con st c0)) \/ exists m, In (c0, m) (progs t') /\ encode_msg m = Some f) ->
  (forall c, c <> c0 -> running (con st c) = true ->
     encs c (donej T') ++ curf T' c = encs c (donej (thr st t)) ++ curf (thr st t) c) ->
  (running C' = true -> running (con st c0) = true /\ projf t (log C') = encs c0 (donej T') ++ curf T' c0 /\
                        forall t', t' <> t -> projf t' (log C') = projf t' (log (con st c0))) ->
  Inv2 progs (set_con (set_thr st t T') c0 C').
Proof.
  intros progs st t T' c0 C' [A [B [C D]]] HA HB HC HD HD0. repeat split.
  - intros t'. simpl. destruct (Nat.eqb_spec t' t); [subst; exact HA|apply A].
  - intros t'. simpl. destruct (Nat.eqb_spec t' t); [exact HB|apply B].
  - intros c t' f. simpl. destruct (Nat.eqb_spec c c0); [subst|apply C].
    intros Hin. destruct (HC _ _ Hin) as [Ho|Hn]; [apply C; exact Ho|exact Hn].
  - intros c t'. simpl. destruct (Nat.eqb_spec c c0) as [->|Hc].
    + intros Hr. destruct (HD0 Hr) as [Hr0 [H1 H2]].
      destruct (Nat.eqb_spec t' t) as [->|Ht]; [exact H1|]. rewrite (H2 _ Ht). apply D. exact Hr0.
    + intros Hr. destruct (Nat.eqb_spec t' t) as [->|Ht]; [|apply D; exact Hr].
      rewrite (HD c Hc Hr). apply D. exact Hr.
Qed.

Lemma enc_job_other : forall c c0 m, c <> c0 -> enc_job c (c0, m) = [].
Proof. intros. unfold enc_job. simpl. destruct (Nat.eqb_spec c0 c); [congruence|reflexivity]. Qed.
Lemma enc_job_same : forall c m, enc_job c (c, m) = match encode_msg m with Some f => [f] | None => [] end.
Proof. intros. unfold enc_job. simpl. rewrite Nat.eqb_refl. reflexivity. Qed.
Lemma encs_snoc : forall c js j, encs c (js ++ [j]) = encs c js ++ enc_job c j.
Proof. intros. rewrite encs_app. unfold encs at 2. simpl. rewrite app_nil_r. reflexivity. Qed.

Lemma curf_write_same : forall T c m tl f r, todo T = (c, m) :: tl -> ph T = PWrite f r -> curf T c = [f].
Proof. intros T c m tl f r H1 H2. unfold curf. rewrite H1, H2, Nat.eqb_refl. reflexivity. Qed.
Lemma curf_other : forall T c c0 m tl, todo T = (c0, m) :: tl -> c <> c0 -> curf T c = [].
Proof.
  intros T c c0 m tl H1 Hne. unfold curf. rewrite H1. destruct (ph T); try reflexivity.
  destruct (Nat.eqb_spec c0 c); [congruence|reflexivity].
Qed.

Lemma enc_ok_pop : forall T j tl, enc_ok {| ph := PIdle; todo := tl; donej := donej T ++ [j] |}.
Proof. intros T j tl c m tl' f _ [H|[r H]]; simpl in H; discriminate. Qed.

(* the writer leaves sendall (everything written, or the socket failed): its call is done, the log stays *)
Lemma leave_inv2 : forall progs st t c0 m tl f rest C',
  Inv2 progs st -> todo (thr st t) = (c0, m) :: tl -> ph (thr st t) = PWrite f rest ->
  log C' = log (con st c0) -> (running C' = true -> running (con st c0) = true) ->
  Inv2 progs (set_con (set_thr st t {| ph := PIdle; todo := tl; donej := donej (thr st t) ++ [(c0, m)] |}) c0 C').
Proof.
  intros progs st t c0 m tl f rest C' H Htodo Hph HL HR. pose proof H as [A [B [C D]]].
  assert (He : encode_msg m = Some f) by (eapply (B t); [exact Htodo|right; eauto]).
  apply Inv2_set_both; try exact H.
  - simpl. rewrite <- app_assoc. simpl. rewrite (A t), Htodo. reflexivity.
  - apply enc_ok_pop.
  - rewrite HL. auto.
  - intros c Hc Hr. simpl. rewrite encs_snoc, (enc_job_other _ _ _ Hc), app_nil_r.
    rewrite (curf_other _ _ _ _ _ Htodo Hc), app_nil_r.
    rewrite curf_nowrite by (simpl; discriminate). rewrite app_nil_r. reflexivity.
  - rewrite HL. intros Hr'. pose proof (HR Hr') as Hr. split; [exact Hr|]. split; [|reflexivity].
    simpl. rewrite (D c0 t Hr), encs_snoc, enc_job_same, He, (curf_write_same _ _ _ _ _ _ Htodo Hph).
    rewrite curf_nowrite by (simpl; discriminate). rewrite app_nil_r. reflexivity.
Qed.

Lemma do_write_inv2 : forall progs st t c0 m tl f rest n,
  Inv2 progs st -> todo (thr st t) = (c0, m) :: tl -> ph (thr st t) = PWrite f rest ->
  Inv2 progs (do_write st t c0 (thr st t) (con st c0) f rest n).
Proof.
  intros progs st t c0 m tl f rest n H Htodo Hph. pose proof H as [A [B [C D]]].
  assert (He : encode_msg m = Some f) by (eapply (B t); [exact Htodo|right; eauto]).
  unfold do_write. destruct (skipn n rest) as [|b r] eqn:Hsk.
  - rewrite (pop_cons _ _ _ Htodo). eapply leave_inv2; [exact H|exact Htodo|exact Hph|reflexivity|auto].
  - apply Inv2_set_both; try exact H.
    + simpl. apply A.
    + intros c m' tl' f' Ht [Hp|[r' Hp]]; simpl in Ht, Hp; [discriminate|].
      inversion Hp; subst. eapply (B t); [exact Ht|right; eauto].
    + simpl. auto.
    + intros c Hc Hr. simpl. f_equal. unfold curf. simpl. rewrite Htodo, Hph. reflexivity.
    + simpl. intros Hr. split; [exact Hr|]. split; [|reflexivity].
      rewrite (D c0 t Hr). f_equal. unfold curf. simpl. rewrite Htodo, Hph. reflexivity.
Qed.

Lemma pop_inv2 : forall progs st t c0 m tl,
  Inv2 progs st -> todo (thr st t) = (c0, m) :: tl ->
  (forall f r, ph (thr st t) <> PWrite f r) ->
  (running (con st c0) = true -> encode_msg m = None) ->
  Inv2 progs (set_thr st t {| ph := PIdle; todo := tl; donej := donej (thr st t) ++ [(c0, m)] |}).
Proof.
  intros progs st t c0 m tl H Htodo Hph He. pose proof H as [A [B [C D]]].
  apply Inv2_set_thr; try exact H.
  - simpl. rewrite <- app_assoc. simpl. rewrite (A t), Htodo. reflexivity.
  - apply enc_ok_pop.
  - intros c Hr. simpl. rewrite encs_snoc. rewrite curf_nowrite by (simpl; discriminate).
    rewrite (curf_nowrite (thr st t)) by exact Hph. rewrite !app_nil_r.
    destruct (Nat.eq_dec c c0) as [->|Hc].
    + rewrite enc_job_same, (He Hr), app_nil_r. reflexivity.
    + rewrite (enc_job_other _ _ _ Hc), app_nil_r. reflexivity.
Qed.

Lemma cstep_inv2 : forall ul progs st e, Inv2 progs st -> Inv2 progs (cstep ul st e).
Proof.
  intros ul progs st [t a] H. pose proof H as [A [B [C D]]]. unfold cstep. simpl fst; simpl snd.
  destruct (todo (thr st t)) as [|[c0 m] tl] eqn:Htodo; [exact H|].
  destruct (ph (thr st t)) as [|f|f rest] eqn:Hph.
  - (* encode *)
    destruct (encode_msg m) as [f|] eqn:He.
    + apply Inv2_set_thr; try exact H.
      * simpl. apply A.
      * intros c m' tl' f' Ht [Hp|[r' Hp]]; simpl in Ht, Hp; [|discriminate].
        inversion Hp; subst. rewrite Htodo in Ht. inversion Ht; subst. exact He.
      * intros c Hr. simpl. f_equal. rewrite !curf_nowrite; [reflexivity|rewrite Hph; discriminate|simpl; discriminate].
    + rewrite (pop_cons _ _ _ Htodo). apply pop_inv2; auto. rewrite Hph; discriminate.
  - (* acquire *)
    assert (He : encode_msg m = Some f) by (eapply (B t); [exact Htodo|left; exact Hph]).
    destruct (ul && is_some (lock (con st c0))); [exact H|].
    destruct (running (con st c0)) eqn:Hr.
    + apply Inv2_set_both; try exact H.
      * simpl. apply A.
      * intros c m' tl' f' Ht [Hp|[r' Hp]]; simpl in Ht, Hp; [discriminate|].
        inversion Hp; subst. rewrite Htodo in Ht. inversion Ht; subst. exact He.
      * simpl. intros t' f' Hin. apply in_app_or in Hin. destruct Hin as [Hin|[Hin|[]]]; [left; exact Hin|].
        inversion Hin; subst. right. exists m. split; [|exact He].
        rewrite (A t'), Htodo. apply in_or_app. right. left. reflexivity.
      * intros c Hc _. simpl. f_equal. rewrite (curf_nowrite (thr st t)) by (rewrite Hph; discriminate).
        eapply curf_other; [|exact Hc]. simpl. exact Htodo.
      * simpl. intros _. split; [exact Hr|]. split.
        -- rewrite projf_app, projf_one_same, (D c0 t Hr).
           rewrite (curf_nowrite (thr st t)) by (rewrite Hph; discriminate). rewrite app_nil_r.
           f_equal. symmetry. eapply curf_write_same; simpl; [exact Htodo|reflexivity].
        -- intros t' Ht. rewrite projf_app, (projf_one_other _ _ _ Ht), app_nil_r. reflexivity.
    + rewrite (pop_cons _ _ _ Htodo). apply pop_inv2; [exact H|exact Htodo|rewrite Hph; discriminate|intros X; rewrite Hr in X; discriminate X].
  - (* inside sendall *)
    assert (He : encode_msg m = Some f) by (eapply (B t); [exact Htodo|right; eauto]).
    destruct a as [k|c']; [eapply do_write_inv2; eauto|].
    destruct (Nat.eqb c' c0); [|eapply do_write_inv2; eauto].
    rewrite (pop_cons _ _ _ Htodo). eapply leave_inv2; [exact H|exact Htodo|exact Hph|reflexivity|discriminate].
Qed.

Lemma cinit_inv2 : forall progs, Inv2 progs (cinit progs).
Proof.
  intros progs. split; [|split; [|split]].
  - intros t. reflexivity.
  - intros t c m tl f _ [H|[r H]]; simpl in H; discriminate.
  - intros c t f Hin. simpl in Hin. destruct Hin.
  - intros c t _. simpl. rewrite curf_nowrite by (simpl; discriminate). reflexivity.
Qed.

Lemma crun_inv2 : forall ul progs sched st, Inv2 progs st -> Inv2 progs (crun ul st sched).
Proof.
  unfold crun. intros ul progs. induction sched as [|e sched IH]; intros st H; simpl; [exact H|].
  apply IH. apply cstep_inv2. exact H.
Qed.

Lemma quiet_unlocked : forall st c, Inv st -> (forall t, todo (thr st t) = []) -> lock (con st c) = None.
Proof.
  intros st c H Q. destruct (lock (con st c)) as [t|] eqn:Hl; [|reflexivity].
  destruct (Inv_locked _ _ _ H Hl) as [f [rest [done [w [[m [tl [Ht _]]] _]]]]]. rewrite (Q t) in Ht. discriminate.
Qed.

Lemma do_write_running : forall st t c0 T C f rest n c,
  running C = running (con st c0) -> running (con (do_write st t c0 T C f rest n) c) = running (con st c).
Proof.
  intros. unfold do_write. destruct (skipn n rest); simpl; destruct (Nat.eqb_spec c c0); subst; auto.
Qed.

(* only a failure of the socket of connection c ends connection c *)
Lemma cstep_running : forall ul st t a c, a <> Fail c -> running (con (cstep ul st (t, a)) c) = running (con st c).
Proof.
  intros ul st t a c Ha. unfold cstep. simpl fst; simpl snd.
  destruct (todo (thr st t)) as [|[c0 m] tl]; [reflexivity|].
  destruct (ph (thr st t)) as [|f|f rest].
  - destruct (encode_msg m); reflexivity.
  - destruct (ul && is_some (lock (con st c0))); [reflexivity|].
    destruct (running (con st c0)) eqn:Hr; [|reflexivity].
    simpl. destruct (Nat.eqb_spec c c0); subst; simpl; auto.
  - destruct a as [k|c']; [apply do_write_running; reflexivity|].
    destruct (Nat.eqb_spec c' c0); [|apply do_write_running; reflexivity].
    subst. simpl. destruct (Nat.eqb_spec c c0); [subst; congruence|reflexivity].
Qed.

Lemma crun_running : forall ul sched st c, (forall t, ~ In (t, Fail c) sched) ->
  running (con (crun ul st sched) c) = running (con st c).
Proof.
  unfold crun. intros ul. induction sched as [|[t a] sched IH]; intros st c H; simpl; [reflexivity|].
  rewrite IH; [|intros t' Hin; apply (H t'); right; exact Hin].
  apply cstep_running. intros ->. apply (H t). left. reflexivity.
Qed.

(* a partial write of n >= 1 bytes: the writer leaves sendall and the lock is free, or it stays with less to write *)
Lemma do_write_progress : forall st t c f rest n m tl,
  todo (thr st t) = (c, m) :: tl -> (1 <= n)%nat ->
  let st' := do_write st t c (thr st t) (con st c) f rest n in
  (lock (con st' c) = None /\ todo (thr st' t) = tl /\ ph (thr st' t) = PIdle) \/
  (exists r', todo (thr st' t) = (c, m) :: tl /\ ph (thr st' t) = PWrite f r' /\ (length r' < length rest)%nat).
Proof.
  intros st t c f rest n m tl Htodo Hn. unfold do_write. destruct (skipn n rest) as [|b r] eqn:Hsk.
  - left. rewrite (pop_cons _ _ _ Htodo). simpl. rewrite !Nat.eqb_refl. auto.
  - right. exists (b :: r). simpl. rewrite !Nat.eqb_refl. simpl. repeat split; [exact Htodo|].
    change (length (b :: r) < length rest)%nat. rewrite <- Hsk, skipn_length.
    destruct rest; [rewrite skipn_nil in Hsk; discriminate Hsk|cbn [length]; lia].
Qed.

(* the stream of a log whose frames are terminated lines, in the form Lemmas.lines_of_frames speaks of *)
Lemma cat_lines : forall lg bodies, map snd lg = map (fun l => l ++ [EOL]) bodies ->
  cat lg = flat_map (fun l => l ++ [EOL]) bodies.
Proof. intros lg bodies H. unfold cat. rewrite flat_map_concat_map. f_equal. exact H. Qed.
