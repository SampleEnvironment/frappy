(* C07 - invariants of the concurrent send path (Conc.v): with the send lock the byte stream of every connection is
   a concatenation of whole frames in lock acquisition order (plus the written part of the one frame in flight or
   aborted by a socket failure), whatever the schedule and the sizes of the partial writes. *)
From Coq Require Import List Arith NArith Bool Lia.
Import ListNotations.
Require Import FV.Gen.C07 FV.C07.Model FV.C07.Conc.

Definition holds (st : cstate) (t c : nat) (f rest : bytes) : Prop :=
  exists m tl, todo (thr st t) = (c, m) :: tl /\ ph (thr st t) = PWrite f rest.

Definition cat (l : list (nat * bytes)) : bytes := concat (map snd l).

(* whole frames, or whole frames and a written prefix w of the last frame begun *)
Definition wfs (s : bytes) (l : list (nat * bytes)) : Prop :=
  s = cat l \/ exists done t f w r, l = done ++ [(t, f)] /\ f = w ++ r /\ s = cat done ++ w.

Definition inv_c (st : cstate) (c : nat) : Prop :=
  match lock (con st c) with
  | Some t => exists f rest done w, holds st t c f rest /\ running (con st c) = true /\
                log (con st c) = done ++ [(t, f)] /\ f = w ++ rest /\ sock (con st c) = cat done ++ w
  | None => wfs (sock (con st c)) (log (con st c)) /\
            (running (con st c) = true -> sock (con st c) = cat (log (con st c)))
  end.

Definition inv_own (st : cstate) (c : nat) : Prop :=
  inv_c st c /\ forall t f rest, holds st t c f rest -> lock (con st c) = Some t.

Definition Inv (st : cstate) : Prop := forall c, inv_own st c.

Lemma cat_app : forall a b, cat (a ++ b) = cat a ++ cat b.
Proof. intros; unfold cat; rewrite map_app, concat_app; reflexivity. Qed.
Lemma cat_one : forall t f, cat [(t, f)] = f.
Proof. intros; unfold cat; simpl; apply app_nil_r. Qed.

Lemma skipn_nil_firstn : forall {A} n (l : list A), skipn n l = [] -> firstn n l = l.
Proof. intros A n l H. rewrite <- (firstn_skipn n l) at 2. rewrite H, app_nil_r. reflexivity. Qed.

Lemma holds_fun : forall st t c f r c' f' r', holds st t c f r -> holds st t c' f' r' -> c = c' /\ f = f' /\ r = r'.
Proof.
  intros st t c f r c' f' r' [m [tl [H1 H2]]] [m' [tl' [H3 H4]]].
  rewrite H1 in H3; rewrite H2 in H4. inversion H3; inversion H4; subst; auto.
Qed.

(* what Inv says at a connection whose lock is held, whose lock is free, and of a thread inside sendall *)
Lemma Inv_locked : forall st c t, Inv st -> lock (con st c) = Some t ->
  exists f rest done w, holds st t c f rest /\ running (con st c) = true /\
    log (con st c) = done ++ [(t, f)] /\ f = w ++ rest /\ sock (con st c) = cat done ++ w.
Proof. intros st c t H Hl. destruct (H c) as [H1 _]. unfold inv_c in H1. rewrite Hl in H1. exact H1. Qed.

Lemma Inv_unlocked : forall st c, Inv st -> lock (con st c) = None ->
  wfs (sock (con st c)) (log (con st c)) /\ (running (con st c) = true -> sock (con st c) = cat (log (con st c))).
Proof. intros st c H Hl. destruct (H c) as [H1 _]. unfold inv_c in H1. rewrite Hl in H1. exact H1. Qed.

Lemma Inv_holder : forall st t c f rest, Inv st -> holds st t c f rest ->
  lock (con st c) = Some t /\ running (con st c) = true /\
  exists done w, log (con st c) = done ++ [(t, f)] /\ f = w ++ rest /\ sock (con st c) = cat done ++ w.
Proof.
  intros st t c f rest H Hh. assert (Hl : lock (con st c) = Some t) by (destruct (H c) as [_ H2]; exact (H2 _ _ _ Hh)).
  destruct (Inv_locked _ _ _ H Hl) as [f' [rest' [done [w [Hh' [Hr R]]]]]].
  destruct (holds_fun _ _ _ _ _ _ _ _ Hh Hh') as [_ [<- <-]].
  split; [exact Hl|]. split; [exact Hr|]. exists done, w. exact R.
Qed.

(* a step of thread t that leaves connection c alone and in which t holds nothing on c before and after *)
Lemma inv_own_frame : forall st st' t c,
  con st' c = con st c -> (forall t', t' <> t -> thr st' t' = thr st t') ->
  (forall f r, ~ holds st t c f r) -> (forall f r, ~ holds st' t c f r) -> inv_own st c -> inv_own st' c.
Proof.
  intros st st' t c Hc Ht Hn Hn' [H1 H2].
  assert (Hh : forall t' f r, holds st' t' c f r <-> holds st t' c f r).
  { intros t' f r. destruct (Nat.eq_dec t' t) as [->|Hne].
    - split; intros Hx; [destruct (Hn' _ _ Hx)|destruct (Hn _ _ Hx)].
    - unfold holds. rewrite (Ht _ Hne). tauto. }
  split.
  - unfold inv_c in *. rewrite Hc. destruct (lock (con st c)) as [t0|]; [|exact H1].
    destruct H1 as [f [rest [done [w [Hh1 Hr]]]]]. exists f, rest, done, w. split; [apply Hh; exact Hh1|exact Hr].
  - intros t' f r Hx. rewrite Hc. apply (H2 t' f r). apply Hh. exact Hx.
Qed.

Lemma not_holds_ph : forall st t c f r, (forall f' r', ph (thr st t) <> PWrite f' r') -> ~ holds st t c f r.
Proof. intros st t c f r H [m [tl [_ Hp]]]. exact (H _ _ Hp). Qed.

Lemma not_holds_other : forall st t c c0 m tl f r, todo (thr st t) = (c0, m) :: tl -> c <> c0 -> ~ holds st t c f r.
Proof. intros st t c c0 m tl f r H Hne [m' [tl' [H1 _]]]. rewrite H in H1. inversion H1. congruence. Qed.

Lemma thr_same : forall st t T, thr (set_thr st t T) t = T.
Proof. intros; simpl. rewrite Nat.eqb_refl. reflexivity. Qed.
Lemma thr_other : forall st t T t', t' <> t -> thr (set_thr st t T) t' = thr st t'.
Proof. intros; simpl. destruct (Nat.eqb_spec t' t); [contradiction|reflexivity]. Qed.
Lemma con_same : forall st c C, con (set_con st c C) c = C.
Proof. intros; simpl. rewrite Nat.eqb_refl. reflexivity. Qed.
Lemma con_other : forall st c C c', c' <> c -> con (set_con st c C) c' = con st c'.
Proof. intros; simpl. destruct (Nat.eqb_spec c' c); [contradiction|reflexivity]. Qed.

Lemma pop_cons : forall T j tl, todo T = j :: tl -> pop T = {| ph := PIdle; todo := tl; donej := donej T ++ [j] |}.
Proof. intros T j tl H. unfold pop. rewrite H. reflexivity. Qed.

(* thread t changes only its own record: no connection changes, t writes nowhere before and after *)
Lemma Inv_set_thr : forall st t T', Inv st ->
  (forall f r, ph (thr st t) <> PWrite f r) -> (forall f r, ph T' <> PWrite f r) -> Inv (set_thr st t T').
Proof.
  intros st t T' H Hb Ha c.
  apply (inv_own_frame st _ t c); [reflexivity| |intros; apply not_holds_ph; exact Hb| |apply H].
  - intros t' Hne. apply thr_other. exact Hne.
  - intros f r. apply not_holds_ph. rewrite thr_same. exact Ha.
Qed.

(* the state after a step of t on connection c0 that changes thread t and connection c0 only *)
Lemma Inv_step_on : forall st t T' c0 C' m tl,
  Inv st -> todo (thr st t) = (c0, m) :: tl ->
  (todo T' = (c0, m) :: tl \/ forall f r, ph T' <> PWrite f r) ->
  inv_own (set_con (set_thr st t T') c0 C') c0 -> Inv (set_con (set_thr st t T') c0 C').
Proof.
  intros st t T' c0 C' m tl H Htodo HT' Hc0 c.
  destruct (Nat.eq_dec c c0) as [->|Hne]; [exact Hc0|].
  apply (inv_own_frame st _ t c); [rewrite con_other by exact Hne; reflexivity| | | |apply H].
  - intros t' Hn. simpl. destruct (Nat.eqb_spec t' t); [contradiction|reflexivity].
  - intros f r. eapply not_holds_other; eauto.
  - intros f r. destruct HT' as [HT'|HT'].
    + eapply not_holds_other; [|exact Hne]. simpl. rewrite Nat.eqb_refl. exact HT'.
    + apply not_holds_ph. simpl. rewrite Nat.eqb_refl. exact HT'.
Qed.

Lemma holds_set_other : forall st t T' c0 C' t' c f r, t' <> t ->
  holds (set_con (set_thr st t T') c0 C') t' c f r -> holds st t' c f r.
Proof.
  intros st t T' c0 C' t' c f r Hne [m [tl [H1 H2]]]. simpl in H1, H2.
  destruct (Nat.eqb_spec t' t); [contradiction|]. exists m, tl. auto.
Qed.

(* when the lock holder t leaves sendall, no thread is inside sendall on that connection *)
Lemma no_holder_after : forall st t T' c0 C' t' f r, Inv st -> lock (con st c0) = Some t -> ph T' = PIdle ->
  ~ holds (set_con (set_thr st t T') c0 C') t' c0 f r.
Proof.
  intros st t T' c0 C' t' f r H Hl Hp Hx. destruct (Nat.eq_dec t' t) as [->|Hne].
  - destruct Hx as [m' [tl' [_ Hq]]]. simpl in Hq. rewrite Nat.eqb_refl, Hp in Hq. discriminate.
  - apply holds_set_other in Hx; [|exact Hne]. destruct (H c0) as [_ H2]. apply H2 in Hx. rewrite Hl in Hx. congruence.
Qed.

Lemma do_write_inv : forall st t c0 m tl f rest n,
  Inv st -> todo (thr st t) = (c0, m) :: tl -> ph (thr st t) = PWrite f rest ->
  Inv (do_write st t c0 (thr st t) (con st c0) f rest n).
Proof.
  intros st t c0 m tl f rest n H Htodo Hph.
  assert (Hh : holds st t c0 f rest) by (exists m, tl; auto).
  destruct (H c0) as [_ H2]. destruct (Inv_holder _ _ _ _ _ H Hh) as [Hl [Hr [done [w [Hlog [Hf Hs]]]]]].
  unfold do_write. destruct (skipn n rest) as [|b r] eqn:Hsk.
  - rewrite (pop_cons _ _ _ Htodo).
    eapply Inv_step_on; [exact H|exact Htodo|right; simpl; discriminate|].
    split.
    + assert (Hw : sock (con st c0) ++ firstn n rest = cat (log (con st c0)))
        by (rewrite Hs, Hlog, cat_app, cat_one, Hf, (skipn_nil_firstn _ _ Hsk), app_assoc; reflexivity).
      unfold inv_c. rewrite con_same. simpl. split; [left; exact Hw|intros _; exact Hw].
    + intros t' f' r' Hx. eapply no_holder_after in Hx; [destruct Hx|exact H|exact Hl|reflexivity].
  - eapply Inv_step_on; [exact H|exact Htodo|left; exact Htodo|].
    split.
    + unfold inv_c. rewrite con_same. simpl. rewrite Hl.
      exists f, (b :: r), done, (w ++ firstn n rest). repeat split.
      * exists m, tl. simpl. rewrite Nat.eqb_refl. simpl. auto.
      * exact Hr.
      * exact Hlog.
      * rewrite <- Hsk, <- app_assoc, firstn_skipn. exact Hf.
      * rewrite Hs, app_assoc. reflexivity.
    + intros t' f' r' Hx. rewrite con_same. simpl. rewrite Hl. destruct (Nat.eq_dec t' t) as [->|Hne]; [reflexivity|].
      apply holds_set_other in Hx; [|exact Hne]. apply H2 in Hx. rewrite Hl in Hx. exact Hx.
Qed.

Lemma cstep_inv : forall st e, Inv st -> Inv (cstep true st e).
Proof.
  intros st [t a] H. unfold cstep. simpl fst; simpl snd.
  destruct (todo (thr st t)) as [|[c0 m] tl] eqn:Htodo; [exact H|].
  destruct (ph (thr st t)) as [|f|f rest] eqn:Hph.
  - (* encode *)
    destruct (encode_msg m) as [f|].
    + apply Inv_set_thr; [exact H|rewrite Hph; discriminate|simpl; discriminate].
    + rewrite (pop_cons _ _ _ Htodo). apply Inv_set_thr; [exact H|rewrite Hph; discriminate|simpl; discriminate].
  - (* acquire *)
    destruct (lock (con st c0)) as [t0|] eqn:Hl; simpl; [exact H|].
    destruct (running (con st c0)) eqn:Hr.
    + eapply Inv_step_on; [exact H|exact Htodo|left; exact Htodo|].
      destruct (H c0) as [_ H2]. destruct (Inv_unlocked _ _ H Hl) as [_ H1]. specialize (H1 Hr).
      split.
      * unfold inv_c. rewrite con_same. simpl.
        exists f, f, (log (con st c0)), []. repeat split.
        -- exists m, tl. simpl. rewrite Nat.eqb_refl. simpl. auto.
        -- rewrite app_nil_r. exact H1.
      * intros t' f' r' Hx. rewrite con_same. simpl. destruct (Nat.eq_dec t' t) as [->|Hne]; [reflexivity|].
        apply holds_set_other in Hx; [|exact Hne]. apply H2 in Hx. rewrite Hl in Hx. discriminate.
    + rewrite (pop_cons _ _ _ Htodo). apply Inv_set_thr; [exact H|rewrite Hph; discriminate|simpl; discriminate].
  - (* inside sendall *)
    destruct a as [k|c'].
    + eapply do_write_inv; eauto.
    + destruct (Nat.eqb c' c0); [|eapply do_write_inv; eauto].
      assert (Hh : holds st t c0 f rest) by (exists m, tl; auto).
      destruct (H c0) as [_ H2]. destruct (Inv_holder _ _ _ _ _ H Hh) as [Hl [Hr [done [w [Hlog [Hf Hs]]]]]].
      rewrite (pop_cons _ _ _ Htodo).
      eapply Inv_step_on; [exact H|exact Htodo|right; simpl; discriminate|].
      split.
      * unfold inv_c. rewrite con_same. simpl. split; [|discriminate].
        right. exists done, t, f, w, rest. auto.
      * intros t' f' r' Hx. eapply no_holder_after in Hx; [destruct Hx|exact H|exact Hl|reflexivity].
Qed.

Lemma cinit_inv : forall progs, Inv (cinit progs).
Proof.
  intros progs c. split.
  - unfold inv_c. simpl. split; [left; reflexivity|reflexivity].
  - intros t f r [m [tl [_ Hp]]]. simpl in Hp. discriminate.
Qed.

Lemma crun_inv : forall sched st, Inv st -> Inv (crun true st sched).
Proof.
  unfold crun. induction sched as [|e sched IH]; intros st H; simpl; [exact H|]. apply IH. apply cstep_inv. exact H.
Qed.
