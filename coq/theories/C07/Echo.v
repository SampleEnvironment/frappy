(* C07 - the error reply to an undecodable line echoes action and specifier of the request
   (after the repairs b6f37c1: the DecodeError branch strips the raw line like decode_msg does, and a2736c5: it reads
   the line as UTF-8, replacing what cannot be decoded, instead of latin-1) *)
From Coq Require Import List Arith NArith Bool Lia.
Import ListNotations.
Require Import FV.Gen.C07 FV.C07.Model FV.C07.Lemmas FV.C07.Utf8 FV.C07.Repl.
Local Open Scope N_scope.

Lemma or_empty_nonempty : forall x, or_empty (nonempty x) = x.
Proof. intros [|c x]; reflexivity. Qed.

(* the first two fields of split(' ', 2) (padded) and of split(' ', 3) are the same *)
Lemma fields_agree : forall l,
  nth 0%nat (splitsp 2 l ++ [[]; []]) [] = nth 0%nat (splitsp 3 l) [] /\
  nth 1%nat (splitsp 2 l ++ [[]; []]) [] = or_empty (nth_error (splitsp 3 l) 1%nat).
Proof.
  intro l. cbn [splitsp]. destruct (split1 l) as [h [r|]]; [|split; reflexivity].
  destruct (split1 r) as [h2 [r2|]]; split; reflexivity.
Qed.

(* the byte fields of a request line: bytes.split(b' ', 2) of the stripped line, padded like decode_msg does *)
Definition byte_fields (line : bytes) : list bytes := splitsp decode_split_max (bstrip line) ++ [[]; []].

(* reading the byte fields with replacement gives the fields of the line read with replacement *)
Lemma fields_repl : forall k line,
  utf8_dec_repl (nth k (byte_fields line) []) =
  nth k (splitsp decode_split_max (utf8_dec_repl (bstrip line)) ++ [[]; []]) [].
Proof.
  intros k line. unfold byte_fields. rewrite splitsp_repl.
  change [[]; []] with (map utf8_dec_repl [[]; []]) at 2. rewrite <- map_app. symmetry.
  exact (map_nth utf8_dec_repl _ [] k).
Qed.

(* what the error reply to an undecodable line names: the first two byte fields of the stripped line, each read as
   UTF-8 with replacement *)
Lemma decode_error_echo_fields : forall E i line,
  next_message E line = None ->
  exists s' d, answer E i line =
      (OReply [] (ERRORPREFIX ++ utf8_dec_repl (nth 0%nat (byte_fields line) []), s', d), None) /\
    or_empty s' = utf8_dec_repl (nth 1%nat (byte_fields line) []).
Proof.
  intros E i line NM. unfold answer. rewrite NM, !fields_repl. cbv zeta.
  change decode_split_max with 2%nat. change error_split_max with 3%nat.
  destruct (fields_agree (utf8_dec_repl (bstrip line))) as [F0 F1].
  eexists. eexists. split; [unfold err_reply; rewrite F0; reflexivity|exact (eq_sym F1)].
Qed.
