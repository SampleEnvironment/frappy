(* C07 - lemmas about bytes.decode('utf-8', errors='replace') (Model.dec_one / utf8_dec_repl):
   - on well-formed UTF-8 it is the strict decoder,
   - what it produces is encodable text (scalar values), a code point below 128 (newline, blank) only from that byte,
   - it commutes with cutting the bytes at a blank (0x20), so the fields of the replaced text are the replaced
     fields of the bytes. *)
From Coq Require Import List Arith NArith Bool Lia.
Import ListNotations.
Require Import FV.Gen.C07 FV.C07.Model FV.C07.Utf8.
Local Open Scope N_scope.

(* a step consumes a prefix p of the input and yields the code point of the well-formed sequence b0 :: p, or U+FFFD *)
Inductive step_ok (b0 : N) : bytes -> N * bytes -> Prop :=
| step_seq p c r : useq b0 p c -> step_ok b0 (p ++ r) (c, r)
| step_repl p r : step_ok b0 (p ++ r) (REPL, r).

Lemma dec_one_spec : forall b0 r0, step_ok b0 r0 (dec_one b0 r0).
Proof.
  intros b0 r0. unfold dec_one.
  destruct (b0 <? 128) eqn:C1; [apply (step_seq b0 []), useq1, N.ltb_lt, C1|].
  destruct (in_rng 194 223 b0) eqn:C2.
  { destruct r0 as [|b1 r1]; [apply (step_repl b0 [])|].
    destruct (cont b1) eqn:K1; [apply (step_seq b0 [b1]); constructor; trivial|apply (step_repl b0 [])]. }
  destruct (in_rng 224 239 b0) eqn:C3.
  { destruct r0 as [|b1 r1]; [apply (step_repl b0 [])|].
    destruct (ok3 b0 b1) eqn:K1; [|apply (step_repl b0 [])].
    destruct r1 as [|b2 r2]; [apply (step_repl b0 [b1])|].
    destruct (cont b2) eqn:K2; [apply (step_seq b0 [b1; b2]); constructor; trivial|apply (step_repl b0 [b1])]. }
  destruct (in_rng 240 244 b0) eqn:C4; [|apply (step_repl b0 [])].
  destruct r0 as [|b1 r1]; [apply (step_repl b0 [])|].
  destruct (ok4 b0 b1) eqn:K1; [|apply (step_repl b0 [])].
  destruct r1 as [|b2 r2]; [apply (step_repl b0 [b1])|].
  destruct (cont b2) eqn:K2; [|apply (step_repl b0 [b1])].
  destruct r2 as [|b3 r3]; [apply (step_repl b0 [b1; b2])|].
  destruct (cont b3) eqn:K3; [apply (step_seq b0 [b1; b2; b3]); constructor; trivial|apply (step_repl b0 [b1; b2])].
Qed.

(* the rest is a suffix of the input *)
Lemma dec_one_suffix : forall b0 r0 c rest, dec_one b0 r0 = (c, rest) -> exists p, r0 = p ++ rest.
Proof.
  intros b0 r0 c rest H. pose proof (dec_one_spec b0 r0) as S. rewrite H in S. inversion S; eexists; reflexivity.
Qed.

Lemma dec_one_length : forall b0 r0 c rest, dec_one b0 r0 = (c, rest) -> (length rest <= length r0)%nat.
Proof.
  intros b0 r0 c rest H. destruct (dec_one_suffix _ _ _ _ H) as [p ->]. rewrite app_length. lia.
Qed.

Lemma scalar_repl : scalar REPL = true. Proof. reflexivity. Qed.

(* the code point is a scalar value; one below 128 (the newline, the blank) is the first byte *)
Lemma dec_one_scalar : forall b0 r0 c rest, dec_one b0 r0 = (c, rest) -> scalar c = true /\ (c < 128 -> b0 = c).
Proof.
  intros b0 r0 c rest H. pose proof (dec_one_spec b0 r0) as S. rewrite H in S.
  inversion S as [p c' r U|p r]; [exact (useq_scalar _ _ _ U)|split; [reflexivity|discriminate]].
Qed.

(* on a well-formed sequence the step is the step of the strict decoder *)
Lemma dec_one_strict : forall b0 r0 s, utf8_dec (b0 :: r0) = Some s ->
  exists s', s = fst (dec_one b0 r0) :: s' /\ utf8_dec (snd (dec_one b0 r0)) = Some s'.
Proof.
  intros b0 r0 s H. cbn [utf8_dec] in H. unfold dec_one.
  destruct (b0 <? 128).
  { apply option_map_cons_some in H. destruct H as [s' [H1 H2]]. exists s'. split; assumption. }
  destruct (in_rng 194 223 b0).
  { destruct r0 as [|b1 r1]; [discriminate|]. destruct (cont b1); [|discriminate].
    apply option_map_cons_some in H. destruct H as [s' [H1 H2]]. exists s'. split; assumption. }
  destruct (in_rng 224 239 b0).
  { destruct r0 as [|b1 [|b2 r2]]; try discriminate.
    destruct (ok3 b0 b1); [|discriminate]. destruct (cont b2); [|discriminate]. cbn [andb] in H.
    apply option_map_cons_some in H. destruct H as [s' [H1 H2]]. exists s'. split; assumption. }
  destruct (in_rng 240 244 b0); [|discriminate].
  destruct r0 as [|b1 [|b2 [|b3 r3]]]; try discriminate.
  destruct (ok4 b0 b1); [|discriminate]. destruct (cont b2); [|discriminate]. destruct (cont b3); [|discriminate].
  cbn [andb] in H.
  apply option_map_cons_some in H. destruct H as [s' [H1 H2]]. exists s'. split; assumption.
Qed.

(* a blank is never part of a multi-byte sequence: the step does not look beyond it *)
Lemma cont_blank : cont 32 = false. Proof. reflexivity. Qed.
Lemma ok3_blank : forall b0, ok3 b0 32 = false.
Proof. intro b0. unfold ok3. destruct (b0 =? 224); [reflexivity|]. destruct (b0 =? 237); reflexivity. Qed.
Lemma ok4_blank : forall b0, ok4 b0 32 = false.
Proof. intro b0. unfold ok4. destruct (b0 =? 240); [reflexivity|]. destruct (b0 =? 244); reflexivity. Qed.

Lemma dec_one_blank : forall b0 a r,
  dec_one b0 (a ++ 32 :: r) = (fst (dec_one b0 a), snd (dec_one b0 a) ++ 32 :: r).
Proof.
  intros b0 a r. unfold dec_one.
  destruct (b0 <? 128); [reflexivity|].
  destruct (in_rng 194 223 b0).
  { destruct a as [|b1 a1]; cbn [app]; [rewrite cont_blank; reflexivity|]. destruct (cont b1); reflexivity. }
  destruct (in_rng 224 239 b0).
  { destruct a as [|b1 a1]; cbn [app]; [rewrite ok3_blank; reflexivity|].
    destruct (ok3 b0 b1); [|reflexivity].
    destruct a1 as [|b2 a2]; cbn [app]; [rewrite cont_blank; reflexivity|]. destruct (cont b2); reflexivity. }
  destruct (in_rng 240 244 b0); [|reflexivity].
  destruct a as [|b1 a1]; cbn [app]; [rewrite ok4_blank; reflexivity|].
  destruct (ok4 b0 b1); [|reflexivity].
  destruct a1 as [|b2 a2]; cbn [app]; [rewrite cont_blank; reflexivity|].
  destruct (cont b2); [|reflexivity].
  destruct a2 as [|b3 a3]; cbn [app]; [rewrite cont_blank; reflexivity|]. destruct (cont b3); reflexivity.
Qed.

(* more fuel than bytes changes nothing *)
Lemma fuel_enough : forall n m l, (length l <= n)%nat -> (length l <= m)%nat -> dec_repl_fuel n l = dec_repl_fuel m l.
Proof.
  induction n as [|n IH]; intros m l Hn Hm.
  - destruct l; [|simpl in Hn; lia]. destruct m; reflexivity.
  - destruct l as [|b0 r0]; [destruct m; reflexivity|].
    destruct m as [|m]; [simpl in Hm; lia|]. cbn [dec_repl_fuel].
    destruct (dec_one b0 r0) as [c rest] eqn:D. f_equal.
    pose proof (dec_one_length _ _ _ _ D). simpl in Hn, Hm. apply IH; lia.
Qed.

Lemma repl_nil : utf8_dec_repl [] = []. Proof. reflexivity. Qed.

Lemma repl_cons : forall b0 r0, utf8_dec_repl (b0 :: r0) = fst (dec_one b0 r0) :: utf8_dec_repl (snd (dec_one b0 r0)).
Proof.
  intros b0 r0. unfold utf8_dec_repl. cbn [length dec_repl_fuel].
  destruct (dec_one b0 r0) as [c rest] eqn:D. cbn [fst snd]. f_equal.
  apply fuel_enough; [apply (dec_one_length _ _ _ _ D)|apply Nat.le_refl].
Qed.

(* induction over the steps of the decoder *)
Lemma repl_ind : forall P : bytes -> Prop, P [] ->
  (forall b0 r0, P (snd (dec_one b0 r0)) -> P (b0 :: r0)) -> forall l, P l.
Proof.
  intros P H0 HS l. remember (length l) as n eqn:Hn. assert (Hle : (length l <= n)%nat) by lia. clear Hn.
  revert l Hle. induction n as [|n IH]; intros l Hle.
  - destruct l; [exact H0|simpl in Hle; lia].
  - destruct l as [|b0 r0]; [exact H0|]. apply HS. apply IH.
    destruct (dec_one b0 r0) as [c rest] eqn:D. cbn [snd]. pose proof (dec_one_length _ _ _ _ D). simpl in Hle. lia.
Qed.

(* well-formed UTF-8 is decoded as by the strict decoder *)
Lemma repl_strict : forall l s, utf8_dec l = Some s -> utf8_dec_repl l = s.
Proof.
  intro l. pattern l. apply repl_ind; clear l.
  - intros s H. inversion H. reflexivity.
  - intros b0 r0 IH s H. destruct (dec_one_strict _ _ _ H) as [s' [-> H2]]. rewrite repl_cons. f_equal.
    apply IH. exact H2.
Qed.

(* the replaced text is encodable; a newline or a blank in it comes from that byte *)
Lemma repl_scalar : forall l, forallb scalar (utf8_dec_repl l) = true.
Proof.
  intro l. pattern l. apply repl_ind; clear l; [reflexivity|].
  intros b0 r0 IH. rewrite repl_cons. cbn [forallb]. rewrite IH.
  destruct (dec_one b0 r0) as [c rest] eqn:D. cbn [fst]. destruct (dec_one_scalar _ _ _ _ D) as [-> _]. reflexivity.
Qed.

Lemma repl_ascii : forall x l, x < 128 -> In x (utf8_dec_repl l) -> In x l.
Proof.
  intros x l Hx. pattern l. apply repl_ind; clear l; [intros []|].
  intros b0 r0 IH. rewrite repl_cons. destruct (dec_one b0 r0) as [c rest] eqn:D. cbn [fst snd] in *.
  intros [Hc|Hin].
  - left. subst x. apply (dec_one_scalar _ _ _ _ D). exact Hx.
  - right. destruct (dec_one_suffix _ _ _ _ D) as [p ->]. apply in_or_app. right. apply IH. exact Hin.
Qed.

(* the strict decoder is the replacing decoder on well-formed input: what holds of all replaced text holds of
   decoded text *)
Lemma utf8_dec_scalar : forall l s, utf8_dec l = Some s -> forallb scalar s = true.
Proof. intros l s H. rewrite <- (repl_strict l s H). apply repl_scalar. Qed.

Lemma utf8_dec_ascii : forall x l s, utf8_dec l = Some s -> x < 128 -> In x s -> In x l.
Proof. intros x l s H. rewrite <- (repl_strict l s H). apply repl_ascii. Qed.

(* decoding commutes with cutting at a blank *)
Lemma repl_blank : forall a r, utf8_dec_repl (a ++ 32 :: r) = utf8_dec_repl a ++ 32 :: utf8_dec_repl r.
Proof.
  intro a. pattern a. apply repl_ind; clear a.
  - intro r. cbn [app]. rewrite repl_cons. reflexivity.
  - intros b0 a0 IH r. cbn [app]. rewrite !repl_cons. rewrite dec_one_blank. cbn [fst snd]. rewrite IH. reflexivity.
Qed.

Lemma split1_app_blank : forall h r, ~ In 32 h -> split1 (h ++ 32 :: r) = (h, Some r).
Proof.
  induction h as [|c h IH]; intros r Hni; cbn [app split1].
  - reflexivity.
  - destruct (c =? 32) eqn:Q; [apply N.eqb_eq in Q; exfalso; apply Hni; left; exact Q|].
    rewrite IH; [reflexivity|]. intro Hin. apply Hni. right. exact Hin.
Qed.

Lemma split1_no_blank : forall h, ~ In 32 h -> split1 h = (h, None).
Proof.
  induction h as [|c h IH]; intro Hni; cbn [split1]; [reflexivity|].
  destruct (c =? 32) eqn:Q; [apply N.eqb_eq in Q; exfalso; apply Hni; left; exact Q|].
  rewrite IH; [reflexivity|]. intro Hin. apply Hni. right. exact Hin.
Qed.

Lemma split1_spec : forall l h t, split1 l = (h, t) ->
  ~ In 32 h /\ match t with Some r => l = h ++ 32 :: r | None => l = h end.
Proof.
  induction l as [|c l IH]; intros h t H; cbn [split1] in H.
  - inversion H. split; [intros []|reflexivity].
  - destruct (c =? 32) eqn:Q.
    + inversion H. apply N.eqb_eq in Q. subst c. split; [intros []|reflexivity].
    + destruct (split1 l) as [h' t'] eqn:S. inversion H; subst h t. destruct (IH h' t' eq_refl) as [A B].
      apply N.eqb_neq in Q. split.
      * intros [Hx|Hx]; [apply Q; exact Hx|apply A; exact Hx].
      * destruct t' as [r|]; cbn [app]; rewrite B; reflexivity.
Qed.

(* the fields of the replaced text are the replaced fields of the bytes (for every limit of split) *)
Lemma splitsp_repl : forall n l, splitsp n (utf8_dec_repl l) = map utf8_dec_repl (splitsp n l).
Proof.
  induction n as [|n IH]; intro l; cbn [splitsp map]; [reflexivity|].
  destruct (split1 l) as [h t] eqn:S. destruct (split1_spec _ _ _ S) as [Hh Ht].
  destruct t as [r|]; subst l.
  - rewrite repl_blank. rewrite split1_app_blank by (intro B; exact (Hh (repl_ascii 32 _ eq_refl B))).
    cbn [map]. rewrite IH. reflexivity.
  - rewrite split1_no_blank by (intro B; exact (Hh (repl_ascii 32 _ eq_refl B))). reflexivity.
Qed.
