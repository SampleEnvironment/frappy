(* C07 - one line of valid UTF-8 per frame: the predicates of C07_lines_wellformed (text without line terminator) and
   that the encoding of a message of such text is such a line *)
From Coq Require Import List Arith NArith Bool Lia.
Import ListNotations.
Require Import FV.Gen.C07 FV.C07.Model FV.C07.Lemmas FV.C07.Utf8 FV.C07.Repl FV.C07.Enc.
Local Open Scope N_scope.

(* a character that can be encoded and is not the line terminator *)
Definition good (c : N) : bool := scalar c && negb (c =? 10).
Definition gstr (s : str) : bool := forallb good s.
Definition gostr (o : option str) : bool := match o with Some s => gstr s | None => true end.
Definition gmsg (m : msg) : bool := let '(a, s, d) := m in gstr a && gostr s && gostr d.

(* one line: UTF-8 text without the terminator, followed by the terminator *)
Definition frame_ok (f : bytes) : Prop :=
  exists s, f = utf8_enc s ++ [EOL] /\ utf8_dec (utf8_enc s) = Some s /\ ~ In EOL (utf8_enc s).

(* the oracle data is text: what json.dumps and str() produce are strings without line terminator *)
Definition hres_ok (h : hres) : bool :=
  match h with HOk d sent => gostr d && forallb gmsg sent | _ => true end.
Definition env_ok (E : env) : Prop :=
  forall i, hres_ok (lo_h (e_line E i)) = true /\ gstr (lo_err (e_line E i)) = true.
Definition ev_ok (ev : event) : Prop :=
  match ev with Chunk b => Forall (fun x => x < 256) b | Async m => gmsg m = true end.

(* the constants of the generated tables are such text (checked by computation) *)
Definition consts_good : bool :=
  gstr ERRORPREFIX && gstr HELPREPLY && gstr HELPREQUEST && forallb gmsg help_frames_msgs
  && forallb (fun h => gstr (h_reply h)) handler_table && forallb (fun p => gstr (snd p)) error_names
  && gstr generic_error_name && gstr decode_error_name.

Lemma gstr_iff : forall s, gstr s = true <-> forallb scalar s = true /\ ~ In 10 s.
Proof.
  induction s as [|c s IH]; simpl; [tauto|]. unfold gstr in IH.
  rewrite !andb_true_iff, IH. unfold good. rewrite andb_true_iff, negb_true_iff, N.eqb_neq. tauto.
Qed.

Lemma encode_frame_ok : forall m, gmsg m = true -> frame_ok (encode_frame m).
Proof.
  intros [[a s] d] H. unfold gmsg in H. apply andb_true_iff in H. destruct H as [H Hd].
  apply andb_true_iff in H. destruct H as [Ha Hs].
  assert (HS : gstr (frame_text (a, s, d)) = true).
  { apply fa_strip. unfold gstr in Ha. rewrite !forallb_app, Ha. simpl.
    destruct s as [s|]; destruct d as [d|]; simpl in *; unfold gstr in *; rewrite ?Hs, ?Hd; reflexivity. }
  apply gstr_iff in HS. destruct HS as [H1 H2].
  exists (frame_text (a, s, d)). split; [reflexivity|].
  split; [apply utf8_roundtrip; exact H1|apply utf8_enc_no_eol; exact H2].
Qed.

Definition byte_line (l : bytes) : Prop := Forall (fun b => b < 256) l /\ ~ In 10 l.

Lemma byte_line_good : forall l, byte_line l -> gstr l = true.
Proof.
  intros l [H1 H2]. apply gstr_iff. split; [|exact H2]. apply forallb_forall. intros b Hb.
  rewrite Forall_forall in H1. apply scalar_iff. left. apply N.lt_trans with 256; [apply H1; exact Hb|reflexivity].
Qed.

(* a line without terminator reads as text without terminator *)
Lemma line_good : forall line, ~ In EOL line -> gstr (utf8_dec_repl (bstrip line)) = true.
Proof.
  intros line H. apply gstr_iff. split; [apply repl_scalar|].
  intro Hin. apply (repl_ascii 10 _ eq_refl), strip_incl in Hin. exact (H Hin).
Qed.

(* env_ok, consts_good, gmsg are penv, pconsts, pmsg of Enc.v with `good` for both predicates, by unfolding *)
Lemma gmsg_pmsg : forall m, gmsg m = pmsg good good m. Proof. reflexivity. Qed.
Lemma env_ok_penv : forall E, env_ok E = penv good good E. Proof. reflexivity. Qed.
Lemma consts_good_pconsts : consts_good = pconsts good good. Proof. unfold consts_good, pconsts. reflexivity. Qed.

Lemma ev_ok_good : forall ev, ev_ok ev -> pev good good ev.
Proof. intros [b|m] H; [exact I|exact H]. Qed.
