(* C07 - the property theorems, each with the argument that closes it, and small examples beside some of them (E0,
   crashE, demoE, wl_progs); the lemmas they rest on are in the other files.
   E ranges over every behaviour of the oracles (json.loads verdicts, what the Dispatcher.handle_<x> bodies return,
   send or raise, error texts), evs over every history of received segments and messages sent by other threads,
   cs over every segmentation. *)
From Coq Require Import List Arith NArith Bool Lia.
Import ListNotations.
Require Import FV.Gen.C07 FV.C07.Model FV.C07.Run FV.C07.Lemmas FV.C07.Utf8 FV.C07.Enc FV.C07.Wellformed FV.C07.Codec FV.C07.Repl FV.C07.Echo FV.C07.Conc FV.C07.ConcLemmas FV.C07.ConcOrder.
Local Open Scope N_scope.

(* the facts about the generated tables that the theorems below use, each evaluated once *)
Local Lemma HT : crash_free_table = true. Proof. reflexivity. Qed.
Local Lemma HA : alias_not_help = true. Proof. reflexivity. Qed.
Local Lemma HM : handlers_match_table = true. Proof. reflexivity. Qed.
Local Lemma HN : names_closed = true. Proof. reflexivity. Qed.
Local Lemma HI : alias_is_internal = true. Proof. reflexivity. Qed.
Local Lemma HG : consts_good = true. Proof. vm_compute. reflexivity. Qed.
Local Lemma HCs : consts_q scalar = true. Proof. vm_compute. reflexivity. Qed.
Local Lemma HCa : consts_q printable = true. Proof. vm_compute. reflexivity. Qed.

(* obligations on the facts regenerated from /repo (Gen/C07.v) *)
Theorem C07_source_facts :
  (* shapes of the modelled functions *)
  get_msg_splits_first_eol = true /\ decode_tail_ok = true /\ encode_shape_ok = true /\ ingest_appends = true /\
  next_message_shape_ok = true /\ dispatch_by_getattr = true /\ error_echo_fields = true /\
  secop_error_uses_name = true /\ help_before_dispatch = true /\ details_cleared_unless_detailed = true /\
  one_send_per_result = true /\ decode_split_max = 2%nat /\ error_split_max = 3%nat /\ EOL = 10 /\
  (* locks: one frame per sendall inside send_lock; one request at a time in the dispatcher *)
  sendall_in_send_lock = true /\ handle_request_under_lock = true /\
  (* the send path as modelled in Conc.v: the frame is computed before the with block and nothing runs after it; a
     failing sendall is caught inside the with block (running := False, nothing raised); nothing but send_reply writes
     to the socket; one plain Lock per connection object, running only changed in setup and inside the with block *)
  encode_outside_lock = true /\ send_failure_caught = true /\ socket_written_only_by_send_reply = true /\
  send_lock_per_connection = true /\
  (* tables: the only handler without a reply tuple is the one of the help request, which never reaches the
     dispatcher; every handler's reply action is the one REQUEST2REPLY gives for its name; the error names used by the
     request loop are SECoP error classes *)
  crash_free_table = true /\ alias_not_help = true /\ handlers_match_table = true /\ names_closed = true /\
  (* the name the identification request is mapped to is itself one of the guarded internal names *)
  alias_is_internal = true /\
  (* all constants that end up in frames are encodable text without line terminator *)
  consts_good = true /\
  (* the data text of a frame is json.dumps(data) with ensure_ascii left at its default (printable ASCII), encoded by a
     plain .encode('utf-8'); the constant parts of the data texts (error names, help text) are printable ASCII, action
     constants are scalar values *)
  dumps_ascii_only = true /\ consts_q scalar = true /\ consts_q printable = true.
Proof.
  do 20 (split; [reflexivity|]).
  exact (conj HT (conj HA (conj HM (conj HN (conj HI (conj HG (conj eq_refl (conj HCs HCa)))))))).
Qed.

(* Premise env_enc E of the theorems about the request loop as a whole: the texts the oracles supply (json.dumps output,
   error texts, data of messages handlers sent) consist of scalar values, i.e. str.encode accepts them.  A str can hold
   lone surrogates (json.loads makes one from the ASCII escape \ud800); encode_msg_frame raises on them, outside of any
   try block of the request loop (Model.send_seq, C07_unencodable_reply_terminates).  json.dumps with ensure_ascii
   (fact dumps_ascii_only) returns printable ASCII whatever the value holds: env_ascii E, which implies env_enc E
   (C07_reply_ascii_data); check_case evaluates that law on every recorded case (C07_case_law). *)

(* any chunking: the state of the connection (buffer, replies sent, handler calls made) after receiving a byte
   stream does not depend on where the stream was cut into segments - at any point of any history *)
Theorem C07_chunking : forall E evs0 cs cs', env_enc E -> concat cs = concat cs' ->
  run E (serve E evs0) (map Chunk cs) = run E (serve E evs0) (map Chunk cs').
Proof. intros E evs0 cs cs' HE H; apply (chunking HT HA E (enc_lines E HCs HE)); assumption. Qed.

(* the request loop works line by line: whatever the segmentation, exactly the complete (newline terminated) lines
   of the stream are processed, in order, each once, and the unterminated rest stays in the buffer;
   lines_of is characterised by C07_lines_of_spec *)
Theorem C07_line_by_line : forall E evs0 cs, env_enc E ->
  let st := serve E evs0 in
  run E st (map Chunk cs) =
  let '(ls, r) := lines_of (buf st ++ concat cs) in set_buf (fold_left (process E) ls st) r.
Proof. intros E evs0 cs HE; apply (run_lines HT HA E (enc_lines E HCs HE)), (serve_inv HT HA E (enc_lines E HCs HE)). Qed.

Theorem C07_lines_of_spec : forall bs,
  let '(ls, r) := lines_of bs in
  bs = flat_map (fun l => l ++ [EOL]) ls ++ r /\ Forall (fun l => ~ In EOL l) ls /\ ~ In EOL r.
Proof. exact lines_of_spec. Qed.

(* exactly one reply per request line: processing a line appends the messages the handler sent itself
   (events, help text lines) and then exactly ONE reply frame r, consumes one line number, and the reply is
   - (helping) for an empty line or a help request,
   - for a line that decodes to (a, s, d): either error_<a> with specifier s and a report whose class is a SECoP
     error name, or the reply action REQUEST2REPLY gives for a - the identification reply for the identification
     request *IDN? and for no other action (since the repair bfc762a) - with the specifier the handler's rule prescribes,
   - for an undecodable line: error_<f0> with specifier f1 and class InternalError, f0 f1 being the first fields of
     the STRIPPED raw line read as UTF-8 with replacement (since the repairs b6f37c1, a2736c5; C07_decode_error_echo
     states that these are action and specifier of the request) *)
Theorem C07_one_reply_per_line : forall E st line, env_enc E ->
  exists pre r c, answer E (nline st) line = (OReply pre r, c) /\
    output (process E st line) = output st ++ frames pre ++ [encode_frame r] /\
    nline (process E st line) = S (nline st) /\
    alive (process E st line) = alive st /\
    reply_ok E (nline st) line r.
Proof.
  intros E st line HE. destruct (answer_no_crash HT HA E (nline st) line) as [pre [r [c H]]].
  exists pre, r, c. split; [exact H|]. split; [eapply process_output; [exact H|exact (enc_lines E HCs HE _ _ _ _ _ H)]|].
  split; [apply process_nline|]. split; [apply (process_alive HT HA E (enc_lines E HCs HE))|].
  eapply (answer_classified HM HN HI); exact H.
Qed.

(* without the premise, for EVERY oracle: a request line is answered by exactly one reply message r with reply_ok (the
   request loop builds it); what can go wrong afterwards is only its encoding - if r holds a code point str.encode
   rejects, the messages before it are sent, r is not, and the exception leaves the request loop (alive = false):
   this line and all later lines stay unanswered.  That is what a json.dumps(ensure_ascii=False) in encode_msg_frame
   does with a request like  change m:_utxt "\ud800" *)
Theorem C07_unencodable_reply_terminates : forall E st line,
  exists pre r c, answer E (nline st) line = (OReply pre r, c) /\ reply_ok E (nline st) line r /\
    (forallb encodable pre = true -> encodable r = false ->
     output (process E st line) = output st ++ frames pre /\ alive (process E st line) = false).
Proof.
  intros E st line. destruct (answer_no_crash HT HA E (nline st) line) as [pre [r [c H]]].
  exists pre, r, c. split; [exact H|]. split; [eapply (answer_classified HM HN HI); exact H|].
  intros Hp Hr. eapply process_unencodable; eassumption.
Qed.

(* internal handler names are no requests (frappy as of bfc762a): an action that starts with '_'
   or is 'request' - other than the identification request itself - is answered error_<action> with the specifier echoed and
   the class of ProtocolError, and NO handler is called (so '_ident' cannot reset a connection's subscriptions) *)
Theorem C07_internal_actions_rejected : forall E i a s d,
  str_eqb a IDENTREQUEST = false -> is_internal a = true ->
  dispatch E i (a, s, d) = (OReply [] (err_reply E i a s (error_name_of_class internal_error_class)), None) /\
  is_internal ident_alias = true /\ is_internal [114; 101; 113; 117; 101; 115; 116] = true.
Proof. intros E i a s d H1 H2. unfold dispatch. rewrite H1, H2. repeat split. Qed.

(* a line that decodes carries exactly the action and specifier its error reply echoes *)
Theorem C07_decoded_request_fields : forall E line a s d,
  decode_msg E line = Some (a, s, d) -> request_fields line = Some (a, s).
Proof. intros; eapply decode_msg_fields; eassumption. Qed.

(* the error reply to an undecodable line names the action and echoes the specifier of the request, whatever white
   space surrounds the line and whatever bytes the data part holds (frappy as of b6f37c1, a2736c5).  byte_fields line = bytes.split(b' ', 2) of the stripped line (padded);
   full statement: for EVERY line that cannot be decoded and whose action and specifier fields are well-formed UTF-8 *)
Theorem C07_decode_error_echo : forall E i line a s,
  next_message E line = None ->
  utf8_dec (nth 0%nat (byte_fields line) []) = Some a ->
  utf8_dec (nth 1%nat (byte_fields line) []) = Some s ->
  exists s' d, answer E i line = (OReply [] (ERRORPREFIX ++ a, s', d), None) /\ or_empty s' = s.
Proof.
  intros E i line a s NM Ha Hs. destruct (decode_error_echo_fields E i line NM) as [s' [d [H1 H2]]].
  rewrite (repl_strict _ _ Ha) in H1. rewrite (repl_strict _ _ Hs) in H2. exists s', d. split; assumption.
Qed.

(* the same for a line that is text as a whole (the decode error is a JSON error), in terms of the fields decode_msg reads *)
Theorem C07_decode_error_echo_text : forall E i line a s,
  next_message E line = None -> request_fields line = Some (a, s) ->
  exists s' d, answer E i line = (OReply [] (ERRORPREFIX ++ a, s', d), None) /\ or_empty s' = or_empty s.
Proof.
  intros E i line a s NM RF. destruct (decode_error_echo_fields E i line NM) as [s' [d [H1 H2]]]. exists s', d.
  unfold request_fields in RF. destruct (utf8_dec (bstrip line)) as [u|] eqn:D; [|discriminate]. injection RF as <- <-.
  rewrite !fields_repl, (repl_strict _ _ D) in *. rewrite or_empty_nonempty. split; assumption.
Qed.

(* and for fields that are NOT well-formed UTF-8: each ill-formed sequence is named by one U+FFFD (CPython's
   errors='replace', Model.dec_one), the well-formed parts are unchanged *)
Theorem C07_decode_error_echo_replaced : forall E i line,
  next_message E line = None ->
  exists s' d, answer E i line =
      (OReply [] (ERRORPREFIX ++ utf8_dec_repl (nth 0%nat (byte_fields line) []), s', d), None) /\
    or_empty s' = utf8_dec_repl (nth 1%nat (byte_fields line) []).
Proof. intros; apply decode_error_echo_fields; assumption. Qed.

(* reading with replacement: identity on well-formed UTF-8, always encodable text, commutes with cutting at blanks *)
Theorem C07_replace_decoder : forall l,
  (forall s, utf8_dec l = Some s -> utf8_dec_repl l = s) /\
  forallb scalar (utf8_dec_repl l) = true /\
  (forall n, splitsp n (utf8_dec_repl l) = map utf8_dec_repl (splitsp n l)).
Proof. intro l. split; [intros s H; apply repl_strict; exact H|]. split; [apply repl_scalar|intro n; apply splitsp_repl]. Qed.

(* non-vacuity: "r\xc3\xa9ad m\xc3\xb6 {bad" is answered error_réad mö;
   " r\xe9ad x\xff {" (ill-formed) is answered error_r<U+FFFD>ad x<U+FFFD> *)
Definition E0 : env := {| e_json := fun _ => None; e_line := fun _ => {| lo_h := HExc; lo_err := [34; 34] |} |}.
Example C07_echo_demo :
  fst (answer E0 0 [114; 195; 169; 97; 100; 32; 109; 195; 182; 32; 123; 98; 97; 100]) =
    OReply [] (ERRORPREFIX ++ [114; 233; 97; 100], Some [109; 246], Some (err_data decode_error_name [34; 34])) /\
  fst (answer E0 0 [32; 114; 233; 97; 100; 32; 120; 255; 32; 123]) =
    OReply [] (ERRORPREFIX ++ [114; 65533; 97; 100], Some [120; 65533], Some (err_data decode_error_name [34; 34])).
Proof. vm_compute. split; reflexivity. Qed.

(* no input terminates the connection handler: after any history the loop is still running and the buffer
   holds no complete line *)
Theorem C07_never_terminates : forall E evs, env_enc E ->
  alive (serve E evs) = true /\ get_msg (buf (serve E evs)) = None.
Proof. intros E evs HE; apply (serve_inv HT HA E (enc_lines E HCs HE)). Qed.

(* ASCII in, ASCII out: when json.dumps returns printable ASCII (its behaviour with ensure_ascii, the default; fact
   dumps_ascii_only) - whatever characters the dumped VALUES hold, lone surrogates included - then, after any history of
   received segments (arbitrary bytes, arbitrary cuts) and messages of other threads, the handler loop is alive and every
   frame handed to sendall is the encoding of a message whose data part is printable ASCII and which str.encode accepts;
   in particular env_ascii implies the premise env_enc of the theorems above *)
Theorem C07_reply_ascii_data : forall E evs, env_ascii E -> Forall ev_ascii evs ->
  env_enc E /\ alive (serve E evs) = true /\
  Forall (fun f => exists m, f = encode_frame m /\ qostr printable (snd m) = true /\ encodable m = true)
         (out (serve E evs)).
Proof.
  intros E evs HE Hev. split; [exact (env_ascii_enc E HE)|].
  split; [apply (serve_inv HT HA E (enc_lines E HCs (env_ascii_enc E HE)))|].
  pose proof HE as HE'. unfold env_ascii in HE'. rewrite env_q_penv in HE'.
  pose proof HCa as HC. rewrite consts_q_pconsts in HC.
  pose proof (serve_p scalar printable eq_refl eq_refl (fun l _ => repl_scalar _) E HE' HC evs Hev) as H.
  eapply Forall_impl; [|exact H]. intros f [m [A B]]. exists m. split; [exact A|].
  split; [|exact (pmsg_encodable scalar printable (fun c H => H) printable_scalar m B)].
  destruct m as [[a s] d]. unfold pmsg in B. apply andb_true_iff in B. apply B.
Qed.

(* the law is evaluated by check_case on every recorded case: a case that passes has an environment and a history that
   satisfy the premises of C07_reply_ascii_data *)
Theorem C07_case_law : forall chunks json lines o_out o_calls o_rest o_alive,
  check_case (CStream chunks json lines o_out o_calls o_rest o_alive) = true ->
  env_ascii (mk_env json lines) /\ Forall ev_ascii chunks.
Proof.
  intros chunks json lines o_out o_calls o_rest o_alive H. cbn [check_case] in H.
  apply andb_true_iff in H. destruct H as [H H2]. apply andb_true_iff in H. destruct H as [_ H1].
  split; [apply case_env_ascii; exact H1|apply case_events_ascii; exact H2].
Qed.

(* non-vacuity of the crash: the handler of line 0 returns data whose json text holds the lone surrogate U+D800 (what
   json.dumps(.., ensure_ascii=False) returns for it): nothing is sent, the loop is dead, the second line is never read *)
Definition crashE : env :=
  {| e_json := fun _ => None;
     e_line := fun i => {| lo_h := HOk (Some [34; 55296; 34]) []; lo_err := [34; 34] |} |}.
Example C07_crash_demo :
  let st := serve crashE [Chunk [112; 105; 110; 103; 32; 120; 10; 112; 105; 110; 103; 32; 121; 10]] in
  output st = [] /\ alive st = false /\ nline st = 1%nat /\ buf st = [112; 105; 110; 103; 32; 121; 10].
Proof. vm_compute. repeat split; reflexivity. Qed.

(* every frame handed to sendall - replies, error replies to arbitrary bytes, events sent by other threads - is exactly
   one line: UTF-8 text that decodes back to itself, without a line terminator inside, followed by the terminator.
   Premises: the received data are bytes; what the oracles supply (json.dumps output, str(err), messages sent by
   handlers and other threads) is text without line terminator (env_ok, ev_ok; checked on every case by the harness's
   direct oracle).  The data part is the oracle's json.dumps text or the error report built around the error text. *)
Theorem C07_lines_wellformed : forall E evs, env_ok E -> Forall ev_ok evs ->
  Forall frame_ok (out (serve E evs)).
Proof.
  intros E evs HE Hev. rewrite env_ok_penv in HE. pose proof HG as HC. rewrite consts_good_pconsts in HC.
  pose proof (serve_p good good eq_refl eq_refl line_good E HE HC evs (Forall_impl _ ev_ok_good Hev)) as H.
  eapply Forall_impl; [|exact H]. intros f [m [-> G]]. apply encode_frame_ok. rewrite gmsg_pmsg. exact G.
Qed.

(* encoding and decoding of message triples are mutually inverse: for a triple whose action and specifier are tokens
   (non-empty, encodable, no white space) and whose data text is encodable with clean ends (what json.dumps produces),
   decode_msg of the encoded frame body gives the triple back - the data part up to the json oracle (json.loads of the
   dumped text; JSON null reads as no data).  encode_frame m = encode_body m ++ [EOL]. *)
Theorem C07_codec_inverse : forall E a s d, tokb a = true -> wf_spec s -> wf_data d ->
  (encode_frame (a, s, d) = encode_body (a, s, d) ++ [EOL]) /\
  (decode_msg E (encode_body (a, s, d)) =
   match d with
   | None => Some (a, s, None)
   | Some t => match e_json E t with
               | Some c => Some (a, s, if str_eqb c json_null then None else Some c)
               | None => None
               end
   end).
Proof.
  intros E a s d Ha Hs Hd. split; [reflexivity|]. unfold encode_body, decode_msg. change decode_split_max with 2%nat.
  pose proof (tok_ends _ Ha) as EA. pose proof (tok_scalar _ Ha) as SA. pose proof (tok_no_blank _ Ha) as NA.
  destruct d as [t|]; [destruct Hd as [ST ET]|]; cbn [or_empty].
  - (* data: the text has clean ends as it stands; x, the specifier field, may be empty *)
    assert (HX : forallb scalar (or_empty s) = true /\ ~ In 32 (or_empty s) /\ nonempty (or_empty s) = s).
    { destruct s as [[|x0 x]|]; [discriminate Hs| |repeat split; intros []].
      split; [exact (tok_scalar _ Hs)|split; [exact (tok_no_blank _ Hs)|reflexivity]]. }
    destruct HX as [SX [NX EX]]. set (x := or_empty s) in *. set (Y := a ++ [32] ++ x ++ [32] ++ t).
    assert (EY : ends_clean is_uspace Y).
    { unfold Y. replace (a ++ [32] ++ x ++ [32] ++ t) with (a ++ ([32] ++ x ++ [32]) ++ t)
        by (simpl; rewrite <- app_assoc; reflexivity).
      apply (ends_clean_app _ a t EA ET). }
    rewrite <- (app_nil_r Y), decode_of_body;
      [|unfold Y; rewrite !forallb_app, SA, SX, ST; reflexivity|exact EY|reflexivity].
    unfold Y. cbn [splitsp app]. rewrite (split1_app_blank a _ NA), (split1_app_blank x _ NX).
    cbn [app nth]. rewrite EX. destruct ET as [[c [r [-> _]]] _]. reflexivity.
  - destruct s as [x|]; cbn [or_empty].
    + (* action, specifier: the blank behind the specifier is stripped *)
      pose proof (tok_ends _ Hs) as EX. pose proof (tok_scalar _ Hs) as SX. pose proof (tok_no_blank _ Hs) as NX.
      replace (a ++ [32] ++ x ++ [32] ++ []) with ((a ++ [32] ++ x) ++ [32]) by (rewrite <- !app_assoc; reflexivity).
      rewrite decode_of_body;
        [|rewrite !forallb_app, SA, SX; reflexivity|exact (ends_clean_app _ a x EA EX [32])|reflexivity].
      cbn [splitsp app]. rewrite (split1_app_blank a _ NA), (split1_no_blank x NX).
      cbn [app nth]. destruct x as [|x0 xr]; [discriminate|]. reflexivity.
    + (* action only: both blanks are stripped *)
      change (a ++ [32] ++ [] ++ [32] ++ []) with (a ++ [32; 32]).
      rewrite (decode_of_body a [32; 32] SA EA eq_refl). cbn [splitsp]. rewrite (split1_no_blank a NA). reflexivity.
Qed.

(* nothing leaks into another connection: in a server with several connections the state of connection k
   (buffer, frames sent) is the one it reaches from its own events alone *)
Theorem C07_isolation : forall Es evs S k d, (k < length S)%nat ->
  nth k (sys_run Es S evs) d = run (Es k) (nth k S d) (map snd (filter (fun e => Nat.eqb (fst e) k) evs)).
Proof.
  intros Es evs. unfold sys_run, run. induction evs as [|[j ev] evs IH]; intros S k d Hk; simpl; [reflexivity|].
  rewrite IH by (unfold sys_step; rewrite upd_length; exact Hk).
  unfold sys_step. simpl.
  destruct (Nat.eqb j k) eqn:Ejk.
  - apply Nat.eqb_eq in Ejk. subst j. simpl. rewrite nth_upd_same by exact Hk. reflexivity.
  - apply Nat.eqb_neq in Ejk. rewrite nth_upd_other by exact Ejk. reflexivity.
Qed.

(* non-vacuity: two requests, the first cut in the middle, an update from another thread in between *)
Definition demoE : env :=
  {| e_json := fun _ => None;
     e_line := fun i => {| lo_h := HOk (Some [49]) []; lo_err := [34; 34] |} |}.
Example C07_demo :
  output (serve demoE [Chunk [112; 105]; Async ([117], Some [120], None); Chunk [110; 103; 32; 120; 10; 255; 10; 97]]) =
  [ [117; 32; 120; 10];
    [112; 111; 110; 103; 32; 120; 32; 49; 10];
    ERRORPREFIX ++ [239; 191; 189; 32; 32] ++ err_data decode_error_name [34; 34] ++ [10] ]
  /\ buf (serve demoE [Chunk [112; 105]; Async ([117], Some [120], None); Chunk [110; 103; 32; 120; 10; 255; 10; 97]]) = [97].
Proof. vm_compute. split; reflexivity. Qed.

(* concurrent send path (Conc.v)
   progs: for every thread (the handler threads of the connections, threads broadcasting parameter updates, threads
   emitting log messages - any number) the (connection, message) pairs it hands to send_reply, in order; sched: ANY
   schedule - which thread makes its next atomic step (encode outside the lock / acquire send_lock and test running /
   one partial write of the socket / a failing write), with ANY sizes of the partial writes and socket failures
   anywhere; c: any connection. *)

(* asynchronous messages never split another line: the bytes a socket accepted are whole frames in the order in which
   send_lock was acquired - only the last frame begun may be incomplete (in flight, or cut by a socket failure); every
   frame is encode_msg_frame of a message handed to send_reply of that connection; while the connection runs each
   thread's frames appear in the order of its calls, none missing; when all calls have returned the stream consists
   of whole frames only and holds, per thread, exactly the frames of its messages in order *)
Theorem C07_frames_never_interleaved : forall progs sched c,
  let st := crun true (cinit progs) sched in
  let lg := log (con st c) in
  (sock (con st c) = concat (map snd lg) \/
   exists done t f w r, lg = done ++ [(t, f)] /\ f = w ++ r /\ sock (con st c) = concat (map snd done) ++ w) /\
  (forall t f, In (t, f) lg -> exists m, In (c, m) (progs t) /\ encodable m = true /\ f = encode_frame m) /\
  (running (con st c) = true -> forall t, projf t lg = encs c (donej (thr st t)) ++ curf (thr st t) c) /\
  ((forall t, todo (thr st t) = []) -> running (con st c) = true ->
     sock (con st c) = concat (map snd lg) /\ forall t, projf t lg = encs c (progs t)).
Proof.
  intros progs sched c st lg.
  assert (I1 : Inv st) by (apply crun_inv, cinit_inv).
  assert (I2 : Inv2 progs st) by (apply crun_inv2, cinit_inv2).
  split; [|split; [|split]].
  - destruct (lock (con st c)) as [t|] eqn:Hl; [|apply (Inv_unlocked _ _ I1 Hl)].
    destruct (Inv_locked _ _ _ I1 Hl) as [f [rest [done [w [_ [_ [Hlog [Hf Hs]]]]]]]].
    right. exists done, t, f, w, rest. auto.
  - intros t f Hin. destruct I2 as [_ [_ [C _]]]. destruct (C c t f Hin) as [m [Hm He]].
    exists m. split; [exact Hm|]. unfold encode_msg in He. destruct (encodable m); [|discriminate].
    inversion He. auto.
  - intros Hr t. destruct I2 as [_ [_ [_ D]]]. apply D. exact Hr.
  - intros Q Hr. destruct I2 as [A [_ [_ D]]]. unfold lg. split.
    + apply (Inv_unlocked _ _ I1 (quiet_unlocked st c I1 Q)). exact Hr.
    + intros t. rewrite (D c t Hr), (A t), (Q t), app_nil_r. unfold curf. rewrite (Q t). apply app_nil_r.
Qed.

(* every line the peer reads is one message: a stream made of frames that are lines (C07_lines_wellformed: every frame is
   body ++ [EOL] with no EOL in the body) followed by an EOL-free rest splits at the newlines into exactly these bodies *)
Theorem C07_peer_reads_frames : forall bodies w,
  Forall (fun l => ~ In EOL l) bodies -> ~ In EOL w ->
  lines_of (flat_map (fun l => l ++ [EOL]) bodies ++ w) = (bodies, w).
Proof. exact lines_of_frames. Qed.

(* a failing sendall (BrokenPipeError, OSError, time-out, anything) never leaves send_lock held and never stops another
   connection: the lock is only ever held by a thread inside sendall of a running connection, and each step of that
   thread writes at least one byte or leaves the with block; a stopped connection has its lock free; when all calls
   have returned all locks are free; the failing step itself frees the lock, stops this connection only, and the
   calling thread (e.g. the broadcast loop over all subscribers) goes on with its next call; connection c is only ever
   stopped by a failure of its own socket *)
Theorem C07_send_failure_releases_lock : forall progs sched c,
  let st := crun true (cinit progs) sched in
  (forall t, lock (con st c) = Some t -> running (con st c) = true /\
     exists m tl f rest, todo (thr st t) = (c, m) :: tl /\ ph (thr st t) = PWrite f rest) /\
  (running (con st c) = false -> lock (con st c) = None) /\
  ((forall t, todo (thr st t) = []) -> lock (con st c) = None) /\
  (forall t m tl f rest a, todo (thr st t) = (c, m) :: tl -> ph (thr st t) = PWrite f rest ->
     let st' := cstep true st (t, a) in
     (lock (con st' c) = None /\ todo (thr st' t) = tl /\ ph (thr st' t) = PIdle) \/
     (exists r', todo (thr st' t) = (c, m) :: tl /\ ph (thr st' t) = PWrite f r' /\ (length r' < length rest)%nat)) /\
  (forall t m tl f rest, todo (thr st t) = (c, m) :: tl -> ph (thr st t) = PWrite f rest ->
     let st' := cstep true st (t, Fail c) in
     lock (con st' c) = None /\ running (con st' c) = false /\ sock (con st' c) = sock (con st c) /\
     todo (thr st' t) = tl /\ ph (thr st' t) = PIdle /\
     (forall c', c' <> c -> con st' c' = con st c') /\ (forall t', t' <> t -> thr st' t' = thr st t')) /\
  ((forall t, ~ In (t, Fail c) sched) -> running (con st c) = true).
Proof.
  intros progs sched c st.
  assert (I1 : Inv st) by (apply crun_inv, cinit_inv).
  split; [|split; [|split; [|split; [|split]]]].
  - (* a held lock *) intros t Hl. destruct (Inv_locked _ _ _ I1 Hl) as [f [rest [done [w [[m [tl [Ht Hp]]] [Hr _]]]]]].
    split; [exact Hr|]. exists m, tl, f, rest. auto.
  - (* a stopped connection *) intros Hr. destruct (lock (con st c)) as [t|] eqn:Hl; [|reflexivity].
    destruct (Inv_locked _ _ _ I1 Hl) as [f [rest [done [w [_ [Hr' _]]]]]]. congruence.
  - (* all calls returned *) apply quiet_unlocked. exact I1.
  - (* a step of the holder *) intros t m tl f rest a Ht Hp. unfold cstep. simpl fst; simpl snd. rewrite Ht, Hp.
    destruct a as [k|c']; [apply (do_write_progress _ _ _ _ _ _ _ _ Ht); lia|].
    destruct (Nat.eqb c' c); [|apply (do_write_progress _ _ _ _ _ _ _ _ Ht); lia].
    left. rewrite (pop_cons _ _ _ Ht). simpl. rewrite !Nat.eqb_refl. auto.
  - (* a failing write *) intros t m tl f rest Ht Hp. unfold cstep. simpl fst; simpl snd. rewrite Ht, Hp, Nat.eqb_refl.
    rewrite (pop_cons _ _ _ Ht). simpl. rewrite !Nat.eqb_refl. simpl. repeat split.
    + intros c' Hc. destruct (Nat.eqb_spec c' c); [contradiction|reflexivity].
    + intros t' Ht'. destruct (Nat.eqb_spec t' t); [contradiction|reflexivity].
  - (* no failure of this socket *) intros H. unfold st. rewrite (crun_running true sched (cinit progs) c H). reflexivity.
Qed.

(* the lock is what keeps the frames whole: the same send_reply without `with self.send_lock` - two threads, one frame
   each ("ab" and "cd"), the socket takes the first byte of the first frame, then the second thread writes: both calls
   return, all bytes are written, but the peer reads the lines "acd" and "b"; with the lock the same schedule leaves
   the second thread waiting and the stream is the whole first frame *)
Definition wl_progs : nat -> list job :=
  progs_of [[(0%nat, ([97; 98], None, None))]; [(0%nat, ([99; 100], None, None))]].
Definition wl_sched : list cevent :=
  [(0, Write 0); (0, Write 0); (0, Write 1); (1, Write 0); (1, Write 0); (1, Write 9); (0, Write 9)]%nat.
Theorem C07_without_lock_frames_interleave :
  (let st := crun false (cinit wl_progs) wl_sched in
   map snd (log (con st 0%nat)) = [[97; 98; 10]; [99; 100; 10]] /\
   todo (thr st 0%nat) = [] /\ todo (thr st 1%nat) = [] /\ running (con st 0%nat) = true /\
   sock (con st 0%nat) = [97; 99; 100; 10; 98; 10] /\
   lines_of (sock (con st 0%nat)) = ([[97; 99; 100]; [98]], [])) /\
  (let st := crun true (cinit wl_progs) wl_sched in
   sock (con st 0%nat) = [97; 98; 10] /\ lock (con st 0%nat) = None /\ ph (thr st 1%nat) = PEnc [99; 100; 10]).
Proof. vm_compute. repeat split; reflexivity. Qed.

(* non-vacuity of the failure theorem: a broadcast thread sends to connections 0 and 1; the socket of connection 0
   breaks after the first byte: connection 0 is stopped with a cut frame, its lock is free, connection 1 gets its frame *)
Example C07_failure_demo :
  let st := crun true (cinit (progs_of [[(0%nat, ([97; 98], None, None)); (1%nat, ([97; 98], None, None))]]))
              [(0, Write 0); (0, Write 0); (0, Write 1); (0, Fail 0); (0, Write 0); (0, Write 0); (0, Write 5)]%nat in
  sock (con st 0%nat) = [97] /\ running (con st 0%nat) = false /\ lock (con st 0%nat) = None /\
  sock (con st 1%nat) = [97; 98; 10] /\ running (con st 1%nat) = true /\ lock (con st 1%nat) = None.
Proof. vm_compute. repeat split; reflexivity. Qed.

Print Assumptions C07_source_facts.
Print Assumptions C07_chunking.
Print Assumptions C07_line_by_line.
Print Assumptions C07_lines_of_spec.
Print Assumptions C07_one_reply_per_line.
Print Assumptions C07_internal_actions_rejected.
Print Assumptions C07_decoded_request_fields.
Print Assumptions C07_decode_error_echo.
Print Assumptions C07_decode_error_echo_text.
Print Assumptions C07_decode_error_echo_replaced.
Print Assumptions C07_replace_decoder.
Print Assumptions C07_never_terminates.
Print Assumptions C07_unencodable_reply_terminates.
Print Assumptions C07_reply_ascii_data.
Print Assumptions C07_case_law.
Print Assumptions C07_isolation.
Print Assumptions C07_codec_inverse.
Print Assumptions C07_lines_wellformed.
Print Assumptions C07_frames_never_interleaved.
Print Assumptions C07_peer_reads_frames.
Print Assumptions C07_send_failure_releases_lock.
Print Assumptions C07_without_lock_frames_interleave.
