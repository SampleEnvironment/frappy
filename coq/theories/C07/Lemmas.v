(* C07 - lemmas: framing is a function of the byte stream, the request loop answers line by line,
   no request line makes the handler leave its loop, classification of the reply *)
From Coq Require Import List Arith NArith Bool Lia.
Import ListNotations.
Require Import FV.Gen.C07 FV.C07.Model.
Local Open Scope N_scope.

Lemma str_eqb_eq : forall a b, str_eqb a b = true <-> a = b.
Proof.
  induction a as [|x a IH]; destruct b as [|y b]; simpl; split; intro H; try reflexivity; try discriminate.
  - apply andb_true_iff in H. destruct H as [H1 H2]. apply N.eqb_eq in H1. apply IH in H2. subst. reflexivity.
  - inversion H; subst. apply andb_true_iff. split. apply N.eqb_refl. apply IH. reflexivity.
Qed.

Lemma str_eqb_refl : forall a, str_eqb a a = true.
Proof. intro a. apply str_eqb_eq. reflexivity. Qed.

Lemma str_eqb_neq : forall a b, str_eqb a b = false <-> a <> b.
Proof.
  intros a b. split; intro H.
  - intro Heq. apply str_eqb_eq in Heq. congruence.
  - destruct (str_eqb a b) eqn:E; [apply str_eqb_eq in E; contradiction|reflexivity].
Qed.

Lemma process_buf : forall E st line, buf (process E st line) = buf st.
Proof.
  intros. unfold process. destruct (answer E (nline st) line) as [o c].
  destruct o as [pre r|pre]; [destruct (send_seq (pre ++ [r])) as [fs ok]|]; reflexivity.
Qed.

Lemma process_set_buf : forall E st b line, process E (set_buf st b) line = set_buf (process E st line) b.
Proof.
  intros. unfold process, set_buf. simpl. destruct (answer E (nline st) line) as [o c].
  destruct o as [pre r|pre]; [destruct (send_seq (pre ++ [r])) as [fs ok]|]; reflexivity.
Qed.

Lemma set_buf_set_buf : forall st a b, set_buf (set_buf st a) b = set_buf st b.
Proof. reflexivity. Qed.

Lemma set_buf_same : forall st, set_buf st (buf st) = st.
Proof. destruct st; reflexivity. Qed.

Lemma process_nline : forall E st line, nline (process E st line) = S (nline st).
Proof.
  intros. unfold process. destruct (answer E (nline st) line) as [o c].
  destruct o as [pre r|pre]; [destruct (send_seq (pre ++ [r])) as [fs ok]|]; reflexivity.
Qed.

Lemma send_seq_all : forall ms, forallb encodable ms = true -> send_seq ms = (frames ms, true).
Proof.
  induction ms as [|m ms IH]; intro H; [reflexivity|]. simpl in *. apply andb_true_iff in H. destruct H as [H1 H2].
  rewrite H1, (IH H2). reflexivity.
Qed.

Lemma send_seq_sent : forall ms f, In f (fst (send_seq ms)) ->
  exists m, In m ms /\ encodable m = true /\ f = encode_frame m.
Proof.
  induction ms as [|m ms IH]; intros f H; [destruct H|]. simpl in H.
  destruct (encodable m) eqn:Em; [|destruct H].
  destruct (send_seq ms) as [fs ok]. simpl in *. destruct H as [H|H].
  - exists m. split; [left; reflexivity|]. split; [exact Em|]. symmetry. exact H.
  - destruct (IH f H) as [m' [A [B C]]]. exists m'. split; [right; exact A|]. split; assumption.
Qed.

(* the first message that can not be encoded ends the sequence: it and everything behind it is not sent *)
Lemma send_seq_stop : forall ms m ms', forallb encodable ms = true -> encodable m = false ->
  send_seq (ms ++ m :: ms') = (frames ms, false).
Proof.
  induction ms as [|x ms IH]; intros m ms' H Hm; simpl.
  - rewrite Hm. reflexivity.
  - simpl in H. apply andb_true_iff in H. destruct H as [H1 H2]. rewrite H1, (IH m ms' H2 Hm). reflexivity.
Qed.

(* every message the request loop sends for line i can be encoded *)
Definition line_enc (E : env) (i : nat) (line : bytes) : Prop :=
  forall pre r c, answer E i line = (OReply pre r, c) -> forallb encodable (pre ++ [r]) = true.

(* get_msg cuts at the first line terminator *)
Lemma get_msg_spec : forall bs,
  match get_msg bs with
  | Some (l, rest) => bs = l ++ EOL :: rest /\ ~ In EOL l
  | None => ~ In EOL bs
  end.
Proof.
  induction bs as [|b r IH]; simpl; [tauto|].
  destruct (b =? EOL) eqn:Eb.
  - apply N.eqb_eq in Eb. subst b. split; [reflexivity|tauto].
  - apply N.eqb_neq in Eb. destruct (get_msg r) as [[l rest]|].
    + destruct IH as [-> Hn]. split; [reflexivity|]. intros [H|H]; [exact (Eb H)|exact (Hn H)].
    + intros [H|H]; [exact (Eb H)|exact (IH H)].
Qed.

Lemma get_msg_some : forall bs l rest, get_msg bs = Some (l, rest) <-> bs = l ++ EOL :: rest /\ ~ In EOL l.
Proof.
  intros bs l rest. split.
  - intro H. pose proof (get_msg_spec bs) as S. rewrite H in S. exact S.
  - intros [-> Hn]. induction l as [|b l IH]; simpl; [reflexivity|].
    destruct (b =? EOL) eqn:E; [apply N.eqb_eq in E; destruct Hn; left; exact E|].
    rewrite IH; [reflexivity|]. intro Hin. apply Hn. right. exact Hin.
Qed.

Lemma get_msg_none : forall bs, get_msg bs = None <-> ~ In EOL bs.
Proof.
  intros bs. split.
  - intro H. pose proof (get_msg_spec bs) as S. rewrite H in S. exact S.
  - intro H. destruct (get_msg bs) as [[l rest]|] eqn:G; [|reflexivity].
    apply get_msg_some in G. destruct G as [-> _]. destruct H. apply in_or_app. right. left. reflexivity.
Qed.

Lemma get_msg_shorter : forall bs l rest, get_msg bs = Some (l, rest) -> (length rest < length bs)%nat.
Proof. intros bs l rest H. apply get_msg_some in H. destruct H as [-> _]. rewrite app_length. simpl. lia. Qed.

Lemma drain_fuel : forall E n m st, (length (buf st) < n)%nat -> (length (buf st) < m)%nat ->
  drain n E st = drain m E st.
Proof.
  intros E n. induction n as [|n IH]; intros m st Hn Hm; [lia|].
  destruct m as [|m]; [lia|]. simpl.
  destruct (alive st); [|reflexivity].
  destruct (get_msg (buf st)) as [[l rest]|] eqn:G; [|reflexivity].
  pose proof (get_msg_shorter _ _ _ G) as Hs.
  apply IH; rewrite process_buf; simpl; lia.
Qed.

Definition drain_all (E : env) (st : conn) : conn := drain (S (length (buf st))) E st.

Lemma drain_all_step : forall E st,
  drain_all E st =
  if alive st then
    match get_msg (buf st) with
    | None => st
    | Some (line, rest) => drain_all E (process E (set_buf st rest) line)
    end
  else st.
Proof.
  intros. unfold drain_all at 1. simpl.
  destruct (alive st); [|reflexivity].
  destruct (get_msg (buf st)) as [[l rest]|] eqn:G; [|reflexivity].
  pose proof (get_msg_shorter _ _ _ G) as Hs.
  unfold drain_all. apply drain_fuel; rewrite process_buf; simpl; lia.
Qed.

Lemma drain_alive_false : forall E n st, alive st = false -> drain n E st = st.
Proof. intros E n st H. destruct n; simpl; [reflexivity|]. rewrite H. reflexivity. Qed.

Lemma process_alive_false_app : forall E st line b,
  set_buf (process E st line) (buf (process E st line) ++ b) = process E (set_buf st (buf st ++ b)) line.
Proof. intros. rewrite process_set_buf, process_buf. reflexivity. Qed.

Lemma drain_all_alive_mono : forall E n st, (length (buf st) < n)%nat -> alive (drain_all E st) = true -> alive st = true.
Proof.
  intros E n st _ H. rewrite drain_all_step in H. destruct (alive st) eqn:A; [reflexivity|]. congruence.
Qed.

Lemma drain_all_idem : forall E n st, (length (buf st) < n)%nat -> drain_all E (drain_all E st) = drain_all E st.
Proof.
  intros E n. induction n as [|n IH]; intros st Hn; [lia|].
  rewrite (drain_all_step E st).
  destruct (alive st) eqn:Al.
  - destruct (get_msg (buf st)) as [[l rest]|] eqn:G.
    + pose proof (get_msg_shorter _ _ _ G) as Hs. apply IH. rewrite process_buf. simpl. lia.
    + rewrite drain_all_step, Al, G. reflexivity.
  - rewrite drain_all_step, Al. reflexivity.
Qed.

Fixpoint split_lines (fuel : nat) (bs : bytes) : list bytes * bytes :=
  match fuel with
  | O => ([], bs)
  | S f => match get_msg bs with
           | None => ([], bs)
           | Some (l, rest) => let '(ls, r) := split_lines f rest in (l :: ls, r)
           end
  end.
(* the complete lines of a byte stream and the unterminated rest *)
Definition lines_of (bs : bytes) : list bytes * bytes := split_lines (S (length bs)) bs.

Lemma split_lines_spec : forall n bs, (length bs < n)%nat ->
  let '(ls, r) := split_lines n bs in
  bs = flat_map (fun l => l ++ [EOL]) ls ++ r /\ Forall (fun l => ~ In EOL l) ls /\ ~ In EOL r.
Proof.
  induction n as [|n IH]; intros bs Hn; [lia|]. simpl.
  destruct (get_msg bs) as [[l rest]|] eqn:G.
  - pose proof (get_msg_shorter _ _ _ G) as Hs. apply get_msg_some in G. destruct G as [-> Hl].
    specialize (IH rest). destruct (split_lines n rest) as [ls r].
    destruct IH as [H1 [H2 H3]]; [lia|].
    split; [|split; [constructor; assumption|exact H3]].
    simpl. rewrite <- !app_assoc, <- H1. reflexivity.
  - split; [reflexivity|split; [constructor|apply get_msg_none; exact G]].
Qed.

(* conversely: a stream made of terminated lines and an unterminated rest splits into exactly these *)
Lemma split_lines_frames : forall ls r n, Forall (fun l => ~ In EOL l) ls -> ~ In EOL r ->
  (length ls < n)%nat -> split_lines n (flat_map (fun l => l ++ [EOL]) ls ++ r) = (ls, r).
Proof.
  induction ls as [|l ls IH]; intros r n Hls Hr Hn; destruct n as [|n]; try lia; simpl.
  - rewrite (proj2 (get_msg_none _) Hr). reflexivity.
  - inversion Hls as [|l0 ls0 Hl Hls']; subst. rewrite <- !app_assoc. simpl.
    rewrite (proj2 (get_msg_some _ l _) (conj eq_refl Hl)). rewrite (IH r n Hls' Hr); [reflexivity|]. simpl in Hn. lia.
Qed.


Lemma lines_of_frames : forall ls r, Forall (fun l => ~ In EOL l) ls -> ~ In EOL r ->
  lines_of (flat_map (fun l => l ++ [EOL]) ls ++ r) = (ls, r).
Proof.
  intros ls r Hls Hr. unfold lines_of. apply split_lines_frames; auto.
  rewrite app_length. assert (length ls <= length (flat_map (fun l => l ++ [EOL]) ls))%nat; [|lia].
  clear. induction ls as [|l ls IH]; simpl; [lia|]. rewrite !app_length. simpl. lia.
Qed.

Lemma lines_of_spec : forall bs,
  let '(ls, r) := lines_of bs in
  bs = flat_map (fun l => l ++ [EOL]) ls ++ r /\ Forall (fun l => ~ In EOL l) ls /\ ~ In EOL r.
Proof. intros; apply split_lines_spec; apply Nat.lt_succ_diag_r. Qed.

(* more input: the rest is continued *)
Lemma lines_of_app : forall x b,
  let '(ls1, r1) := lines_of x in let '(ls2, r2) := lines_of (r1 ++ b) in lines_of (x ++ b) = (ls1 ++ ls2, r2).
Proof.
  intros x b. pose proof (lines_of_spec x) as H1. destruct (lines_of x) as [ls1 r1]. destruct H1 as [-> [F1 _]].
  pose proof (lines_of_spec (r1 ++ b)) as H2. destruct (lines_of (r1 ++ b)) as [ls2 r2]. destruct H2 as [E2 [F2 N2]].
  rewrite <- app_assoc, E2, app_assoc, <- flat_map_app.
  apply lines_of_frames; [apply Forall_app; split; assumption|exact N2].
Qed.

Lemma fold_process_set_buf : forall E ls st b,
  fold_left (process E) ls (set_buf st b) = set_buf (fold_left (process E) ls st) b.
Proof.
  intros E ls. induction ls as [|l ls IH]; intros st b; simpl; [reflexivity|].
  rewrite process_set_buf. apply IH.
Qed.

(* facts about the generated handler table, checked by computation in Properties.C07_source_facts *)
Definition crash_free_table : bool :=
  forallb (fun h => negb (Nat.eqb (h_arity h) 3 && Nat.eqb (h_rule h) 3) || str_eqb (h_name h) HELPREQUEST) handler_table.
Definition alias_not_help : bool := negb (str_eqb ident_alias HELPREQUEST).

Lemma find_handler_some : forall name h, find_handler name = Some h -> In h handler_table /\ h_name h = name.
Proof.
  intros name h H. unfold find_handler in H. apply find_some in H. destruct H as [H1 H2].
  split; [exact H1|]. apply str_eqb_eq. exact H2.
Qed.

Definition alias (a : str) : str := if str_eqb a IDENTREQUEST then ident_alias else a.

(* what dispatch goes on with: for the identification request the alias without specifier and data *)
Lemma alias_triple : forall a (s d : option str),
  (if str_eqb a IDENTREQUEST then (ident_alias, None, None) else (a, s, d)) =
  (alias a, if str_eqb a IDENTREQUEST then None else s, if str_eqb a IDENTREQUEST then None else d).
Proof. intros. unfold alias. destruct (str_eqb a IDENTREQUEST); reflexivity. Qed.

Lemma dispatch_no_crash : crash_free_table = true -> alias_not_help = true ->
  forall E i a s d, str_eqb a HELPREQUEST = false ->
  exists pre r c, dispatch E i (a, s, d) = (OReply pre r, c).
Proof.
  intros HT HA E i a s d Hh. unfold dispatch.
  destruct (negb (str_eqb a IDENTREQUEST) && is_internal a); [eauto|]. rewrite alias_triple.
  destruct (find_handler (alias a)) as [h|] eqn:F; [|eauto].
  destruct (Nat.eqb (h_arity h) 3) eqn:Ar; [|eauto].
  destruct (lo_h (e_line E i)); eauto.
  destruct (Nat.eqb (h_rule h) 3) eqn:Ru; [|eauto].
  (* a handler without reply tuple would be the one of the help request, and alias a is not its name *)
  exfalso. apply find_handler_some in F. destruct F as [Hin Hn].
  unfold crash_free_table in HT. rewrite forallb_forall in HT. specialize (HT _ Hin).
  rewrite Ar, Ru, Hn in HT. unfold alias, alias_not_help in *.
  destruct (str_eqb a IDENTREQUEST); simpl in HT; rewrite HT in *; discriminate.
Qed.

Lemma answer_no_crash : crash_free_table = true -> alias_not_help = true ->
  forall E i line, exists pre r c, answer E i line = (OReply pre r, c).
Proof.
  intros HT HA E i line. unfold answer.
  destruct (next_message E line) as [[[a s] d]|]; [|eauto].
  destruct (str_eqb a HELPREQUEST) eqn:Hh; [eauto|].
  apply dispatch_no_crash; assumption.
Qed.

Section Loop.
Hypothesis HT : crash_free_table = true.
Hypothesis HA : alias_not_help = true.
Variable E : env.
Hypothesis HEnc : forall i line, line_enc E i line.

Lemma process_alive : forall st line, alive (process E st line) = alive st.
Proof.
  intros. unfold process. destruct (answer_no_crash HT HA E (nline st) line) as [pre [r [c H]]].
  rewrite H. rewrite (send_seq_all _ (HEnc _ _ _ _ _ H)). simpl. apply andb_true_r.
Qed.

Lemma fold_alive : forall ls st, alive (fold_left (process E) ls st) = alive st.
Proof. induction ls as [|l ls IH]; intro st; simpl; [reflexivity|]. rewrite IH. apply process_alive. Qed.

Lemma drain_lines : forall n st, alive st = true ->
  drain n E st = let '(ls, r) := split_lines n (buf st) in set_buf (fold_left (process E) ls st) r.
Proof.
  intros n. induction n as [|n IH]; intros st Al; simpl.
  - symmetry. apply set_buf_same.
  - rewrite Al. destruct (get_msg (buf st)) as [[l rest]|] eqn:G.
    + rewrite IH; [|rewrite process_alive; exact Al].
      rewrite process_buf. simpl.
      destruct (split_lines n rest) as [ls r]. simpl.
      rewrite process_set_buf, fold_process_set_buf. reflexivity.
    + simpl. symmetry. apply set_buf_same.
Qed.

Lemma feed_lines : forall st b, alive st = true ->
  feed E st b = let '(ls, r) := lines_of (buf st ++ b) in set_buf (fold_left (process E) ls st) r.
Proof.
  intros st b Al. unfold feed. rewrite Al. rewrite drain_lines by exact Al. simpl buf.
  unfold lines_of. destruct (split_lines (S (length (buf st ++ b))) (buf st ++ b)) as [ls r].
  rewrite fold_process_set_buf. reflexivity.
Qed.

(* between two events the loop is running and the buffer holds no complete line *)
Definition inv (st : conn) : Prop := alive st = true /\ get_msg (buf st) = None.

Lemma feed_inv : forall st b, inv st -> inv (feed E st b).
Proof.
  intros st b [Al _]. rewrite feed_lines by exact Al. pose proof (lines_of_spec (buf st ++ b)) as S.
  destruct (lines_of (buf st ++ b)) as [ls r]. split; simpl; [rewrite fold_alive; exact Al|apply get_msg_none, S].
Qed.

Lemma push_inv : forall st m, inv st -> inv (push st m).
Proof. intros st m [Al G]. unfold push. rewrite Al. destruct (encodable m); split; simpl; assumption. Qed.

Lemma run_inv : forall evs st, inv st -> inv (run E st evs).
Proof.
  intros evs. unfold run. induction evs as [|ev evs IH]; intros st H; simpl; [exact H|].
  apply IH. destruct ev; simpl; [apply feed_inv|apply push_inv]; exact H.
Qed.

Lemma serve_inv : forall evs, inv (serve E evs).
Proof. intros. apply run_inv. split; reflexivity. Qed.

(* however the stream is cut into segments, the connection processes the complete lines of the stream,
   one after the other, and keeps the unterminated rest *)
Lemma run_lines : forall cs st, inv st ->
  run E st (map Chunk cs) =
  let '(ls, r) := lines_of (buf st ++ concat cs) in set_buf (fold_left (process E) ls st) r.
Proof.
  unfold run. induction cs as [|c cs IH]; intros st H; simpl.
  - destruct H as [_ G]. rewrite app_nil_r. unfold lines_of. simpl. rewrite G. symmetry. apply set_buf_same.
  - rewrite IH by (apply feed_inv; exact H). rewrite feed_lines by apply H.
    pose proof (lines_of_app (buf st ++ c) (concat cs)) as L. rewrite <- app_assoc in L.
    destruct (lines_of (buf st ++ c)) as [ls1 r1]. simpl buf.
    destruct (lines_of (r1 ++ concat cs)) as [ls2 r2]. rewrite L, fold_left_app, fold_process_set_buf. reflexivity.
Qed.

Lemma chunking : forall evs0 cs cs', concat cs = concat cs' ->
  run E (serve E evs0) (map Chunk cs) = run E (serve E evs0) (map Chunk cs').
Proof. intros evs0 cs cs' H. rewrite !run_lines by apply serve_inv. rewrite H. reflexivity. Qed.
End Loop.

Lemma process_output : forall E st line pre r c,
  answer E (nline st) line = (OReply pre r, c) -> forallb encodable (pre ++ [r]) = true ->
  output (process E st line) = output st ++ frames pre ++ [encode_frame r].
Proof.
  intros E st line pre r c H He. unfold process, output. rewrite H, (send_seq_all _ He). simpl.
  rewrite rev_app_distr, rev_involutive. unfold frames. rewrite map_app. reflexivity.
Qed.

(* a reply that can not be encoded: the messages before it are sent, the reply is not, and the exception leaves
   the request loop (what happens when json.dumps hands a lone surrogate through to str.encode) *)
Lemma process_unencodable : forall E st line pre r c,
  answer E (nline st) line = (OReply pre r, c) -> forallb encodable pre = true -> encodable r = false ->
  output (process E st line) = output st ++ frames pre /\ alive (process E st line) = false.
Proof.
  intros E st line pre r c H Hp Hr. unfold process, output. rewrite H, (send_seq_stop pre r [] Hp Hr). simpl.
  rewrite rev_app_distr, rev_involutive. split; [reflexivity|apply andb_false_r].
Qed.

Definition assoc_s (k : str) (l : list (str * str)) : option str :=
  option_map snd (find (fun p => str_eqb (fst p) k) l).

Definition error_reply_of (E : env) (i : nat) (a : str) (s : option str) (r : msg) : Prop :=
  exists name, In name (map snd error_names) /\
               r = (ERRORPREFIX ++ a, s, Some (err_data name (lo_err (e_line E i)))).

Definition success_reply_of (a : str) (s : option str) (r : msg) : Prop :=
  exists h, find_handler (alias a) = Some h /\
            fst (fst r) = h_reply h /\
            snd (fst r) = spec_rule (h_rule h) (if str_eqb a IDENTREQUEST then None else s) /\
            (if str_eqb a IDENTREQUEST then h_reply h = IDENTREPLY
             else assoc_s a request2reply = Some (h_reply h)).

Definition reply_ok (E : env) (i : nat) (line : bytes) (r : msg) : Prop :=
  match next_message E line with
  | None =>
      let f := splitsp error_split_max (utf8_dec_repl (bstrip line)) in error_reply_of E i (nth 0%nat f []) (nth_error f 1%nat) r
  | Some (a, s, d) =>
      if str_eqb a HELPREQUEST then r = (HELPREPLY, None, None)
      else error_reply_of E i a s r \/ success_reply_of a s r
  end.

(* facts about the generated tables, checked by computation in Properties.C07_source_facts *)
Definition handlers_match_table : bool :=
  forallb (fun h => negb (Nat.eqb (h_arity h) 3) || Nat.eqb (h_rule h) 3 ||
                    if str_eqb (h_name h) ident_alias then str_eqb (h_reply h) IDENTREPLY
                    else match assoc_s (h_name h) request2reply with
                         | Some r => str_eqb r (h_reply h)
                         | None => false
                         end) handler_table.
Definition is_error_name (n : str) : bool := existsb (str_eqb n) (map snd error_names).
Definition names_closed : bool :=
  is_error_name decode_error_name && is_error_name generic_error_name
  && is_error_name (error_name_of_class unhandled_error_class)
  && is_error_name (error_name_of_class internal_error_class).
(* the internal name the identification request is mapped to is itself guarded: no request action can be equal to it *)
Definition alias_is_internal : bool := is_internal ident_alias.

Lemma is_error_name_in : forall n, is_error_name n = true -> In n (map snd error_names).
Proof.
  intros n H. unfold is_error_name in H. apply existsb_exists in H. destruct H as [x [Hin Hx]].
  apply str_eqb_eq in Hx. subst. exact Hin.
Qed.

Section Classify.
Hypothesis HM : handlers_match_table = true.
Hypothesis HN : names_closed = true.
Hypothesis HI : alias_is_internal = true.

Lemma names_closed_parts :
  In decode_error_name (map snd error_names) /\ In generic_error_name (map snd error_names) /\
  In (error_name_of_class unhandled_error_class) (map snd error_names) /\
  In (error_name_of_class internal_error_class) (map snd error_names).
Proof.
  unfold names_closed in HN. apply andb_true_iff in HN. destruct HN as [H123 H4].
  apply andb_true_iff in H123. destruct H123 as [H12 H3].
  apply andb_true_iff in H12. destruct H12 as [H1 H2].
  repeat split; apply is_error_name_in; assumption.
Qed.

Lemma index_name_in : forall k, In (error_name_of_index k) (map snd error_names).
Proof.
  intro k. unfold error_name_of_index.
  destruct (nth_in_or_default k error_names ([], generic_error_name)) as [Hin|Hd].
  - apply in_map. exact Hin.
  - rewrite Hd. apply names_closed_parts.
Qed.

Lemma err_reply_is_error : forall E i a s name, In name (map snd error_names) ->
  error_reply_of E i a s (err_reply E i a s name).
Proof. intros. exists name. split; [assumption|reflexivity]. Qed.

Lemma dispatch_classified : forall E i a s d pre r c,
  dispatch E i (a, s, d) = (OReply pre r, c) ->
  error_reply_of E i a s r \/ success_reply_of a s r.
Proof.
  intros E i a s d pre r c H. unfold dispatch in H.
  destruct names_closed_parts as [_ [Hg [Hu Hint]]].
  destruct (negb (str_eqb a IDENTREQUEST) && is_internal a) eqn:GI.
  { inversion H; subst. left. apply err_reply_is_error. exact Hint. }
  rewrite alias_triple in H. cbv beta iota in H.
  destruct (find_handler (alias a)) as [h|] eqn:F.
  - destruct (Nat.eqb (h_arity h) 3) eqn:Ar.
    + destruct (lo_h (e_line E i)) as [data sent|k|].
      * destruct (Nat.eqb (h_rule h) 3) eqn:Ru; [discriminate|].
        inversion H; subst. right. exists h. simpl. repeat split; try assumption.
        pose proof (find_handler_some _ _ F) as [Hin Hn].
        unfold handlers_match_table in HM. rewrite forallb_forall in HM. specialize (HM _ Hin).
        rewrite Ar, Ru in HM. simpl in HM. rewrite Hn in HM.
        unfold alias in *. destruct (str_eqb a IDENTREQUEST) eqn:Ei.
        -- rewrite str_eqb_refl in HM. apply str_eqb_eq. exact HM.
        -- simpl in GI. destruct (str_eqb a ident_alias) eqn:Eal.
           ++ apply str_eqb_eq in Eal. subst a. unfold alias_is_internal in HI. rewrite HI in GI. discriminate.
           ++ destruct (assoc_s a request2reply) as [x|]; [|discriminate].
              apply str_eqb_eq in HM. subst. reflexivity.
      * inversion H; subst. left. apply err_reply_is_error. apply index_name_in.
      * inversion H; subst. left. apply err_reply_is_error. exact Hg.
    + inversion H; subst. left. apply err_reply_is_error. exact Hg.
  - inversion H; subst. left. apply err_reply_is_error. exact Hu.
Qed.

Lemma answer_classified : forall E i line pre r c,
  answer E i line = (OReply pre r, c) -> reply_ok E i line r.
Proof.
  intros E i line pre r c H. unfold answer in H. unfold reply_ok.
  destruct (next_message E line) as [[[a s] d]|].
  - destruct (str_eqb a HELPREQUEST).
    + inversion H; subst. reflexivity.
    + eapply dispatch_classified. exact H.
  - inversion H; subst. apply err_reply_is_error. apply names_closed_parts.
Qed.
End Classify.

Lemma nth_upd_same : forall {A} (f : A -> A) n l d, (n < length l)%nat -> nth n (upd n f l) d = f (nth n l d).
Proof.
  intros A f n. induction n as [|n IH]; intros l d H; destruct l as [|x r]; simpl in *; try lia; try reflexivity.
  apply IH. lia.
Qed.

Lemma nth_upd_other : forall {A} (f : A -> A) n k l d, n <> k -> nth k (upd n f l) d = nth k l d.
Proof.
  intros A f n. induction n as [|n IH]; intros k l d H; destruct l as [|x r]; simpl; try reflexivity.
  - destruct k; [congruence|reflexivity].
  - destruct k; [reflexivity|]. apply IH. congruence.
Qed.

Lemma upd_length : forall {A} (f : A -> A) n l, length (upd n f l) = length l.
Proof.
  intros A f n. induction n as [|n IH]; intros l; destruct l as [|x r]; simpl; try reflexivity.
  rewrite IH. reflexivity.
Qed.


(* action and specifier of a request line as decode_msg reads them (surrounding white space ignored, UTF-8),
   whatever the data part looks like *)
Definition request_fields (line : bytes) : option (str * option str) :=
  match utf8_dec (bstrip line) with
  | Some s => let f := splitsp decode_split_max s ++ [[]; []] in Some (nth 0%nat f [], nonempty (nth 1%nat f []))
  | None => None
  end.

Lemma decode_msg_fields : forall E line a s d,
  decode_msg E line = Some (a, s, d) -> request_fields line = Some (a, s).
Proof.
  intros E line a s d H. unfold decode_msg in H. unfold request_fields.
  destruct (utf8_dec (bstrip line)) as [u|]; [|discriminate].
  cbv zeta in *.
  destruct (nth 2%nat (splitsp decode_split_max u ++ [[]; []]) []) as [|x0 l0].
  - inversion H; subst. reflexivity.
  - destruct (e_json E (x0 :: l0)); [|discriminate]. inversion H; subst. reflexivity.
Qed.
