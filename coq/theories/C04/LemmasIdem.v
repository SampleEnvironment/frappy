(* C04 — the second validation is a dead branch on reachable states.
   _setParameterValue validates the payload (import_value + validate(value, previous=cached)) and hands the result to the
   write wrapper, which validates it AGAIN (validate(value), no previous value).  C04_change_refused has a branch for
   "first validation Ok v, second validation Err e".  From a cache that holds arbitrary python values the branch fires
   (wire completes a partial struct from the cached value without looking at the members it takes from there; NonVacuity.v,
   C04_change_refused_applies_second_validation).  Here: from every cache whose values are fixed points of validation
   (cache_st; an invariant of histories by LemmasHist.final_all, closed_stable) the second validation returns exactly the
   value it was given.  Uses the idempotence theorems of the shared datatype model (C01/Idem.v, C01/IdemSmall.v); their
   hypotheses on the datatypes (idem_dt: no negative-zero limit, finite
   relative resolution, distinct enum values; small_grids: scaled grids of realistic size) appear as regular_md. *)
From Coq Require Import ZArith NArith Bool List.
Import ListNotations.
Require Import FV.Base.Util FV.Base.F64 FV.Base.PyVal FV.C01.Model FV.C01.Lemmas FV.C01.IdemDefs FV.C01.Idem FV.C01.IdemSmall.
Require Import FV.C04.Model FV.C04.Lemmas FV.C04.LemmasHist.

Definition regular_md (md : mdesc) : Prop :=
  forall p, In (AParam p) (md_acc md) -> idem_dt (p_dt p) = true /\ small_grids (p_dt p) = true.

(* every cached value of a described parameter is a fixed point of its datatype's validation (C01 stable);
   cache_st md c is LemmasHist.cache_all stable md c *)
Definition cache_st (md : mdesc) (c : cache) : Prop :=
  forall p, In (AParam p) (md_acc md) -> exists x, getp c (p_name p) = Some x /\ stable (p_dt p) x = true.

Lemma regular_md_check md :
  forallb (fun a => match a with AParam p => idem_dt (p_dt p) && small_grids (p_dt p) | ACmd _ => true end) (md_acc md) = true ->
  regular_md md.
Proof. intros H p I. apply andb_prop. exact (params_forallb _ _ H p I). Qed.

Section Idem.
Variable E : pyenv.

Lemma closed_stable md : wf_md md -> regular_md md -> closed E stable md.
Proof.
  intros [W _] G p I. destruct (G p I) as [Gi Gs]. split.
  - intros j prev v P H. exact (proj2 (proj2 (wire_idempotent_small E (p_dt p) (W p I) Gi Gs j prev v P H))).
  - intros r x H. exact (proj2 (proj2 (validate_idempotent_small (p_dt p) (W p I) Gi Gs r PNone x (or_introl eq_refl) H))).
Qed.

(* what the dispatcher's validation returns is a fixed point of the wrapper's validation *)
Theorem second_validation_fix md c p j v : wf_md md -> regular_md md -> cache_st md c -> In (AParam p) (md_acc md) ->
  wire E (p_dt p) j (prev_of c p) = Ok v -> dt_validate (p_dt p) v PNone = Ok v.
Proof.
  intros [W _] G C I Hw. destruct (G p I) as [Gi Gs]. apply res_same_ok_eq.
  exact (proj1 (wire_idempotent_small E (p_dt p) (W p I) Gi Gs j _ v (prev_of_all stable md c p C I) Hw)).
Qed.

End Idem.
