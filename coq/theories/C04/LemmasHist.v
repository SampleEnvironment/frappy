(* C04 — histories: an invariant of the cache (every parameter has a cached value, and Q holds of it) is preserved by every
   request, whatever the driver and the hooks do, as soon as the dispatcher's and the wrapper's validation return Q-values.
   Here Q = membership in the value set of the datatype (cache_ok; soundness theorems of the shared datatype model C01);
   LemmasIdem.v takes Q = fixed point of validation. *)
From Coq Require Import ZArith NArith Bool List.
Import ListNotations.
Require Import FV.Base.Util FV.Base.F64 FV.Base.PyVal FV.C01.Model FV.C01.Lemmas FV.C04.Model FV.C04.Lemmas.

Definition wf_md (md : mdesc) : Prop :=
  (forall p, In (AParam p) (md_acc md) -> wf (p_dt p)) /\
  (forall cm ad, In (ACmd cm) (md_acc md) -> c_arg cm = Some ad -> wf ad).

(* attribute names of a python class are unique *)
Definition names_unique (md : mdesc) : Prop :=
  forall p q, In (AParam p) (md_acc md) -> In (AParam q) (md_acc md) -> p_name p = p_name q -> p = q.

Definition cache_ok (md : mdesc) (c : cache) : Prop :=
  forall p, In (AParam p) (md_acc md) -> exists x, getp c (p_name p) = Some x /\ in_setb (p_dt p) x = true.

(* the invariant in general: every parameter has a cached value, and Q holds of it.  cache_ok md c is cache_all in_setb md c *)
Definition cache_all (Q : dtype -> pyval -> bool) (md : mdesc) (c : cache) : Prop :=
  forall p, In (AParam p) (md_acc md) -> exists x, getp c (p_name p) = Some x /\ Q (p_dt p) x = true.

(* the premises of the history theorems for a concrete module, each reduced to one evaluation *)
Lemma params_forallb (f : param -> bool) accs :
  forallb (fun a => match a with AParam p => f p | ACmd _ => true end) accs = true ->
  forall p, In (AParam p) accs -> f p = true.
Proof. intros H p I. exact (proj1 (forallb_forall _ _) H _ I). Qed.

Lemma cache_all_check Q md c :
  forallb (fun a => match a with
                    | AParam p => match getp c (p_name p) with Some x => Q (p_dt p) x | None => false end
                    | ACmd _ => true
                    end) (md_acc md) = true ->
  cache_all Q md c.
Proof.
  intros H p I. pose proof (params_forallb _ _ H p I) as G. cbn beta in G.
  destruct (getp c (p_name p)) as [x|]; [eauto|discriminate].
Qed.

Lemma wf_md_intro md :
  Forall (fun a => match a with
                   | AParam p => wf (p_dt p)
                   | ACmd cm => match c_arg cm with Some ad => wf ad | None => True end
                   end) (md_acc md) ->
  wf_md md.
Proof.
  intros F. rewrite Forall_forall in F. split.
  - intros p I. exact (F _ I).
  - intros cm ad I A. specialize (F _ I). cbn beta iota in F. rewrite A in F. exact F.
Qed.

(* no later accessible is a parameter of the same name *)
Fixpoint distinct_names (accs : list accessible) : bool :=
  match accs with
  | [] => true
  | AParam p :: r =>
      forallb (fun a => match a with AParam q => negb (str_eqb (p_name p) (p_name q)) | ACmd _ => true end) r &&
      distinct_names r
  | ACmd _ :: r => distinct_names r
  end.

Lemma names_unique_check md : distinct_names (md_acc md) = true -> names_unique md.
Proof.
  unfold names_unique. induction (md_acc md) as [|a r IH]; cbn [distinct_names]; intros D p q Ip Iq N; [contradiction|].
  assert (X : forall p' q', a = AParam p' -> In (AParam q') r -> p_name p' = p_name q' -> False).
  { intros p' q' -> I' N'. apply andb_prop in D. destruct D as [D _].
    pose proof (params_forallb _ _ D q' I') as G. cbn beta in G. rewrite N', str_eqb_refl in G. discriminate. }
  assert (D' : distinct_names r = true) by (destruct a; [apply andb_prop in D; apply D|exact D]).
  destruct Ip as [Ep|Ip], Iq as [Eq|Iq].
  - congruence.
  - destruct (X p q Ep Iq N).
  - destruct (X q p Eq Ip (eq_sym N)).
  - exact (IH D' p q Ip Iq N).
Qed.

(* StructOf/ArrayOf/TupleOf.export_value only refuse a value lacking a mandatory member or carrying an unknown key
   (check_type(value, True) since 45926fd), element-wise.  No value of the declared value set is refused: no condition on
   the datatype is needed, unbounded depth and width. *)
Lemma entry_ok_weaken (Q1 Q2 : dtype -> pyval -> bool) ms p :
  Forall (fun m : str * dtype => forall y, Q1 (snd m) y = true -> Q2 (snd m) y = true) ms ->
  entry_ok Q1 ms p = true -> entry_ok Q2 ms p = true.
Proof.
  destruct p as [k y]. induction 1 as [|[n d1] ms H1 HF IH]; [discriminate|].
  unfold entry_ok in *. cbn [fst snd] in *. destruct (str_eqb k n); [apply H1|exact IH].
Qed.

Lemma exportable_struct ms o c kv :
  exportable (TStruct ms o c) (PDict kv) =
  forallb (fun m : str * dtype => mem_str (fst m) o || mem_str (fst m) (map fst kv)) ms &&
  forallb (entry_ok exportable ms) kv.
Proof. reflexivity. Qed.

Lemma forallb_map_fst {B} (f : str -> bool) (l : list (str * B)) :
  forallb f (map fst l) = forallb (fun m => f (fst m)) l.
Proof. induction l as [|x r IH]; cbn; [reflexivity|]. rewrite IH. reflexivity. Qed.

Theorem in_setb_exportable : forall d x, in_setb d x = true -> exportable d x = true.
Proof.
  induction d using dtype_nested_ind; intros x Hx; try reflexivity.
  - (* array *)
    destruct x; try (cbn in Hx; discriminate). cbn [in_setb] in Hx. cbn [exportable].
    apply andb_prop in Hx. destruct Hx as [_ Hx].
    apply forallb_forall. intros y Hy. apply IHd. exact (proj1 (forallb_forall _ _) Hx y Hy).
  - (* tuple *)
    destruct x; try (cbn in Hx; discriminate). rewrite in_setb_tuple in Hx. cbn [exportable].
    revert l Hx. induction H as [|d1 es Hd HF IH]; intros l Hx; destruct l as [|y l]; try reflexivity.
    cbn [all2] in Hx. apply andb_prop in Hx. destruct Hx as [A B]. rewrite (Hd y A). cbn [andb]. exact (IH l B).
  - (* struct *)
    destruct x; try (cbn in Hx; discriminate). rewrite in_setb_struct in Hx. rewrite exportable_struct.
    apply andb_prop in Hx. destruct Hx as [A B]. apply andb_true_intro. split.
    + rewrite forallb_map_fst in B. exact B.
    + apply forallb_forall. intros p Hp. apply (entry_ok_weaken in_setb exportable ms p H).
      exact (proj1 (forallb_forall _ _) A p Hp).
Qed.

Lemma prev_of_all Q md c p : cache_all Q md c -> In (AParam p) (md_acc md) ->
  prev_of c p = PNone \/ Q (p_dt p) (prev_of c p) = true.
Proof. intros C I. unfold prev_of. destruct (C p I) as (x & -> & S). right. exact S. Qed.

Section Hist.
Variable E : pyenv.
Variable hook : nat -> pyval -> cache -> hres.

Notation handle := (handle E hook).
Notation run := (run E hook).
Notation step := (step E hook).
Notation final := (final E hook).

(* Q is kept by the two sources of stored values: the dispatcher's validation (given a previous value that is None or
   satisfies Q) and the wrapper's validation *)
Definition closed (Q : dtype -> pyval -> bool) (md : mdesc) : Prop :=
  forall p, In (AParam p) (md_acc md) ->
    (forall j prev v, prev = PNone \/ Q (p_dt p) prev = true -> wire E (p_dt p) j prev = Ok v -> Q (p_dt p) v = true) /\
    (forall r x, dt_validate (p_dt p) r PNone = Ok x -> Q (p_dt p) x = true).

Lemma closed_in_setb md : wf_md md -> closed in_setb md.
Proof.
  intros [W _] p I. split.
  - intros j prev v P H. exact (wire_sound E (p_dt p) (W p I) j prev v P H).
  - intros r x H. exact (validate_sound (p_dt p) (W p I) r PNone x (or_introl eq_refl) H).
Qed.

Lemma handle_stores Q md c rq : closed Q md -> cache_all Q md c ->
  (o_upd (handle md c rq) = [] /\ o_cache (handle md c rq) = c) \/
  exists p x dl hl, In (AParam p) (md_acc md) /\ Q (p_dt p) x = true /\ handle md c rq = store p x c dl hl.
Proof.
  intros K C. destruct (handle_outcome E hook md c rq) as [H|(_ & p & v & x & dl & hl & Hp & Ho & Hx)]; [left; exact H|].
  right. apply pre_change_inr in Hp. destruct Hp as (_ & Hl & _ & _ & Hw).
  destruct (lookup_export_in _ _ _ Hl) as (_ & I & _). destruct (K p I) as [Kw Kv].
  exists p, x, dl, hl. split; [exact I|split; [|exact Ho]].
  destruct Hx as [->|(r & Hr)]; [|exact (Kv r x Hr)].
  exact (Kw _ _ _ (prev_of_all Q md c p C I) Hw).
Qed.

Lemma cache_all_setp Q md c p x : names_unique md -> cache_all Q md c -> In (AParam p) (md_acc md) ->
  Q (p_dt p) x = true -> cache_all Q md (setp c (p_name p) x).
Proof.
  intros U C I S q Iq. rewrite getp_setp. destruct (str_eqb (p_name q) (p_name p)) eqn:Hn.
  - apply str_eqb_eq in Hn. rewrite (U q p Iq I Hn). eauto.
  - apply C, Iq.
Qed.

Theorem step_all Q md c rq : closed Q md -> names_unique md -> cache_all Q md c -> cache_all Q md (step md c rq).
Proof.
  intros K U C. unfold Model.step.
  destruct (handle_stores Q md c rq K C) as [[_ ->]|(p & x & dl & hl & I & S & ->)]; [exact C|].
  rewrite store_cache. apply cache_all_setp; assumption.
Qed.

Theorem final_all Q md : closed Q md -> names_unique md -> forall rqs c, cache_all Q md c -> cache_all Q md (final md c rqs).
Proof.
  intros K U. unfold Model.final. induction rqs as [|rq r IH]; cbn; intros c C; [exact C|].
  apply IH. apply step_all; assumption.
Qed.

Lemma run_reach Q md : closed Q md -> names_unique md -> forall rqs c, cache_all Q md c ->
  forall o, In o (run md c rqs) -> exists c' rq, cache_all Q md c' /\ In rq rqs /\ o = handle md c' rq.
Proof.
  intros K U. induction rqs as [|rq r IH]; cbn; intros c C o Ho; [contradiction|].
  destruct Ho as [<-|Ho].
  - exists c, rq. auto.
  - destruct (IH _ (step_all Q md c rq K U C) o Ho) as (c' & rq' & A & B & D). exists c', rq'. auto.
Qed.

End Hist.
