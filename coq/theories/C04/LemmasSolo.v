(* C04 — the concurrent model restricted to one uninterrupted thread IS the sequential write wrapper of Model.v: a direct
   call write_<p>(v) run to its end from a state with a free lock produces exactly the driver calls, hook calls, updates,
   result and cache of Model.write_wrapper.  (Ties the concurrent layer to the model all other C04 theorems are about.) *)
From Coq Require Import ZArith NArith Bool List Lia.
Import ListNotations.
Require Import FV.Base.Util FV.Base.F64 FV.Base.PyVal FV.C01.Model FV.C04.Model FV.C04.Lemmas FV.C04.ConcModel FV.C04.LemmasConc.

(* projections of a label list onto the components of Model.out *)
Definition drvs_of (ls : list label) : list call :=
  flat_map (fun l => match l with LDrv p _ nv _ => [Write (p_name p) nv] | _ => [] end) ls.
Definition hooks_of (ls : list label) : list (nat * pyval) :=
  flat_map (fun l => match l with LHook i v => [(i, v)] | _ => [] end) ls.
Definition upds_of (ls : list label) : list (str * pyval) :=
  flat_map (fun l => match l with LUpd pn x => [(pn, x)] | _ => [] end) ls.
Definition ends_of (ls : list label) : list (option ecls) :=
  flat_map (fun l => match l with LEnd r => [r] | _ => [] end) ls.

Definition same_out (c' : cache) (ls : list label) (o : out) : Prop :=
  c' = o_cache o /\ drvs_of ls = o_drv o /\ hooks_of ls = o_hooks o /\ upds_of ls = o_upd o /\ ends_of ls = [o_reply o].

Section Solo.
Variable E : pyenv.
Variable hook : nat -> pyval -> cache -> hres.
Variable md : mdesc.

(* the transition system with validation and checks under the accessLock (inside = true) *)
Notation tstep := (tstep E hook true md).

(* thread t alone, k steps *)
Fixpoint tsteps (k t : nat) (c : cache) (o : option nat) (th : thread) : option (cache * option nat * thread * list label) :=
  match k with
  | O => Some (c, o, th, [])
  | S k' =>
      match tstep t c o th with
      | None => None
      | Some (c1, o1, th1, l1) =>
          match tsteps k' t c1 o1 th1 with
          | None => None
          | Some (c2, o2, th2, l2) => Some (c2, o2, th2, l1 ++ l2)
          end
      end
  end.

(* the part of write_wrapper after validation and checks *)
Definition wtail (p : param) (v nv : pyval) (c : cache) (d : drv) (hl : list (nat * pyval)) : out :=
  if p_haswrite p then
    let dl := [Write (p_name p) nv] in
    match drv_norm d with
    | DDone => {| o_reply := None; o_drv := dl; o_hooks := hl; o_upd := []; o_cache := c |}
    | DNone => store p v c dl hl
    | DVal r =>
        match dt_validate (p_dt p) r PNone with
        | Ok x => store p x c dl hl
        | Err e => fail c (of_exc e) dl hl
        end
    | DRaise e => fail c e dl hl
    end
  else store p nv c [] hl.

Lemma write_wrapper_split p v c d :
  write_wrapper hook p v c d =
  match dt_validate (p_dt p) v PNone with
  | Err e => fail c (of_exc e) [] []
  | Ok nv =>
      match snd (run_checks hook (p_checks p) (p_name p) v c) with
      | Some e => fail c e [] (fst (run_checks hook (p_checks p) (p_name p) v c))
      | None => wtail p v nv c d (fst (run_checks hook (p_checks p) (p_name p) v c))
      end
  end.
Proof.
  unfold write_wrapper, wtail. destruct (dt_validate (p_dt p) v PNone) as [nv|e]; [|reflexivity].
  destruct (run_checks hook (p_checks p) (p_name p) v c) as [hl [e|]]; reflexivity.
Qed.

Definition fail_or_tail (w : wop) (nv : pyval) (c : cache) (hl : list (nat * pyval)) (oe : option err) : out :=
  match oe with
  | Some e => fail c e [] hl
  | None => wtail (w_p w) (w_v w) nv c (w_drv w) hl
  end.

(* what is claimed about the rest of an operation: final cache, labels and the out record o agree, the hook calls made so
   far being hl0 *)
Definition agrees (hl0 : list (nat * pyval)) (r : cache * option nat * thread * list label) (todo : list top) (o : out) : Prop :=
  let '(c', o', th', ls) := r in
  t_pc th' = PIdle /\ t_todo th' = todo /\ o' = None /\
  c' = o_cache o /\ drvs_of ls = o_drv o /\ hl0 ++ hooks_of ls = o_hooks o /\ upds_of ls = o_upd o /\ ends_of ls = [o_reply o].

Lemma agrees_cons hl0 c' o' th' ls todo o x :
  drvs_of [x] = [] -> hooks_of [x] = [] -> upds_of [x] = [] -> ends_of [x] = [] ->
  agrees hl0 (c', o', th', ls) todo o -> agrees hl0 (c', o', th', x :: ls) todo o.
Proof.
  intros A B C D H. destruct x; try discriminate; exact H.
Qed.

Lemma agrees_hook hl0 i v r todo o :
  agrees (hl0 ++ [(i, v)]) r todo o ->
  agrees hl0 (let '(c2, o2, th2, l2) := r in (c2, o2, th2, [LHook i v] ++ l2)) todo o.
Proof.
  destruct r as [[[c2 o2] th2] l2]. unfold agrees. intros (A & B & C & D & F & G & H & I).
  cbn. rewrite <- app_assoc in G. cbn in G. repeat split; auto.
Qed.

Lemma agrees_auto hl0 v r todo o :
  agrees hl0 r todo o -> agrees hl0 (let '(c2, o2, th2, l2) := r in (c2, o2, th2, [LAuto v] ++ l2)) todo o.
Proof. destruct r as [[[c2 o2] th2] l2]. unfold agrees. cbn. auto. Qed.

(* in the state r (cache, lock, thread, labels already emitted in the current step) thread t alone ends the operation
   within n further steps, and everything agrees with o *)
Definition finishes (t n : nat) (hl0 : list (nat * pyval)) (r : cache * option nat * thread * list label)
    (todo : list top) (o : out) : Prop :=
  let '(c, ow, th, l) := r in
  exists k r2, k <= n /\ tsteps k t c ow th = Some r2 /\
    agrees hl0 (let '(c2, o2, th2, l2) := r2 in (c2, o2, th2, l ++ l2)) todo o.

Lemma finishes_now t n hl0 r todo o : agrees hl0 r todo o -> finishes t n hl0 r todo o.
Proof.
  destruct r as [[[c ow] th] l]. intros A. exists 0, (c, ow, th, []). rewrite app_nil_r. split; [lia|split; [reflexivity|exact A]].
Qed.

(* one step emitting x first; what x does to the claim is a parameter *)
Lemma finishes_step t n hl0 hl1 c ow th x c1 o1 th1 l1 todo o :
  tstep t c ow th = Some (c1, o1, th1, x :: l1) ->
  (forall r2, agrees hl1 r2 todo o -> agrees hl0 (let '(c2, o2, th2, l2) := r2 in (c2, o2, th2, [x] ++ l2)) todo o) ->
  finishes t n hl1 (c1, o1, th1, l1) todo o -> finishes t (S n) hl0 (c, ow, th, []) todo o.
Proof.
  intros T X (k & [[[c2 o2] th2] l2] & K & T2 & A).
  exists (S k), (c2, o2, th2, (x :: l1) ++ l2). split; [lia|]. cbn [tsteps]. rewrite T, T2. split; [reflexivity|].
  exact (X (c2, o2, th2, l1 ++ l2) A).
Qed.

(* one step that ends the operation with an error in front of the driver *)
Lemma finishes_fail t n hl0 c ow th x e todo :
  tstep t c ow th = Some (c, None, {| t_pc := PIdle; t_todo := todo |}, [x; LEnd (Some (report e))]) ->
  drvs_of [x] = [] -> upds_of [x] = [] -> ends_of [x] = [] ->
  finishes t (S n) hl0 (c, ow, th, []) todo (fail c e [] (hl0 ++ hooks_of [x])).
Proof.
  intros T A B C. exists 1. eexists. split; [lia|]. cbn [tsteps]. rewrite T. split; [reflexivity|].
  destruct x; try discriminate; cbn; rewrite ?app_nil_r; repeat split.
Qed.

(* the cases below are closed by computing both sides: the labels of the step and the fields of the out record *)
Lemma drv_run t w nv c todo hl0 :
  w_req w = false -> p_haswrite (w_p w) = true ->
  finishes t 1 hl0 (c, Some t, {| t_pc := PDrv w nv; t_todo := todo |}, []) todo (wtail (w_p w) (w_v w) nv c (w_drv w) hl0).
Proof.
  intros R W. exists 1. cbn [tsteps]. unfold ConcModel.tstep, drv_step, wtail, do_store, store, finish.
  cbn [t_pc t_todo]. rewrite R, W.
  destruct (drv_norm (w_drv w)) as [| |r|e]; [| |destruct (dt_validate (p_dt (w_p w)) r PNone)|];
    try (destruct (p_export (w_p w)); [destruct (exportable (p_dt (w_p w)) _)|]);
    eexists; (split; [lia|]); (split; [reflexivity|]); cbn; rewrite ?app_nil_r; repeat split.
Qed.

Lemma after_run t w nv c todo hl0 :
  w_req w = false ->
  let '(c1, o1, q1, l1) := after_checks w nv c t in
  finishes t 1 hl0 (c1, o1, {| t_pc := q1; t_todo := todo |}, l1) todo (wtail (w_p w) (w_v w) nv c (w_drv w) hl0).
Proof.
  intros R. unfold after_checks. destruct (p_haswrite (w_p w)) eqn:W; [apply drv_run; assumption|].
  unfold do_store, wtail, store, finish. rewrite R, W.
  destruct (p_export (w_p w)); [destruct (exportable (p_dt (w_p w)) nv)|];
    apply finishes_now; cbn; rewrite ?app_nil_r; repeat split.
Qed.

(* the check loop from `rest` on; hl0 = the hook calls made so far *)
Lemma chk_run t w nv c todo : w_req w = false -> forall rest hl0,
  let '(c1, o1, q1, l1) := next_pc true w nv rest c (Some t) t in
  finishes t (length rest + 1) hl0 (c1, o1, {| t_pc := q1; t_todo := todo |}, l1) todo
    (fail_or_tail w nv c (hl0 ++ fst (run_checks hook rest (p_name (w_p w)) (w_v w) c))
                  (snd (run_checks hook rest (p_name (w_p w)) (w_v w) c))).
Proof.
  intros R. induction rest as [|k r IH]; intros hl0.
  { cbn [run_checks fst snd fail_or_tail next_pc]. rewrite app_nil_r. apply after_run, R. }
  cbn [next_pc length Nat.add].
  destruct k as [|i]; cbn [run_checks].
  - destruct (check_limits (p_name (w_p w)) (w_v w) c) as [[]|e] eqn:CL.
    2: { cbn [fst snd fail_or_tail]. apply finishes_fail with (x := LAuto (w_v w)); [|reflexivity..].
         unfold ConcModel.tstep, check_step. cbn [t_pc t_todo]. rewrite CL. reflexivity. }
    specialize (IH hl0). destruct (next_pc true w nv r c (Some t) t) as [[[c1 o1] q1] l1] eqn:NP.
    eapply finishes_step.
    + unfold ConcModel.tstep, check_step. cbn [t_pc t_todo]. rewrite CL, NP. reflexivity.
    + intros r2. apply agrees_auto.
    + exact IH.
  - destruct (hook i (w_v w) c) as [| |e] eqn:H.
    3: { cbn [fst snd fail_or_tail]. apply finishes_fail with (x := LHook i (w_v w)); [|reflexivity..].
         unfold ConcModel.tstep, check_step. cbn [t_pc t_todo]. rewrite H. reflexivity. }
    + specialize (IH (hl0 ++ [(i, w_v w)])). destruct (run_checks hook r (p_name (w_p w)) (w_v w) c) as [l0 oe].
      cbn [fst snd]. rewrite <- app_assoc in IH.
      destruct (next_pc true w nv r c (Some t) t) as [[[c1 o1] q1] l1] eqn:NP.
      eapply finishes_step.
      * unfold ConcModel.tstep, check_step. cbn [t_pc t_todo]. rewrite H, NP. reflexivity.
      * intros r2. apply agrees_hook.
      * exact IH.
    + pose proof (after_run t w nv c todo (hl0 ++ [(i, w_v w)]) R) as A. cbn [fst snd fail_or_tail].
      destruct (after_checks w nv c t) as [[[c1 o1] q1] l1] eqn:AC.
      eapply finishes_step.
      * unfold ConcModel.tstep, check_step. cbn [t_pc t_todo next_pc]. rewrite H, AC. reflexivity.
      * intros r2. apply agrees_hook.
      * destruct A as (k & r2 & K & A). exists k, r2. split; [lia|exact A].
Qed.

(* a direct call write_<p>(v), alone, from a state with a free lock, run to its end *)
Lemma solo_write t c p v d todo :
  finishes t (length (p_checks p) + 2) [] (c, None, {| t_pc := PIdle; t_todo := TWrite p v d :: todo |}, []) todo
           (write_wrapper hook p v c d).
Proof.
  rewrite write_wrapper_split, Nat.add_succ_r. set (w := {| w_p := p; w_v := v; w_drv := d; w_req := false |}).
  destruct (dt_validate (p_dt p) v PNone) as [nv|e] eqn:V.
  - pose proof (chk_run t w nv c todo eq_refl (p_checks p) []) as C.
    destruct (next_pc true w nv (p_checks p) c (Some t) t) as [[[c1 o1] q1] l1] eqn:NP.
    eapply finishes_step.
    + unfold ConcModel.tstep, begin_op, enter. cbn [t_pc t_todo w_p w_v]. rewrite V. fold w. rewrite NP. reflexivity.
    + intros [[[c2 o2] th2] l2]. apply agrees_cons; reflexivity.
    + exact C.
  - apply finishes_fail with (x := LAcq); [|reflexivity..].
    unfold ConcModel.tstep, begin_op, enter. cbn [t_pc t_todo w_p w_v]. rewrite V. reflexivity.
Qed.

(* k steps of thread t alone are the run under the schedule t, ..., t *)
Lemma tsteps_crun t k : forall st th r acc,
  nth_error (cs_threads st) t = Some th -> tsteps k t (cs_cache st) (cs_owner st) th = Some r ->
  let '(c', o', th', ls) := r in
  fold_left (crun_step E hook true md) (repeat t k) (st, acc) =
  ({| cs_cache := c'; cs_owner := o'; cs_threads := set_nth t th' (cs_threads st) |}, acc ++ ls).
Proof.
  induction k as [|k IH]; intros st th r acc N; cbn [tsteps repeat fold_left].
  - intros H. injection H as <-. rewrite (set_nth_id _ _ _ N), app_nil_r. destruct st; reflexivity.
  - destruct (tstep t (cs_cache st) (cs_owner st) th) as [[[[c1 o1] th1] l1]|] eqn:TS; [|discriminate].
    set (st1 := {| cs_cache := c1; cs_owner := o1; cs_threads := set_nth t th1 (cs_threads st) |}).
    specialize (IH st1 th1). cbn [st1 cs_cache cs_owner cs_threads] in IH.
    destruct (tsteps k t c1 o1 th1) as [[[[c2 o2] th2] l2]|]; [|discriminate].
    intros H. injection H as <-.
    assert (CS : cstep E hook true md st t = Some (st1, l1)) by (unfold cstep; rewrite N, TS; reflexivity).
    rewrite crun_step_pair, CS, (IH _ (acc ++ l1) (nth_set_nth_same _ _ _ _ N) eq_refl), set_nth_twice, app_assoc. reflexivity.
Qed.

End Solo.
