(* C04 — No invalid, forbidden or out-of-limit request ever reaches the driver.  The property theorems, each proved
   from the lemmas of Lemmas.v (one request), LemmasHist.v / LemmasIdem.v (histories), LemmasConc.v / LemmasSolo.v (threads).

   Quantification: md over ALL module descriptions (any accessibles, datatypes, flags, check chains), c over all caches
   (= all prior histories, in particular all positions of the dynamic limits), rq over all requests (any payload, any
   scripted driver behaviour: returns None / Done / any read-back value / raises), E over all int()/b64decode tables,
   hook over ALL user check_<p> functions of (value, module state).

   Full property and what is proved:
   (safe)     driver called  =>  names exist and are exported, parameter writable, payload valid (wire = import + validate
              with the cached value, then the wrapper's own validate), whole check chain passed, exactly one call with
              exactly that value                                            -- C04_change_safe, C04_do_safe (unconditional;
              Command.do passes the validated argument since fix 1c127f9: no exception left)
   (checks)   "check chain passed" means: every check_<p> of the MRO up to the first hook that returns True holds, and the
              generated limit check enforces every existing <p>_min/_max/_limits   -- C04_checks_respected,
              C04_limits_respected (every layout, also <p>_limits together with <p>_min/_max since fix e1c174f)
   (refused)  otherwise error report chosen by the first failing test, cache and subscribers untouched, driver not called
              -- C04_change_refused, C04_do_refused (a do specifier without ':' is answered ProtocolError since fix
              8821998), C04_refusal_class,
              C04_error_clean (NO exception: from every state reachable from a cache whose values lie in their value
              sets, any error reply -- also after the driver ran -- leaves cache and subscribers alone; rests on
              C04_validated_values_export: a value of the declared value set always exports), C04_error_clean_step,
              C04_history_error_outputs, C04_reply_always_built, C04_success_announced; for ARBITRARY caches (no
              invariant assumed) C04_error_clean_except_unexportable keeps the explicit exception, and
              C04_error_clean_exportable is its special case for modules without struct-typed parameters
   (history)  lifted over every request sequence from every cache whose values lie in their value sets
              -- C04_history_invariant, C04_history_write_values, C04_history_call_values
   (current)  "satisfies the module's CURRENT dynamic limits and check hooks": with any number of threads calling write
              wrappers of the module (connection threads through the dispatcher, internal threads directly), under every
              schedule, the check chain passes on the cache of the very moment the driver is invoked
              -- C04_limits_current_at_driver_call, C04_wrapper_exclusive, C04_cache_changed_by_lock_owner_only; the
              obligation on the source (checks inside `with self.accessLock:`) is wrapper_body_under_access_lock, and
              C04_refuted_checks_outside_lock shows the statement fails for the variant with the checks before the lock *)
From Coq Require Import ZArith NArith Bool List.
Import ListNotations.
Require Import FV.Gen.C04 FV.Base.F64 FV.Base.PyVal FV.C01.Model FV.C01.Lemmas.
Require Import FV.C01.IdemDefs FV.C04.LemmasIdem.
Require Import FV.C04.Model FV.C04.Lemmas FV.C04.LemmasHist FV.C04.ConcModel FV.C04.LemmasConc FV.C04.LemmasSolo FV.C04.Refuted.

(* obligations on the facts regenerated from /repo (Gen/C04.v): the order of the tests in _setParameterValue /
   _execute_command / Command.do / the write wrapper / checkLimits, the export map, the error mapping of handle() *)
Theorem C04_source_facts :
  set_parameter_order = true /\ execute_command_order = true /\ handle_change_shape = true /\ handle_do_shape = true /\
  command_do_shape = true /\ write_wrapper_shape = true /\ wrapper_body_under_access_lock = true /\
  check_funcs_from_mro = true /\ check_limits_shape = true /\
  export_map_shape = true /\ announce_store_then_emit = true /\ handler_error_mapping = true /\ error_class_names = true.
Proof. repeat split; reflexivity. Qed.

(* a change request that reaches the driver (or succeeds without write method) passed every test, and the driver is
   called exactly once with exactly the validated value *)
Theorem C04_change_safe : forall E hook md c rq,
  let o := handle_change E hook md c rq in
  o_drv o <> [] \/ o_reply o = None ->
  exists p v w,
    rq_mod rq = md_name md /\ md_export md = true /\ In (AParam p) (md_acc md) /\ p_export p = Some (ename rq) /\
    p_readonly p = false /\ p_constant p = false /\
    wire E (p_dt p) (rq_data rq) (prev_of c p) = Ok v /\
    dt_validate (p_dt p) v PNone = Ok w /\
    checks_pass hook p v c /\
    o_drv o = (if p_haswrite p then [Write (p_name p) w] else []).
Proof.
  intros E hook md c rq o H. destruct (change_called E hook md c rq H) as (p & v & w & Hp & Hv & Hk & Hd).
  apply pre_change_inr in Hp. destruct Hp as (Hm & Hl & Hc & Hr & Hw).
  destruct (lookup_export_in _ _ _ Hl) as (He & Hi & Hx). exists p, v, w. repeat split; assumption.
Qed.

(* what a passed check chain guarantees: all checks before the first hook that returns True hold; if no hook returns
   True, all hooks of the MRO returned without exception and the generated limit check (if present) succeeded *)
Theorem C04_checks_respected : forall hook p v c,
  checks_pass hook p v c ->
  (exists pre post, p_checks p = pre ++ post /\ Forall (check_holds hook (p_name p) v c) pre /\
                    (post = [] \/ exists i r, post = CkUser i :: r /\ hook i v c = HStop)) /\
  ((forall i, In (CkUser i) (p_checks p) -> hook i v c <> HStop) ->
   Forall (check_holds hook (p_name p) v c) (p_checks p)).
Proof.
  intros hook p v c H. split; [apply run_checks_prefix, H|apply run_checks_all, H].
Qed.

(* the generated limit check enforces every existing limit parameter, for all layouts (also <p>_limits together with
   <p>_min/<p>_max), and refuses everything while <p>_min > <p>_max *)
Theorem C04_limits_respected : forall pn v c,
  check_limits pn v c = Ok tt -> limits_respected pn v c /\ not_inverted pn c.
Proof. exact check_limits_respected. Qed.

Theorem C04_limits_respected_int : forall pn z c, limits_respected pn (PInt z) c ->
  (forall l h, getp c (pn ++ s_limits) = Some (PTuple [PInt l; PInt h]) -> (l <= z <= h)%Z) /\
  (forall l, getp c (pn ++ s_min) = Some (PInt l) -> (l <= z)%Z) /\
  (forall h, getp c (pn ++ s_max) = Some (PInt h) -> (z <= h)%Z).
Proof.
  intros pn z c (A & B & C). split; [|split].
  - intros l h G. destruct (A _ _ G) as [H1 H2]. rewrite py_le_int in H1, H2. injection H1 as H1. injection H2 as H2.
    split; apply Z.leb_le; assumption.
  - intros l G. specialize (B _ G). rewrite py_lt_int in B. injection B as B. apply Z.ltb_ge, B.
  - intros h G. specialize (C _ G). rewrite py_gt_int in C. injection C as C. apply Z.ltb_ge, C.
Qed.

(* a failing check chain was stopped by a check that does not hold *)
Theorem C04_check_refusal_justified : forall hook cks pn v c e,
  snd (run_checks hook cks pn v c) = Some e -> exists k, In k cks /\ ~ check_holds hook pn v c k.
Proof.
  intros hook cks pn v c e H. destruct (run_checks_spec hook cks pn v c) as (pre & post & -> & _ & T).
  rewrite H in T. destruct T as (k & r & -> & N). exists k. split; [apply in_or_app; right; left; reflexivity|exact N].
Qed.

(* refusal: the first failing test chooses the report; fail c e [] hl = error reply of class (report e), no driver call,
   no update, cache unchanged *)
Theorem C04_change_refused : forall E hook md c rq,
  let o := handle_change E hook md c rq in
  (rq_mod rq <> md_name md -> o = fail c (ESecop NoSuchModule) [] []) /\
  (rq_mod rq = md_name md -> (forall p, lookup_export md (ename rq) <> Some (AParam p)) ->
     o = fail c (ESecop NoSuchParameter) [] []) /\
  (forall p, rq_mod rq = md_name md -> lookup_export md (ename rq) = Some (AParam p) ->
     (p_constant p || p_readonly p = true -> o = fail c (ESecop ReadOnly) [] []) /\
     (p_constant p || p_readonly p = false ->
        (forall e, wire E (p_dt p) (rq_data rq) (prev_of c p) = Err e -> o = fail c (of_exc e) [] []) /\
        (forall v, wire E (p_dt p) (rq_data rq) (prev_of c p) = Ok v ->
           (forall e, dt_validate (p_dt p) v PNone = Err e -> o = fail c (of_exc e) [] []) /\
           (forall nv hl e, dt_validate (p_dt p) v PNone = Ok nv ->
              run_checks hook (p_checks p) (p_name p) v c = (hl, Some e) -> o = fail c e [] hl)))).
Proof.
  intros E hook md c rq. unfold handle_change. cbn zeta. fold (ename rq). split; [|split].
  - intros N. destruct (str_eqb (rq_mod rq) (md_name md)) eqn:Hm; [|reflexivity].
    apply str_eqb_eq in Hm. contradiction.
  - intros -> N. rewrite str_eqb_refl. cbn [negb].
    destruct (lookup_export md (ename rq)) as [[p|cm]|] eqn:Hl; try reflexivity. exfalso. apply (N p). reflexivity.
  - intros p Hm Hl. rewrite Hm, str_eqb_refl, Hl. cbn [negb]. fold (prev_of c p). split.
    + intros H. destruct (p_constant p); [reflexivity|]. cbn in H. rewrite H. reflexivity.
    + intros H. apply orb_false_elim in H. destruct H as [H1 H2]. rewrite H1, H2. split.
      * intros e W. rewrite W. reflexivity.
      * intros v W. rewrite W. unfold write_wrapper. split.
        -- intros e V. rewrite V. reflexivity.
        -- intros nv hl e V K. rewrite V, K. reflexivity.
Qed.

Theorem C04_fail_shape : forall c e hl,
  o_reply (fail c e [] hl) = Some (report e) /\ untouched c (fail c e [] hl).
Proof. intros. repeat split. Qed.

(* an accessible without wire name (export = False, or unexported module) is never found *)
Theorem C04_only_exported_found : forall md e a,
  lookup_export md e = Some a -> md_export md = true /\ In a (md_acc md) /\ acc_export a = Some e.
Proof. exact lookup_export_in. Qed.

(* a payload refused by the datatype is answered WrongType or RangeError (guard = C01 totality guard) *)
Theorem C04_refusal_class : forall E d j prev e,
  wire_guard E d j prev = true -> wire E d j prev = Err e ->
  report (of_exc e) = WrongType \/ report (of_exc e) = RangeError.
Proof. exact wire_refusal_class. Qed.

(* full statement: any error reply (also one caused by the driver or by its read-back value) leaves cache and subscribers
   alone.  Proved with one explicit exception: the value was stored and then cannot be exported.  Until fix 45926fd that
   happened for every nested struct lacking an optional member (finding nested-optional-struct-stored-then-error, now
   repaired); since then exportable only fails for a value lacking a MANDATORY member or carrying an unknown key, which
   validation never returns.  This form assumes NOTHING about the cache (it may hold values outside the value sets); the
   full-strength form over reachable states, without exception, is C04_error_clean below. *)
Theorem C04_error_clean_except_unexportable : forall E hook md c rq,
  o_reply (handle E hook md c rq) <> None ->
  (o_upd (handle E hook md c rq) = [] /\ o_cache (handle E hook md c rq) = c) \/
  (rq_act rq = AChange /\ exists p, lookup_export md (ename rq) = Some (AParam p) /\
     stored_unexportable p c (handle E hook md c rq)).
Proof.
  intros E hook md c rq R.
  destruct (handle_outcome E hook md c rq) as [H|(A & p & v & x & dl & hl & Hp & Ho & _)]; [left; exact H|right].
  split; [exact A|]. exists p. split; [apply (pre_change_inr E md c rq p v Hp)|]. rewrite Ho in *.
  destruct (store_reply p x c dl hl) as [(N & _)|(N & U & _ & X)]; [contradiction|].
  exists x. rewrite store_cache. auto.
Qed.

(* special case, arbitrary cache: modules all of whose parameter types export EVERY python value, i.e. modules without
   struct-typed parameter (for a struct type the premise is false: NonVacuity.v,
   C04_error_clean_exportable_premise_false_for_struct_params); C04_error_clean below needs no such premise. *)
Theorem C04_error_clean_exportable : forall E hook md c rq,
  (forall p x, In (AParam p) (md_acc md) -> exportable (p_dt p) x = true) ->
  o_reply (handle E hook md c rq) <> None ->
  o_upd (handle E hook md c rq) = [] /\ o_cache (handle E hook md c rq) = c.
Proof.
  intros E hook md c rq X R.
  destruct (C04_error_clean_except_unexportable E hook md c rq R) as [H|(_ & p & Hl & x & Hx & _)]; [exact H|].
  destruct (lookup_export_in _ _ _ Hl) as (_ & Hi & _). rewrite (X p x Hi) in Hx. discriminate.
Qed.

(* validated values always export: StructOf/ArrayOf/TupleOf.export_value (check_type(value, True), element-wise) refuse
   no value of the declared value set -- every datatype tree (no wf needed), unbounded depth and width.  With C01
   validate_sound: whatever validate returns exports. *)
Theorem C04_validated_values_export : forall d x, in_setb d x = true -> exportable d x = true.
Proof. exact in_setb_exportable. Qed.

Theorem C04_validate_result_exports : forall d, wf d -> forall v prev r,
  prev_ok d prev -> dt_validate d v prev = Ok r -> exportable d r = true.
Proof. intros d W v prev r P H. apply in_setb_exportable. exact (validate_sound d W v prev r P H). Qed.

(* one request on a cache whose values lie in their value sets: ANY error reply (refused by name / flag / datatype / check
   chain, driver raised, read-back value invalid) leaves cache and subscribers alone.  No exception. *)
Theorem C04_error_clean_step : forall E hook md c rq, wf_md md -> cache_ok md c ->
  o_reply (handle E hook md c rq) <> None ->
  o_upd (handle E hook md c rq) = [] /\ o_cache (handle E hook md c rq) = c.
Proof.
  intros E hook md c rq W C R.
  destruct (handle_stores E hook in_setb md c rq (closed_in_setb E md W) C) as [H|(p & x & dl & hl & _ & S & Ho)]; [exact H|].
  destruct R. rewrite Ho. destruct (store_reply p x c dl hl) as [(N & _)|(_ & _ & _ & X)]; [exact N|].
  rewrite (in_setb_exportable _ _ S) in X. discriminate.
Qed.

(* FULL statement over histories: c' ranges over every state reachable by ANY request sequence pre (any payloads, any
   driver behaviour, any hooks) from any cache_ok cache (cache_ok is established at start-up and preserved:
   C04_history_invariant); rq is any request. *)
Theorem C04_error_clean : forall E hook md, wf_md md -> names_unique md -> forall pre c rq, cache_ok md c ->
  let c' := final E hook md c pre in
  o_reply (handle E hook md c' rq) <> None ->
  o_upd (handle E hook md c' rq) = [] /\ o_cache (handle E hook md c' rq) = c'.
Proof.
  intros E hook md W U pre c rq C. cbn zeta. apply C04_error_clean_step; [exact W|].
  exact (final_all E hook in_setb md (closed_in_setb E md W) U pre c C).
Qed.

(* the same read off the output list of a history: an output with an error reply carries no update and its cache is the
   cache the request started from *)
Theorem C04_history_error_outputs : forall E hook md, wf_md md -> names_unique md -> forall rqs c, cache_ok md c ->
  forall o, In o (run E hook md c rqs) -> o_reply o <> None ->
  o_upd o = [] /\ exists c' rq, cache_ok md c' /\ In rq rqs /\ o = handle E hook md c' rq /\ o_cache o = c'.
Proof.
  intros E hook md W U rqs c C o Ho R.
  destruct (run_reach E hook in_setb md (closed_in_setb E md W) U rqs c C o Ho) as (c' & rq & C' & Hr & ->).
  destruct (C04_error_clean_step E hook md c' rq W C' R) as [A B]. split; [exact A|]. exists c', rq. auto.
Qed.

(* "return pobj.export_value()" of _setParameterValue never fails from a cache_ok cache: the reply of a change request is
   the result of the write wrapper (the WrongType branch of reply_export is dead on reachable states) *)
Theorem C04_reply_always_built : forall hook md c p v d, wf_md md -> cache_ok md c -> In (AParam p) (md_acc md) ->
  in_setb (p_dt p) v = true -> reply_export p (write_wrapper hook p v c d) = write_wrapper hook p v c d.
Proof.
  intros hook md c p v d [W _] C I S.
  destruct (reply_export_cases p (write_wrapper hook p v c d)) as [H|(_ & _ & x & G & X)]; [exact H|]. exfalso.
  assert (Sx : in_setb (p_dt p) x = true).
  { destruct (write_wrapper_outcome hook p v c d) as [[_ Ec]|(y & dl & hl & Ec & Hy)]; rewrite Ec in G.
    - destruct (C p I) as (x0 & G0 & S0). congruence.
    - rewrite store_cache, getp_setp_same in G. injection G as <-. destruct Hy as [->|(r & Hr)]; [exact S|].
      exact (validate_sound (p_dt p) (W p I) r PNone y (or_introl eq_refl) Hr). }
  rewrite (in_setb_exportable _ _ Sx) in X. discriminate.
Qed.

(* the dead branch of C04_change_refused.  _setParameterValue validates the payload (with the cached value as previous
   value) and the write wrapper validates the result again; C04_change_refused has a case "first validation Ok v, second
   validation Err e".  That case fires only from a cache holding values that validation would not return (NonVacuity.v,
   C04_change_refused_applies_second_validation).  In every state reachable from a cache whose values are fixed points
   of validation (cache_st; C01 stable) the second validation returns exactly its argument, and the driver receives
   exactly the value the dispatcher's validation produced.  regular_md = the hypotheses of the C01 idempotence theorems on
   every parameter type (idem_dt: no negative-zero limit, finite relative resolution, distinct enum values; small_grids:
   scaled grids of realistic size -- beyond them C01/Refuted.v has a counterexample to idempotence). *)
Theorem C04_second_validation_never_fails : forall E hook md, wf_md md -> regular_md md -> names_unique md ->
  forall pre c, cache_st md c ->
  let c' := final E hook md c pre in
  forall rq p v, lookup_export md (ename rq) = Some (AParam p) ->
    wire E (p_dt p) (rq_data rq) (prev_of c' p) = Ok v ->
    dt_validate (p_dt p) v PNone = Ok v /\
    (o_drv (handle_change E hook md c' rq) <> [] -> o_drv (handle_change E hook md c' rq) = [Write (p_name p) v]).
Proof.
  intros E hook md W G U pre c C. cbn zeta.
  pose proof (final_all E hook stable md (closed_stable E md W G) U pre c C) as C'. revert C'.
  generalize (final E hook md c pre). intros c' C' rq p v Hl Hw.
  destruct (lookup_export_in _ _ _ Hl) as (_ & Hi & _).
  pose proof (second_validation_fix E md c' p _ v W G C' Hi Hw) as Hv. split; [exact Hv|]. intros N.
  destruct (change_called E hook md c' rq (or_introl N)) as (p' & v' & w & Hp & Hv' & _ & Hd).
  apply pre_change_inr in Hp. destruct Hp as (_ & Hl' & _ & _ & Hw').
  rewrite Hl in Hl'. injection Hl' as <-. rewrite Hw in Hw'. injection Hw' as <-. rewrite Hv in Hv'. injection Hv' as <-.
  rewrite Hd in *. destruct (p_haswrite p); [reflexivity|destruct N; reflexivity].
Qed.

Theorem C04_fixed_point_cache_invariant : forall E hook md, wf_md md -> regular_md md -> names_unique md ->
  forall rqs c, cache_st md c -> cache_st md (final E hook md c rqs).
Proof. intros E hook md W G. exact (final_all E hook stable md (closed_stable E md W G)). Qed.

(* a success reply: nothing changed (driver said Done) or exactly one value stored, announced once, and exportable *)
Theorem C04_success_announced : forall hook p v c d,
  o_reply (write_wrapper hook p v c d) = None ->
  (o_upd (write_wrapper hook p v c d) = [] /\ o_cache (write_wrapper hook p v c d) = c) \/
  (exists x, o_cache (write_wrapper hook p v c d) = setp c (p_name p) x /\
             o_upd (write_wrapper hook p v c d) = match p_export p with Some _ => [(p_name p, x)] | None => [] end /\
             (p_export p <> None -> exportable (p_dt p) x = true)).
Proof.
  intros hook p v c d R. destruct (write_wrapper_outcome hook p v c d) as [H|(x & dl & hl & Ho & _)]; [left; exact H|right].
  rewrite Ho in *. destruct (store_reply p x c dl hl) as [(_ & U & X)|(N & _)]; [|congruence].
  exists x. rewrite store_cache. auto.
Qed.

(* commands: the function is called only for an existing exported command with a present, importable and valid argument
   (or no argument where none is declared), exactly once, with exactly the validated argument *)
Theorem C04_do_safe : forall E md c rq,
  let o := handle_do E md c rq in
  o_drv o <> [] \/ o_reply o = None ->
  exists en cm w,
    rq_acc rq = Some en /\ rq_mod rq = md_name md /\ md_export md = true /\ In (ACmd cm) (md_acc md) /\
    c_export cm = Some en /\ arg_ok E cm (rq_data rq) w /\ o_drv o = [Call (c_name cm) w].
Proof.
  intros E md c rq o H. destruct (do_called E md c rq H) as (en & cm & w & Ha & Hm & Hl & A & D).
  destruct (lookup_export_in _ _ _ Hl) as (He & Hi & Hx). exists en, cm, w. repeat split; assumption.
Qed.

(* every refused do request gets ProtocolError (no ':' in the specifier) / NoSuchModule / NoSuchCommand / WrongType /
   RangeError, and nothing is touched *)
Theorem C04_do_refused : forall E md c rq,
  let o := handle_do E md c rq in
  (rq_acc rq = None -> o = fail c (ESecop ProtocolError) [] []) /\
  (forall en, rq_acc rq = Some en ->
     (rq_mod rq <> md_name md -> o = fail c (ESecop NoSuchModule) [] []) /\
     (rq_mod rq = md_name md -> (forall cm, lookup_export md en <> Some (ACmd cm)) ->
        o = fail c (ESecop NoSuchCommand) [] []) /\
     (forall cm, rq_mod rq = md_name md -> lookup_export md en = Some (ACmd cm) ->
        (forall w, ~ arg_ok E cm (rq_data rq) w) ->
        untouched c o /\ exists cl, o_reply o = Some cl /\
          (arg_guard E cm (rq_data rq) = true -> cl = WrongType \/ cl = RangeError))).
Proof.
  intros E md c rq. unfold handle_do. cbn zeta. split; [intros ->; reflexivity|].
  intros en ->. split; [|split].
  - intros N. destruct (str_eqb (rq_mod rq) (md_name md)) eqn:Hm; [|reflexivity].
    apply str_eqb_eq in Hm. contradiction.
  - intros -> N. rewrite str_eqb_refl. cbn [negb].
    destruct (lookup_export md en) as [[p|cm]|] eqn:Hl; try reflexivity. exfalso. apply (N cm). reflexivity.
  - intros cm Hm Hl Hn. rewrite Hm, str_eqb_refl, Hl. cbn [negb]. rewrite do_cmd_prep.
    destruct (prep_arg E cm (rq_data rq)) as [e|w] eqn:P; [|destruct (Hn w (prep_arg_inr E cm _ w P))].
    split; [repeat split|]. exists (report e). split; [reflexivity|exact (prep_arg_inl E cm _ e P)].
Qed.

Theorem C04_do_clean : forall E md c rq, o_upd (handle_do E md c rq) = [] /\ o_cache (handle_do E md c rq) = c.
Proof. intros E md c rq. exact (do_clean E md c rq). Qed.

(* histories: from any cache whose values lie in their value sets, after any request sequence (any drivers, any hooks)
   the cache still does; every write_<p> call of the whole history is for an exported, writable parameter and carries a
   value of its value set; every command call carries a value of the argument's value set *)
Theorem C04_history_invariant : forall E hook md, wf_md md -> names_unique md ->
  forall rqs c, cache_ok md c -> cache_ok md (final E hook md c rqs).
Proof. intros E hook md W. exact (final_all E hook in_setb md (closed_in_setb E md W)). Qed.

Theorem C04_history_write_values : forall E hook md, wf_md md -> names_unique md -> forall rqs c, cache_ok md c ->
  forall o pn w, In o (run E hook md c rqs) -> In (Write pn w) (o_drv o) ->
  exists p, In (AParam p) (md_acc md) /\ p_name p = pn /\ p_export p <> None /\ md_export md = true /\
            p_readonly p = false /\ p_constant p = false /\ p_haswrite p = true /\
            in_setb (p_dt p) w = true /\ o_drv o = [Write pn w].
Proof.
  intros E hook md W U rqs c C o pn w Ho Hw.
  destruct (run_reach E hook in_setb md (closed_in_setb E md W) U rqs c C o Ho) as (c' & rq & _ & _ & ->).
  destruct (handle_called E hook md c' rq _ Hw) as (Hd & p & v & Hp & Hv & _ & Hh & <-).
  apply pre_change_inr in Hp. destruct Hp as (_ & Hl & Hc & Hr & _).
  destruct (lookup_export_in _ _ _ Hl) as (He & Hi & Hx). cbn in Hx.
  exists p. repeat split; auto; [congruence|].
  exact (validate_sound (p_dt p) (proj1 W p Hi) v PNone w (or_introl eq_refl) Hv).
Qed.

Theorem C04_history_call_values : forall E hook md, wf_md md -> names_unique md -> forall rqs c, cache_ok md c ->
  forall o cn w, In o (run E hook md c rqs) -> In (Call cn w) (o_drv o) ->
  exists cm, In (ACmd cm) (md_acc md) /\ c_name cm = cn /\ c_export cm <> None /\ md_export md = true /\
             o_drv o = [Call cn w] /\
             match c_arg cm with Some ad => in_setb ad w = true | None => w = PTuple [] end.
Proof.
  intros E hook md W U rqs c C o cn w Ho Hw.
  destruct (run_reach E hook in_setb md (closed_in_setb E md W) U rqs c C o Ho) as (c' & rq & _ & _ & ->).
  destruct (handle_called E hook md c' rq _ Hw) as (Hd & en & cm & _ & Hl & Ha & <-).
  destruct (lookup_export_in _ _ _ Hl) as (He & Hi & Hx). cbn in Hx.
  exists cm. repeat split; auto; [congruence|].
  unfold arg_ok in Ha. destruct (c_arg cm) as [ad|] eqn:Hc; [|apply Ha].
  destruct Ha as (_ & a & _ & Hv). exact (validate_sound ad (proj2 W cm ad Hi Hc) a PNone w (or_introl eq_refl) Hv).
Qed.

(* demo objects *)
Definition E0 : pyenv := {| int_of := []; b64_of := [] |}.
Definition no_hooks : nat -> pyval -> cache -> hres := fun _ _ _ => HNone.
Definition s_m : str := [109%N].
Definition s_a : str := [97%N].
Definition s__a : str := [95%N; 97%N].
Definition p_a (cks : list check) : param :=
  {| p_name := s_a; p_export := Some s__a; p_dt := TInt 0 10; p_readonly := false; p_constant := false;
     p_haswrite := true; p_checks := cks |}.

(* non-vacuity: a module with a : int 0..10 (write method, generated limit check) and a_max; the limit is moved to 4,
   then 5 is refused with RangeError without touching anything, 4 reaches the driver exactly once *)
Definition s_amax : str := s_a ++ s_max.
Definition demo_md : mdesc :=
  {| md_name := s_m; md_export := true;
     md_acc := [AParam (p_a [CkAuto]);
                AParam {| p_name := s_amax; p_export := Some (95%N :: s_amax); p_dt := TInt 0 10; p_readonly := false;
                          p_constant := false; p_haswrite := false; p_checks := [] |}] |}.
Definition chg (acc : str) (z : Z) : request :=
  {| rq_act := AChange; rq_mod := s_m; rq_acc := Some acc; rq_data := PInt z; rq_drv := DNone |}.
Example C04_demo :
  map (fun o => (o_reply o, o_drv o, o_upd o))
      (run E0 no_hooks demo_md [(s_a, PInt 1); (s_amax, PInt 10)] [chg (95%N :: s_amax) 4; chg s__a 5; chg s__a 4]) =
  [(None, [], [(s_amax, PInt 4)]); (Some RangeError, [], []); (None, [Write s_a (PInt 4)], [(s_a, PInt 4)])].
Proof. vm_compute. reflexivity. Qed.
Example C04_demo_wf : wf_md demo_md /\ names_unique demo_md /\ cache_ok demo_md [(s_a, PInt 1); (s_amax, PInt 10)].
Proof.
  split; [apply wf_md_intro; repeat constructor|].
  split; [apply names_unique_check|apply (cache_all_check in_setb)]; vm_compute; reflexivity.
Qed.

(* regression of the repaired defects: with a_limits = (0, 10) AND a_min = 5 the value 3 is refused; "do m" is a
   protocol error *)
Example C04_demo_both_kinds :
  check_limits s_a (PInt 3) [(s_a ++ s_limits, PTuple [PInt 0; PInt 10]); (s_a ++ s_min, PInt 5)] = Err ERange /\
  check_limits s_a (PInt 7) [(s_a ++ s_limits, PTuple [PInt 0; PInt 10]); (s_a ++ s_min, PInt 5)] = Ok tt /\
  o_reply (handle E0 no_hooks demo_md [] {| rq_act := ADo; rq_mod := s_m; rq_acc := None; rq_data := PNone; rq_drv := DNone |})
    = Some ProtocolError.
Proof. vm_compute. repeat split. Qed.

(* non-vacuity of C04_error_clean: the type of the former finding, ArrayOf(StructOf(b=IntRange(0,5), optional=['b'])).
   [{"b":1},{}] lies in the value set and exports; after it was stored (a reachable state that is not the initial one) a
   request whose driver raises, one whose read-back value is invalid and one with an invalid payload are answered with
   an error; cache and subscribers are left alone.  The premises hold for this module (demo2_premises). *)
Definition s_b : str := [98%N].
Definition d_opt : dtype := TArray (TStruct [(s_b, TInt 0 5)] [s_b] false) 0 3.
Definition demo2_md : mdesc :=
  {| md_name := s_m; md_export := true;
     md_acc := [AParam {| p_name := s_a; p_export := Some s__a; p_dt := d_opt; p_readonly := false; p_constant := false;
                          p_haswrite := true; p_checks := [] |}] |}.
Definition demo2_c0 : cache := [(s_a, PTuple [])].
Definition v_opt : pyval := PList [PDict [(s_b, PInt 1)]; PDict []].
Definition chg2 (v : pyval) (d : drv) : request :=
  {| rq_act := AChange; rq_mod := s_m; rq_acc := Some s__a; rq_data := v; rq_drv := d |}.
Example demo2_premises : wf_md demo2_md /\ names_unique demo2_md /\ cache_ok demo2_md demo2_c0.
Proof.
  split; [apply wf_md_intro; repeat constructor|].
  split; [apply names_unique_check|apply (cache_all_check in_setb)]; vm_compute; reflexivity.
Qed.
Example demo2_value_exports :
  in_setb d_opt (PTuple [PDict [(s_b, PInt 1)]; PDict []]) = true /\
  exportable d_opt (PTuple [PDict [(s_b, PInt 1)]; PDict []]) = true /\
  exportable d_opt (PTuple [PDict [(s_a, PInt 1)]]) = false.
Proof. vm_compute. repeat split. Qed.
Example demo2_reached_state :
  final E0 no_hooks demo2_md demo2_c0 [chg2 v_opt DNone] = [(s_a, PTuple [PDict [(s_b, PInt 1)]; PDict []])] /\
  map (fun o => (o_reply o, o_upd o)) (run E0 no_hooks demo2_md demo2_c0 [chg2 v_opt DNone]) =
    [(None, [(s_a, PTuple [PDict [(s_b, PInt 1)]; PDict []])])].
Proof. vm_compute. split; reflexivity. Qed.
Example demo2_error_replies :
  map (fun rq => o_reply (handle E0 no_hooks demo2_md (final E0 no_hooks demo2_md demo2_c0 [chg2 v_opt DNone]) rq))
      [chg2 (PList [PDict []]) (DRaise (ESecop HardwareError)); chg2 (PList []) (DVal (PList [PDict [(s_b, PInt 9)]]));
       chg2 (PList [PDict [(s_a, PInt 1)]]) DNone] =
  [Some HardwareError; Some RangeError; Some WrongType].
Proof. vm_compute. reflexivity. Qed.
Example C04_error_clean_applies (rq : request) :=
  let (W, UC) := demo2_premises in let (U, C) := UC in
  C04_error_clean E0 no_hooks demo2_md W U [chg2 v_opt DNone] demo2_c0 rq C.

(* progs: ANY number of threads, each with ANY sequence of operations (direct calls write_<p>(v) of any parameter with
   any value and driver behaviour, change requests with any payload); sched: ANY schedule (a list of thread numbers; a
   thread that is not enabled -- finished, or waiting for the accessLock -- is skipped); c0: any initial cache; hook: any
   user check functions.  crun ... true = the transition system with validation and check loop under the accessLock
   (source fact wrapper_body_under_access_lock).  LDrv p v nv c is emitted exactly when write_<p>(nv) is invoked, c being
   the module's cache at that step.  Then: nv is the validated wrapper argument v, the WHOLE check chain of p passes on c
   (meaning: C04_checks_respected), in particular the generated limit check: every existing <p>_min/_max/_limits held in
   the cache at the moment of the driver call is respected. *)
Theorem C04_limits_current_at_driver_call : forall E hook md c0 progs sched p v nv c,
  In (LDrv p v nv c) (snd (crun E hook true md (cinit c0 progs) sched)) ->
  dt_validate (p_dt p) v PNone = Ok nv /\ checks_pass hook p v c /\
  ((forall i, In (CkUser i) (p_checks p) -> hook i v c <> HStop) -> In CkAuto (p_checks p) ->
   limits_respected (p_name p) v c /\ not_inverted (p_name p) c).
Proof.
  intros E hook md c0 progs sched p v nv c H. destruct (crun_inv E hook md c0 progs sched) as [_ L].
  rewrite Forall_forall in L. destruct (L _ H) as [V P]. split; [exact V|split; [exact P|]].
  intros NS A. pose proof (run_checks_all hook _ _ _ _ P NS) as F. rewrite Forall_forall in F.
  apply check_limits_respected, (F _ A).
Qed.

(* in every reachable state at most one thread is inside a wrapper of the module, and it owns the accessLock *)
Theorem C04_wrapper_exclusive : forall E hook md c0 progs sched t u tht thu,
  let st := fst (crun E hook true md (cinit c0 progs) sched) in
  nth_error (cs_threads st) t = Some tht -> nth_error (cs_threads st) u = Some thu ->
  in_wrapper (t_pc tht) = true -> in_wrapper (t_pc thu) = true -> t = u /\ cs_owner st = Some t.
Proof.
  intros E hook md c0 progs sched t u tht thu. cbn zeta. destruct (crun_inv E hook md c0 progs sched) as [I _]. intros A B X Y.
  pose proof (tinv_owner hook _ _ _ _ X (I _ _ A)) as OA. pose proof (tinv_owner hook _ _ _ _ Y (I _ _ B)) as OB.
  rewrite OA in OB. injection OB as <-. auto.
Qed.

(* from every reachable state: a step that changes the cache is a step of the lock owner, or of a thread that found the
   lock free (takes it, stores and releases within the step) *)
Theorem C04_cache_changed_by_lock_owner_only : forall E hook md c0 progs sched t st' l,
  let st := fst (crun E hook true md (cinit c0 progs) sched) in
  cstep E hook true md st t = Some (st', l) -> cs_cache st' <> cs_cache st ->
  cs_owner st = None \/ cs_owner st = Some t.
Proof.
  intros E hook md c0 progs sched t st' l. cbn zeta. intros S D.
  destruct (cstep_inv E hook md _ t st' l (proj1 (crun_inv E hook md c0 progs sched)) S) as (_ & _ & [F|F]); [contradiction|exact F].
Qed.

(* the strict run the correspondence evaluates (every observed step must be enabled) is such a run *)
Theorem C04_followed_run_is_a_run : forall E hook inside md st sched fin ls,
  cfollow E hook inside md st sched = Some (fin, ls) -> crun E hook inside md st sched = (fin, ls).
Proof.
  intros E hook inside md st sched fin ls H. unfold crun. rewrite (cfollow_is_crun _ _ _ _ _ _ [] _ _ H). reflexivity.
Qed.

(* the concurrent layer contains the sequential model: a thread that is idle, whose next operation is a direct call
   write_<p>(v), finds the lock free and is scheduled alone at most |check chain| + 2 times, has then finished the call,
   and final cache, driver calls, hook calls, updates and result are exactly those of Model.write_wrapper (the function
   C04_change_safe ... C04_history_write_values are about).  drvs_of/hooks_of/upds_of/ends_of project the labels. *)
Theorem C04_single_thread_is_sequential_wrapper : forall E hook md st t p v d todo,
  nth_error (cs_threads st) t = Some {| t_pc := PIdle; t_todo := TWrite p v d :: todo |} -> cs_owner st = None ->
  exists k ls, k <= length (p_checks p) + 2 /\
    crun E hook true md st (repeat t k) =
      ({| cs_cache := o_cache (write_wrapper hook p v (cs_cache st) d); cs_owner := None;
          cs_threads := set_nth t {| t_pc := PIdle; t_todo := todo |} (cs_threads st) |}, ls) /\
    drvs_of ls = o_drv (write_wrapper hook p v (cs_cache st) d) /\
    hooks_of ls = o_hooks (write_wrapper hook p v (cs_cache st) d) /\
    upds_of ls = o_upd (write_wrapper hook p v (cs_cache st) d) /\
    ends_of ls = [o_reply (write_wrapper hook p v (cs_cache st) d)].
Proof.
  intros E hook md st t p v d todo N O.
  destruct (solo_write E hook md t (cs_cache st) p v d todo) as (k & [[[c' o'] [q td]] ls] & K & T & A).
  rewrite <- O in T. pose proof (tsteps_crun E hook md t k st _ _ [] N T) as F.
  destruct A as (A1 & A2 & A3 & A4 & A5 & A6 & A7 & A8). cbn in A1, A2. subst.
  exists k, ls. repeat split; assumption.
Qed.

(* the request step of the concurrent model (pre_change) is Model.handle_change cut in front of the wrapper call *)
Theorem C04_request_is_pre_change_then_wrapper : forall E hook md c rq,
  handle_change E hook md c rq =
  match pre_change E md c rq with
  | inl e => fail c e [] []
  | inr (p, v) => reply_export p (write_wrapper hook p v c (rq_drv rq))
  end.
Proof. exact handle_change_pre. Qed.

(* why the source fact is an obligation: with validation and checks BEFORE the lock is taken, two threads and six steps
   suffice for a driver invocation whose value violates the limit held in the cache at that moment *)
Theorem C04_refuted_checks_outside_lock :
  exists E hook md c0 progs sched p v nv c e,
    In (LDrv p v nv c) (snd (crun E hook false md (cinit c0 progs) sched)) /\
    In CkAuto (p_checks p) /\ check_limits (p_name p) v c = Err e.
Proof. exact Refuted.C04_refuted_checks_outside_lock. Qed.

(* non-vacuity: thread 0 handles "change m:_a 5", thread 1 calls write_a_max(4) directly; thread 1 gets the lock first:
   the request is refused; thread 0 first: thread 1 has to wait, the driver sees 5 with a_max = 10 *)
Definition demo_progs : list (list top) :=
  [[TReq (chg s__a 5)]; [TWrite (p_a [CkAuto]) (PInt 3) DNone;
                         TWrite {| p_name := s_amax; p_export := Some (95%N :: s_amax); p_dt := TInt 0 10; p_readonly := false;
                                   p_constant := false; p_haswrite := false; p_checks := [] |} (PInt 4) DNone]].
Definition demo_c0 : cache := [(s_a, PInt 1); (s_amax, PInt 10)].
Example C04_demo_conc_limit_first :
  snd (crun E0 no_hooks true demo_md (cinit demo_c0 demo_progs) [1; 1; 1; 1; 0; 0; 0]%nat) =
  [LAcq; LAuto (PInt 3); LDrv (p_a [CkAuto]) (PInt 3) (PInt 3) demo_c0; LUpd s_a (PInt 3); LEnd None;
   LAcq; LUpd s_amax (PInt 4); LEnd None;
   LReq; LAcq; LAuto (PInt 5); LEnd (Some RangeError)].
Proof. vm_compute. reflexivity. Qed.
Example C04_demo_conc_request_first :
  snd (crun E0 no_hooks true demo_md (cinit demo_c0 demo_progs) [0; 0; 1; 0; 1; 0; 1; 1; 1; 1]%nat) =
  [LReq; LAcq; LAuto (PInt 5); LDrv (p_a [CkAuto]) (PInt 5) (PInt 5) demo_c0; LUpd s_a (PInt 5); LEnd None;
   LAcq; LAuto (PInt 3); LDrv (p_a [CkAuto]) (PInt 3) (PInt 3) [(s_a, PInt 5); (s_amax, PInt 10)]; LUpd s_a (PInt 3); LEnd None;
   LAcq; LUpd s_amax (PInt 4); LEnd None].
Proof. vm_compute. reflexivity. Qed.

Print Assumptions C04_source_facts.
Print Assumptions C04_change_safe.
Print Assumptions C04_checks_respected.
Print Assumptions C04_limits_respected.
Print Assumptions C04_limits_respected_int.
Print Assumptions C04_check_refusal_justified.
Print Assumptions C04_change_refused.
Print Assumptions C04_fail_shape.
Print Assumptions C04_only_exported_found.
Print Assumptions C04_refusal_class.
Print Assumptions C04_error_clean_except_unexportable.
Print Assumptions C04_error_clean_exportable.
Print Assumptions C04_validated_values_export.
Print Assumptions C04_validate_result_exports.
Print Assumptions C04_error_clean_step.
Print Assumptions C04_error_clean.
Print Assumptions C04_history_error_outputs.
Print Assumptions C04_reply_always_built.
Print Assumptions C04_second_validation_never_fails.
Print Assumptions C04_fixed_point_cache_invariant.
Print Assumptions C04_success_announced.
Print Assumptions C04_do_safe.
Print Assumptions C04_do_refused.
Print Assumptions C04_do_clean.
Print Assumptions C04_history_invariant.
Print Assumptions C04_history_write_values.
Print Assumptions C04_history_call_values.
Print Assumptions C04_limits_current_at_driver_call.
Print Assumptions C04_wrapper_exclusive.
Print Assumptions C04_cache_changed_by_lock_owner_only.
Print Assumptions C04_followed_run_is_a_run.
Print Assumptions C04_single_thread_is_sequential_wrapper.
Print Assumptions C04_request_is_pre_change_then_wrapper.
Print Assumptions C04_refuted_checks_outside_lock.
