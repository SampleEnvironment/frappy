(* C04 — vacuity audit: every theorem of Properties.v that has premises is APPLIED here at one concrete, non-trivial
   instance with all premises discharged by computation:
     - sequential: a module of the kind harness/props/C04.py builds -- int parameter a (write method, user hook
       "value > self.a_max: raise RangeError" above the generated limit check), limit parameters a_max and a_limits,
       a struct parameter with an optional member, a readonly parameter, a command with int argument and one without
       argument -- a cache holding a value for every parameter, and a history of 16 requests (accepted, refused by hook /
       limit / datatype / name / readonly, do requests, driver raising);
     - concurrent: three threads (two connection threads handling change requests, one internal thread calling two write
       wrappers directly), a schedule in which all three take steps and two of them are made to wait for the accessLock.
     - two cases built by the harness itself (hc: rand_case, sequential; hcc: corpus case, two real threads), encoded by
       harness/props/C04.py: the premises of the history theorems and of C04_limits_current_at_driver_call hold for them.
   `Example x := T args proofs` is a direct application of theorem T: its type is the conclusion of T at the instance.
   Two statements about the scope of theorems are proved as well:
     - the premise of C04_error_clean_exportable (forall x, exportable ...) is false for every module with a struct-typed
       parameter (C04_error_clean_exportable_premise_false_for_struct_params);
     - the branch "wire Ok, second validation Err" of C04_change_refused fires only from a cache that is not cache_ok
       (C04_change_refused_applies_second_validation).
   The theorems that hold without these restrictions are applied at the end of the file: C04_error_clean /
   C04_error_clean_step / C04_history_error_outputs / C04_reply_always_built / C04_validated_values_export at the module
   WITH the struct parameter, in a state reached by six requests, to requests that fail after the driver ran;
   C04_second_validation_never_fails and C04_fixed_point_cache_invariant at the same module (its premises regular_md /
   cache_st hold). *)
From Coq Require Import ZArith NArith Bool List Lia.
Import ListNotations.
Require Import FV.Gen.C04 FV.Base.Util FV.Base.F64 FV.Base.PyVal FV.C01.Model FV.C01.Lemmas.
Require Import FV.C01.IdemDefs FV.C04.LemmasIdem.
Require Import FV.C04.Model FV.C04.Lemmas FV.C04.LemmasHist FV.C04.ConcModel FV.C04.LemmasConc FV.C04.LemmasSolo
  FV.C04.Run FV.C04.Properties.

Definition n_m : str := [109%N].
Definition n_a : str := [97%N].
Definition n_amax : str := n_a ++ s_max.
Definition n_alim : str := n_a ++ s_limits.
Definition n_s : str := [115%N].
Definition n_r : str := [114%N].
Definition n_f : str := [102%N].
Definition n_go : str := [103%N; 111%N].
Definition n_stop : str := [115%N; 116%N; 111%N; 112%N].
Definition ka : str := [107%N; 97%N].
Definition kb : str := [107%N; 98%N].
Definition us (s : str) : str := 95%N :: s.

Definition pa : param :=
  {| p_name := n_a; p_export := Some (us n_a); p_dt := TInt 0 10; p_readonly := false; p_constant := false;
     p_haswrite := true; p_checks := [CkUser 0; CkAuto] |}.
Definition pamax : param :=
  {| p_name := n_amax; p_export := Some (us n_amax); p_dt := TInt 0 10; p_readonly := false; p_constant := false;
     p_haswrite := false; p_checks := [] |}.
Definition palim : param :=
  {| p_name := n_alim; p_export := Some (us n_alim); p_dt := TTuple [TInt 0 10; TInt 0 10]; p_readonly := false;
     p_constant := false; p_haswrite := false; p_checks := [] |}.
Definition d_s : dtype := TStruct [(ka, TInt 0 5); (kb, TBool)] [kb] false.
Definition ps : param :=
  {| p_name := n_s; p_export := Some (us n_s); p_dt := d_s;
     p_readonly := false; p_constant := false; p_haswrite := true; p_checks := [CkUser 1; CkUser 2] |}.
Definition pr : param :=
  {| p_name := n_r; p_export := Some (us n_r); p_dt := TBool; p_readonly := true; p_constant := false;
     p_haswrite := false; p_checks := [] |}.
Definition cgo : command := {| c_name := n_go; c_export := Some n_go; c_arg := Some (TInt 0 5); c_res := None |}.
Definition cstop : command := {| c_name := n_stop; c_export := Some n_stop; c_arg := None; c_res := Some TBool |}.
Definition nv_md : mdesc :=
  {| md_name := n_m; md_export := true;
     md_acc := [AParam pa; AParam pamax; AParam palim; AParam ps; AParam pr; ACmd cgo; ACmd cstop] |}.
(* the hooks, built the way Run.check_case builds them: 0 = "if value > self.a_max: raise RangeError",
   1 = "return True" (stops the chain), 2 = "raise ValueError" (never reached behind hook 1) *)
Definition nv_hook := hook_of [(0%nat, (HcGt n_amax, HaRange)); (1%nat, (HcAlways, HaStop)); (2%nat, (HcAlways, HaPy))].
Definition nv_c : cache :=
  [(n_a, PInt 1); (n_amax, PInt 6); (n_alim, PTuple [PInt 2; PInt 8]); (n_s, PDict [(ka, PInt 1)]); (n_r, PBool true)].
Definition nv_E : pyenv := {| int_of := []; b64_of := [] |}.
Definition chgr (acc : str) (v : pyval) (d : drv) : request :=
  {| rq_act := AChange; rq_mod := n_m; rq_acc := Some acc; rq_data := v; rq_drv := d |}.
Definition dor (acc : option str) (v : pyval) (d : drv) : request :=
  {| rq_act := ADo; rq_mod := n_m; rq_acc := acc; rq_data := v; rq_drv := d |}.

Definition hist : list request :=
  [chgr (us n_a) (PInt 4) DNone;                                   (* 0  accepted, write_a(4) *)
   chgr (us n_a) (PInt 7) DNone;                                   (* 1  hook 0: 7 > a_max = 6 *)
   chgr (us n_amax) (PInt 3) DNone;                                (* 2  the limit is moved *)
   chgr (us n_a) (PInt 4) DNone;                                   (* 3  now refused *)
   chgr (us n_alim) (PList [PInt 3; PInt 9]) DNone;                (* 4 *)
   chgr (us n_s) (PDict [(ka, PInt 2); (kb, PBool true)]) (DVal (PDict [(ka, PInt 3)]));   (* 5  read-back value stored *)
   chgr (us n_r) (PBool false) DNone;                              (* 6  ReadOnly *)
   chgr (us n_a) (PStr ka) DNone; chgr (us n_a) (PInt 11) DNone;   (* 7, 8  WrongType, RangeError *)
   dor (Some n_go) (PInt 3) DNone; dor (Some n_go) (PInt 9) DNone; dor (Some n_go) PNone DNone;   (* 9, 10, 11 *)
   dor (Some n_stop) PNone (DVal (PBool true)); dor None PNone DNone;                          (* 12, 13 *)
   chgr (us n_a) (PInt 3) (DRaise (ESecop HardwareError));         (* 14 driver raises *)
   chgr (us n_a) (PInt 2) (DVal (PInt 3))].                        (* 15 below a_limits *)

Example nv_hist_outcomes :
  map (fun o => (o_reply o, o_drv o)) (run nv_E nv_hook nv_md nv_c hist) =
  [(None, [Write n_a (PInt 4)]); (Some RangeError, []); (None, []); (Some RangeError, []); (None, []);
   (None, [Write n_s (PDict [(ka, PInt 2); (kb, PBool true)])]); (Some ReadOnly, []); (Some WrongType, []);
   (Some RangeError, []); (None, [Call n_go (PInt 3)]); (Some RangeError, []); (Some WrongType, []);
   (None, [Call n_stop (PTuple [])]); (Some ProtocolError, []); (Some HardwareError, [Write n_a (PInt 3)]);
   (Some RangeError, [])].
Proof. vm_compute. reflexivity. Qed.

Definition rq_ok := chgr (us n_a) (PInt 4) DNone.
Lemma nv_change_prem : o_drv (handle_change nv_E nv_hook nv_md nv_c rq_ok) <> [].
Proof. vm_compute. discriminate. Qed.
Example C04_change_safe_applies := C04_change_safe nv_E nv_hook nv_md nv_c rq_ok (or_introl nv_change_prem).
(* the other disjunct of the premise: success without write method (a_max), driver not called *)
Lemma nv_change_prem2 : o_reply (handle_change nv_E nv_hook nv_md nv_c (chgr (us n_amax) (PInt 3) DNone)) = None.
Proof. vm_compute. reflexivity. Qed.
Example C04_change_safe_applies_nowrite :=
  C04_change_safe nv_E nv_hook nv_md nv_c (chgr (us n_amax) (PInt 3) DNone) (or_intror nv_change_prem2).

Lemma nv_checks_pass : checks_pass nv_hook pa (PInt 4) nv_c.
Proof. vm_compute. reflexivity. Qed.
Lemma nv_no_stop : forall i, In (CkUser i) (p_checks pa) -> nv_hook i (PInt 4) nv_c <> HStop.
Proof. intros i [H|[H|[]]]; inversion H; subst; vm_compute; discriminate. Qed.
Example C04_checks_respected_applies :
  Forall (check_holds nv_hook n_a (PInt 4) nv_c) [CkUser 0; CkAuto].
Proof. exact (proj2 (C04_checks_respected nv_hook pa (PInt 4) nv_c nv_checks_pass) nv_no_stop). Qed.
(* a chain cut by a hook that returns True: hook 1 stops, hook 2 (which would raise) is not reached *)
Lemma nv_checks_pass_stop : checks_pass nv_hook ps (PDict [(ka, PInt 2)]) nv_c.
Proof. vm_compute. reflexivity. Qed.
Example C04_checks_respected_applies_stop := proj1 (C04_checks_respected nv_hook ps (PDict [(ka, PInt 2)]) nv_c nv_checks_pass_stop).

Lemma nv_limits_ok : check_limits n_a (PInt 4) nv_c = Ok tt.
Proof. vm_compute. reflexivity. Qed.
Example C04_limits_respected_applies : limits_respected n_a (PInt 4) nv_c /\ not_inverted n_a nv_c.
Proof. apply C04_limits_respected. exact nv_limits_ok. Qed.
(* the implications inside the conclusion fire on this cache: a_limits = (2, 8) and a_max = 6 exist *)
Example C04_limits_respected_int_applies : (2 <= 4 <= 8)%Z /\ (4 <= 6)%Z.
Proof.
  destruct (C04_limits_respected_int n_a 4%Z nv_c (proj1 C04_limits_respected_applies)) as (A & _ & C).
  split; [exact (A 2%Z 8%Z eq_refl)|exact (C 6%Z eq_refl)].
Qed.
(* all three kinds at once (layout a_limits + a_min + a_max), min and max present: not_inverted fires too *)
Definition c_all : cache := [(n_a ++ s_limits, PTuple [PInt 0; PInt 10]); (n_a ++ s_min, PInt 5); (n_a ++ s_max, PInt 9)].
Example C04_limits_respected_applies_all_kinds :
  (0 <= 7 <= 10)%Z /\ (5 <= 7)%Z /\ (7 <= 9)%Z /\ py_gt (PInt 5) (PInt 9) = Ok false.
Proof.
  assert (H : check_limits n_a (PInt 7) c_all = Ok tt) by (vm_compute; reflexivity).
  destruct (C04_limits_respected n_a (PInt 7) c_all H) as [L N].
  destruct (C04_limits_respected_int n_a 7%Z c_all L) as (A & B & C).
  split; [exact (A 0%Z 10%Z eq_refl)|]. split; [exact (B 5%Z eq_refl)|]. split; [exact (C 9%Z eq_refl)|].
  exact (N _ _ eq_refl eq_refl).
Qed.

Lemma nv_chain_fails : snd (run_checks nv_hook (p_checks pa) n_a (PInt 7) nv_c) = Some (ESecop RangeError).
Proof. vm_compute. reflexivity. Qed.
Example C04_check_refusal_justified_applies :=
  C04_check_refusal_justified nv_hook (p_checks pa) n_a (PInt 7) nv_c (ESecop RangeError) nv_chain_fails.

Definition rq_badmod : request := {| rq_act := AChange; rq_mod := [113%N]; rq_acc := Some (us n_a); rq_data := PInt 4; rq_drv := DNone |}.
Example C04_change_refused_applies_module :
  handle_change nv_E nv_hook nv_md nv_c rq_badmod = fail nv_c (ESecop NoSuchModule) [] [].
Proof. apply (proj1 (C04_change_refused nv_E nv_hook nv_md nv_c rq_badmod)). vm_compute. discriminate. Qed.
(* the attribute name instead of the wire name; and the wire name of a command *)
Example C04_change_refused_applies_name :
  handle_change nv_E nv_hook nv_md nv_c (chgr n_a (PInt 4) DNone) = fail nv_c (ESecop NoSuchParameter) [] [] /\
  handle_change nv_E nv_hook nv_md nv_c (chgr n_go (PInt 4) DNone) = fail nv_c (ESecop NoSuchParameter) [] [].
Proof.
  split.
  - apply (proj1 (proj2 (C04_change_refused nv_E nv_hook nv_md nv_c (chgr n_a (PInt 4) DNone)))); [reflexivity|].
    intros p. vm_compute. discriminate.
  - apply (proj1 (proj2 (C04_change_refused nv_E nv_hook nv_md nv_c (chgr n_go (PInt 4) DNone)))); [reflexivity|].
    intros p. vm_compute. discriminate.
Qed.
Lemma nv_lookup_r : lookup_export nv_md (ename (chgr (us n_r) (PBool false) DNone)) = Some (AParam pr).
Proof. vm_compute. reflexivity. Qed.
Example C04_change_refused_applies_readonly :
  handle_change nv_E nv_hook nv_md nv_c (chgr (us n_r) (PBool false) DNone) = fail nv_c (ESecop ReadOnly) [] [].
Proof.
  apply (proj1 (proj2 (proj2 (C04_change_refused nv_E nv_hook nv_md nv_c (chgr (us n_r) (PBool false) DNone)))
                 pr eq_refl nv_lookup_r)).
  reflexivity.
Qed.
Lemma nv_lookup_a v d : lookup_export nv_md (ename (chgr (us n_a) v d)) = Some (AParam pa).
Proof. vm_compute. reflexivity. Qed.
Example C04_change_refused_applies_payload :
  handle_change nv_E nv_hook nv_md nv_c (chgr (us n_a) (PStr ka) DNone) = fail nv_c (ESecop WrongType) [] [] /\
  handle_change nv_E nv_hook nv_md nv_c (chgr (us n_a) (PInt 11) DNone) = fail nv_c (ESecop RangeError) [] [].
Proof.
  split.
  - apply (proj1 (proj2 (proj2 (proj2 (C04_change_refused nv_E nv_hook nv_md nv_c (chgr (us n_a) (PStr ka) DNone)))
                   pa eq_refl (nv_lookup_a _ _)) eq_refl) EWrongType).
    vm_compute. reflexivity.
  - apply (proj1 (proj2 (proj2 (proj2 (C04_change_refused nv_E nv_hook nv_md nv_c (chgr (us n_a) (PInt 11) DNone)))
                   pa eq_refl (nv_lookup_a _ _)) eq_refl) ERange).
    vm_compute. reflexivity.
Qed.
Example C04_change_refused_applies_checks :
  handle_change nv_E nv_hook nv_md nv_c (chgr (us n_a) (PInt 7) DNone) = fail nv_c (ESecop RangeError) [] [(0%nat, PInt 7)].
Proof.
  apply (proj2 (proj2 (proj2 (proj2 (proj2 (C04_change_refused nv_E nv_hook nv_md nv_c (chgr (us n_a) (PInt 7) DNone)))
                   pa eq_refl (nv_lookup_a _ _)) eq_refl) (PInt 7) ltac:(vm_compute; reflexivity))
           (PInt 7) [(0%nat, PInt 7)] (ESecop RangeError)); vm_compute; reflexivity.
Qed.

Example C04_only_exported_found_applies := C04_only_exported_found nv_md (us n_a) (AParam pa) (nv_lookup_a PNone DNone).

Example C04_refusal_class_applies :
  (report (of_exc ERange) = WrongType \/ report (of_exc ERange) = RangeError) /\
  (report (of_exc EWrongType) = WrongType \/ report (of_exc EWrongType) = RangeError).
Proof.
  split.
  - apply (C04_refusal_class nv_E (TInt 0 10) (PInt 11) (PInt 1)); vm_compute; reflexivity.
  - (* a struct with a previous value: the guard (cached value is a dict) holds, a mandatory member is missing *)
    apply (C04_refusal_class nv_E d_s (PDict [(kb, PBool true)]) (PDict [(ka, PInt 1)])); vm_compute; reflexivity.
Qed.

Lemma nv_err_reply : o_reply (handle nv_E nv_hook nv_md nv_c (chgr (us n_a) (PInt 7) DNone)) <> None.
Proof. vm_compute. discriminate. Qed.
Example C04_error_clean_except_unexportable_applies :=
  C04_error_clean_except_unexportable nv_E nv_hook nv_md nv_c (chgr (us n_a) (PInt 7) DNone) nv_err_reply.
(* an error AFTER the driver was called *)
Lemma nv_err_reply_drv : o_reply (handle nv_E nv_hook nv_md nv_c (chgr (us n_a) (PInt 3) (DRaise (ESecop HardwareError)))) <> None.
Proof. vm_compute. discriminate. Qed.
Example C04_error_clean_except_unexportable_applies_drv :=
  C04_error_clean_except_unexportable nv_E nv_hook nv_md nv_c _ nv_err_reply_drv.

(* C04_error_clean_exportable: its premise quantifies over ALL values x.  It holds exactly for modules without struct
   types: here the module without the struct parameter. *)
Definition nv_md_flat : mdesc :=
  {| md_name := n_m; md_export := true; md_acc := [AParam pa; AParam pamax; AParam palim; AParam pr; ACmd cgo; ACmd cstop] |}.
Lemma nv_flat_exportable : forall p x, In (AParam p) (md_acc nv_md_flat) -> exportable (p_dt p) x = true.
Proof.
  intros p x [H|[H|[H|[H|[H|[H|[]]]]]]]; try discriminate; injection H as <-; try reflexivity.
  destruct x; try reflexivity; destruct l as [|a [|b r]]; reflexivity.
Qed.
Lemma nv_err_reply_flat : o_reply (handle nv_E nv_hook nv_md_flat nv_c (chgr (us n_a) (PInt 3) (DRaise (ESecop HardwareError)))) <> None.
Proof. vm_compute. discriminate. Qed.
Example C04_error_clean_exportable_applies :=
  C04_error_clean_exportable nv_E nv_hook nv_md_flat nv_c _ nv_flat_exportable nv_err_reply_flat.
(* SCOPE REMARK (not a vacuity): for a module with a struct-typed parameter the premise is false -- a dict with an
   unknown key is not exportable -- so for such modules only C04_error_clean_except_unexportable applies. *)
Example C04_error_clean_exportable_premise_excludes_structs :
  ~ (forall p x, In (AParam p) (md_acc nv_md) -> exportable (p_dt p) x = true).
Proof.
  intros H. specialize (H ps (PDict [(n_a, PNone)]) (or_intror (or_intror (or_intror (or_introl eq_refl))))).
  vm_compute in H. discriminate.
Qed.

(* the same for EVERY module that declares a parameter of struct type (members, optional list, client flag arbitrary):
   a dict with one key longer than every member name is not exportable *)
Definition fresh_key (ms : list (str * dtype)) : str :=
  repeat 0%N (S (fold_right (fun m acc => Nat.max (length (fst m)) acc) 0 ms)).
Lemma fresh_key_longer ms m : In m ms -> length (fst m) < length (fresh_key ms).
Proof.
  unfold fresh_key. rewrite repeat_length. induction ms as [|x r IH]; cbn; [contradiction|].
  intros [->|H]; [lia|]. specialize (IH H). lia.
Qed.
Lemma struct_value_not_exportable ms opt cl : exportable (TStruct ms opt cl) (PDict [(fresh_key ms, PNone)]) = false.
Proof.
  cbn [exportable forallb snd fst]. apply andb_false_intro2. rewrite andb_true_r.
  pose proof (fresh_key_longer ms) as L. generalize dependent (fresh_key ms). intros k L.
  induction ms as [|[n d1] r IH]; [reflexivity|].
  destruct (str_eqb k n) eqn:Hk.
  - apply str_eqb_eq in Hk. subst n. specialize (L (k, d1) (or_introl eq_refl)). cbn in L. lia.
  - apply IH. intros m Hm. apply L. right. exact Hm.
Qed.
Theorem C04_error_clean_exportable_premise_false_for_struct_params md p ms opt cl :
  In (AParam p) (md_acc md) -> p_dt p = TStruct ms opt cl ->
  ~ (forall p x, In (AParam p) (md_acc md) -> exportable (p_dt p) x = true).
Proof.
  intros I D H. specialize (H p (PDict [(fresh_key ms, PNone)]) I). rewrite D, struct_value_not_exportable in H. discriminate.
Qed.

Lemma nv_ww_ok : o_reply (write_wrapper nv_hook pa (PInt 4) nv_c DNone) = None.
Proof. vm_compute. reflexivity. Qed.
Example C04_success_announced_applies := C04_success_announced nv_hook pa (PInt 4) nv_c DNone nv_ww_ok.
Lemma nv_ww_ok_readback : o_reply (write_wrapper nv_hook ps (PDict [(ka, PInt 2)]) nv_c (DVal (PDict [(ka, PInt 3); (kb, PBool false)]))) = None.
Proof. vm_compute. reflexivity. Qed.
Example C04_success_announced_applies_readback := C04_success_announced nv_hook ps _ nv_c _ nv_ww_ok_readback.

Lemma nv_do_prem : o_drv (handle_do nv_E nv_md nv_c (dor (Some n_go) (PInt 3) DNone)) <> [].
Proof. vm_compute. discriminate. Qed.
Example C04_do_safe_applies := C04_do_safe nv_E nv_md nv_c (dor (Some n_go) (PInt 3) DNone) (or_introl nv_do_prem).
Lemma nv_do_prem0 : o_reply (handle_do nv_E nv_md nv_c (dor (Some n_stop) PNone (DVal (PBool true)))) = None.
Proof. vm_compute. reflexivity. Qed.
Example C04_do_safe_applies_noarg := C04_do_safe nv_E nv_md nv_c _ (or_intror nv_do_prem0).

Example C04_do_refused_applies_nocolon :
  handle_do nv_E nv_md nv_c (dor None PNone DNone) = fail nv_c (ESecop ProtocolError) [] [].
Proof. apply (proj1 (C04_do_refused nv_E nv_md nv_c (dor None PNone DNone))). reflexivity. Qed.
Example C04_do_refused_applies_module :
  handle_do nv_E nv_md nv_c {| rq_act := ADo; rq_mod := [113%N]; rq_acc := Some n_go; rq_data := PInt 3; rq_drv := DNone |}
  = fail nv_c (ESecop NoSuchModule) [] [].
Proof.
  apply (proj1 (proj2 (C04_do_refused nv_E nv_md nv_c
           {| rq_act := ADo; rq_mod := [113%N]; rq_acc := Some n_go; rq_data := PInt 3; rq_drv := DNone |}) n_go eq_refl)).
  vm_compute. discriminate.
Qed.
(* do on the wire name of a parameter *)
Example C04_do_refused_applies_name :
  handle_do nv_E nv_md nv_c (dor (Some (us n_a)) (PInt 3) DNone) = fail nv_c (ESecop NoSuchCommand) [] [].
Proof.
  apply (proj1 (proj2 (proj2 (C04_do_refused nv_E nv_md nv_c (dor (Some (us n_a)) (PInt 3) DNone)) (us n_a) eq_refl)));
    [reflexivity|]. intros cm. vm_compute. discriminate.
Qed.
Lemma nv_lookup_go : lookup_export nv_md n_go = Some (ACmd cgo).
Proof. vm_compute. reflexivity. Qed.
(* argument out of range: no w with arg_ok, the guard holds, hence RangeError/WrongType and nothing touched *)
Lemma nv_arg_bad : forall w, ~ arg_ok nv_E cgo (PInt 9) w.
Proof.
  intros w (_ & a & Hi & Hv). vm_compute in Hi. injection Hi as <-. vm_compute in Hv. discriminate.
Qed.
Example C04_do_refused_applies_argument :
  untouched nv_c (handle_do nv_E nv_md nv_c (dor (Some n_go) (PInt 9) DNone)) /\
  exists cl, o_reply (handle_do nv_E nv_md nv_c (dor (Some n_go) (PInt 9) DNone)) = Some cl /\ (cl = WrongType \/ cl = RangeError).
Proof.
  destruct (proj2 (proj2 (proj2 (C04_do_refused nv_E nv_md nv_c (dor (Some n_go) (PInt 9) DNone)) n_go eq_refl))
              cgo eq_refl nv_lookup_go nv_arg_bad) as (U & cl & Hc & G).
  split; [exact U|]. exists cl. split; [exact Hc|]. apply G. vm_compute. reflexivity.
Qed.
(* argument missing *)
Lemma nv_arg_missing : forall w, ~ arg_ok nv_E cgo PNone w.
Proof. intros w (H & _). apply H. reflexivity. Qed.
Example C04_do_refused_applies_noargument :=
  proj2 (proj2 (proj2 (C04_do_refused nv_E nv_md nv_c (dor (Some n_go) PNone DNone)) n_go eq_refl))
    cgo eq_refl nv_lookup_go nv_arg_missing.

Lemma nv_wf_md : wf_md nv_md.
Proof. apply wf_md_intro. repeat constructor. Qed.
Lemma nv_names_unique : names_unique nv_md.
Proof. apply names_unique_check. vm_compute. reflexivity. Qed.
Lemma nv_cache_ok : cache_ok nv_md nv_c.
Proof. apply (cache_all_check in_setb). vm_compute. reflexivity. Qed.
Example C04_history_invariant_applies : cache_ok nv_md (final nv_E nv_hook nv_md nv_c hist).
Proof. exact (C04_history_invariant nv_E nv_hook nv_md nv_wf_md nv_names_unique hist nv_c nv_cache_ok). Qed.
(* the final cache is not the initial one: four parameters were rewritten *)
Example nv_final_differs :
  final nv_E nv_hook nv_md nv_c hist =
  [(n_a, PInt 4); (n_amax, PInt 3); (n_alim, PTuple [PInt 3; PInt 9]); (n_s, PDict [(ka, PInt 3)]); (n_r, PBool true)].
Proof. vm_compute. reflexivity. Qed.

Definition out_at (i : nat) : out := nth i (run nv_E nv_hook nv_md nv_c hist) (fail [] EPy [] []).
Lemma out_at_in i : i < 16 -> In (out_at i) (run nv_E nv_hook nv_md nv_c hist).
Proof. intros H. apply nth_In. change (i < 16). exact H. Qed.
(* request 14 of the history: write_a(3), after which the driver raises *)
Example C04_history_write_values_applies :=
  C04_history_write_values nv_E nv_hook nv_md nv_wf_md nv_names_unique hist nv_c nv_cache_ok
    (out_at 14) n_a (PInt 3) (out_at_in 14 ltac:(lia)) ltac:(vm_compute; left; reflexivity).
(* request 5: the struct value *)
Example C04_history_write_values_applies_struct :=
  C04_history_write_values nv_E nv_hook nv_md nv_wf_md nv_names_unique hist nv_c nv_cache_ok
    (out_at 5) n_s (PDict [(ka, PInt 2); (kb, PBool true)]) (out_at_in 5 ltac:(lia)) ltac:(vm_compute; left; reflexivity).
Example C04_history_call_values_applies :=
  C04_history_call_values nv_E nv_hook nv_md nv_wf_md nv_names_unique hist nv_c nv_cache_ok
    (out_at 9) n_go (PInt 3) (out_at_in 9 ltac:(lia)) ltac:(vm_compute; left; reflexivity).
Example C04_history_call_values_applies_noarg :=
  C04_history_call_values nv_E nv_hook nv_md nv_wf_md nv_names_unique hist nv_c nv_cache_ok
    (out_at 12) n_stop (PTuple []) (out_at_in 12 ltac:(lia)) ltac:(vm_compute; left; reflexivity).

(* the datatype side of wf_md / cache_ok is not restricted to integers: a module with a double, a scaled and an
   array-of-struct parameter, every value of the cache inside its value set (boolean computations only) *)
Definition d_f : dtype := TFloat fzero (of_Z 10) fzero (fmk 1 (-20)).
Definition d_sc : dtype := TScaled (fmk 1 (-1)) fzero (of_Z 10).
Definition d_arr : dtype := TArray d_s 0 3.
Definition mkp (n : str) (d : dtype) : param :=
  {| p_name := n; p_export := Some (us n); p_dt := d; p_readonly := false; p_constant := false; p_haswrite := true; p_checks := [] |}.
Definition nv_md_f : mdesc :=
  {| md_name := n_m; md_export := true; md_acc := [AParam (mkp n_f d_f); AParam (mkp n_s d_sc); AParam (mkp n_r d_arr)] |}.
Definition nv_c_f : cache :=
  [(n_f, PFloat (of_Z 3)); (n_s, PFloat (fmk 5 (-1))); (n_r, PTuple [PDict [(ka, PInt 1)]; PDict [(ka, PInt 2); (kb, PBool true)]])].
Lemma nv_wf_md_f : wf_md nv_md_f.
Proof. apply wf_md_intro. repeat constructor. Qed.
Lemma nv_names_unique_f : names_unique nv_md_f.
Proof. apply names_unique_check. vm_compute. reflexivity. Qed.
Lemma nv_cache_ok_f : cache_ok nv_md_f nv_c_f.
Proof. apply (cache_all_check in_setb). vm_compute. reflexivity. Qed.
Definition hist_f : list request :=
  [chgr (us n_f) (PInt 7) DNone; chgr (us n_s) (PFloat (fmk 3 0)) DNone; chgr (us n_f) (PInt 70) DNone;
   chgr (us n_r) (PList [PDict [(ka, PInt 5)]]) DNone].
Example nv_hist_f_outcomes :
  map o_reply (run nv_E nv_hook nv_md_f nv_c_f hist_f) = [None; None; Some RangeError; None].
Proof. vm_compute. reflexivity. Qed.
Example C04_history_invariant_applies_floats : cache_ok nv_md_f (final nv_E nv_hook nv_md_f nv_c_f hist_f).
Proof. exact (C04_history_invariant nv_E nv_hook nv_md_f nv_wf_md_f nv_names_unique_f hist_f nv_c_f nv_cache_ok_f). Qed.

(* harness/props/C04.py, rand_case (random.Random(2024), first suitable draw), run on the implementation and encoded by
   encode_seq: scaled parameter a (hooks on two MRO levels, limit a_min), double c (limit c_limits), struct d, command k
   with a tuple argument; 9 requests; initial cache = the snapshot of all parameter values after module creation.  The
   premises of the history theorems hold for it, and check_case accepts it. *)
Definition hc : case :=
  {| c_env := {| int_of := []; b64_of := [] |}; c_md := {| md_name := [109%N]; md_export := true; md_acc := [(AParam
  {| p_name := [97%N]; p_export := (Some [95%N; 97%N]); p_dt := (TScaled (fmk (1)%Z (-1)%Z) fzero (fmk (5)%Z (1)%Z));
  p_readonly := false; p_constant := false; p_haswrite := true; p_checks := [(CkUser 1%nat); (CkUser 0%nat)] |});
  (AParam {| p_name := [99%N]; p_export := (Some [120%N; 49%N]); p_dt := (TFloat fzero (fmk (5)%Z (1)%Z) fzero (fmk
  (4533471823554859)%Z (-75)%Z)); p_readonly := false; p_constant := false; p_haswrite := false; p_checks := [CkAuto]
  |}); (AParam {| p_name := [100%N]; p_export := (Some [95%N; 100%N]); p_dt := (TStruct [([98%N], (TString (0)%Z
  (0)%Z false))] [] false); p_readonly := false; p_constant := false; p_haswrite := true; p_checks := [] |}); (AParam
  {| p_name := [97%N; 95%N; 109%N; 105%N; 110%N]; p_export := (Some [95%N; 97%N; 95%N; 109%N; 105%N; 110%N]); p_dt :=
  (TScaled (fmk (1)%Z (-1)%Z) fzero (fmk (5)%Z (1)%Z)); p_readonly := false; p_constant := false; p_haswrite :=
  false; p_checks := [] |}); (AParam {| p_name := [99%N; 95%N; 108%N; 105%N; 109%N; 105%N; 116%N; 115%N]; p_export :=
  (Some [95%N; 99%N; 95%N; 108%N; 105%N; 109%N; 105%N; 116%N; 115%N]); p_dt := (TTuple [(TFloat fzero (fmk (5)%Z
  (1)%Z) fzero (fmk (4533471823554859)%Z (-75)%Z)); (TFloat fzero (fmk (5)%Z (1)%Z) fzero (fmk (4533471823554859)%Z
  (-75)%Z))]); p_readonly := false; p_constant := false; p_haswrite := false; p_checks := [] |}); (ACmd {| c_name :=
  [107%N]; c_export := (Some [120%N; 50%N]); c_arg := (Some (TTuple [(TString (0)%Z (2)%Z false); TBool])); c_res :=
  None |})] |}; c_hooks := [(0%nat, (HcAlways, HaPy)); (1%nat, (HcAlways, HaRange))]; c_init := [([97%N], (PFloat
  (fmk (5)%Z (1)%Z))); ([97%N; 95%N; 109%N; 105%N; 110%N], (PFloat (fmk (3)%Z (-1)%Z))); ([99%N], (PFloat (fmk (7)%Z
  (-1)%Z))); ([99%N; 95%N; 108%N; 105%N; 109%N; 105%N; 116%N; 115%N], (PTuple [(PFloat (fmk (7)%Z (0)%Z)); (PFloat
  (fmk (9)%Z (0)%Z))])); ([100%N], (PDict [([98%N], (PStr []))]))]; c_reqs := [{| rq_act := AChange; rq_mod :=
  [109%N]; rq_acc := (Some [95%N; 100%N]); rq_data := (PList [(PList [])]); rq_drv := DNone |}; {| rq_act := AChange;
  rq_mod := [109%N]; rq_acc := (Some [95%N; 99%N; 95%N; 108%N; 105%N; 109%N; 105%N; 116%N; 115%N]); rq_data := (PList
  [(PFloat (fmk (944473296573929)%Z (-73)%Z)); (PFloat fzero)]); rq_drv := DNone |}; {| rq_act := AChange; rq_mod :=
  [109%N]; rq_acc := (Some [95%N; 99%N; 95%N; 108%N; 105%N; 109%N; 105%N; 116%N; 115%N]); rq_data := (PList [(PFloat
  fzero); (PFloat (fmk (5)%Z (-1)%Z))]); rq_drv := (DVal (PTuple [(PInt (3)%Z); (PFloat (fmk (21)%Z (-1)%Z))])) |};
  {| rq_act := AChange; rq_mod := [109%N]; rq_acc := (Some [95%N; 97%N]); rq_data := (PInt (-1)%Z); rq_drv := DDone
  |}; {| rq_act := ADo; rq_mod := [109%N]; rq_acc := None; rq_data := PNone; rq_drv := DNone |}; {| rq_act := ADo;
  rq_mod := [109%N]; rq_acc := (Some [120%N; 50%N]); rq_data := (PList [(PStr [90%N]); (PBool true)]); rq_drv :=
  DNone |}; {| rq_act := AChange; rq_mod := [109%N]; rq_acc := None; rq_data := (PDict []); rq_drv := (DRaise (ESecop
  HardwareError)) |}; {| rq_act := ADo; rq_mod := [109%N]; rq_acc := (Some [120%N; 50%N]); rq_data := (PList [(PStr
  [90%N]); (PInt (1)%Z)]); rq_drv := DNone |}; {| rq_act := AChange; rq_mod := [109%N]; rq_acc := (Some [97%N; 58%N;
  98%N]); rq_data := (PList [(PFloat (fmk (6004799503160661)%Z (-54)%Z)); (PFloat (fmk (7)%Z (-1)%Z))]); rq_drv :=
  (DVal (PTuple [(PFloat (fmk (5)%Z (1)%Z)); (PFloat (fmk (1)%Z (-1074)%Z))])) |}]; c_obs := [{| ob_reply := (Some
  WrongType); ob_drv := []; ob_hooks := []; ob_upd := []; ob_cache := [([97%N], (PFloat (fmk (5)%Z (1)%Z))); ([97%N;
  95%N; 109%N; 105%N; 110%N], (PFloat (fmk (3)%Z (-1)%Z))); ([99%N], (PFloat (fmk (7)%Z (-1)%Z))); ([99%N; 95%N;
  108%N; 105%N; 109%N; 105%N; 116%N; 115%N], (PTuple [(PFloat (fmk (7)%Z (0)%Z)); (PFloat (fmk (9)%Z (0)%Z))]));
  ([100%N], (PDict [([98%N], (PStr []))]))] |}; {| ob_reply := None; ob_drv := []; ob_hooks := []; ob_upd := [([99%N;
  95%N; 108%N; 105%N; 109%N; 105%N; 116%N; 115%N], (PTuple [(PFloat (fmk (944473296573929)%Z (-73)%Z)); (PFloat
  fzero)]))]; ob_cache := [([97%N], (PFloat (fmk (5)%Z (1)%Z))); ([97%N; 95%N; 109%N; 105%N; 110%N], (PFloat (fmk
  (3)%Z (-1)%Z))); ([99%N], (PFloat (fmk (7)%Z (-1)%Z))); ([99%N; 95%N; 108%N; 105%N; 109%N; 105%N; 116%N; 115%N],
  (PTuple [(PFloat (fmk (944473296573929)%Z (-73)%Z)); (PFloat fzero)])); ([100%N], (PDict [([98%N], (PStr []))]))]
  |}; {| ob_reply := None; ob_drv := []; ob_hooks := []; ob_upd := [([99%N; 95%N; 108%N; 105%N; 109%N; 105%N; 116%N;
  115%N], (PTuple [(PFloat fzero); (PFloat (fmk (5)%Z (-1)%Z))]))]; ob_cache := [([97%N], (PFloat (fmk (5)%Z
  (1)%Z))); ([97%N; 95%N; 109%N; 105%N; 110%N], (PFloat (fmk (3)%Z (-1)%Z))); ([99%N], (PFloat (fmk (7)%Z (-1)%Z)));
  ([99%N; 95%N; 108%N; 105%N; 109%N; 105%N; 116%N; 115%N], (PTuple [(PFloat fzero); (PFloat (fmk (5)%Z (-1)%Z))]));
  ([100%N], (PDict [([98%N], (PStr []))]))] |}; {| ob_reply := (Some RangeError); ob_drv := []; ob_hooks := [];
  ob_upd := []; ob_cache := [([97%N], (PFloat (fmk (5)%Z (1)%Z))); ([97%N; 95%N; 109%N; 105%N; 110%N], (PFloat (fmk
  (3)%Z (-1)%Z))); ([99%N], (PFloat (fmk (7)%Z (-1)%Z))); ([99%N; 95%N; 108%N; 105%N; 109%N; 105%N; 116%N; 115%N],
  (PTuple [(PFloat fzero); (PFloat (fmk (5)%Z (-1)%Z))])); ([100%N], (PDict [([98%N], (PStr []))]))] |}; {| ob_reply
  := (Some ProtocolError); ob_drv := []; ob_hooks := []; ob_upd := []; ob_cache := [([97%N], (PFloat (fmk (5)%Z
  (1)%Z))); ([97%N; 95%N; 109%N; 105%N; 110%N], (PFloat (fmk (3)%Z (-1)%Z))); ([99%N], (PFloat (fmk (7)%Z (-1)%Z)));
  ([99%N; 95%N; 108%N; 105%N; 109%N; 105%N; 116%N; 115%N], (PTuple [(PFloat fzero); (PFloat (fmk (5)%Z (-1)%Z))]));
  ([100%N], (PDict [([98%N], (PStr []))]))] |}; {| ob_reply := None; ob_drv := [(Call [107%N] (PTuple [(PStr [90%N]);
  (PBool true)]))]; ob_hooks := []; ob_upd := []; ob_cache := [([97%N], (PFloat (fmk (5)%Z (1)%Z))); ([97%N; 95%N;
  109%N; 105%N; 110%N], (PFloat (fmk (3)%Z (-1)%Z))); ([99%N], (PFloat (fmk (7)%Z (-1)%Z))); ([99%N; 95%N; 108%N;
  105%N; 109%N; 105%N; 116%N; 115%N], (PTuple [(PFloat fzero); (PFloat (fmk (5)%Z (-1)%Z))])); ([100%N], (PDict
  [([98%N], (PStr []))]))] |}; {| ob_reply := (Some NoSuchParameter); ob_drv := []; ob_hooks := []; ob_upd := [];
  ob_cache := [([97%N], (PFloat (fmk (5)%Z (1)%Z))); ([97%N; 95%N; 109%N; 105%N; 110%N], (PFloat (fmk (3)%Z
  (-1)%Z))); ([99%N], (PFloat (fmk (7)%Z (-1)%Z))); ([99%N; 95%N; 108%N; 105%N; 109%N; 105%N; 116%N; 115%N], (PTuple
  [(PFloat fzero); (PFloat (fmk (5)%Z (-1)%Z))])); ([100%N], (PDict [([98%N], (PStr []))]))] |}; {| ob_reply := None;
  ob_drv := [(Call [107%N] (PTuple [(PStr [90%N]); (PBool true)]))]; ob_hooks := []; ob_upd := []; ob_cache :=
  [([97%N], (PFloat (fmk (5)%Z (1)%Z))); ([97%N; 95%N; 109%N; 105%N; 110%N], (PFloat (fmk (3)%Z (-1)%Z))); ([99%N],
  (PFloat (fmk (7)%Z (-1)%Z))); ([99%N; 95%N; 108%N; 105%N; 109%N; 105%N; 116%N; 115%N], (PTuple [(PFloat fzero);
  (PFloat (fmk (5)%Z (-1)%Z))])); ([100%N], (PDict [([98%N], (PStr []))]))] |}; {| ob_reply := (Some
  NoSuchParameter); ob_drv := []; ob_hooks := []; ob_upd := []; ob_cache := [([97%N], (PFloat (fmk (5)%Z (1)%Z)));
  ([97%N; 95%N; 109%N; 105%N; 110%N], (PFloat (fmk (3)%Z (-1)%Z))); ([99%N], (PFloat (fmk (7)%Z (-1)%Z))); ([99%N;
  95%N; 108%N; 105%N; 109%N; 105%N; 116%N; 115%N], (PTuple [(PFloat fzero); (PFloat (fmk (5)%Z (-1)%Z))])); ([100%N],
  (PDict [([98%N], (PStr []))]))] |}] |}.
Example hc_checks : check_case hc = true.
Proof. vm_compute. reflexivity. Qed.
Lemma hc_wf : wf_md (c_md hc).
Proof. apply wf_md_intro. repeat constructor. Qed.
Lemma hc_unique : names_unique (c_md hc).
Proof. apply names_unique_check. vm_compute. reflexivity. Qed.
Lemma hc_cache_ok : cache_ok (c_md hc) (c_init hc).
Proof. apply (cache_all_check in_setb). vm_compute. reflexivity. Qed.
Example C04_history_invariant_applies_harness_case :
  cache_ok (c_md hc) (final (c_env hc) (hook_of (c_hooks hc)) (c_md hc) (c_init hc) (c_reqs hc)).
Proof. exact (C04_history_invariant _ _ _ hc_wf hc_unique _ _ hc_cache_ok). Qed.
Example hc_size : (length (md_acc (c_md hc)), length (c_reqs hc), length (c_init hc)) = (6, 9, 5).
Proof. vm_compute. reflexivity. Qed.

(* thread 0: connection thread "change m:_a 4"; thread 1: internal thread write_a_max(4); write_a(3);
   thread 2: connection thread "change m:_a 9" (refused by hook 0 once a_max = 4) *)
Definition progs : list (list top) :=
  [[TReq (chgr (us n_a) (PInt 4) DNone)];
   [TWrite pamax (PInt 4) DNone; TWrite pa (PInt 3) DNone];
   [TReq (chgr (us n_a) (PInt 9) DNone)]].
(* threads 2 and 1 are chosen while thread 0 holds the accessLock (positions 4 and 5): skipped *)
Definition sched : list nat := [1; 0; 2; 0; 2; 1; 0; 0; 0; 2; 2; 1; 1; 1; 1]%nat.
Definition c_mid : cache := setp nv_c n_amax (PInt 4).                  (* after write_a_max(4) *)
Definition c_late : cache := setp c_mid n_a (PInt 4).                   (* after write_a(4) *)
Example nv_conc_labels :
  snd (crun nv_E nv_hook true nv_md (cinit nv_c progs) sched) =
  [LAcq; LUpd n_amax (PInt 4); LEnd None; LReq; LReq;
   LAcq; LHook 0 (PInt 4); LAuto (PInt 4); LDrv pa (PInt 4) (PInt 4) c_mid; LUpd n_a (PInt 4); LEnd None;
   LAcq; LHook 0 (PInt 9); LEnd (Some RangeError);
   LAcq; LHook 0 (PInt 3); LAuto (PInt 3); LDrv pa (PInt 3) (PInt 3) c_late; LUpd n_a (PInt 3); LEnd None].
Proof. vm_compute. reflexivity. Qed.

Lemma nv_drv_label : In (LDrv pa (PInt 4) (PInt 4) c_mid) (snd (crun nv_E nv_hook true nv_md (cinit nv_c progs) sched)).
Proof. rewrite nv_conc_labels. apply (nth_error_In _ 8). reflexivity. Qed.
Lemma nv_no_stop_mid : forall i, In (CkUser i) (p_checks pa) -> nv_hook i (PInt 4) c_mid <> HStop.
Proof. intros i [H|[H|[]]]; inversion H; subst; vm_compute; discriminate. Qed.
(* the limit that counts is the one of the moment of the driver call (a_max = 4, moved by thread 1), not the initial 6 *)
Example C04_limits_current_at_driver_call_applies :
  dt_validate (p_dt pa) (PInt 4) PNone = Ok (PInt 4) /\ checks_pass nv_hook pa (PInt 4) c_mid /\ (2 <= 4 <= 8)%Z /\ (4 <= 4)%Z.
Proof.
  destruct (C04_limits_current_at_driver_call nv_E nv_hook nv_md nv_c progs sched pa (PInt 4) (PInt 4) c_mid nv_drv_label)
    as (V & P & L).
  destruct (L nv_no_stop_mid (or_intror (or_introl eq_refl))) as [LR _].
  destruct (C04_limits_respected_int n_a 4%Z c_mid LR) as (A & _ & C).
  split; [exact V|]. split; [exact P|]. split; [exact (A 2%Z 8%Z eq_refl)|exact (C 4%Z eq_refl)].
Qed.

(* the state in which thread 0 is about to call the driver; threads 1 and 2 have been refused the lock *)
Definition sched_mid : list nat := [1; 0; 2; 0; 2; 1; 0; 0]%nat.
Definition st_mid : cstate := fst (crun nv_E nv_hook true nv_md (cinit nv_c progs) sched_mid).
(* used to put the theorems, which speak of the run, in terms of st_mid by rewriting: converting the two would evaluate the
   run with the kernel's lazy machine in every example *)
Lemma st_mid_run : fst (crun nv_E nv_hook true nv_md (cinit nv_c progs) sched_mid) = st_mid.
Proof. vm_compute. reflexivity. Qed.
Definition th_dummy : thread := {| t_pc := PIdle; t_todo := [] |}.
Lemma nv_th0 : nth_error (cs_threads st_mid) 0 = Some (nth 0 (cs_threads st_mid) th_dummy).
Proof. vm_compute. reflexivity. Qed.
Lemma nv_th0_in : in_wrapper (t_pc (nth 0 (cs_threads st_mid) th_dummy)) = true.
Proof. vm_compute. reflexivity. Qed.
Example C04_wrapper_exclusive_applies : cs_owner st_mid = Some 0%nat.
Proof.
  pose proof (C04_wrapper_exclusive nv_E nv_hook nv_md nv_c progs sched_mid 0%nat 0%nat) as W. cbn zeta in W. rewrite st_mid_run in W.
  exact (proj2 (W _ _ nv_th0 nv_th0 nv_th0_in nv_th0_in)).
Qed.
(* and the other two threads are outside although both have been scheduled meanwhile *)
Example nv_others_outside :
  map (fun th => in_wrapper (t_pc th)) (cs_threads st_mid) = [true; false; false] /\
  map (fun th => length (t_todo th)) (cs_threads st_mid) = [0; 1; 0]%nat.
Proof. vm_compute. split; reflexivity. Qed.

(* the next step of thread 0 (driver call + store) changes the cache: it is the owner *)
Definition step_mid := cstep nv_E nv_hook true nv_md st_mid 0.
Definition st_next : cstate := match step_mid with Some (s, _) => s | None => st_mid end.
Definition l_next : list label := match step_mid with Some (_, l) => l | None => [] end.
Lemma nv_step_mid : cstep nv_E nv_hook true nv_md st_mid 0 = Some (st_next, l_next).
Proof. vm_compute. reflexivity. Qed.
Lemma nv_step_changes : cs_cache st_next <> cs_cache st_mid.
Proof. vm_compute. discriminate. Qed.
Example C04_cache_changed_by_lock_owner_only_applies : cs_owner st_mid = None \/ cs_owner st_mid = Some 0%nat.
Proof.
  pose proof (C04_cache_changed_by_lock_owner_only nv_E nv_hook nv_md nv_c progs sched_mid 0%nat st_next l_next) as W.
  cbn zeta in W. rewrite st_mid_run in W. exact (W nv_step_mid nv_step_changes).
Qed.
(* the other disjunct: write_a_max (no write method) takes the free lock, stores and releases within one step *)
Definition step_first := cstep nv_E nv_hook true nv_md (fst (crun nv_E nv_hook true nv_md (cinit nv_c progs) [])) 1.
Lemma nv_step_first :
  cstep nv_E nv_hook true nv_md (fst (crun nv_E nv_hook true nv_md (cinit nv_c progs) [])) 1 =
  Some (match step_first with Some (s, _) => s | None => cinit nv_c progs end,
        match step_first with Some (_, l) => l | None => [] end).
Proof. vm_compute. reflexivity. Qed.
Example C04_cache_changed_by_lock_owner_only_applies_free :=
  C04_cache_changed_by_lock_owner_only nv_E nv_hook nv_md nv_c progs [] 1%nat _ _ nv_step_first
    ltac:(vm_compute; discriminate).

(* the strict run: the same schedule without the two refused choices *)
Definition sched_strict : list nat := [1; 0; 2; 0; 0; 0; 0; 2; 2; 1; 1; 1; 1]%nat.
Lemma nv_follow :
  exists fin ls, cfollow nv_E nv_hook true nv_md (cinit nv_c progs) sched_strict = Some (fin, ls) /\ length ls = 20.
Proof. eexists. eexists. vm_compute. split; reflexivity. Qed.
Example C04_followed_run_is_a_run_applies :
  exists fin ls, crun nv_E nv_hook true nv_md (cinit nv_c progs) sched_strict = (fin, ls) /\ length ls = 20.
Proof.
  destruct nv_follow as (fin & ls & H & L). exists fin, ls.
  split; [exact (C04_followed_run_is_a_run nv_E nv_hook true nv_md _ _ fin ls H)|exact L].
Qed.
(* the skipping schedule `sched` is NOT followed strictly (two choices are not enabled): cfollow is a real restriction *)
Example nv_sched_not_strict : cfollow nv_E nv_hook true nv_md (cinit nv_c progs) sched = None.
Proof. vm_compute. reflexivity. Qed.

(* solo: in the state after [1; 0; 2] (thread 0 and 2 have passed the dispatcher and wait in front of the wrapper, the
   lock is free) thread 1 runs write_a(3) alone *)
Definition st_solo : cstate := fst (crun nv_E nv_hook true nv_md (cinit nv_c progs) [1; 0; 2]%nat).
Lemma nv_solo_thread : nth_error (cs_threads st_solo) 1 = Some {| t_pc := PIdle; t_todo := TWrite pa (PInt 3) DNone :: [] |}.
Proof. vm_compute. reflexivity. Qed.
Lemma nv_solo_free : cs_owner st_solo = None.
Proof. vm_compute. reflexivity. Qed.
Example C04_single_thread_is_sequential_wrapper_applies :=
  C04_single_thread_is_sequential_wrapper nv_E nv_hook nv_md st_solo 1%nat pa (PInt 3) DNone [] nv_solo_thread nv_solo_free.
Example nv_solo_other_threads_waiting :
  map (fun th => match t_pc th with PWait _ => true | _ => false end) (cs_threads st_solo) = [true; false; true].
Proof. vm_compute. reflexivity. Qed.

(* corpus/C04/conc_limit_moved_during_request.json, case 12, run on the implementation under harness/dsched.py and encoded
   by enc_conc: connection thread "change m:_a 5" against an internal thread write_a_limits((6, 9)); the schedule is the
   one the correspondence derives from the observed events (sched_of).  check_conc accepts it; the premise of
   C04_limits_current_at_driver_call holds for its run. *)
Definition hcc : ccase :=
  {| cc_env := {| int_of := []; b64_of := [] |}; cc_md := {| md_name := [109%N]; md_export := true; md_acc :=
  [(AParam {| p_name := [97%N]; p_export := (Some [95%N; 97%N]); p_dt := (TInt (0)%Z (10)%Z); p_readonly := false;
  p_constant := false; p_haswrite := true; p_checks := [CkAuto] |}); (AParam {| p_name := [98%N]; p_export := (Some
  [95%N; 98%N]); p_dt := (TInt (0)%Z (10)%Z); p_readonly := false; p_constant := false; p_haswrite := false; p_checks
  := [] |}); (AParam {| p_name := [97%N; 95%N; 108%N; 105%N; 109%N; 105%N; 116%N; 115%N]; p_export := (Some [95%N;
  97%N; 95%N; 108%N; 105%N; 109%N; 105%N; 116%N; 115%N]); p_dt := (TTuple [(TInt (0)%Z (10)%Z); (TInt (0)%Z
  (10)%Z)]); p_readonly := false; p_constant := false; p_haswrite := false; p_checks := [] |})] |}; cc_hooks := [];
  cc_init := [([97%N], (PInt (1)%Z)); ([97%N; 95%N; 108%N; 105%N; 109%N; 105%N; 116%N; 115%N], (PTuple [(PInt (0)%Z);
  (PInt (10)%Z)])); ([98%N], (PInt (7)%Z))]; cc_progs := [[(CReq {| rq_act := AChange; rq_mod := [109%N]; rq_acc :=
  (Some [95%N; 97%N]); rq_data := (PInt (5)%Z); rq_drv := DNone |})]; [(CWrite [97%N; 95%N; 108%N; 105%N; 109%N;
  105%N; 116%N; 115%N] (PTuple [(PInt (6)%Z); (PInt (9)%Z)]) DNone)]]; cc_events := [(0%nat, OReq); (0%nat, OAcq);
  (0%nat, (OAuto (PInt (5)%Z))); (0%nat, (ODrv [97%N] (PInt (5)%Z) [([97%N], (PInt (1)%Z)); ([97%N; 95%N; 108%N;
  105%N; 109%N; 105%N; 116%N; 115%N], (PTuple [(PInt (0)%Z); (PInt (10)%Z)])); ([98%N], (PInt (7)%Z))])); (0%nat,
  (OUpd [97%N] (PInt (5)%Z))); (0%nat, (OEnd None)); (1%nat, OAcq); (1%nat, (OUpd [97%N; 95%N; 108%N; 105%N; 109%N;
  105%N; 116%N; 115%N] (PTuple [(PInt (6)%Z); (PInt (9)%Z)]))); (1%nat, (OEnd None))]; cc_final := [([97%N], (PInt
  (5)%Z)); ([97%N; 95%N; 108%N; 105%N; 109%N; 105%N; 116%N; 115%N], (PTuple [(PInt (6)%Z); (PInt (9)%Z)])); ([98%N],
  (PInt (7)%Z))] |}.
Example hcc_checks : check_conc hcc = true.
Proof. vm_compute. reflexivity. Qed.
Definition hcc_progs : list (list top) := match resolve_progs (cc_md hcc) (cc_progs hcc) with Some l => l | None => [] end.
Definition hcc_pa : param := match find_param (md_acc (cc_md hcc)) [97%N] with Some p => p | None => pa end.
Example hcc_shape : length hcc_progs = 2 /\ sched_of (cc_events hcc) = [0; 0; 0; 0; 1]%nat.
Proof. vm_compute. split; reflexivity. Qed.
Lemma hcc_drv_label :
  In (LDrv hcc_pa (PInt 5) (PInt 5) (cc_init hcc))
     (snd (crun (cc_env hcc) (hook_of (cc_hooks hcc)) true (cc_md hcc) (cinit (cc_init hcc) hcc_progs) (sched_of (cc_events hcc)))).
Proof. apply (nth_error_In _ 3). vm_compute. reflexivity. Qed.
Example C04_limits_current_at_driver_call_applies_harness_case : (0 <= 5 <= 10)%Z.
Proof.
  destruct (C04_limits_current_at_driver_call _ _ _ _ _ _ _ _ _ _ hcc_drv_label) as (_ & _ & L).
  assert (NS : forall i, In (CkUser i) (p_checks hcc_pa) -> hook_of (cc_hooks hcc) i (PInt 5) (cc_init hcc) <> HStop).
  { intros i [H|[]]. discriminate. }
  destruct (L NS (or_introl eq_refl)) as [LR _].
  destruct (C04_limits_respected_int _ _ _ LR) as (A & _ & _).
  exact (A 0%Z 10%Z eq_refl).
Qed.

(* The branch "wire ... = Ok v, then dt_validate (p_dt p) v PNone = Err e" (the wrapper's own validation refuses what the
   dispatcher's validation returned) fires only from a cache that is not cache_ok: wire completes a struct from the cached
   value without validating the members taken from it.  Instance: cached s = {ka: 1, kb: 7} (kb : bool holds 7). *)
Definition c_bad : cache := [(n_a, PInt 1); (n_amax, PInt 6); (n_alim, PTuple [PInt 2; PInt 8]);
                             (n_s, PDict [(ka, PInt 1); (kb, PInt 7)]); (n_r, PBool true)].
Example nv_second_validation_branch :
  wire nv_E d_s (PDict [(ka, PInt 2)]) (prev_of c_bad ps) = Ok (PDict [(ka, PInt 2); (kb, PInt 7)]) /\
  dt_validate d_s (PDict [(ka, PInt 2); (kb, PInt 7)]) PNone = Err EWrongType.
Proof. vm_compute. split; reflexivity. Qed.
Lemma nv_lookup_s v d : lookup_export nv_md (ename (chgr (us n_s) v d)) = Some (AParam ps).
Proof. vm_compute. reflexivity. Qed.
Example C04_change_refused_applies_second_validation :
  handle_change nv_E nv_hook nv_md c_bad (chgr (us n_s) (PDict [(ka, PInt 2)]) DNone) = fail c_bad (ESecop WrongType) [] [].
Proof.
  apply (proj1 (proj2 (proj2 (proj2 (proj2 (C04_change_refused nv_E nv_hook nv_md c_bad (chgr (us n_s) (PDict [(ka, PInt 2)]) DNone)))
                   ps eq_refl (nv_lookup_s _ _)) eq_refl) _ (proj1 nv_second_validation_branch)) EWrongType).
  exact (proj2 nv_second_validation_branch).
Qed.
(* from a cache_ok cache the branch is dead for this request: what wire returns validates again *)
Example nv_second_validation_ok_cache :
  wire nv_E d_s (PDict [(ka, PInt 2)]) (prev_of nv_c ps) = Ok (PDict [(ka, PInt 2)]) /\
  dt_validate d_s (PDict [(ka, PInt 2)]) PNone = Ok (PDict [(ka, PInt 2)]).
Proof. vm_compute. split; reflexivity. Qed.

(* one step, the module with the struct parameter (premise of C04_error_clean_exportable false), error AFTER the driver ran *)
Example C04_error_clean_step_applies :=
  C04_error_clean_step nv_E nv_hook nv_md nv_c _ nv_wf_md nv_cache_ok nv_err_reply_drv.
(* a reachable state: after requests 0..4 of hist and a change of the struct s (a, a_max, a_limits and s were rewritten).
   Then a partial struct change (the optional member is taken from the cache) whose driver raises a non-SECoP
   exception, and one whose driver returns an invalid read-back value: both are error replies issued after write_s
   was called *)
Definition pre6 : list request := firstn 5 hist ++ [chgr (us n_s) (PDict [(ka, PInt 2); (kb, PBool true)]) DNone].
Definition rq_s_raise := chgr (us n_s) (PDict [(ka, PInt 4)]) (DRaise EPy).
Definition rq_s_badread := chgr (us n_s) (PDict [(ka, PInt 4)]) (DVal (PDict [(kb, PBool true)])).
Example nv_pre6_state :
  final nv_E nv_hook nv_md nv_c pre6 =
  [(n_a, PInt 4); (n_amax, PInt 3); (n_alim, PTuple [PInt 3; PInt 9]); (n_s, PDict [(ka, PInt 2); (kb, PBool true)]);
   (n_r, PBool true)] /\
  map (fun rq => let o := handle nv_E nv_hook nv_md (final nv_E nv_hook nv_md nv_c pre6) rq in (o_reply o, o_drv o))
      [rq_s_raise; rq_s_badread] =
  [(Some InternalError, [Write n_s (PDict [(ka, PInt 4); (kb, PBool true)])]);
   (Some WrongType, [Write n_s (PDict [(ka, PInt 4); (kb, PBool true)])])].
Proof. vm_compute. split; reflexivity. Qed.
Lemma nv_err_s_raise : o_reply (handle nv_E nv_hook nv_md (final nv_E nv_hook nv_md nv_c pre6) rq_s_raise) <> None.
Proof. rewrite (proj1 nv_pre6_state). vm_compute. discriminate. Qed.
Lemma nv_err_s_badread : o_reply (handle nv_E nv_hook nv_md (final nv_E nv_hook nv_md nv_c pre6) rq_s_badread) <> None.
Proof. rewrite (proj1 nv_pre6_state). vm_compute. discriminate. Qed.
Example C04_error_clean_applies_raise :=
  C04_error_clean nv_E nv_hook nv_md nv_wf_md nv_names_unique pre6 nv_c rq_s_raise nv_cache_ok nv_err_s_raise.
Example C04_error_clean_applies_badread :=
  C04_error_clean nv_E nv_hook nv_md nv_wf_md nv_names_unique pre6 nv_c rq_s_badread nv_cache_ok nv_err_s_badread.
(* request 14 of hist: HardwareError after write_a(3) *)
Lemma nv_out14_err : o_reply (out_at 14) <> None.
Proof. vm_compute. discriminate. Qed.
Example C04_history_error_outputs_applies :=
  C04_history_error_outputs nv_E nv_hook nv_md nv_wf_md nv_names_unique hist nv_c nv_cache_ok (out_at 14)
    (out_at_in 14 ltac:(lia)) nv_out14_err.
(* validated values export: an array of structs, one of them without the optional member, one complete *)
Lemma nv_arr_in_set : in_setb d_arr (PTuple [PDict [(ka, PInt 1)]; PDict [(ka, PInt 2); (kb, PBool false)]]) = true.
Proof. vm_compute. reflexivity. Qed.
Example C04_validated_values_export_applies := C04_validated_values_export d_arr _ nv_arr_in_set.
(* ... while not every python value exports (the conclusion is not trivially true): unknown key / mandatory member absent *)
Example nv_not_everything_exports :
  exportable d_arr (PTuple [PDict [(ka, PInt 1); (n_a, PNone)]]) = false /\ exportable d_arr (PTuple [PDict [(kb, PBool true)]]) = false.
Proof. vm_compute. split; reflexivity. Qed.
Lemma nv_validate_s : dt_validate d_s (PDict [(ka, PInt 2)]) PNone = Ok (PDict [(ka, PInt 2)]).
Proof. vm_compute. reflexivity. Qed.
Example C04_validate_result_exports_applies :=
  C04_validate_result_exports d_s ltac:(vm_compute; auto) (PDict [(ka, PInt 2)]) PNone _ (or_introl eq_refl) nv_validate_s.
Lemma nv_ps_in : In (AParam ps) (md_acc nv_md).
Proof. right; right; right; left; reflexivity. Qed.
Example C04_reply_always_built_applies :=
  C04_reply_always_built nv_hook nv_md nv_c ps (PDict [(ka, PInt 2)]) DNone nv_wf_md nv_cache_ok nv_ps_in
    ltac:(vm_compute; reflexivity).

Lemma nv_regular : regular_md nv_md.
Proof. apply regular_md_check. vm_compute. reflexivity. Qed.
Lemma nv_cache_st : cache_st nv_md nv_c.
Proof. apply (cache_all_check stable). vm_compute. reflexivity. Qed.
(* the cache c_bad of the remark is not a cache of fixed points *)
Example nv_c_bad_not_st : ~ cache_st nv_md c_bad.
Proof. intros H. destruct (H ps nv_ps_in) as (x & G & S). vm_compute in G. injection G as <-. vm_compute in S. discriminate. Qed.
Example C04_fixed_point_cache_invariant_applies : cache_st nv_md (final nv_E nv_hook nv_md nv_c hist).
Proof. exact (C04_fixed_point_cache_invariant nv_E nv_hook nv_md nv_wf_md nv_regular nv_names_unique hist nv_c nv_cache_st). Qed.
(* after six requests: the partial change {ka: 4} is completed from the cached {ka: 2, kb: true}; the wrapper's validation
   returns the completed value unchanged and write_s receives it *)
Definition rq_s_partial := chgr (us n_s) (PDict [(ka, PInt 4)]) DNone.
Lemma nv_wire_partial :
  wire nv_E (p_dt ps) (rq_data rq_s_partial) (prev_of (final nv_E nv_hook nv_md nv_c pre6) ps) =
  Ok (PDict [(ka, PInt 4); (kb, PBool true)]).
Proof. rewrite (proj1 nv_pre6_state). vm_compute. reflexivity. Qed.
Example C04_second_validation_never_fails_applies :=
  C04_second_validation_never_fails nv_E nv_hook nv_md nv_wf_md nv_regular nv_names_unique pre6 nv_c nv_cache_st
    rq_s_partial ps _ (nv_lookup_s _ _) nv_wire_partial.
Example nv_partial_reaches_driver :
  o_drv (handle_change nv_E nv_hook nv_md (final nv_E nv_hook nv_md nv_c pre6) rq_s_partial) <> [].
Proof. rewrite (proj1 nv_pre6_state). vm_compute. discriminate. Qed.

Example C04_fail_shape_applies := C04_fail_shape nv_c (ESecop RangeError) [(0%nat, PInt 7)].
Example C04_do_clean_applies := C04_do_clean nv_E nv_md nv_c (dor (Some n_go) (PInt 3) (DRaise EPy)).
Example C04_request_is_pre_change_then_wrapper_applies := C04_request_is_pre_change_then_wrapper nv_E nv_hook nv_md nv_c rq_ok.
Example C04_source_facts_applies := C04_source_facts.
