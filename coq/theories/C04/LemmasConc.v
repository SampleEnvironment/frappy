(* C04 — concurrent layer, proofs: while a thread is between the acquire of the accessLock and the driver call nobody
   else changes the module's cache, so the check chain it went through is the check chain of the cache AT the driver call.
   Invariant over fold_left of the step function, for all programs, schedules, hooks and drivers. *)
From Coq Require Import ZArith NArith Bool List.
Import ListNotations.
Require Import FV.Base.Util FV.Base.F64 FV.Base.PyVal FV.C01.Model FV.C04.Model FV.C04.Lemmas FV.C04.ConcModel.

Lemma nth_set_nth_same {A} n (x y : A) l : nth_error l n = Some y -> nth_error (set_nth n x l) n = Some x.
Proof.
  revert n. induction l as [|a l IH]; intros [|n]; cbn; try discriminate; auto.
Qed.

Lemma nth_set_nth_other {A} n m (x : A) l : n <> m -> nth_error (set_nth n x l) m = nth_error l m.
Proof.
  revert n m. induction l as [|a l IH]; intros [|n] [|m] H; cbn; auto; try congruence.
Qed.

Lemma set_nth_id {A} n (x : A) l : nth_error l n = Some x -> set_nth n x l = l.
Proof. revert n. induction l as [|a l IH]; intros [|n]; cbn; try discriminate; [congruence|intros H; f_equal; auto]. Qed.

Lemma set_nth_twice {A} n (x y : A) l : set_nth n y (set_nth n x l) = set_nth n y l.
Proof. revert n. induction l as [|a l IH]; intros [|n]; cbn; auto. f_equal. auto. Qed.

Lemma crun_step_pair E hook inside md st acc t :
  crun_step E hook inside md (st, acc) t =
  match cstep E hook inside md st t with Some (st', l) => (st', acc ++ l) | None => (st, acc) end.
Proof. reflexivity. Qed.

Section ConcLemmas.
Variable E : pyenv.
Variable hook : nat -> pyval -> cache -> hres.
Variable md : mdesc.

(* throughout this section the transition system is the one of the code as it is: validation and checks under the
   accessLock (inside = true) *)
Notation run_checks := (run_checks hook).
Notation tstep := (tstep E hook true md).
Notation cstep := (cstep E hook true md).
Notation crun := (crun E hook true md).
Notation crun_step := (crun_step E hook true md).

(* what is known about a thread in control state q when the module cache is c and the lock owner o *)
Definition tinv (c : cache) (o : option nat) (t : nat) (q : pc) : Prop :=
  match q with
  | PIdle | PWait _ => True
  | PChk w nv rest =>
      o = Some t /\ dt_validate (p_dt (w_p w)) (w_v w) PNone = Ok nv /\
      snd (run_checks (p_checks (w_p w)) (p_name (w_p w)) (w_v w) c) = snd (run_checks rest (p_name (w_p w)) (w_v w) c)
  | PAcq _ _ => False
  | PDrv w nv =>
      o = Some t /\ dt_validate (p_dt (w_p w)) (w_v w) PNone = Ok nv /\ checks_pass hook (w_p w) (w_v w) c
  end.

(* between acquire and release *)
Definition in_wrapper (q : pc) : bool := match q with PChk _ _ _ | PDrv _ _ | PAcq _ _ => true | _ => false end.

Lemma tinv_owner c o t q : in_wrapper q = true -> tinv c o t q -> o = Some t.
Proof. destruct q; cbn; try discriminate; intros _ T; [apply T|destruct T|apply T]. Qed.

(* the statement about one label: a driver invocation carries the validated value, and the whole check chain of the
   parameter passes on the cache of that moment *)
Definition drv_ok (l : label) : Prop :=
  match l with
  | LDrv p v nv c => dt_validate (p_dt p) v PNone = Ok nv /\ checks_pass hook p v c
  | _ => True
  end.

Lemma do_store_labels w x c : Forall drv_ok (snd (do_store w x c)).
Proof.
  unfold do_store. cbn. apply Forall_app. split.
  - apply Forall_forall. intros l H. apply in_map_iff in H. destruct H as (u & <- & _). exact I.
  - repeat constructor.
Qed.

Definition sres_ok (t : nat) (r : sres) : Prop :=
  let '(c', o', q, l) := r in tinv c' o' t q /\ Forall drv_ok l.

Lemma after_checks_ok w nv c t :
  dt_validate (p_dt (w_p w)) (w_v w) PNone = Ok nv -> checks_pass hook (w_p w) (w_v w) c ->
  sres_ok t (after_checks w nv c t).
Proof.
  intros V P. unfold after_checks. destruct (p_haswrite (w_p w)).
  - cbn. repeat split; auto.
  - pose proof (do_store_labels w nv c) as L. destruct (do_store w nv c) as [c' l]. cbn in *. split; [exact I|exact L].
Qed.

Lemma next_pc_ok w nv rest c t :
  dt_validate (p_dt (w_p w)) (w_v w) PNone = Ok nv ->
  snd (run_checks (p_checks (w_p w)) (p_name (w_p w)) (w_v w) c) = snd (run_checks rest (p_name (w_p w)) (w_v w) c) ->
  sres_ok t (next_pc true w nv rest c (Some t) t).
Proof.
  intros V P. unfold next_pc. destruct rest as [|k r].
  - apply after_checks_ok; [exact V|exact P].
  - cbn. repeat split; auto.
Qed.

Lemma enter_ok w c t : sres_ok t (enter true w c (Some t) t).
Proof.
  unfold enter. destruct (dt_validate (p_dt (w_p w)) (w_v w) PNone) as [nv|e] eqn:V.
  - apply next_pc_ok; [exact V|reflexivity].
  - cbn. split; [exact I|repeat constructor].
Qed.

Lemma sres_ok_cons t r x : drv_ok x -> sres_ok t r -> sres_ok t (let '(c', o', q, l) := r in (c', o', q, x :: l)).
Proof. destruct r as [[[c' o'] q] l]. intros X [A B]. split; [exact A|constructor; assumption]. Qed.

Lemma check_step_ok w nv k rest c t :
  tinv c (Some t) t (PChk w nv (k :: rest)) -> sres_ok t (check_step hook true w nv k rest c (Some t) t).
Proof.
  intros (_ & V & P). unfold check_step. destruct k as [|i].
  - cbn in P. destruct (check_limits (p_name (w_p w)) (w_v w) c) as [[]|e] eqn:C.
    + apply sres_ok_cons; [exact I|exact (next_pc_ok w nv rest c t V P)].
    + cbn. split; [exact I|repeat constructor].
  - cbn in P. destruct (hook i (w_v w) c) eqn:H.
    + assert (P' : snd (run_checks (p_checks (w_p w)) (p_name (w_p w)) (w_v w) c) =
                   snd (run_checks rest (p_name (w_p w)) (w_v w) c)).
      { rewrite P. destruct (run_checks rest (p_name (w_p w)) (w_v w) c) as [l0 o0]. reflexivity. }
      apply sres_ok_cons; [exact I|exact (next_pc_ok w nv rest c t V P')].
    + apply sres_ok_cons; [exact I|exact (next_pc_ok w nv [] c t V P)].
    + cbn. split; [exact I|repeat constructor].
Qed.

Lemma drv_step_labels w nv c :
  dt_validate (p_dt (w_p w)) (w_v w) PNone = Ok nv -> checks_pass hook (w_p w) (w_v w) c ->
  Forall drv_ok (snd (drv_step w nv c)).
Proof.
  intros V P. unfold drv_step. assert (D : drv_ok (LDrv (w_p w) (w_v w) nv c)) by (split; assumption).
  destruct (drv_norm (w_drv w)) as [| |r|e].
  - pose proof (do_store_labels w (w_v w) c) as L. destruct (do_store w (w_v w) c) as [c' l]. cbn in *. constructor; assumption.
  - cbn. repeat constructor; assumption.
  - destruct (dt_validate (p_dt (w_p w)) r PNone) as [x|e].
    + pose proof (do_store_labels w x c) as L. destruct (do_store w x c) as [c' l]. cbn in *. constructor; assumption.
    + cbn. repeat constructor; assumption.
  - cbn. repeat constructor; assumption.
Qed.

Lemma begin_op_ok w c o t r : begin_op true w c o t = Some r -> o = None /\ sres_ok t r.
Proof.
  unfold begin_op. destruct o as [u|]; [discriminate|].
  pose proof (enter_ok w c t) as N. destruct (enter true w c (Some t) t) as [[[c' o'] q] l].
  intros H. injection H as <-. split; [reflexivity|]. apply (sres_ok_cons t (c', o', q, l)); [exact I|exact N].
Qed.

(* a step of thread t: its own invariant is re-established, all emitted driver labels are fine, and the step either
   leaves cache and lock alone, or found the lock free, or was made by the lock owner *)
Lemma tstep_self t c o th c' o' th' l :
  tstep t c o th = Some (c', o', th', l) -> tinv c o t (t_pc th) ->
  tinv c' o' t (t_pc th') /\ Forall drv_ok l /\ ((c' = c /\ o' = o) \/ o = None \/ o = Some t).
Proof.
  unfold ConcModel.tstep. destruct (t_pc th) as [|w|w nv rest|w nv|w nv] eqn:Q.
  - (* PIdle *) destruct (t_todo th) as [|[p v d|rq] todo]; [discriminate| |].
    + (* a direct call *) destruct (begin_op true _ c o t) as [[[[c1 o1] q1] l1]|] eqn:B; [|discriminate].
      destruct (begin_op_ok _ _ _ _ _ B) as (-> & S1 & S2). intros H _. injection H as <- <- <- <-. cbn. auto.
    + (* a request *) destruct (rq_act rq); [|discriminate].
      destruct (pre_change E md c rq) as [e|[p v]]; intros H _; injection H as <- <- <- <-; cbn;
        (split; [exact I|split; [repeat constructor|left; auto]]).
  - (* PWait *) destruct (begin_op true w c o t) as [[[[c1 o1] q1] l1]|] eqn:B; [|discriminate].
    destruct (begin_op_ok _ _ _ _ _ B) as (-> & S1 & S2). intros H _. injection H as <- <- <- <-. cbn. auto.
  - (* PChk *) destruct rest as [|k rest]; [discriminate|].
    intros H T. pose proof T as (-> & _). pose proof (check_step_ok w nv k rest c t T) as S.
    destruct (check_step hook true w nv k rest c (Some t) t) as [[[c1 o1] q1] l1].
    injection H as <- <- <- <-. destruct S as [S1 S2]. cbn. auto.
  - (* PAcq: excluded by the invariant *) intros _ [].
  - (* PDrv *) intros H (-> & V & P). pose proof (drv_step_labels w nv c V P) as L.
    destruct (drv_step w nv c) as [c1 l1]. injection H as <- <- <- <-. cbn in *. auto.
Qed.

Lemma tinv_other c o c' o' t u q :
  tinv c o u q -> (c' = c /\ o' = o) \/ o = None \/ o = Some t -> u <> t -> tinv c' o' u q.
Proof.
  intros T F N. destruct q as [|w|w nv rest|w nv|w nv]; cbn in *; auto.
  all: destruct T as (O & V & P); destruct F as [[-> ->]|[->| ->]]; [auto|discriminate|injection O as ->; contradiction].
Qed.

Definition cinv (st : cstate) : Prop :=
  forall u th, nth_error (cs_threads st) u = Some th -> tinv (cs_cache st) (cs_owner st) u (t_pc th).

(* a step keeps the invariant and emits fine driver labels; if it changes the cache it is a step of the lock owner, or of
   a thread that takes the free lock in that step *)
Lemma cstep_inv st t st' l : cinv st -> cstep st t = Some (st', l) ->
  cinv st' /\ Forall drv_ok l /\ (cs_cache st' = cs_cache st \/ cs_owner st = None \/ cs_owner st = Some t).
Proof.
  intros I. unfold ConcModel.cstep. destruct (nth_error (cs_threads st) t) as [th|] eqn:N; [|discriminate].
  destruct (tstep t (cs_cache st) (cs_owner st) th) as [[[[c' o'] th'] l']|] eqn:S; [|discriminate].
  intros H. injection H as <- <-.
  destruct (tstep_self _ _ _ _ _ _ _ _ S (I _ _ N)) as (T & L & F).
  split; [|split; [exact L|destruct F as [[-> _]|F]; auto]]. intros u thu. cbn. destruct (Nat.eq_dec t u) as [<-|D].
  - rewrite (nth_set_nth_same _ _ _ _ N). intros G. injection G as <-. exact T.
  - rewrite (nth_set_nth_other _ _ _ _ D). intros G. apply (tinv_other _ _ _ _ t _ _ (I _ _ G) F). auto.
Qed.

Lemma cinit_inv c progs : cinv (cinit c progs).
Proof.
  intros u th. unfold cinit. cbn. intros H. apply nth_error_In, in_map_iff in H. destruct H as (todo & <- & _). exact I.
Qed.

Lemma crun_from st acc sched :
  cinv st -> Forall drv_ok acc ->
  cinv (fst (fold_left crun_step sched (st, acc))) /\ Forall drv_ok (snd (fold_left crun_step sched (st, acc))).
Proof.
  revert st acc. induction sched as [|t r IH]; intros st acc I A; cbn [fold_left]; [auto|].
  rewrite crun_step_pair. destruct (cstep st t) as [[st' l]|] eqn:S.
  - destruct (cstep_inv _ _ _ _ I S) as (I' & L & _). apply IH; [exact I'|apply Forall_app; auto].
  - apply IH; assumption.
Qed.

Lemma crun_inv c progs sched :
  cinv (fst (crun (cinit c progs) sched)) /\ Forall drv_ok (snd (crun (cinit c progs) sched)).
Proof. apply crun_from; [apply cinit_inv|constructor]. Qed.

End ConcLemmas.

(* the strict run of the correspondence is a run *)
Lemma cfollow_is_crun E hook inside md sched : forall st acc fin ls,
  cfollow E hook inside md st sched = Some (fin, ls) ->
  fold_left (crun_step E hook inside md) sched (st, acc) = (fin, acc ++ ls).
Proof.
  induction sched as [|t r IH]; intros st acc fin ls; cbn.
  - intros H. injection H as <- <-. rewrite app_nil_r. reflexivity.
  - rewrite crun_step_pair. destruct (cstep E hook inside md st t) as [[st' l]|]; [|discriminate].
    destruct (cfollow E hook inside md st' r) as [[fin' ls']|] eqn:F; [|discriminate].
    intros H. injection H as <- <-. rewrite (IH _ (acc ++ l) _ _ F), app_assoc. reflexivity.
Qed.
