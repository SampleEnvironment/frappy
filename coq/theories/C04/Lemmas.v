(* C04 — lemmas about the request path model.  E (CPython int()/b64decode data) and hook (the user's check_<p>
   functions, ANY function of value and module state) are section variables: everything holds for all of them. *)
From Coq Require Import ZArith NArith Bool List.
Import ListNotations.
Require Import FV.Base.Util FV.Base.F64 FV.Base.PyVal FV.C01.Model FV.C01.Lemmas FV.C04.Model FV.C04.ConcModel.

Lemma getp_setp c n x n' : getp (setp c n x) n' = if str_eqb n' n then Some x else getp c n'.
Proof.
  unfold getp, setp. induction c as [|[k v] c IH]; cbn.
  - destruct (str_eqb n' n); reflexivity.
  - destruct (str_eqb n k) eqn:Hnk; cbn.
    + apply str_eqb_eq in Hnk. subst k. destruct (str_eqb n' n); reflexivity.
    + destruct (str_eqb n' k) eqn:Hk.
      * apply str_eqb_eq in Hk. subst k.
        destruct (str_eqb n' n) eqn:Hn; [|reflexivity].
        apply str_eqb_eq in Hn. subst n'. rewrite str_eqb_refl in Hnk. discriminate.
      * exact IH.
Qed.

Lemma getp_setp_same c n x : getp (setp c n x) n = Some x.
Proof. rewrite getp_setp, str_eqb_refl. reflexivity. Qed.

Lemma getp_setp_other c n x n' : n' <> n -> getp (setp c n x) n' = getp c n'.
Proof.
  intros H. rewrite getp_setp. destruct (str_eqb n' n) eqn:Hn; [|reflexivity].
  apply str_eqb_eq in Hn. contradiction.
Qed.

Lemma find_export_in accs e a : find_export accs e = Some a -> In a accs /\ acc_export a = Some e.
Proof.
  induction accs as [|x r IH]; cbn; [discriminate|].
  destruct (acc_export x) as [e'|] eqn:Hx.
  - destruct (str_eqb e e') eqn:He.
    + intros H. injection H as <-. apply str_eqb_eq in He. subst e'. split; [left; reflexivity|exact Hx].
    + intros H. destruct (IH H). split; [right|]; assumption.
  - intros H. destruct (IH H). split; [right|]; assumption.
Qed.

Lemma lookup_export_in md e a : lookup_export md e = Some a ->
  md_export md = true /\ In a (md_acc md) /\ acc_export a = Some e.
Proof.
  unfold lookup_export. destruct (md_export md); [|discriminate].
  intros H. destruct (find_export_in _ _ _ H). auto.
Qed.

(* an accessible without wire name is never found *)
Lemma find_export_exported accs e a : find_export accs e = Some a -> acc_export a <> None.
Proof. intros H. destruct (find_export_in _ _ _ H) as [_ H2]. rewrite H2. discriminate. Qed.

Lemma py_lt_int x y : py_lt (PInt x) (PInt y) = Ok (x <? y)%Z.
Proof. unfold py_lt, num_cmp. cbn. unfold Z.ltb. destruct (x ?= y)%Z; reflexivity. Qed.
Lemma py_le_int x y : py_le (PInt x) (PInt y) = Ok (x <=? y)%Z.
Proof. unfold py_le, num_cmp. cbn. unfold Z.leb. destruct (x ?= y)%Z; reflexivity. Qed.
Lemma py_gt_int x y : py_gt (PInt x) (PInt y) = Ok (y <? x)%Z.
Proof. unfold py_gt. apply py_lt_int. Qed.

(* the three ways a value can satisfy the limit parameters, read off the cache *)
Definition inside_limits (pn : str) (v : pyval) (c : cache) : Prop :=
  forall lo hi, getp c (pn ++ s_limits) = Some (PTuple [lo; hi]) -> py_le lo v = Ok true /\ py_le v hi = Ok true.
Definition inside_min (pn : str) (v : pyval) (c : cache) : Prop :=
  forall lo, getp c (pn ++ s_min) = Some lo -> py_lt v lo = Ok false.
Definition inside_max (pn : str) (v : pyval) (c : cache) : Prop :=
  forall hi, getp c (pn ++ s_max) = Some hi -> py_gt v hi = Ok false.
Definition not_inverted (pn : str) (c : cache) : Prop :=
  forall lo hi, getp c (pn ++ s_min) = Some lo -> getp c (pn ++ s_max) = Some hi -> py_gt lo hi = Ok false.

Lemma bind_bool_ok (r : res bool) (f : bool -> res unit) :
  r >>= f = Ok tt -> exists b, r = Ok b /\ f b = Ok tt.
Proof. destruct r as [b|e]; cbn; [eauto|discriminate]. Qed.

Lemma check_tuple_ok pn v c : check_tuple pn v c = Ok tt -> inside_limits pn v c.
Proof.
  unfold check_tuple, inside_limits. intros H lo hi G. rewrite G in H.
  apply bind_bool_ok in H. destruct H as (b1 & H1 & H). destruct b1; [|discriminate].
  apply bind_bool_ok in H. destruct H as (b2 & H2 & H). destruct b2; [|discriminate]. auto.
Qed.

Lemma check_minmax_ok pn v c : check_minmax pn v c = Ok tt ->
  inside_min pn v c /\ inside_max pn v c /\ not_inverted pn c.
Proof.
  unfold check_minmax, inside_min, inside_max, not_inverted. cbn zeta. intros H.
  apply bind_bool_ok in H. destruct H as (b1 & H1 & H). destruct b1; [discriminate|].
  apply bind_bool_ok in H. destruct H as (b2 & H2 & H). destruct b2; [discriminate|].
  apply bind_bool_ok in H. destruct H as (b3 & H3 & H). destruct b3; [discriminate|].
  repeat split.
  - intros lo G. rewrite G in H2. exact H2.
  - intros hi G. rewrite G in H3. exact H3.
  - intros lo hi G1 G2. rewrite G1, G2 in H1. exact H1.
Qed.

(* the property's reading: every limit parameter that exists is respected -- for every layout, also <p>_limits
   together with <p>_min/<p>_max (checkLimits no longer returns after the <p>_limits test) *)
Definition limits_respected (pn : str) (v : pyval) (c : cache) : Prop :=
  inside_limits pn v c /\ inside_min pn v c /\ inside_max pn v c.

Lemma check_limits_respected pn v c :
  check_limits pn v c = Ok tt -> limits_respected pn v c /\ not_inverted pn c.
Proof.
  unfold check_limits, limits_respected. destruct (check_tuple pn v c) as [[]|e] eqn:H1; [cbn [bind]|discriminate].
  intros H2. destruct (check_minmax_ok pn v c H2) as (A & B & C). split; [split; [apply check_tuple_ok, H1|auto]|exact C].
Qed.

Section WithUserCode.
Variable E : pyenv.
Variable hook : nat -> pyval -> cache -> hres.

(* in this section the functions of Model.v are written without their arguments E and hook; a proof that unfolds one
   names the constant itself (Model.write_wrapper) *)
Notation run_checks := (run_checks hook).
Notation write_wrapper := (write_wrapper hook).
Notation handle_change := (handle_change E hook).
Notation handle_do := (handle_do E).
Notation handle := (handle E hook).

Definition check_holds (pn : str) (v : pyval) (c : cache) (k : check) : Prop :=
  match k with CkAuto => check_limits pn v c = Ok tt | CkUser i => hook i v c = HNone end.

Definition checks_pass (p : param) (v : pyval) (c : cache) : Prop :=
  snd (run_checks (p_checks p) (p_name p) v c) = None.

(* the chain runs through a prefix of checks that hold and stops at the end, at a hook returning True, or -- with an
   exception -- at a check that does not hold *)
Lemma run_checks_spec cks pn v c :
  exists pre post, cks = pre ++ post /\ Forall (check_holds pn v c) pre /\
    match snd (run_checks cks pn v c) with
    | None => post = [] \/ exists i r, post = CkUser i :: r /\ hook i v c = HStop
    | Some _ => exists k r, post = k :: r /\ ~ check_holds pn v c k
    end.
Proof.
  induction cks as [|k r (pre & post & -> & F & T)]; cbn [Model.run_checks].
  - exists [], []. cbn. auto.
  - destruct k as [|i].
    + destruct (check_limits pn v c) as [[]|e] eqn:Hc.
      * exists (CkAuto :: pre), post. split; [reflexivity|split; [constructor; assumption|exact T]].
      * exists [], (CkAuto :: pre ++ post). cbn [snd]. split; [reflexivity|split; [constructor|]].
        exists CkAuto, (pre ++ post). unfold check_holds. rewrite Hc. split; [reflexivity|discriminate].
    + destruct (hook i v c) eqn:Hh.
      * destruct (Model.run_checks hook (pre ++ post) pn v c) as [l o]. exists (CkUser i :: pre), post.
        split; [reflexivity|split; [constructor; assumption|exact T]].
      * exists [], (CkUser i :: pre ++ post). cbn [snd]. split; [reflexivity|split; [constructor|eauto]].
      * exists [], (CkUser i :: pre ++ post). cbn [snd]. split; [reflexivity|split; [constructor|]].
        exists (CkUser i), (pre ++ post). unfold check_holds. rewrite Hh. split; [reflexivity|discriminate].
Qed.

Lemma run_checks_prefix cks pn v c : snd (run_checks cks pn v c) = None ->
  exists pre post, cks = pre ++ post /\ Forall (check_holds pn v c) pre /\
                   (post = [] \/ exists i r, post = CkUser i :: r /\ hook i v c = HStop).
Proof. intros H. destruct (run_checks_spec cks pn v c) as (pre & post & E' & F & T). rewrite H in T. eauto. Qed.

Lemma run_checks_all cks pn v c : snd (run_checks cks pn v c) = None ->
  (forall i, In (CkUser i) cks -> hook i v c <> HStop) -> Forall (check_holds pn v c) cks.
Proof.
  intros H N. destruct (run_checks_prefix _ _ _ _ H) as (pre & post & -> & F & [->|(i & r & -> & S)]).
  - rewrite app_nil_r. exact F.
  - exfalso. apply (N i); [apply in_or_app; right; left; reflexivity|exact S].
Qed.

Definition untouched (c : cache) (o : out) : Prop := o_drv o = [] /\ o_upd o = [] /\ o_cache o = c.

Lemma fail_not_called c e hl : ~ (o_drv (fail c e [] hl) <> [] \/ o_reply (fail c e [] hl) = None).
Proof. intros [H|H]; [apply H; reflexivity|discriminate]. Qed.

Lemma store_drv p x c dl hl : o_drv (store p x c dl hl) = dl.
Proof. unfold store. destruct (p_export p); [destruct (exportable _ _)|]; reflexivity. Qed.
Lemma store_hooks p x c dl hl : o_hooks (store p x c dl hl) = hl.
Proof. unfold store. destruct (p_export p); [destruct (exportable _ _)|]; reflexivity. Qed.
Lemma store_cache p x c dl hl : o_cache (store p x c dl hl) = setp c (p_name p) x.
Proof. unfold store. destruct (p_export p); [destruct (exportable _ _)|]; reflexivity. Qed.
(* the stored value is announced, unless it cannot be exported: then WrongType, no update, cache already written *)
Lemma store_reply p x c dl hl :
  (o_reply (store p x c dl hl) = None /\
     o_upd (store p x c dl hl) = match p_export p with Some _ => [(p_name p, x)] | None => [] end /\
     (p_export p <> None -> exportable (p_dt p) x = true)) \/
  (o_reply (store p x c dl hl) = Some WrongType /\ o_upd (store p x c dl hl) = [] /\
     p_export p <> None /\ exportable (p_dt p) x = false).
Proof.
  unfold store. destruct (p_export p) as [e|].
  - destruct (exportable (p_dt p) x) eqn:X; [left|right]; repeat split; auto; discriminate.
  - left. repeat split. intros N. contradiction.
Qed.

(* the one case analysis of the wrapper that the facts about cache and subscribers share: what can end up in the cache
   is the argument itself (driver returned None) or a result of validate *)
Lemma write_wrapper_outcome p v c d :
  (o_upd (write_wrapper p v c d) = [] /\ o_cache (write_wrapper p v c d) = c) \/
  exists x dl hl, write_wrapper p v c d = store p x c dl hl /\ (x = v \/ exists r, dt_validate (p_dt p) r PNone = Ok x).
Proof.
  unfold Model.write_wrapper.
  destruct (dt_validate (p_dt p) v PNone) as [nv|e] eqn:V; [|left; split; reflexivity].
  destruct (Model.run_checks hook (p_checks p) (p_name p) v c) as [hl [e|]]; [left; split; reflexivity|].
  destruct (p_haswrite p); [|right; eauto 7].
  destruct (drv_norm d) as [| |r|e]; [right; eauto 7|left; split; reflexivity| |left; split; reflexivity].
  destruct (dt_validate (p_dt p) r PNone) as [x|e] eqn:R; [right; eauto 7|left; split; reflexivity].
Qed.

Lemma write_wrapper_called p v c d :
  o_drv (write_wrapper p v c d) <> [] \/ o_reply (write_wrapper p v c d) = None ->
  exists w, dt_validate (p_dt p) v PNone = Ok w /\ checks_pass p v c /\
            o_drv (write_wrapper p v c d) = if p_haswrite p then [Write (p_name p) w] else [].
Proof.
  unfold checks_pass, Model.write_wrapper.
  destruct (dt_validate (p_dt p) v PNone) as [nv|e]; [|intros H; destruct (fail_not_called _ _ _ H)].
  destruct (Model.run_checks hook (p_checks p) (p_name p) v c) as [hl [e|]]; [intros H; destruct (fail_not_called _ _ _ H)|].
  intros _. exists nv. split; [reflexivity|split; [reflexivity|]].
  destruct (p_haswrite p); [|apply store_drv].
  destruct (drv_norm d) as [| |r|e]; [apply store_drv|reflexivity| |reflexivity].
  destruct (dt_validate (p_dt p) r PNone); [apply store_drv|reflexivity].
Qed.

(* the write wrapper changes at most the written parameter *)
Lemma write_wrapper_frame p v c d n :
  n <> p_name p -> getp (o_cache (write_wrapper p v c d)) n = getp c n.
Proof.
  intros N. destruct (write_wrapper_outcome p v c d) as [[_ ->]|(x & dl & hl & -> & _)]; [reflexivity|].
  rewrite store_cache. apply getp_setp_other, N.
Qed.

Lemma reply_export_same p o : o_drv (reply_export p o) = o_drv o /\ o_hooks (reply_export p o) = o_hooks o /\
  o_upd (reply_export p o) = o_upd o /\ o_cache (reply_export p o) = o_cache o.
Proof.
  unfold reply_export. destruct (o_reply o); [auto|].
  destruct (getp (o_cache o) (p_name p)) as [x|]; [|auto]. destruct (exportable (p_dt p) x); auto.
Qed.
Lemma reply_export_cases p o :
  reply_export p o = o \/
  (o_reply o = None /\ o_reply (reply_export p o) = Some WrongType /\
   exists x, getp (o_cache o) (p_name p) = Some x /\ exportable (p_dt p) x = false).
Proof.
  unfold reply_export. destruct (o_reply o); [auto|].
  destruct (getp (o_cache o) (p_name p)) as [x|]; [|auto].
  destruct (exportable (p_dt p) x) eqn:X; [auto|]. right. eauto.
Qed.
(* after announceUpdate the reply is built from the value just stored *)
Lemma reply_export_store p x c dl hl :
  (p_export p = None -> exportable (p_dt p) x = true) -> reply_export p (store p x c dl hl) = store p x c dl hl.
Proof.
  intros H. unfold store, reply_export. destruct (p_export p) as [e|].
  - destruct (exportable (p_dt p) x) eqn:X; cbn [o_reply o_cache]; [rewrite getp_setp_same, X|]; reflexivity.
  - cbn [o_reply o_cache]. rewrite getp_setp_same, H; reflexivity.
Qed.

Definition ename (rq : request) : str := match rq_acc rq with Some a => a | None => s_target end.
Definition prev_of (c : cache) (p : param) : pyval := match getp c (p_name p) with Some x => x | None => PNone end.

(* pre_change (ConcModel.v) is handle_change cut in front of the wrapper call *)
Lemma handle_change_pre md c rq :
  handle_change md c rq =
  match pre_change E md c rq with
  | inl e => fail c e [] []
  | inr (p, v) => reply_export p (write_wrapper p v c (rq_drv rq))
  end.
Proof.
  unfold Model.handle_change, pre_change. destruct (negb (str_eqb (rq_mod rq) (md_name md))); [reflexivity|].
  destruct (lookup_export md _) as [[p|cm]|]; try reflexivity.
  destruct (p_constant p); [reflexivity|]. destruct (p_readonly p); [reflexivity|].
  destruct (wire E (p_dt p) (rq_data rq) _); reflexivity.
Qed.

Lemma pre_change_inr md c rq p v : pre_change E md c rq = inr (p, v) ->
  rq_mod rq = md_name md /\ lookup_export md (ename rq) = Some (AParam p) /\ p_constant p = false /\ p_readonly p = false /\
  wire E (p_dt p) (rq_data rq) (prev_of c p) = Ok v.
Proof.
  unfold pre_change. fold (ename rq). destruct (str_eqb (rq_mod rq) (md_name md)) eqn:Hm; [|discriminate]. cbn [negb].
  destruct (lookup_export md (ename rq)) as [[q|cm]|]; try discriminate.
  destruct (p_constant q) eqn:Hc; [discriminate|]. destruct (p_readonly q) eqn:Hr; [discriminate|]. fold (prev_of c q).
  destruct (wire E (p_dt q) (rq_data rq) (prev_of c q)) as [w|e] eqn:Hw; [|discriminate].
  intros H. injection H as <- <-. apply str_eqb_eq in Hm. auto.
Qed.

Lemma change_called md c rq :
  o_drv (handle_change md c rq) <> [] \/ o_reply (handle_change md c rq) = None ->
  exists p v w, pre_change E md c rq = inr (p, v) /\ dt_validate (p_dt p) v PNone = Ok w /\ checks_pass p v c /\
                o_drv (handle_change md c rq) = if p_haswrite p then [Write (p_name p) w] else [].
Proof.
  rewrite handle_change_pre. destruct (pre_change E md c rq) as [e|[p v]]; [intros H; destruct (fail_not_called _ _ _ H)|].
  destruct (reply_export_same p (write_wrapper p v c (rq_drv rq))) as (-> & _). intros H.
  destruct (write_wrapper_called p v c (rq_drv rq)) as (w & Hw); [|eauto 7].
  destruct H as [H|H]; [left; exact H|right].
  destruct (reply_export_cases p (write_wrapper p v c (rq_drv rq))) as [G|(G & _)]; congruence.
Qed.

(* a datatype refusal is answered WrongType or RangeError (the C01 totality guard: representable scaled values, a dict
   as cached struct value) *)
Lemma bad_value_report e : is_bad_value e = true -> report (of_exc e) = WrongType \/ report (of_exc e) = RangeError.
Proof. destruct e; cbn; try discriminate; auto. Qed.

Lemma wire_refusal_class d j prev e :
  wire_guard E d j prev = true -> wire E d j prev = Err e ->
  report (of_exc e) = WrongType \/ report (of_exc e) = RangeError.
Proof.
  intros G W. pose proof (wire_total E d j prev G) as T. rewrite W in T. apply bad_value_report, T.
Qed.

Lemma call_cmd_clean cm a c d : o_upd (call_cmd cm a c d) = [] /\ o_cache (call_cmd cm a c d) = c /\
  o_drv (call_cmd cm a c d) = [Call (c_name cm) a].
Proof.
  unfold call_cmd. destruct d as [| |r|e]; cbn; try (destruct (c_res cm) as [rd|]; [destruct (dt_call rd _)|]); repeat split.
Qed.

Definition arg_ok (cm : command) (j : pyval) (w : pyval) : Prop :=
  match c_arg cm with
  | Some ad => j <> PNone /\ exists a, dt_import E ad j = Ok a /\ dt_validate ad a PNone = Ok w
  | None => j = PNone /\ w = PTuple []
  end.

Definition arg_guard (cm : command) (j : pyval) : bool :=
  match c_arg cm with Some ad => wire_guard E ad j PNone | None => true end.

(* Command.do up to the call of the function: the exception, or the prepared argument (import + validate = wire) *)
Definition is_pnone (j : pyval) : bool := match j with PNone => true | _ => false end.
Definition prep_arg (cm : command) (j : pyval) : err + pyval :=
  match c_arg cm with
  | Some ad =>
      if is_pnone j then inl (ESecop WrongType)
      else match wire E ad j PNone with Err e => inl (of_exc e) | Ok w => inr w end
  | None => if is_pnone j then inr (PTuple []) else inl (ESecop WrongType)
  end.

Lemma do_cmd_prep cm c rq :
  do_cmd E cm c rq =
  match prep_arg cm (rq_data rq) with inl e => fail c e [] [] | inr w => call_cmd cm w c (rq_drv rq) end.
Proof.
  unfold do_cmd, prep_arg, wire. destruct (c_arg cm) as [ad|]; destruct (rq_data rq); try reflexivity;
    (destruct (dt_import E ad _) as [a|e]; [|reflexivity]; cbn [bind]; destruct (dt_validate ad a PNone); reflexivity).
Qed.

Lemma is_pnone_spec j : if is_pnone j then j = PNone else j <> PNone.
Proof. destruct j; cbn; congruence. Qed.

Lemma prep_arg_inr cm j w : prep_arg cm j = inr w -> arg_ok cm j w.
Proof.
  unfold prep_arg, arg_ok, wire. pose proof (is_pnone_spec j) as N.
  destruct (c_arg cm) as [ad|]; destruct (is_pnone j); try discriminate.
  - destruct (dt_import E ad j) as [a|e]; [|discriminate]. cbn [bind].
    destruct (dt_validate ad a PNone) as [x|e] eqn:V; [|discriminate]. intros H. injection H as <-. eauto.
  - intros H. injection H as <-. auto.
Qed.

Lemma prep_arg_inl cm j e : prep_arg cm j = inl e -> arg_guard cm j = true -> report e = WrongType \/ report e = RangeError.
Proof.
  unfold prep_arg, arg_guard. destruct (c_arg cm) as [ad|]; destruct (is_pnone j); try discriminate;
    try (intros H; injection H as <-; auto).
  destruct (wire E ad j PNone) as [w|x] eqn:W; [discriminate|]. intros H G. injection H as <-.
  exact (wire_refusal_class ad j PNone x G W).
Qed.

Lemma do_cmd_clean cm c rq : o_upd (do_cmd E cm c rq) = [] /\ o_cache (do_cmd E cm c rq) = c.
Proof.
  rewrite do_cmd_prep. destruct (prep_arg cm (rq_data rq)) as [e|w]; [split; reflexivity|].
  destruct (call_cmd_clean cm w c (rq_drv rq)) as (A & B & _). auto.
Qed.

(* a do request never changes the cache and never emits an update (the scripted command function does nothing else) *)
Theorem do_clean md c rq : o_upd (handle_do md c rq) = [] /\ o_cache (handle_do md c rq) = c.
Proof.
  unfold Model.handle_do. destruct (rq_acc rq) as [en|]; [|split; reflexivity].
  destruct (negb (str_eqb (rq_mod rq) (md_name md))); [split; reflexivity|].
  destruct (lookup_export md en) as [[p|cm]|]; try (split; reflexivity). apply do_cmd_clean.
Qed.

Lemma do_called md c rq :
  o_drv (handle_do md c rq) <> [] \/ o_reply (handle_do md c rq) = None ->
  exists en cm w, rq_acc rq = Some en /\ rq_mod rq = md_name md /\ lookup_export md en = Some (ACmd cm) /\
                  arg_ok cm (rq_data rq) w /\ o_drv (handle_do md c rq) = [Call (c_name cm) w].
Proof.
  unfold Model.handle_do.
  destruct (rq_acc rq) as [en|]; [|intros H; destruct (fail_not_called _ _ _ H)].
  destruct (str_eqb (rq_mod rq) (md_name md)) eqn:Hm; cbn [negb]; [|intros H; destruct (fail_not_called _ _ _ H)].
  destruct (lookup_export md en) as [[p|cm]|] eqn:Hl; try (intros H; destruct (fail_not_called _ _ _ H)).
  rewrite do_cmd_prep. destruct (prep_arg cm (rq_data rq)) as [e|w] eqn:P; [intros H; destruct (fail_not_called _ _ _ H)|].
  intros _. apply str_eqb_eq in Hm. exists en, cm, w. repeat split; auto using prep_arg_inr. apply call_cmd_clean.
Qed.

(* the driver log of one request: at most one call, and it is behind every test of its request kind *)
Lemma handle_called md c rq x : In x (o_drv (handle md c rq)) ->
  o_drv (handle md c rq) = [x] /\
  match x with
  | Write pn w => exists p v, pre_change E md c rq = inr (p, v) /\ dt_validate (p_dt p) v PNone = Ok w /\
                              checks_pass p v c /\ p_haswrite p = true /\ p_name p = pn
  | Call cn w => exists en cm, rq_acc rq = Some en /\ lookup_export md en = Some (ACmd cm) /\
                               arg_ok cm (rq_data rq) w /\ c_name cm = cn
  end.
Proof.
  unfold Model.handle. intros I.
  assert (N : forall l, In x l -> l <> []) by (intros l J ->; destruct J).
  destruct (rq_act rq).
  - destruct (change_called md c rq (or_introl (N _ I))) as (p & v & w & Hp & Hv & Hk & Hd). rewrite Hd in *.
    destruct (p_haswrite p) eqn:Hh; [|destruct I]. destruct I as [<-|[]]. split; [reflexivity|]. exists p, v. auto.
  - destruct (do_called md c rq (or_introl (N _ I))) as (en & cm & w & Ha & _ & Hl & A & Hd). rewrite Hd in *.
    destruct I as [<-|[]]. split; [reflexivity|]. exists en, cm. auto.
Qed.

Definition stored_unexportable (p : param) (c : cache) (o : out) : Prop :=
  exists x, exportable (p_dt p) x = false /\ o_reply o = Some WrongType /\ o_upd o = [] /\
            o_cache o = setp c (p_name p) x.

(* write_wrapper_outcome carried through the dispatcher: the case analysis of a whole request from which the theorems
   about error replies and about cache invariants start *)
Lemma handle_outcome md c rq :
  (o_upd (handle md c rq) = [] /\ o_cache (handle md c rq) = c) \/
  (rq_act rq = AChange /\
   exists p v x dl hl, pre_change E md c rq = inr (p, v) /\ handle md c rq = store p x c dl hl /\
                       (x = v \/ exists r, dt_validate (p_dt p) r PNone = Ok x)).
Proof.
  unfold Model.handle. destruct (rq_act rq); [|left; apply do_clean].
  rewrite handle_change_pre. destruct (pre_change E md c rq) as [e|[p v]] eqn:Hp; [left; split; reflexivity|].
  destruct (write_wrapper_outcome p v c (rq_drv rq)) as [H|(x & dl & hl & -> & Hx)].
  - left. destruct (reply_export_same p (write_wrapper p v c (rq_drv rq))) as (_ & _ & -> & ->). exact H.
  - right. split; [reflexivity|]. exists p, v, x, dl, hl. split; [reflexivity|split; [|exact Hx]].
    apply reply_export_store. intros N. destruct (pre_change_inr _ _ _ _ _ Hp) as (_ & Hl & _).
    destruct (lookup_export_in _ _ _ Hl) as (_ & _ & Hx'). cbn in Hx'. congruence.
Qed.

End WithUserCode.
