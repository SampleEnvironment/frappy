(* C20 -- concurrent layer, progress: programs that use the dispatcher lock in a balanced way (every compiled connection
   program does, readers do not use it at all) can always be run to completion -- the hypothesis "all threads have finished"
   of the concurrent theorems is satisfiable for every set of such threads. *)
From Coq Require Import List Arith ZArith Bool NArith Lia.
Import ListNotations.
Require Import FV.Gen.C20 FV.C20.Model FV.C20.ConcModel FV.C20.Lemmas FV.C20.LemmasConc.

Fixpoint balanced_from (held : bool) (p : list aop) : bool :=
  match p with
  | [] => negb held
  | AAcq :: r => negb held && balanced_from true r
  | ARel _ :: r => held && balanced_from false r
  | _ :: r => balanced_from held r
  end.
Definition balanced (p : list aop) : bool := balanced_from false p.

Lemma balanced_app a : forall held b,
  balanced_from held a = true -> balanced_from false b = true -> balanced_from held (a ++ b) = true.
Proof.
  induction a as [|x r]; intros held b A B; simpl in *.
  - destruct held; [discriminate|auto].
  - destruct x; auto.
    + apply andb_true_iff in A as [A1 A2]. rewrite A1. simpl. auto.
    + apply andb_true_iff in A as [A1 A2]. rewrite A1. simpl. auto.
Qed.

Lemma balanced_tabs held ms c lv r :
  balanced_from held (flat_map (set_level_ops c lv) ms ++ r) = balanced_from held r.
Proof. induction ms; simpl; auto. Qed.

Lemma op_prog_balanced mods o : balanced (op_prog mods o) = true.
Proof.
  unfold balanced. destruct o as [c spec d|m lv py|c|c|c sp|c sp]; simpl; auto.
  - (* OLogging *)
    unfold logging_ops. destruct (req_targets mods spec); simpl; auto.
    destruct (check_level d); simpl; auto. apply balanced_tabs.
  - (* OIdent *) apply balanced_tabs.
  - (* ODisconnect *) unfold reset_ops. rewrite <- (app_nil_r (flat_map _ _)). apply balanced_tabs.
Qed.

Lemma conn_prog_balanced mods ops : balanced (conn_prog mods ops) = true.
Proof.
  unfold balanced, conn_prog. induction ops as [|o r]; simpl; auto.
  apply balanced_app; auto. apply op_prog_balanced.
Qed.

Lemma emit_prog_balanced recs : balanced (emit_prog recs) = true.
Proof. unfold balanced, emit_prog. induction recs as [|r rs]; simpl; auto. Qed.

Lemma nth_error_set_nth_same {A} (x : A) l : forall n, n < length l -> nth_error (set_nth n x l) n = Some x.
Proof. induction l; intros n H; simpl in H; [lia|]. destruct n; simpl; auto. apply IHl. lia. Qed.

Lemma set_nth_set_nth {A} (x y : A) l : forall n, set_nth n x (set_nth n y l) = set_nth n x l.
Proof. induction l; destruct n; simpl; auto. rewrite IHl. auto. Qed.

Lemma set_nth_same {A} (x : A) l : forall n, nth_error l n = Some x -> set_nth n x l = l.
Proof.
  induction l; intros n H; destruct n; simpl in *; try discriminate; [inversion H|rewrite IHl]; auto.
Qed.

Lemma nth_error_middle {A} (a b : list A) y : nth_error (a ++ y :: b) (length a) = Some y.
Proof. induction a; simpl; auto. Qed.

Lemma set_nth_middle {A} (a b : list A) x y : set_nth (length a) x (a ++ y :: b) = a ++ x :: b.
Proof. induction a; simpl; auto. rewrite IHa. auto. Qed.

Definition pend_of (st : cstate) (j : nat) : list delivery := l_pend (nth j (c_loc st) loc0).

Lemma crun_app st a b : crun (crun st a) b = crun st (a ++ b).
Proof. unfold crun. symmetry. apply fold_left_app. Qed.

(* the messages of a snapshot are sent one per step *)
Lemma drain i : forall L st,
  pend_of st i = L -> i < length (c_loc st) ->
  pend_of (crun st (repeat i (length L))) i = [] /\
  c_lock (crun st (repeat i (length L))) = c_lock st /\
  c_progs (crun st (repeat i (length L))) = c_progs st /\
  length (c_loc (crun st (repeat i (length L)))) = length (c_loc st) /\
  (forall j, j <> i -> pend_of (crun st (repeat i (length L))) j = pend_of st j).
Proof.
  induction L as [|d pr]; intros st P LT; simpl.
  - repeat split; auto.
  - (* one message is sent (s1), then the others *)
    set (s1 := cstep st i).
    assert (S1 : pend_of s1 i = pr /\ c_lock s1 = c_lock st /\ c_progs s1 = c_progs st /\
                 length (c_loc s1) = length (c_loc st) /\ forall j, j <> i -> pend_of s1 j = pend_of st j).
    { unfold s1, cstep. unfold pend_of in *. rewrite P. simpl. rewrite set_nth_length, nth_set_nth_same by auto.
      repeat split; auto. intros j N. rewrite nth_set_nth_other by auto. reflexivity. }
    destruct S1 as (P1 & L1 & G1 & N1 & O1).
    destruct (IHpr s1 P1) as (A & B & C & D & E); [rewrite N1; exact LT|].
    repeat split; try congruence. intros j N. rewrite E, O1; auto.
Qed.

(* thread i, run alone from st, has reached its end in st' *)
Definition finished_alone (st st' : cstate) (i : nat) : Prop :=
  c_lock st' = None /\
  c_progs st' = set_nth i [] (c_progs st) /\
  length (c_loc st') = length (c_loc st) /\
  pend_of st' i = [] /\
  (forall j, j <> i -> pend_of st' j = pend_of st j).

(* the first step of a balanced program is enabled; held': whether the thread holds the lock after it *)
Lemma balanced_head i a r (held : bool) lock :
  lock = (if held then Some i else None) -> balanced_from held (a :: r) = true ->
  exists held' : bool, enabled lock a = true /\ balanced_from held' r = true /\
    match a with AAcq => Some i | ARel _ => None | _ => lock end = if held' then Some i else None.
Proof.
  intros -> B. destruct a; simpl in B.
  - (* AAcq: the lock is free *)
    destruct held; [discriminate|]. exists true. auto.
  - (* ARel *) apply andb_true_iff in B as [_ B]. exists false. auto.
  - exists held. auto.
  - exists held. auto.
  - exists held. auto.
Qed.

(* a thread whose remaining program is balanced, holding the lock or finding it free, never has to wait *)
Lemma run_alone i p : forall st (held : bool),
  nth_error (c_progs st) i = Some p ->
  pend_of st i = [] -> i < length (c_loc st) ->
  c_lock st = (if held then Some i else @None nat) ->
  balanced_from held p = true ->
  exists k, finished_alone st (crun st (repeat i k)) i.
Proof.
  induction p as [|a r]; intros st held E PE LT L B; simpl in B.
  - destruct held; [discriminate|]. exists 0. repeat split; auto. symmetry. apply set_nth_same, E.
  - destruct (balanced_head i a r held (c_lock st) L B) as (held' & EN & B' & L').
    (* the step s1, then the messages of a snapshot it may have taken s2, then the rest of the program *)
    set (s1 := cstep st i).
    assert (S1 : c_lock s1 = (if held' then Some i else None) /\ c_progs s1 = set_nth i r (c_progs st) /\
                 length (c_loc s1) = length (c_loc st) /\ forall j, j <> i -> pend_of s1 j = pend_of st j).
    { unfold s1, cstep. unfold pend_of in PE. rewrite PE, E, EN. simpl. repeat split; auto using set_nth_length.
      intros j N. unfold pend_of. simpl. rewrite nth_set_nth_other by auto. reflexivity. }
    destruct S1 as (L1 & P1 & N1 & O1).
    destruct (drain i (pend_of s1 i) s1 eq_refl) as (D1 & D2 & D3 & D4 & D5); [rewrite N1; auto|].
    set (k1 := length (pend_of s1 i)) in *. set (s2 := crun s1 (repeat i k1)) in *.
    destruct (IHr s2 held') as (k2 & R1 & R2 & R3 & R4 & R5); try congruence.
    + rewrite D3, P1. apply nth_error_set_nth_same. eapply nth_error_lt, E.
    + exists (S (k1 + k2)). simpl. fold s1. rewrite repeat_app, <- crun_app. fold s2.
      repeat split; auto; try congruence.
      * rewrite R2, D3, P1. apply set_nth_set_nth.
      * intros j N. rewrite R5, D5, O1; auto.
Qed.

Lemma nth_init_loc (progs : list (list aop)) i : nth i (map (fun _ => loc0) progs) loc0 = loc0.
Proof.
  destruct (nth_in_or_default i (map (fun _ : list aop => loc0) progs) loc0) as [I|D]; auto.
  apply in_map_iff in I as (x & X & _). auto.
Qed.

(* the threads one after the other: those of done_ have finished, the others have not started *)
Lemma run_threads t0 done_ : forall rest,
  Forall (fun p => balanced p = true) (done_ ++ rest) ->
  exists sched, let st := crun (init (done_ ++ rest) t0) sched in
    c_lock st = None /\ c_progs st = map (fun _ => []) done_ ++ rest /\
    length (c_loc st) = length (done_ ++ rest) /\ forall j, pend_of st j = [].
Proof.
  induction done_ as [|p done_ IH] using rev_ind; intros rest BAL.
  - exists []. simpl. repeat split; [apply map_length|].
    intros j. unfold pend_of. simpl. rewrite nth_init_loc. reflexivity.
  - rewrite <- app_assoc in *. cbn [app] in *. destruct (IH (p :: rest) BAL) as (sched & L & P & LEN & PEND).
    set (st := crun _ sched) in *. set (i := length (map (fun _ : list aop => @nil aop) done_)).
    destruct (run_alone i p st false) as (n & R1 & R2 & R3 & R4 & R5); auto.
    + rewrite P. apply nth_error_middle.
    + rewrite LEN, app_length. unfold i. rewrite map_length. simpl. lia.
    + apply Forall_app in BAL as [_ BAL]. inversion BAL; auto.
    + exists (sched ++ repeat i n). rewrite <- crun_app. fold st. cbv zeta. repeat split; try congruence.
      * rewrite R2, P, map_app, <- app_assoc. apply set_nth_middle.
      * intros j. destruct (Nat.eq_dec j i) as [->|N]; auto. rewrite R5; auto.
Qed.

Lemma complete_schedule_exists progs t0 :
  Forall (fun p => balanced p = true) progs ->
  exists sched, all_done (crun (init progs t0) sched) = true.
Proof.
  intros BAL. destruct (run_threads t0 progs []) as (sched & _ & P & _ & PEND); rewrite ?app_nil_r in *; auto.
  exists sched. unfold all_done. apply andb_true_iff. split; apply forallb_forall.
  - rewrite P. intros p I. apply in_map_iff in I as (x & <- & _). reflexivity.
  - intros lo I. apply (In_nth _ _ loc0) in I as (j & _ & <-). specialize (PEND j). unfold pend_of in PEND.
    rewrite PEND. reflexivity.
Qed.
