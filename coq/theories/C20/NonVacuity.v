(* C20 -- vacuity audit: every theorem of Properties.v applied to a concrete, non-trivial instance
   (two modules, an internal module, three connections, four threads with a contended lock, a directory with
   earlier / later / foreign entries).  Every Example below is proved BY the audited theorem (its premises are
   discharged on the instance), the values next to it are computed, so that the instance is seen to be non-degenerate. *)
From Coq Require Import List Arith ZArith Bool NArith Lia.
Import ListNotations.
Require Import FV.Gen.C20 FV.C20.Model FV.C20.ConcModel FV.C20.Lemmas FV.C20.LemmasRot FV.C20.LemmasConc
  FV.C20.LemmasProg FV.C20.LemmasEmit FV.C20.LemmasNode FV.C20.Properties.

(* a premise of the form: forall o, In o <concrete list> -> f o = <bool> *)
Ltac all_in :=
  let o := fresh "o" in let H := fresh "H" in
  intros o H; simpl in H;
  repeat (destruct H as [H|H]; [subst o; reflexivity|]); destruct H.

Definition nv_mods : list name := [mA; mB].
Definition nv_hist : list op :=
  [OLogging 0 (Some mA) (LStr s_debug); OLogging 1 None (LStr s_warning); OEmit mA 20%Z s_info;
   OLogging 0 (Some mB) (LNum 40%Z); OLogging 1 (Some mA) (LStr s_off)].

(* C20_routing_exact has no premise; both sides are a non-empty list here, and an empty one for the connection that
   switched the module off *)
Example C20_routing_exact_applies :
  deliv_to 0 (handle (run nv_mods nv_hist) mA 20%Z s_info) = [(0, mA, s_info)] /\
  expected (spec_choice nv_mods (rev nv_hist) mA 0) mA 20%Z s_info 0 = [(0, mA, s_info)] /\
  deliv_to 1 (handle (run nv_mods nv_hist) mA 40%Z s_error) = [] /\
  deliv_to 1 (handle (run nv_mods nv_hist) mB 50%Z s_critical) = [(1, mB, s_critical)].
Proof.
  rewrite !C20_routing_exact. vm_compute. auto.
Qed.

(* C20_routing, both directions used *)
Example C20_routing_applies_if :
  In (0, mA, record_name 20%Z s_info) (handle (run nv_mods nv_hist) mA 20%Z s_info).
Proof. apply C20_routing. exists 10%Z. split; [vm_compute; reflexivity|lia]. Qed.

Example C20_routing_applies_only_if :
  exists x, spec_choice nv_mods (rev nv_hist) mB 1 = Some x /\ (x <= 50)%Z.
Proof. apply (proj1 (C20_routing nv_mods nv_hist mB 50%Z s_critical 1)). vm_compute. auto. Qed.

(* and the negative reading: connection 0 chose 40 for mB, a warning (30) is not delivered *)
Example C20_routing_applies_not :
  ~ In (0, mB, record_name 30%Z s_warning) (handle (run nv_mods nv_hist) mB 30%Z s_warning).
Proof.
  intros H. apply C20_routing in H. destruct H as (x & E & L). vm_compute in E. inversion E; subst x. lia.
Qed.

(* C20_stop: connection 0 receives before the stop, the history after the stop contains requests of another connection,
   records, a disconnect of the other connection and a re-identification of connection 0 itself *)
Definition nv_before : list op := [OLogging 0 (Some mA) (LStr s_debug); OLogging 1 None (LStr s_warning)].
Definition nv_after : list op :=
  [OLogging 1 (Some mA) (LStr s_debug); OEmit mA 40%Z s_error; ODisconnect 1; OIdent 0; OLogging 2 None (LNum 10%Z)].

Example C20_stop_applies :
  deliv_to 0 (handle (run nv_mods nv_before) mA 40%Z s_error) = [(0, mA, s_error)] /\
  deliv_to 0 (handle (run nv_mods (nv_before ++ OLogging 0 None (LStr s_off) :: nv_after)) mA 40%Z s_error) = [] /\
  deliv_to 2 (handle (run nv_mods (nv_before ++ OLogging 0 None (LStr s_off) :: nv_after)) mA 40%Z s_error)
    = [(2, mA, s_error)].
Proof.
  split; [vm_compute; reflexivity|]. split; [|vm_compute; reflexivity].
  apply C20_stop.
  - vm_compute. reflexivity.
  - all_in.
Qed.

Example C20_stop_ways_applies :
  silences nv_mods (OIdent 1) mB 1 /\ silences nv_mods (ODisconnect 1) mB 1 /\
  silences nv_mods (OLogging 1 (Some mB) (LStr s_off)) mB 1 /\
  silences nv_mods (OLogging 1 (Some [46%N]) (LStr s_off)) mB 1 /\
  silences nv_mods (OLogging 1 None (LStr s_off)) mB 1.
Proof.
  destruct (C20_stop_ways nv_mods mB 1) as (A & B & C); [vm_compute; reflexivity|].
  repeat apply conj; auto; apply C; vm_compute; reflexivity.
Qed.

(* C20_stop_covers_every_module: a node with two exported modules and an internal one between them; connection 0 is
   subscribed to all three (the internal one by name), connection 1 too; all three kinds of stop *)
Definition nv_node : node := [(mA, true); (m_hidden, false); (mB, true)].
Definition nv_node_before : list op :=
  [OLogging 0 (Some m_hidden) (LStr s_debug); OLogging 0 None (LStr s_info); OLogging 1 None (LStr s_debug)].
Definition nv_node_after : list op :=
  [OLogging 1 (Some m_hidden) (LStr s_error); OEmit m_hidden 40%Z s_error; ODisconnect 0; OIdent 1].

Example C20_stop_covers_every_module_applies :
  chosen (run_node nv_node nv_node_before) m_hidden 0 = Some 20%Z /\
  forall stop, In stop [OIdent 0; ODisconnect 0; OLogging 0 (Some [46%N]) (LNum 99%Z)] ->
    chosen (run_node nv_node (nv_node_before ++ stop :: nv_node_after)) m_hidden 0 = None /\
    (forall lv py, deliv_to 0 (handle (run_node nv_node (nv_node_before ++ stop :: nv_node_after)) m_hidden lv py) = []) /\
    chosen (run_node nv_node (nv_node_before ++ stop :: nv_node_after)) mB 0 = None.
Proof.
  split; [vm_compute; reflexivity|].
  intros stop I.
  assert (stops_all stop 0) as S.
  { destruct I as [<-|[<-|[<-|[]]]]; [left|right; left|right; right; exists (Some [46%N]), (LNum 99%Z)]; auto. }
  assert (forall o', In o' nv_node_after -> is_logging_by 0 o' = false) as NL by all_in.
  pose proof (C20_stop_covers_every_module nv_node nv_node_before stop nv_node_after 0 S NL) as C.
  repeat apply conj; apply C.
Qed.

(* the other connection is still subscribed to the internal module after the stop of connection 0: the stop did not
   empty the table *)
Example C20_stop_covers_every_module_table_not_empty :
  deliv_to 1 (handle (run_node nv_node (nv_node_before ++ [OIdent 0; OLogging 1 (Some m_hidden) (LStr s_error)]))
                     m_hidden 40%Z s_error) = [(1, m_hidden, s_error)].
Proof. vm_compute. reflexivity. Qed.

Example C20_internal_module_can_be_enabled_applies :
  chosen (run_node nv_node (nv_node_before ++ [OIdent 0] ++ [OLogging 0 (Some m_hidden) (LStr s_debug)])) m_hidden 0
    = Some 10%Z /\
  chosen (run_node nv_node (nv_hist ++ [OLogging 3 (Some m_hidden) (LNum 15%Z)])) m_hidden 3 = Some 15%Z.
Proof.
  split;
    [apply (C20_internal_module_can_be_enabled nv_node (nv_node_before ++ [OIdent 0]) 0 m_hidden (LStr s_debug) 10%Z)
    |apply (C20_internal_module_can_be_enabled nv_node nv_hist 3 m_hidden (LNum 15%Z) 15%Z)];
    simpl; auto; discriminate.
Qed.

(* first conjunct of C20_exported_only_stop_keeps_subscription: a node of exported modules only, a history with stops *)
Example C20_exported_only_same_applies :
  run_exported_only [(mA, true); (mB, true)] (nv_hist ++ [OIdent 1; OLogging 1 (Some mB) (LStr s_error)])
    = run_node [(mA, true); (mB, true)] (nv_hist ++ [OIdent 1; OLogging 1 (Some mB) (LStr s_error)]) /\
  run_node [(mA, true); (mB, true)] (nv_hist ++ [OIdent 1; OLogging 1 (Some mB) (LStr s_error)])
    = [(mA, [(0, 10%Z)]); (mB, [(0, 40%Z); (1, 40%Z)])].
Proof.
  split.
  - apply C20_exported_only_stop_keeps_subscription. reflexivity.
  - vm_compute. reflexivity.
Qed.

(* C20_others_unaffected on the demo history of Properties.v: connection 1 receives three messages, the deleted
   operations of connection 0 are two requests *)
Example C20_others_unaffected_applies :
  deliv_to 1 (trace_from nv_mods [] demo_ops) =
    deliv_to 1 (trace_from nv_mods [] (filter (fun o => negb (by_conn 0 o)) demo_ops)) /\
  deliv_to 1 (trace_from nv_mods [] demo_ops) = [(1, mB, s_warning); (1, mA, s_error); (1, mB, s_critical)] /\
  length (filter (fun o => negb (by_conn 0 o)) demo_ops) + 2 = length demo_ops.
Proof.
  split; [apply C20_others_unaffected; discriminate|]. split; vm_compute; reflexivity.
Qed.

(* C20_rejected_request_no_effect: all three kinds of invalid level, unknown module; on a non-empty table *)
Definition s_verbose : name := [118; 101; 114; 98; 111; 115; 101]%N.
Example C20_rejected_request_no_effect_applies :
  let t := run nv_mods nv_hist in
  t <> [] /\
  fst (step nv_mods t (OLogging 0 None LOther)) = t /\
  fst (step nv_mods t (OLogging 0 (Some mA) (LStr s_verbose))) = t /\
  fst (step nv_mods t (OLogging 0 None (LNum 25%Z))) = t /\
  fst (step nv_mods t (OLogging 0 None LUnhashable)) = t /\
  step nv_mods t (OLogging 0 (Some s_verbose) (LStr s_off)) = (t, ([], Some EKey)).
Proof.
  intros t. split; [vm_compute; discriminate|].
  repeat apply conj; eapply C20_rejected_request_no_effect; reflexivity.
Qed.

(* C20_activation_requests_do_not_touch_logging: a history in which both connections are subscribed and activation
   requests of both (with / without specifier) are interleaved with logging requests and records; the table is not
   empty, messages are sent; the fourth clause with a continuation containing activation requests of the subscribed
   connection 0 itself AND a disconnect, an ident and a logging request of connection 1 *)
Definition nv_act_hist : list op :=
  [OLogging 0 (Some mA) (LStr s_debug); OActivate 0 None; OLogging 1 None (LStr s_warning); ODeactivate 0 (Some mA);
   OEmit mA 30%Z s_warning; ODeactivate 0 None; OActivate 1 (Some mB); OEmit mA 20%Z s_info].
Definition nv_act_later : list op :=
  [ODeactivate 0 None; OLogging 1 None (LStr s_off); OActivate 0 (Some mB); ODisconnect 1; OEmit mB 40%Z s_error;
   OIdent 1; ODeactivate 1 None].
Example C20_activation_requests_do_not_touch_logging_applies :
  without_activation nv_act_hist =
    [OLogging 0 (Some mA) (LStr s_debug); OLogging 1 None (LStr s_warning); OEmit mA 30%Z s_warning; OEmit mA 20%Z s_info] /\
  run nv_mods nv_act_hist = run nv_mods (without_activation nv_act_hist) /\
  run nv_mods nv_act_hist = [(mA, [(0, 10%Z); (1, 30%Z)]); (mB, [(1, 30%Z)])] /\
  trace_from nv_mods [] nv_act_hist = trace_from nv_mods [] (without_activation nv_act_hist) /\
  trace_from nv_mods [] nv_act_hist = [(0, mA, s_warning); (1, mA, s_warning); (0, mA, s_info)] /\
  run nv_mods (nv_before ++ [ODeactivate 0 None; OActivate 1 None] ++ nv_after) = run nv_mods (nv_before ++ nv_after) /\
  chosen (run nv_mods (nv_act_hist ++ nv_act_later)) mA 0 = Some 10%Z /\
  In (0, mA, record_name 20%Z s_info) (handle (run nv_mods (nv_act_hist ++ nv_act_later)) mA 20%Z s_info) /\
  chosen (run nv_mods (nv_act_hist ++ nv_act_later)) mA 1 = None.
Proof.
  destruct (C20_activation_requests_do_not_touch_logging nv_mods) as (_ & F & I & S).
  destruct (F nv_act_hist) as (F1 & F2 & _ & _).
  split; [vm_compute; reflexivity|]. split; [exact F1|]. split; [vm_compute; reflexivity|].
  split; [exact F2|]. split; [vm_compute; reflexivity|].
  split; [apply I; reflexivity|].
  assert (forall o, In o nv_act_later -> is_activation o = true \/ by_conn 0 o = false) as A.
  { intros o H. simpl in H.
    repeat (destruct H as [H|H]; [subst o; first [left; reflexivity|right; reflexivity]|]). destruct H. }
  destruct (S nv_act_hist nv_act_later mA 0 10%Z) as [S1 S2]; [vm_compute; reflexivity|exact A|].
  split; [exact S1|]. split; [apply S2; lia|]. vm_compute. reflexivity.
Qed.

(* four threads on two modules: thread 0 closes connection 0 (no lock), thread 1 serves connection 1 (three requests
   under the lock), thread 2 is a module thread emitting two records, thread 3 serves connection 2 (an IDN request and a logging
   request under the lock).  Before the threads start connection 0 is subscribed to mA and connection 2 to both modules. *)
Definition nv_pre : list op := [OLogging 0 (Some mA) (LStr s_debug); OLogging 2 None (LStr s_warning)].
Definition nv_ops1 : list op :=
  [OLogging 1 (Some mA) (LStr s_info); OLogging 1 None (LStr s_error); OLogging 1 (Some mB) (LStr s_off)].
Definition nv_ops3 : list op := [OIdent 2; OLogging 2 (Some mB) (LNum 10%Z)].
Definition nv_progs : list (list aop) :=
  [conn_prog nv_mods [ODisconnect 0]; conn_prog nv_mods nv_ops1;
   emit_prog [(mA, 20%Z, s_info); (mB, 40%Z, s_error)]; conn_prog nv_mods nv_ops3].
Definition nv_t0 : table := run nv_mods nv_pre.
(* thread 1 takes the lock, thread 3 tries and has to wait, the close and the emission run meanwhile; round robin *)
Definition nv_sched : list nat := concat (repeat [1; 3; 0; 2] 40).
Definition nv_st : cstate := crun (init nv_progs nv_t0) nv_sched.

(* the schedule is a real interleaving: after [1; 3] thread 1 holds the lock and the step of thread 3 was void (lock
   contended); after 12 steps threads 0, 1, 2 have executed three steps each, thread 3 still waits, none has finished; at the end
   all are done and every thread has executed its whole program *)
Example nv_schedule_facts :
  (let s := crun (init nv_progs nv_t0) [1; 3] in
   c_lock s = Some 1 /\ nth 3 (c_progs s) [] = nth 3 nv_progs [] /\ length (c_done s) = 1) /\
  (let s := crun (init nv_progs nv_t0) (firstn 12 nv_sched) in
   map (fun i => length (by_thread i (lin s))) [0; 1; 2; 3] = [3; 3; 3; 0] /\
   forallb (fun p => match p with [] => false | _ => true end) (c_progs s) = true) /\
  all_done nv_st = true /\
  map (fun i => length (by_thread i (lin nv_st))) [0; 1; 2; 3] = [4; 14; 4; 10] /\
  c_table nv_st = [(mA, [(1, 40%Z)]); (mB, [(2, 10%Z)])] /\
  msgs_by 2 nv_st = [(2, mB, s_error)].
Proof. vm_compute. auto 10. Qed.

(* C20_routing_linearizable has no premise; on this run the order it yields has 32 steps of four threads *)
Example C20_routing_linearizable_applies :
  exists lin : list (nat * aop),
    (forall i, by_thread i lin ++ nth i (c_progs nv_st) [] = nth i nv_progs []) /\
    c_table nv_st = apply_all (tops (map snd lin)) nv_t0 /\
    (forall m c, look (c_table nv_st) m c = key_run m c (filter (touches m c) (tops (map snd lin))) (look nv_t0 m c)).
Proof. apply (C20_routing_linearizable nv_progs nv_t0 nv_sched). Qed.

(* the same in the middle of the run (12 steps, lock held, nobody finished) *)
Example C20_routing_linearizable_applies_midway :
  let st := crun (init nv_progs nv_t0) (firstn 12 nv_sched) in
  exists lin : list (nat * aop),
    (forall i, by_thread i lin ++ nth i (c_progs st) [] = nth i nv_progs []) /\
    c_table st = apply_all (tops (map snd lin)) nv_t0 /\
    (forall m c, look (c_table st) m c = key_run m c (filter (touches m c) (tops (map snd lin))) (look nv_t0 m c)).
Proof. apply (C20_routing_linearizable nv_progs nv_t0 (firstn 12 nv_sched)). Qed.

(* C20_connection_thread_writes_own_entries discharges the premise "nobody else writes the entries of connection 1"
   of the next two theorems for the connection threads 0 and 3; the module thread 2 writes nothing *)
Lemma nv_others_leave_conn1 : forall j o m, j <> 1 -> In o (tops (nth j nv_progs [])) -> touches m 1 o = false.
Proof.
  intros j o m N I. destruct j as [|[|[|[|j]]]].
  - apply (C20_connection_thread_writes_own_entries nv_mods 0 [ODisconnect 0] o m 1); [all_in|exact I|discriminate].
  - congruence.
  - vm_compute in I. destruct I.
  - apply (C20_connection_thread_writes_own_entries nv_mods 2 nv_ops3 o m 1); [all_in|exact I|discriminate].
  - unfold nv_progs in I. simpl in I. destruct j; destruct I.
Qed.

Example C20_connection_thread_writes_own_entries_applies :
  touches mB 1 (TPop mB 2) = false /\ In (TPop mB 2) (tops (conn_prog nv_mods nv_ops3)).
Proof.
  split; [|vm_compute; auto 10].
  apply (C20_connection_thread_writes_own_entries nv_mods 2 nv_ops3 (TPop mB 2) mB 1); [all_in|vm_compute; auto 10|discriminate].
Qed.

Example C20_entry_written_by_one_thread_applies :
  look (c_table nv_st) mA 1 = look (apply_all (tops (nth 1 nv_progs [])) nv_t0) mA 1 /\
  look (c_table nv_st) mA 1 = Some 40%Z /\ look nv_t0 mA 1 = None.
Proof.
  split; [|vm_compute; auto].
  apply (C20_entry_written_by_one_thread nv_progs nv_t0 nv_sched 1 mA 1).
  - intros j o N I. apply (nv_others_leave_conn1 j o mA N I).
  - vm_compute. reflexivity.
Qed.

(* C20_concurrent_routing: thread 1 serves connection 1; after the concurrent phase connection 1 gets mA records from
   error on and no mB record -- what its own history nv_pre ++ nv_ops1 demands *)
Example C20_concurrent_routing_applies :
  deliv_to 1 (handle (c_table nv_st) mA 40%Z s_error) = expected (spec_choice nv_mods (rev (nv_pre ++ nv_ops1)) mA 1) mA 40%Z s_error 1 /\
  deliv_to 1 (handle (c_table nv_st) mA 40%Z s_error) = [(1, mA, s_error)] /\
  deliv_to 1 (handle (c_table nv_st) mA 30%Z s_warning) = expected (spec_choice nv_mods (rev (nv_pre ++ nv_ops1)) mA 1) mA 30%Z s_warning 1 /\
  deliv_to 1 (handle (c_table nv_st) mB 50%Z s_critical) = expected (spec_choice nv_mods (rev (nv_pre ++ nv_ops1)) mB 1) mB 50%Z s_critical 1 /\
  handle (c_table nv_st) mB 50%Z s_critical = [(2, mB, s_critical)].
Proof.
  assert (forall m lv py, deliv_to 1 (handle (c_table nv_st) m lv py) =
                          expected (spec_choice nv_mods (rev (nv_pre ++ nv_ops1)) m 1) m lv py 1) as H.
  { intros m lv py. apply (C20_concurrent_routing nv_mods nv_pre nv_progs nv_sched 1 1 nv_ops1 m lv py).
    - reflexivity.
    - exact nv_others_leave_conn1.
    - vm_compute. reflexivity. }
  split; [apply H|]. split; [vm_compute; reflexivity|]. split; [apply H|]. split; [apply H|]. vm_compute. reflexivity.
Qed.

(* C20_close_and_enable_commute: X = 0 (subscribed to both modules) closes, Y = 1 enables mA; the other threads are a
   module thread and the thread of connection 2 sending a request for all modules; two different schedules *)
Definition nv_pre2 : list op := [OLogging 0 None (LStr s_debug); OLogging 2 (Some mA) (LStr s_warning)].
Definition nv_others2 : list (list aop) :=
  [emit_prog [(mA, 20%Z, s_info)]; conn_prog nv_mods [OLogging 2 None (LStr s_error)]].
Definition nv_progs2 : list (list aop) :=
  conn_prog nv_mods [ODisconnect 0] :: conn_prog nv_mods [OLogging 1 (Some mA) (LStr s_info)] :: nv_others2.
Definition nv_sched2a : list nat := [1; 3; 0; 2; 1; 2; 0; 1; 2; 0; 1; 3; 0; 2; 3; 3; 3; 3; 3; 3].
Definition nv_sched2b : list nat := concat (repeat [3; 2; 1; 0] 12).

Lemma nv_others2_ok : forall p o m', In p nv_others2 -> In o (tops p) -> touches m' 0 o = false /\ touches m' 1 o = false.
Proof.
  intros p o m' Ip Io. destruct Ip as [E|[E|[]]]; subst p.
  - vm_compute in Io. destruct Io.
  - split; apply (C20_connection_thread_writes_own_entries nv_mods 2 [OLogging 2 None (LStr s_error)] o m');
      try exact Io; try discriminate; all_in.
Qed.

Example C20_close_and_enable_commute_applies :
  forall sched, In sched [nv_sched2a; nv_sched2b] ->
  let st := crun (init nv_progs2 (run nv_mods nv_pre2)) sched in
  all_done st = true /\ chosen (c_table st) mA 1 = Some 20%Z /\ (forall m', chosen (c_table st) m' 0 = None) /\
  chosen (run nv_mods nv_pre2) mB 0 = Some 10%Z /\ msgs_by 2 st <> [].
Proof.
  intros sched I st.
  assert (all_done st = true) as AD.
  { destruct I as [E|[E|[]]]; subst sched; vm_compute; reflexivity. }
  destruct (C20_close_and_enable_commute nv_mods nv_pre2 nv_others2 sched 0 1 mA (LStr s_info) 20%Z) as [A B];
    try reflexivity; try discriminate; auto; [exact nv_others2_ok|].
  repeat apply conj; [exact AD|exact A|exact B|vm_compute; reflexivity|].
  clear A B AD. destruct I as [E|[E|[]]]; subst sched; vm_compute; discriminate.
Qed.

(* in the first schedule the close (no lock) writes while thread 1 holds the lock, and the module thread delivers to the
   closing connection from its snapshot *)
Example nv_sched2a_facts :
  (let s := crun (init nv_progs2 (run nv_mods nv_pre2)) (firstn 7 nv_sched2a) in
   c_lock s = Some 1 /\ length (by_thread 0 (lin s)) = 2 /\ length (by_thread 3 (lin s)) = 0) /\
  msgs_by 2 (crun (init nv_progs2 (run nv_mods nv_pre2)) nv_sched2a) = [(0, mA, s_info)].
Proof. vm_compute. auto. Qed.

(* C20_complete_schedule_exists: two connection threads, two module threads, a further balanced thread that takes the
   lock twice, the second time leaving with an exception *)
Example C20_complete_schedule_exists_applies :
  exists sched,
    all_done (crun (init (map (conn_prog nv_mods) [[ODisconnect 0]; nv_ops1; nv_ops3] ++
                          map emit_prog [[(mA, 20%Z, s_info); (mB, 40%Z, s_error)]; [(mB, 10%Z, s_debug)]] ++
                          [[AAcq; ATab (TSet mB 5 10%Z); ARel None; AAcq; ARel (Some EValue)]]) nv_t0) sched) = true.
Proof.
  apply (C20_complete_schedule_exists nv_mods [[ODisconnect 0]; nv_ops1; nv_ops3]
           [[(mA, 20%Z, s_info); (mB, 40%Z, s_error)]; [(mB, 10%Z, s_debug)]]
           [[AAcq; ATab (TSet mB 5 10%Z); ARel None; AAcq; ARel (Some EValue)]] nv_t0).
  repeat constructor.
Qed.

(* connections 0 (debug), 1 (info), 2 (error) on mA, connection 2 (error) on mB.  Thread 0 closes connection 0, thread 1
   is a module thread emitting (mA, info) and (mB, error), thread 2 is the thread of connection 2 lowering its mA level to
   debug under the lock.  Executed sequence (position: thread step):
     0: 2 acquire   1: 1 lookup mA   2: 0 setdefault mA   3: 0 pop (mA, 0)   4: 2 setdefault mA   5: 1 snapshot mA
     6: 2 set (mA, 2) := 10   [delivery]   7: 1 lookup mB   8: 0 setdefault mB   9: 1 snapshot mB   10: 0 pop (mB, 0)
     [delivery]   11: 2 release *)
Definition nv_t0e : table :=
  run nv_mods [OLogging 0 (Some mA) (LStr s_debug); OLogging 1 (Some mA) (LStr s_info); OLogging 2 None (LStr s_error)].
Definition nv_progs_e : list (list aop) :=
  [conn_prog nv_mods [ODisconnect 0]; emit_prog [(mA, 20%Z, s_info); (mB, 40%Z, s_error)];
   conn_prog nv_mods [OLogging 2 (Some mA) (LStr s_debug)]].
Definition nv_sched_e : list nat := [2; 1; 0; 0; 2; 1; 2; 1; 1; 0; 1; 0; 1; 2].
(* a notation, not a definition: the theorem is instantiated with exactly this term *)
Notation nv_ste := (crun (init nv_progs_e nv_t0e) nv_sched_e).
Definition nv_dummy : emission :=
  {| em_thread := 0; em_mod := []; em_lv := 0%Z; em_py := []; em_found := false; em_table := []; em_start := 0; em_pos := 0 |}.
Definition nv_e0 : emission := nth 0 (emissions_by 1 nv_ste) nv_dummy.
Definition nv_e1 : emission := nth 1 (emissions_by 1 nv_ste) nv_dummy.

Lemma nv_t0e_wf : wf nv_t0e.
Proof. unfold nv_t0e. apply run_wf. Qed.

Example nv_emission_facts :
  nv_t0e = [(mA, [(0, 10%Z); (1, 20%Z); (2, 40%Z)]); (mB, [(2, 40%Z)])] /\
  all_done nv_ste = true /\ length (lin nv_ste) = 12 /\
  (em_start nv_e0, em_pos nv_e0, em_mod nv_e0) = (1, 5, mA) /\ (em_start nv_e1, em_pos nv_e1, em_mod nv_e1) = (7, 9, mB) /\
  msgs_by 1 nv_ste = [(1, mA, s_info); (2, mB, s_error)] /\
  c_table nv_ste = [(mA, [(1, 20%Z); (2, 10%Z)]); (mB, [(2, 40%Z)])].
Proof. vm_compute. auto 10. Qed.

Ltac in_tops_cases Ho :=
  vm_compute in Ho; repeat (destruct Ho as [Ho|Ho]; [subst; vm_compute; reflexivity|]); destruct Ho.

(* C20_emission_complete_for_stable_subscribers: all three parts.  Part (3) for the first emission and connection 1, seen
   from the moment l0 after step 0 (one step before the lookup): the segment up to the snapshot contains writes of the entries
   (mA, 0) -- connection 0 closing -- but none of (mA, 1).  For connection 2 the write of (mA, 2) comes after the snapshot and
   does not matter.  For the second emission and connection 2, seen from the moment after step 3: the segment contains the
   write of (mA, 2), another entry. *)
Example C20_emission_complete_for_stable_subscribers_applies :
  msgs_by 1 nv_ste = flat_map em_msgs (emissions_by 1 nv_ste) /\
  (em_start nv_e0 <= em_pos nv_e0 /\
   nth_error (lin nv_ste) (em_start nv_e0) = Some (1, AGet (em_mod nv_e0)) /\
   nth_error (lin nv_ste) (em_pos nv_e0) = Some (1, ASnap (em_lv nv_e0) (em_py nv_e0)) /\
   em_msgs nv_e0 = if has_mod (em_mod nv_e0) (table_after nv_t0e (firstn (em_start nv_e0) (lin nv_ste)))
                   then handle (table_after nv_t0e (firstn (em_pos nv_e0) (lin nv_ste))) (em_mod nv_e0) (em_lv nv_e0) (em_py nv_e0)
                   else []) /\
  deliv_to 1 (em_msgs nv_e0) =
    expected (chosen (table_after nv_t0e (firstn 1 (lin nv_ste))) (em_mod nv_e0) 1) (em_mod nv_e0) (em_lv nv_e0) (em_py nv_e0) 1 /\
  deliv_to 2 (em_msgs nv_e0) =
    expected (chosen (table_after nv_t0e (firstn 1 (lin nv_ste))) (em_mod nv_e0) 2) (em_mod nv_e0) (em_lv nv_e0) (em_py nv_e0) 2 /\
  deliv_to 2 (em_msgs nv_e1) =
    expected (chosen (table_after nv_t0e (firstn 4 (lin nv_ste))) (em_mod nv_e1) 2) (em_mod nv_e1) (em_lv nv_e1) (em_py nv_e1) 2 /\
  deliv_to 1 (em_msgs nv_e0) = [(1, mA, s_info)] /\ deliv_to 2 (em_msgs nv_e0) = [] /\
  deliv_to 2 (em_msgs nv_e1) = [(2, mB, s_error)] /\
  tops (map snd (skipn 1 (firstn 5 (lin nv_ste)))) = [TSetDefault mA; TPop mA 0; TSetDefault mA] /\
  tops (map snd (skipn 4 (firstn 9 (lin nv_ste)))) = [TSetDefault mA; TSet mA 2 10%Z; TSetDefault mB].
Proof.
  assert (In nv_e0 (emissions_by 1 nv_ste)) as I0 by (vm_compute; left; reflexivity).
  assert (In nv_e1 (emissions_by 1 nv_ste)) as I1 by (vm_compute; right; left; reflexivity).
  destruct (C20_emission_complete_for_stable_subscribers nv_progs_e nv_t0e nv_sched_e 1 nv_t0e_wf) as [M E].
  { vm_compute. reflexivity. }
  destruct (E nv_e0 I0) as [F0 S0]. destruct (E nv_e1 I1) as [F1 S1]. clear E.
  split; [exact M|]. split; [exact F0|].
  split.
  { apply (S0 (firstn 1 (lin nv_ste)) (skipn 1 (firstn 5 (lin nv_ste))) 1).
    - vm_compute. reflexivity.
    - vm_compute. apply le_n.
    - intros o Ho. in_tops_cases Ho. }
  split.
  { apply (S0 (firstn 1 (lin nv_ste)) (skipn 1 (firstn 5 (lin nv_ste))) 2).
    - vm_compute. reflexivity.
    - vm_compute. apply le_n.
    - intros o Ho. in_tops_cases Ho. }
  split.
  { apply (S1 (firstn 4 (lin nv_ste)) (skipn 4 (firstn 9 (lin nv_ste))) 2).
    - vm_compute. reflexivity.
    - vm_compute. repeat constructor.
    - intros o Ho. in_tops_cases Ho. }
  clear. vm_compute. auto 10.
Qed.

(* the stability premise is needed: connection 0 was subscribed at l0 and closed before the snapshot -- it gets nothing *)
Example nv_emission_unstable_subscriber :
  deliv_to 0 (em_msgs nv_e0) = [] /\
  expected (chosen (table_after nv_t0e (firstn 1 (lin nv_ste))) (em_mod nv_e0) 0) (em_mod nv_e0) (em_lv nv_e0) (em_py nv_e0) 0
    = [(0, mA, s_info)].
Proof. vm_compute. auto. Qed.

(* C20_concurrent_delivery_sound: at the end of the run, and in the middle of it (8 scheduler steps: first delivery made,
   threads 0 and 2 unfinished, lock held) *)
Example C20_concurrent_delivery_sound_applies :
  exists e, In e (emissions_by 1 nv_ste) /\ em_found e = true /\ mB = em_mod e /\ s_error = record_name (em_lv e) (em_py e) /\
            exists x, chosen (em_table e) mB 2 = Some x /\ (x <= em_lv e)%Z.
Proof.
  apply (C20_concurrent_delivery_sound nv_progs_e nv_t0e nv_sched_e 1 2 mB s_error nv_t0e_wf).
  vm_compute. auto.
Qed.

Example C20_concurrent_delivery_sound_applies_midway :
  let st := crun (init nv_progs_e nv_t0e) (firstn 8 nv_sched_e) in
  (all_done st = false /\ c_lock st = Some 2) /\
  exists e, In e (emissions_by 1 st) /\ em_found e = true /\ mA = em_mod e /\ s_info = record_name (em_lv e) (em_py e) /\
            exists x, chosen (em_table e) mA 1 = Some x /\ (x <= em_lv e)%Z.
Proof.
  intros st. split; [vm_compute; auto|].
  apply (C20_concurrent_delivery_sound nv_progs_e nv_t0e (firstn 8 nv_sched_e) 1 1 mA s_info nv_t0e_wf).
  vm_compute. auto.
Qed.

(* four earlier files, a later-dated file, a sub-directory, a foreign file, a link carrying a log name (dated earlier) and an
   old `current` link; the file of the day (2024-01-05) does not exist yet *)
Definition nv_sub : entry := {| e_name := [99; 111; 109]%N; e_file := false |}.
Definition nv_foreign : entry := {| e_name := [122; 122]%N; e_file := true |}.
Definition nv_link : entry := {| e_name := log_name frappy (date_n 0); e_file := false |}.
Definition nv_dir : dir :=
  [dated 1; dated 2; nv_sub; dated 3; {| e_name := cur_name; e_file := false |}; dated 4; dated 9; nv_foreign; nv_link].

Lemma nv_dir_nodup : NoDup (names nv_dir).
Proof. apply distinct_nodup. vm_compute. reflexivity. Qed.

(* C20_rollover_frame has no premise; here the rollover with retention 2 really removes files (10 entries before, 7 after) *)
Example C20_rollover_frame_applies :
  (forall e, In e (do_rollover frappy 2 nv_dir (date_n 5)) -> In e (open_file nv_dir (log_name frappy (date_n 5)))) /\
  has_name cur_name (do_rollover frappy 2 nv_dir (date_n 5)) = true /\
  has_name (log_name frappy (date_n 5)) (do_rollover frappy 2 nv_dir (date_n 5)) = true /\
  length (open_file nv_dir (log_name frappy (date_n 5))) = 10 /\ length (do_rollover frappy 2 nv_dir (date_n 5)) = 7.
Proof.
  destruct (C20_rollover_frame frappy 2 nv_dir (date_n 5)) as (A & B & C).
  split; [exact A|]. split; [exact B|]. split; [exact C|]. vm_compute. auto.
Qed.

(* C20_only_earlier_own_logs_removed: both disjuncts of the third premise, on entries that are in danger (retention 1
   removes every earlier own log file): the later-dated file, the file being written, the foreign file, the sub-directory,
   the link with a log name dated earlier *)
Example C20_only_earlier_own_logs_removed_applies :
  (forall e, In e [dated 9; dated 5; nv_foreign; nv_sub; nv_link] -> In e (do_rollover frappy 1 nv_dir (date_n 5))) /\
  map e_name (sort (do_rollover frappy 1 nv_dir (date_n 5))) =
    [e_name nv_sub; cur_name; e_name nv_link; log_name frappy (date_n 5); log_name frappy (date_n 9); e_name nv_foreign].
Proof.
  split; [|vm_compute; reflexivity].
  intros e I. apply C20_only_earlier_own_logs_removed; [exact nv_dir_nodup|apply mem_entry_in|apply andb_false_iff];
    destruct I as [<-|[<-|[<-|[<-|[<-|[]]]]]]; vm_compute; reflexivity.
Qed.

Example C20_retention_zero_keeps_all_applies :
  do_rollover frappy 0 nv_dir (date_n 5) = open_file nv_dir (log_name frappy (date_n 5)) /\
  (forall e, In e nv_dir -> e_name e <> cur_name -> In e (do_rollover frappy 0 nv_dir (date_n 5))) /\
  has_name (log_name frappy (date_n 5)) (do_rollover frappy 0 nv_dir (date_n 5)) = true /\
  In (dated 1) (do_rollover frappy 0 nv_dir (date_n 5)) /\ length (do_rollover frappy 0 nv_dir (date_n 5)) = 10.
Proof.
  destruct (C20_retention_zero_keeps_all frappy nv_dir (date_n 5)) as (A & B & C).
  split; [exact A|]. split; [exact B|]. split; [exact C|]. split; [|vm_compute; reflexivity].
  apply B; [apply mem_entry_in; vm_compute; reflexivity|]. intros H. vm_compute in H. discriminate H.
Qed.

(* C20_retention with retention 3 = S 2: earlier = files 1..4, removed = [1; 2], kept = [3; 4]: both lists have two
   elements, so every clause (also the two with premises In r removed, In k kept, NoDup) is exercised *)
Example C20_retention_applies :
  let fn := log_name frappy (date_n 5) in
  let d1 := open_file nv_dir fn in
  let earl := earlier fn (listing frappy d1) in
  let removed := firstn (length earl - 2) earl in
  let kept := skipn (length earl - 2) earl in
  (removed = [dated 1; dated 2] /\ kept = [dated 3; dated 4]) /\
  has_name (e_name (dated 2)) (do_rollover frappy 3 nv_dir (date_n 5)) = false /\
  has_name (e_name (dated 3)) (do_rollover frappy 3 nv_dir (date_n 5)) = true /\
  has_name (e_name nv_link) (do_rollover frappy 3 nv_dir (date_n 5)) = true /\
  length kept = Nat.min 2 (length earl) /\
  In (dated 3) (do_rollover frappy 3 nv_dir (date_n 5)) /\ In (dated 4) (do_rollover frappy 3 nv_dir (date_n 5)) /\
  name_leb (e_name (dated 2)) (e_name (dated 3)) = true /\
  (In (dated 1) d1 /\ own_log frappy (dated 1) = true /\ name_ltb (e_name (dated 1)) fn = true).
Proof.
  intros fn d1 earl removed kept.
  assert (removed = [dated 1; dated 2] /\ kept = [dated 3; dated 4]) as [ER EK] by (vm_compute; auto).
  pose proof (C20_retention frappy 2 nv_dir (date_n 5)) as R. cbv zeta in R.
  fold fn in R. fold d1 in R. fold earl in R. fold removed kept in R.
  destruct R as (A & B & C & D & E).
  split; [split; assumption|].
  split; [rewrite A; vm_compute; reflexivity|].
  split; [rewrite A; vm_compute; reflexivity|].
  split; [rewrite A; vm_compute; reflexivity|].
  split; [exact B|].
  split; [apply (C nv_dir_nodup); rewrite EK; simpl; auto|].
  split; [apply (C nv_dir_nodup); rewrite EK; simpl; auto|].
  split; [apply D; [rewrite ER|rewrite EK]; simpl; auto|].
  apply E. rewrite ER. simpl. auto.
Qed.

Print Assumptions C20_routing_exact_applies.
Print Assumptions C20_routing_applies_if.
Print Assumptions C20_routing_applies_only_if.
Print Assumptions C20_routing_applies_not.
Print Assumptions C20_stop_applies.
Print Assumptions C20_stop_ways_applies.
Print Assumptions C20_stop_covers_every_module_applies.
Print Assumptions C20_stop_covers_every_module_table_not_empty.
Print Assumptions C20_internal_module_can_be_enabled_applies.
Print Assumptions C20_exported_only_same_applies.
Print Assumptions C20_others_unaffected_applies.
Print Assumptions C20_rejected_request_no_effect_applies.
Print Assumptions C20_activation_requests_do_not_touch_logging_applies.
Print Assumptions nv_schedule_facts.
Print Assumptions C20_routing_linearizable_applies.
Print Assumptions C20_routing_linearizable_applies_midway.
Print Assumptions nv_others_leave_conn1.
Print Assumptions C20_connection_thread_writes_own_entries_applies.
Print Assumptions C20_entry_written_by_one_thread_applies.
Print Assumptions C20_concurrent_routing_applies.
Print Assumptions nv_others2_ok.
Print Assumptions C20_close_and_enable_commute_applies.
Print Assumptions nv_sched2a_facts.
Print Assumptions C20_complete_schedule_exists_applies.
Print Assumptions nv_t0e_wf.
Print Assumptions nv_emission_facts.
Print Assumptions C20_emission_complete_for_stable_subscribers_applies.
Print Assumptions nv_emission_unstable_subscriber.
Print Assumptions C20_concurrent_delivery_sound_applies.
Print Assumptions C20_concurrent_delivery_sound_applies_midway.
Print Assumptions nv_dir_nodup.
Print Assumptions C20_rollover_frame_applies.
Print Assumptions C20_only_earlier_own_logs_removed_applies.
Print Assumptions C20_retention_zero_keeps_all_applies.
Print Assumptions C20_retention_applies.
