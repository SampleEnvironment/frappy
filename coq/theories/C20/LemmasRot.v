(* C20 -- rotation: order on names, the sorted listing, directories with unique names, what a rollover removes. *)
From Coq Require Import List Arith ZArith Bool NArith Lia Sorted Permutation.
Import ListNotations.
Require Import FV.Gen.C20 FV.C20.Model FV.C20.Lemmas.

(* python string order on code points *)
Lemma name_leb_refl a : name_leb a a = true.
Proof. induction a; simpl; auto. rewrite N.ltb_irrefl, N.eqb_refl. auto. Qed.

Lemma name_leb_total a : forall b, name_leb a b = false -> name_leb b a = true.
Proof.
  induction a as [|x a IH]; destruct b as [|y b]; simpl; intros H; try discriminate; auto.
  destruct (N.ltb_spec x y); try discriminate. destruct (N.eqb_spec x y).
  - subst. rewrite N.ltb_irrefl, N.eqb_refl. apply IH; auto.
  - destruct (N.ltb_spec y x); [auto|lia].
Qed.

Lemma name_leb_trans a : forall b c, name_leb a b = true -> name_leb b c = true -> name_leb a c = true.
Proof.
  induction a as [|x a IH]; intros [|y b] [|z c]; simpl; auto; try discriminate.
  intros H1 H2. destruct (N.ltb_spec x y) as [Lxy|Lxy].
  - destruct (N.ltb_spec y z) as [Lyz|Lyz].
    + destruct (N.ltb_spec x z); [auto|lia].
    + destruct (N.eqb_spec y z); [|discriminate]. subst. apply N.ltb_lt in Lxy. rewrite Lxy. auto.
  - destruct (N.eqb_spec x y); [|discriminate]. subst.
    destruct (N.ltb y z); auto. destruct (N.eqb y z); [|discriminate]. eapply IH; eauto.
Qed.

Lemma name_leb_antisym a : forall b, name_leb a b = true -> name_leb b a = true -> a = b.
Proof.
  induction a as [|x a IH]; destruct b as [|y b]; simpl; auto; try discriminate.
  intros H1 H2. destruct (N.ltb_spec x y) as [Lxy|Lxy].
  - destruct (N.ltb_spec y x); [lia|]. destruct (N.eqb_spec y x); [lia|discriminate].
  - destruct (N.eqb_spec x y); [|discriminate]. subst.
    rewrite N.ltb_irrefl, N.eqb_refl in H2. f_equal. apply IH; auto.
Qed.

Definition R (a b : entry) : Prop := entry_leb a b = true.

Lemma insert_perm e l : Permutation (insert e l) (e :: l).
Proof.
  induction l as [|a r]; simpl; auto. destruct (entry_leb e a); auto. rewrite IHr. apply perm_swap.
Qed.

Lemma sort_perm l : Permutation (sort l) l.
Proof. induction l as [|a r]; simpl; auto. rewrite insert_perm. auto. Qed.

Lemma sort_in x l : In x (sort l) <-> In x l.
Proof. split; apply Permutation_in; [|symmetry]; apply sort_perm. Qed.

Lemma sort_length l : length (sort l) = length l.
Proof. apply Permutation_length, sort_perm. Qed.

Lemma insert_sorted e l : StronglySorted R l -> StronglySorted R (insert e l).
Proof.
  induction l as [|a r]; simpl; intros H.
  - constructor; auto.
  - inversion H as [|? ? Hr Ha]; subst. destruct (entry_leb e a) eqn:E; constructor; auto.
    + constructor; auto. eapply Forall_impl; [|exact Ha]. intros x. apply name_leb_trans, E.
    + apply (Permutation_Forall (Permutation_sym (insert_perm e r))). constructor; auto. apply name_leb_total, E.
Qed.

Lemma sort_sorted l : StronglySorted R (sort l).
Proof. induction l as [|a r]; simpl; [constructor|]. apply insert_sorted; auto. Qed.

Lemma sorted_app_le l1 : forall l2 a b,
  StronglySorted R (l1 ++ l2) -> In a l1 -> In b l2 -> R a b.
Proof.
  induction l1 as [|x r]; simpl; intros l2 a b H Ia Ib; [destruct Ia|].
  inversion H as [|? ? Hr Hx]; subst. destruct Ia as [<-|Ia]; [|eauto].
  rewrite Forall_forall in Hx. apply Hx, in_or_app. auto.
Qed.

Lemma sorted_split l n a b :
  StronglySorted R l -> In a (firstn n l) -> In b (skipn n l) -> R a b.
Proof. intros H. rewrite <- (firstn_skipn n l) in H. eapply sorted_app_le; eauto. Qed.

Lemma sorted_last_max l : StronglySorted R l -> forall x d, In x l -> R x (last l d).
Proof.
  intros H x d I. assert (N : l <> []) by (intros ->; destruct I).
  rewrite (app_removelast_last d N) in H, I. apply in_app_or in I as [I|[<-|[]]].
  - eapply sorted_app_le; eauto. left; auto.
  - apply name_leb_refl.
Qed.

Lemma filter_sorted (f : entry -> bool) l : StronglySorted R l -> StronglySorted R (filter f l).
Proof.
  induction l as [|a r]; simpl; intros H; [constructor|]. inversion H as [|? ? Hr Ha]; subst.
  destruct (f a); auto. constructor; auto.
  rewrite Forall_forall in *. intros x I. apply filter_In in I as [I _]. auto.
Qed.

Definition names (d : dir) : list name := map e_name d.

Lemma has_name_mem n d : has_name n d = mem_name n (names d).
Proof. induction d as [|a r]; simpl; auto. rewrite IHr. reflexivity. Qed.

Lemma has_name_names n d : has_name n d = true <-> In n (names d).
Proof. rewrite has_name_mem. apply mem_name_in. Qed.

Lemma has_name_in n d : has_name n d = true <-> exists e, In e d /\ e_name e = n.
Proof.
  rewrite has_name_names. unfold names. rewrite in_map_iff. split; intros (e & A & B); exists e; auto.
Qed.

Lemma has_name_false n d : has_name n d = false <-> ~ In n (names d).
Proof. rewrite <- has_name_names. destruct (has_name n d); intuition congruence. Qed.

Lemma has_app n a b : has_name n (a ++ b) = has_name n a || has_name n b.
Proof. induction a as [|x a IH]; simpl; auto. rewrite IH, orb_assoc; auto. Qed.

Lemma names_app a b : names (a ++ b) = names a ++ names b.
Proof. apply map_app. Qed.

Lemma unique_entry (d : dir) x e : NoDup (names d) -> In x d -> In e d -> e_name x = e_name e -> x = e.
Proof.
  induction d as [|a r]; intros ND Ix Ie N; [destruct Ix|]. inversion ND as [|? ? Na Nr]; subst.
  destruct Ix as [Ix|Ix], Ie as [Ie|Ie]; subst; auto; exfalso; apply Na; [rewrite N|rewrite <- N]; apply in_map; auto.
Qed.

Lemma sort_nodup l : NoDup (names l) -> NoDup (names (sort l)).
Proof. apply Permutation_NoDup, Permutation_map, Permutation_sym, sort_perm. Qed.

(* membership in a concrete directory and uniqueness of its names, decided *)
Lemma mem_entry_in e d :
  existsb (fun x => name_eqb (e_name e) (e_name x) && Bool.eqb (e_file e) (e_file x)) d = true -> In e d.
Proof.
  rewrite existsb_exists. intros (x & I & H). apply andb_true_iff in H as [N F].
  apply name_eqb_eq in N. apply eqb_prop in F. destruct e, x; simpl in *; subst; exact I.
Qed.

Fixpoint distinct (l : list name) : bool :=
  match l with [] => true | x :: r => negb (mem_name x r) && distinct r end.

Lemma distinct_nodup l : distinct l = true -> NoDup l.
Proof.
  induction l as [|x r]; simpl; intros H; constructor; apply andb_true_iff in H as [H1 H2]; auto.
  rewrite <- mem_name_in. destruct (mem_name x r); [discriminate|congruence].
Qed.

Lemma nodup_snoc {A} (a : list A) x : NoDup a -> ~ In x a -> NoDup (a ++ [x]).
Proof. intros H N. apply (Permutation_NoDup (Permutation_cons_append a x)). constructor; auto. Qed.

Lemma nodup_app_disjoint {A} (a b : list A) x : NoDup (a ++ b) -> In x a -> In x b -> False.
Proof.
  induction a as [|y r]; simpl; intros H Ia Ib; auto. inversion H as [|? ? Ny Nr]; subst. destruct Ia as [<-|Ia]; auto.
  apply Ny, in_or_app. auto.
Qed.

Lemma in_firstn {A} (x : A) n l : In x (firstn n l) -> In x l.
Proof. intros H. rewrite <- (firstn_skipn n l). apply in_or_app; auto. Qed.
Lemma in_skipn {A} (x : A) n l : In x (skipn n l) -> In x l.
Proof. intros H. rewrite <- (firstn_skipn n l). apply in_or_app; auto. Qed.

Lemma kept_not_removed (files : list entry) k e :
  NoDup (names files) -> In e (skipn k files) -> has_name (e_name e) (firstn k files) = false.
Proof.
  intros ND I. apply has_name_false. intros I2.
  rewrite <- (firstn_skipn k files), names_app in ND.
  eapply nodup_app_disjoint; eauto. apply in_map; auto.
Qed.

(* os.remove(name) keeps exactly the entries with another name *)
Lemma del_name_filter x d : del_name x d = filter (fun e => negb (name_eqb x (e_name e))) d.
Proof. induction d as [|a r]; simpl; auto. rewrite IHr. destruct (name_eqb x (e_name a)); reflexivity. Qed.

Lemma del_in e x d : In e (del_name x d) <-> In e d /\ e_name e <> x.
Proof.
  rewrite del_name_filter, filter_In, negb_true_iff. destruct (name_eqb_spec x (e_name e)); intuition congruence.
Qed.

Lemma has_del n x d : has_name n (del_name x d) = if name_eqb n x then false else has_name n d.
Proof.
  induction d as [|a r]; simpl.
  - destruct (name_eqb n x); auto.
  - destruct (name_eqb_spec x (e_name a)) as [->|]; simpl; rewrite IHr.
    + destruct (name_eqb n (e_name a)); auto.
    + destruct (name_eqb_spec n x) as [->|]; auto. destruct (name_eqb_spec x (e_name a)); [contradiction|auto].
Qed.

Lemma remove_loop_sub : forall vs d e, In e (remove_loop d vs) -> In e d.
Proof.
  induction vs as [|v r]; simpl; intros d e H; auto. apply IHr, del_in in H. tauto.
Qed.

Lemma remove_loop_names n : forall vs d,
  has_name n (remove_loop d vs) = has_name n d && negb (has_name n vs).
Proof.
  induction vs as [|v r]; simpl; intros d.
  - rewrite andb_true_r; auto.
  - rewrite IHr, has_del. destruct (name_eqb n (e_name v)); simpl; auto. rewrite andb_false_r. auto.
Qed.

Lemma remove_loop_keeps_entry e : forall vs d,
  In e d -> has_name (e_name e) vs = false -> In e (remove_loop d vs).
Proof.
  induction vs as [|v r]; simpl; intros d I H; auto. apply orb_false_iff in H as [H1 H2].
  apply IHr; auto. apply del_in. split; auto. destruct (name_eqb_spec (e_name e) (e_name v)); congruence.
Qed.

Lemma starts_with_app p x : starts_with (p ++ x) p = true.
Proof. induction p as [|a p IH]; simpl; [destruct x; auto|]. rewrite N.eqb_refl. auto. Qed.

Lemma ends_with_app x s : ends_with (x ++ s) s = true.
Proof. unfold ends_with. rewrite rev_app_distr. apply starts_with_app. Qed.

Lemma log_name_own root date : own_log root {| e_name := log_name root date; e_file := true |} = true.
Proof.
  unfold own_log, log_name. cbn [e_name e_file].
  rewrite (app_assoc root), starts_with_app, app_assoc, ends_with_app. reflexivity.
Qed.

Lemma listing_in p e d : In e (listing p d) <-> In e d /\ own_log p e = true.
Proof. unfold listing. rewrite sort_in, filter_In. tauto. Qed.

(* what is not a regular file named <root>-*.log is never a victim *)
Lemma foreign_not_listed p d e :
  NoDup (map e_name d) -> In e d -> own_log p e = false -> has_name (e_name e) (listing p d) = false.
Proof.
  intros ND I F. destruct (has_name (e_name e) (listing p d)) eqn:H; auto.
  apply has_name_in in H as (x & Ix & N). apply listing_in in Ix as [Ix O].
  rewrite (unique_entry d x e) in O by auto. congruence.
Qed.

Lemma earlier_in fn files e : In e (earlier fn files) <-> In e files /\ name_ltb (e_name e) fn = true.
Proof. apply filter_In. Qed.

Lemma earlier_sorted fn p d : StronglySorted R (earlier fn (listing p d)).
Proof. apply filter_sorted, sort_sorted. Qed.

Lemma earlier_nodup fn p d : NoDup (names d) -> NoDup (names (earlier fn (listing p d))).
Proof. intros H. apply NoDup_map_filter, sort_nodup, NoDup_map_filter, H. Qed.

Lemma name_ltb_irrefl a : name_ltb a a = false.
Proof. unfold name_ltb. rewrite name_leb_refl. reflexivity. Qed.

Lemma name_ltb_leb a b : name_ltb a b = true -> name_leb a b = true.
Proof. unfold name_ltb. intros H. apply negb_true_iff in H. apply name_leb_total; auto. Qed.

(* every victim is an own log file of the directory dated before the file being written *)
Lemma victims_spec p n fn d e :
  In e (victims n (earlier fn (listing p d))) -> In e d /\ own_log p e = true /\ name_ltb (e_name e) fn = true.
Proof.
  unfold victims. intros I. apply in_firstn, earlier_in in I as [I L]. apply listing_in in I as [I O]. auto.
Qed.

(* a name that no earlier own log file bears is not the name of a victim *)
Lemma not_victim_name p n fn d nm :
  (forall e, In e d -> own_log p e = true -> name_ltb (e_name e) fn = true -> e_name e <> nm) ->
  has_name nm (victims n (earlier fn (listing p d))) = false.
Proof.
  intros H. apply not_true_is_false. intros E. apply has_name_in in E as (e & I & N).
  apply victims_spec in I as (I & O & L). exact (H e I O L N).
Qed.

(* _open *)
Definition cur_entry : entry := {| e_name := cur_name; e_file := false |}.
Definition file_entry (fn : name) : entry := {| e_name := fn; e_file := true |}.

Lemma open_has_current d fn : has_name cur_name (open_file d fn) = true.
Proof.
  unfold open_file. destruct (has_name fn _); rewrite ?has_app; simpl; rewrite ?orb_true_r; auto.
Qed.

Lemma open_has_file d fn : has_name fn (open_file d fn) = true.
Proof.
  unfold open_file. destruct (has_name fn (del_name cur_name d ++ _)) eqn:E; auto.
  rewrite has_app. simpl. rewrite name_eqb_refl, orb_true_r. auto.
Qed.

Lemma open_keeps e d fn : In e d -> e_name e <> cur_name -> In e (open_file d fn).
Proof.
  intros I N. unfold open_file. destruct (has_name fn _); repeat (apply in_or_app; left); apply del_in; auto.
Qed.

Lemma open_sub e d fn : In e (open_file d fn) -> In e d \/ e = cur_entry \/ e = file_entry fn.
Proof.
  unfold open_file. destruct (has_name fn _); intros H;
    repeat (apply in_app_or in H as [H|H]); try (left; apply del_in in H; tauto);
    destruct H as [<-|[]]; auto.
Qed.

Lemma open_nodup d fn : NoDup (names d) -> NoDup (names (open_file d fn)).
Proof.
  intros H. unfold open_file.
  assert (NoDup (names (del_name cur_name d ++ [cur_entry]))) as H1.
  { rewrite names_app. apply nodup_snoc; [rewrite del_name_filter; apply NoDup_map_filter, H|].
    apply has_name_false. rewrite has_del, name_eqb_refl. auto. }
  fold cur_entry. destruct (has_name fn (del_name cur_name d ++ [cur_entry])) eqn:E; auto.
  rewrite names_app. apply nodup_snoc; auto. apply has_name_false; auto.
Qed.

Lemma log_name_not_current p d : log_name p d <> cur_name.
Proof.
  (* the last characters differ *)
  intros H. apply (f_equal (@rev N)) in H. unfold log_name in H. rewrite !rev_app_distr in H. discriminate.
Qed.

Lemma own_not_current p e : own_log p e = true -> e_name e <> cur_name.
Proof.
  unfold own_log. intros H N. rewrite N in H. apply andb_true_iff in H as [H _].
  apply andb_true_iff in H as [_ H]. discriminate.
Qed.

(* a name of the directory that no earlier own log file bears stays *)
Lemma rollover_keeps_name p n d date nm :
  has_name nm (open_file d (log_name p date)) = true ->
  (forall e, own_log p e = true -> name_ltb (e_name e) (log_name p date) = true -> e_name e <> nm) ->
  has_name nm (do_rollover p n d date) = true.
Proof.
  intros I H. unfold do_rollover. destruct n; auto. rewrite remove_loop_names, I, not_victim_name; auto.
Qed.
