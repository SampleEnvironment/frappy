(* C20 -- routing: specification over histories, refinement of the subscription table, exact delivery,
   stop, non-interference, and the frame of activation requests. *)
From Coq Require Import List Arith ZArith Bool NArith Lia.
Import ListNotations.
Require Import FV.Gen.C20 FV.C20.Model FV.C20.ConcModel.


Definition subs_of (m : name) (t : table) : subs := match get_mod m t with Some l => l | None => [] end.
Definition chosen (t : table) (m : name) (c : conn) : option Z := conn_get c (subs_of m t).

(* does a logging request with this specifier address module m of a node with these modules *)
Definition targets (mods : list name) (spec : option name) (m : name) : bool :=
  if is_all spec then mem_name m mods
  else match spec with Some s => name_eqb s m && mem_name m mods | None => false end.

(* what one operation decides about the pair (m, c): None = nothing, Some x = the choice is now x *)
Definition req_effect (mods : list name) (o : op) (m : name) (c : conn) : option (option Z) :=
  match o with
  | OLogging c' spec d =>
      if Nat.eqb c' c then
        match check_level d with
        | inl lv => if targets mods spec m then Some (if Z.eqb lv OFF then None else Some lv) else None
        | inr _ => None
        end
      else None
  | OIdent c' | ODisconnect c' => if Nat.eqb c' c && mem_name m mods then Some None else None
  | OEmit _ _ _ => None
  | OActivate _ _ | ODeactivate _ _ => None        (* activation requests decide nothing about logging *)
  end.

(* the choice in force after a history, given newest first: the latest operation that decides, decides *)
Fixpoint spec_choice (mods : list name) (newest_first : list op) (m : name) (c : conn) : option Z :=
  match newest_first with
  | [] => None
  | o :: r => match req_effect mods o m c with Some x => x | None => spec_choice mods r m c end
  end.

Definition expected (ch : option Z) (m : name) (lv : Z) (pyname : name) (c : conn) : list delivery :=
  match ch with
  | Some x => if Z.leb x lv then [(c, m, record_name lv pyname)] else []
  | None => []
  end.

Definition deliv_to (c : conn) (ds : list delivery) : list delivery :=
  filter (fun d => Nat.eqb (fst (fst d)) c) ds.

(* all messages sent during a history, in order *)
Fixpoint trace_from (mods : list name) (t : table) (ops : list op) : list delivery :=
  match ops with
  | [] => []
  | o :: r => fst (snd (step mods t o)) ++ trace_from mods (fst (step mods t o)) r
  end.

(* the operation is a request or event of connection c *)
Definition by_conn (c : conn) (o : op) : bool :=
  match o with
  | OLogging c' _ _ | OIdent c' | ODisconnect c' | OActivate c' _ | ODeactivate c' _ => Nat.eqb c' c
  | OEmit _ _ _ => false
  end.
Definition is_logging_by (c : conn) (o : op) : bool :=
  match o with OLogging c' _ _ => Nat.eqb c' c | _ => false end.

Lemma name_eqb_spec a b : reflect (a = b) (name_eqb a b).
Proof.
  revert b; induction a as [|x a IH]; intros [|y b]; simpl; try (constructor; congruence).
  destruct (N.eqb_spec x y); simpl; [destruct (IH b)|]; constructor; congruence.
Qed.

Lemma name_eqb_refl a : name_eqb a a = true.
Proof. destruct (name_eqb_spec a a); congruence. Qed.

Lemma name_eqb_eq a b : name_eqb a b = true <-> a = b.
Proof. destruct (name_eqb_spec a b); split; congruence. Qed.

Lemma name_eqb_sym a b : name_eqb a b = name_eqb b a.
Proof. destruct (name_eqb_spec a b), (name_eqb_spec b a); congruence. Qed.

Lemma mem_name_in m l : mem_name m l = true <-> In m l.
Proof.
  induction l as [|x r]; simpl; [split; [discriminate|tauto]|].
  rewrite orb_true_iff, name_eqb_eq, IHr. split; intros [H|H]; auto.
Qed.

Lemma conn_get_set c c' lv l : conn_get c' (conn_set c lv l) = if Nat.eqb c c' then Some lv else conn_get c' l.
Proof.
  induction l as [|[c2 x] r]; simpl.
  - rewrite Nat.eqb_sym. reflexivity.
  - destruct (Nat.eqb_spec c c2) as [->|N]; simpl.
    + rewrite (Nat.eqb_sym c2). destruct (Nat.eqb c' c2); reflexivity.
    + rewrite IHr. destruct (Nat.eqb_spec c' c2) as [->|]; auto. destruct (Nat.eqb_spec c c2); congruence.
Qed.

Lemma conn_get_pop c c' l : conn_get c' (conn_pop c l) = if Nat.eqb c c' then None else conn_get c' l.
Proof.
  induction l as [|[c2 x] r]; simpl.
  - destruct (Nat.eqb c c'); reflexivity.
  - destruct (Nat.eqb_spec c c2) as [->|N]; simpl; rewrite IHr.
    + rewrite (Nat.eqb_sym c'). destruct (Nat.eqb c2 c'); reflexivity.
    + destruct (Nat.eqb_spec c' c2) as [->|]; auto. destruct (Nat.eqb_spec c c2); congruence.
Qed.

Lemma conn_set_keys c lv l k : In k (map fst (conn_set c lv l)) -> k = c \/ In k (map fst l).
Proof.
  induction l as [|[c' x] r]; simpl.
  - intros [H|[]]; auto.
  - destruct (Nat.eqb c c'); simpl; intros [H|H]; auto. destruct (IHr H); auto.
Qed.

Lemma conn_set_nodup c lv l : NoDup (map fst l) -> NoDup (map fst (conn_set c lv l)).
Proof.
  induction l as [|[c' x] r]; simpl; intros H.
  - repeat constructor; auto.
  - inversion H; subst. destruct (Nat.eqb_spec c c'); simpl; constructor; auto.
    intros I. apply conn_set_keys in I as [I|I]; auto.
Qed.

Lemma NoDup_map_filter {A B} (f : A -> B) g l : NoDup (map f l) -> NoDup (map f (filter g l)).
Proof.
  induction l as [|a r]; simpl; intros H; auto. inversion H; subst.
  destruct (g a); simpl; auto. constructor; auto.
  rewrite in_map_iff in *. intros (x & E & I). apply filter_In in I as [I _]. eauto.
Qed.

Lemma conn_pop_filter c l : conn_pop c l = filter (fun p => negb (Nat.eqb c (fst p))) l.
Proof. induction l as [|[c' x] r]; simpl; auto. rewrite IHr. destruct (Nat.eqb c c'); reflexivity. Qed.

Lemma conn_pop_nodup c l : NoDup (map fst l) -> NoDup (map fst (conn_pop c l)).
Proof. rewrite conn_pop_filter. apply NoDup_map_filter. Qed.

Lemma conn_get_notin c l : ~ In c (map fst l) -> conn_get c l = None.
Proof.
  induction l as [|[c' x] r]; simpl; auto. intros H.
  destruct (Nat.eqb_spec c c'); [subst; tauto|]. apply IHr. tauto.
Qed.

Lemma get_upd m f t m' :
  get_mod m' (upd_mod m f t) = if name_eqb m m' then Some (f (subs_of m t)) else get_mod m' t.
Proof.
  unfold subs_of. induction t as [|[m2 l] r]; simpl.
  - rewrite name_eqb_sym. reflexivity.
  - destruct (name_eqb_spec m m2) as [->|N]; simpl.
    + rewrite (name_eqb_sym m2). destruct (name_eqb m' m2); reflexivity.
    + rewrite IHr. destruct (name_eqb_spec m' m2) as [->|]; auto. destruct (name_eqb_spec m m2); congruence.
Qed.

Lemma subs_of_upd m f t m' :
  subs_of m' (upd_mod m f t) = if name_eqb m m' then f (subs_of m t) else subs_of m' t.
Proof. unfold subs_of. rewrite get_upd. destruct (name_eqb m m'); reflexivity. Qed.

Lemma chosen_upd m f t m' c :
  chosen (upd_mod m f t) m' c = if name_eqb m m' then conn_get c (f (subs_of m t)) else chosen t m' c.
Proof. unfold chosen. rewrite subs_of_upd. destruct (name_eqb m m'); reflexivity. Qed.

Lemma chosen_no_mod t m c : has_mod m t = false -> chosen t m c = None.
Proof. unfold has_mod, chosen, subs_of. destruct (get_mod m t); [discriminate|reflexivity]. Qed.

Definition wf (t : table) : Prop := forall m l, get_mod m t = Some l -> NoDup (map fst l).

Lemma wf_nil : wf [].
Proof. intros m l H; discriminate. Qed.

Lemma wf_subs_of m t : wf t -> NoDup (map fst (subs_of m t)).
Proof.
  intros W. unfold subs_of. destruct (get_mod m t) eqn:E; [eapply W; eauto|constructor].
Qed.

Lemma wf_upd m f t :
  (forall l, NoDup (map fst l) -> NoDup (map fst (f l))) -> wf t -> wf (upd_mod m f t).
Proof.
  intros F W m' l. rewrite get_upd. destruct (name_eqb m m').
  - intros [= <-]. apply F, wf_subs_of, W.
  - apply W.
Qed.

Definition new_choice (lv : Z) : option Z := if Z.eqb lv OFF then None else Some lv.

Lemma set_conn_level_invalid t m c d e : check_level d = inr e -> set_conn_level t m c d = (t, Some e).
Proof. intros H. unfold set_conn_level. rewrite H. auto. Qed.

Lemma set_conn_level_valid t m c d lv :
  check_level d = inl lv ->
  exists t', set_conn_level t m c d = (t', None) /\ (wf t -> wf t') /\
    forall m' c', chosen t' m' c' =
      if name_eqb m m' && Nat.eqb c c' then new_choice lv else chosen t m' c'.
Proof.
  intros H. unfold set_conn_level, new_choice. rewrite H. eexists; split; [reflexivity|]. split.
  - apply wf_upd. intros l. destruct (Z.eqb lv OFF); [apply conn_pop_nodup|apply conn_set_nodup].
  - intros m' c'. rewrite chosen_upd. destruct (name_eqb_spec m m') as [<-|]; simpl; auto.
    destruct (Z.eqb lv OFF); [apply conn_get_pop|apply conn_get_set].
Qed.

Lemma set_all_invalid t mods c d e :
  check_level d = inr e -> fst (set_all t mods c d) = t.
Proof.
  intros H. destruct mods; simpl; auto. rewrite (set_conn_level_invalid _ _ _ _ _ H). auto.
Qed.

Lemma set_all_valid mods : forall t c d lv,
  check_level d = inl lv ->
  exists t', set_all t mods c d = (t', None) /\ (wf t -> wf t') /\
    forall m' c', chosen t' m' c' =
      if mem_name m' mods && Nat.eqb c c' then new_choice lv else chosen t m' c'.
Proof.
  induction mods as [|m r]; intros t c d lv H; simpl.
  - exists t. auto.
  - destruct (set_conn_level_valid t m c d lv H) as (t1 & -> & W1 & C1).
    destruct (IHr t1 c d lv H) as (t2 & E2 & W2 & C2). exists t2. split; auto. split; auto.
    intros m' c'. rewrite C2, C1, (name_eqb_sym m' m).
    destruct (name_eqb m m'), (mem_name m' r), (Nat.eqb c c'); reflexivity.
Qed.

Lemma fst_step mods t o :
  fst (step mods t o) =
  match o with
  | OLogging c spec d => fst (handle_logging mods t c spec d)
  | OIdent c | ODisconnect c => fst (set_all t mods c (LStr s_off))
  | _ => t
  end.
Proof.
  destruct o as [c spec d|m lv py|c|c|c sp|c sp]; simpl; auto; unfold reset_connection.
  - (* OLogging *) destruct (handle_logging mods t c spec d); reflexivity.
  - (* OIdent *) destruct (set_all t mods c (LStr s_off)); reflexivity.
  - (* ODisconnect *) destruct (set_all t mods c (LStr s_off)); reflexivity.
Qed.

Lemma msgs_step mods t o :
  fst (snd (step mods t o)) = match o with OEmit m lv py => handle t m lv py | _ => [] end.
Proof.
  destruct o as [c spec d|m lv py|c|c|c sp|c sp]; simpl; auto.
  - (* OLogging *) destruct (handle_logging mods t c spec d); reflexivity.
  - (* OIdent *) destruct (reset_connection mods t c); reflexivity.
  - (* ODisconnect *) destruct (reset_connection mods t c); reflexivity.
Qed.

(* a logging request is set_all over the modules it addresses *)
Lemma handle_logging_targets mods t c spec d :
  handle_logging mods t c spec d =
  match req_targets mods spec with Some ms => set_all t ms c d | None => (t, Some EKey) end.
Proof.
  unfold handle_logging, req_targets. destruct (is_all spec) eqn:A; auto.
  destruct spec as [s|]; [|discriminate A]. destruct (mem_name s mods); auto.
  simpl. destruct (set_conn_level t s c d) as [t' [e|]]; reflexivity.
Qed.

Lemma targets_req mods spec m :
  targets mods spec m = match req_targets mods spec with Some ms => mem_name m ms | None => false end.
Proof.
  unfold targets, req_targets. destruct (is_all spec); auto. destruct spec as [s|]; auto.
  destruct (mem_name s mods) eqn:M; simpl; rewrite ?orb_false_r, ?(name_eqb_sym m);
    destruct (name_eqb_spec s m) as [<-|]; simpl; auto.
Qed.

(* every operation keeps the table well formed and changes a choice exactly as the specification says *)
Lemma step_chosen mods t o :
  (wf t -> wf (fst (step mods t o))) /\
  forall m c, chosen (fst (step mods t o)) m c =
              match req_effect mods o m c with Some x => x | None => chosen t m c end.
Proof.
  rewrite fst_step. destruct o as [c spec d|m0 lv0 py|c|c|c sp|c sp]; try (split; auto; fail).
  1: { (* a logging request *)
    rewrite handle_logging_targets. cbn [req_effect]. pose proof (targets_req mods spec) as T.
    destruct (req_targets mods spec) as [ms|].
    2: { split; auto. intros m c'. rewrite T. destruct (Nat.eqb c c'), (check_level d); reflexivity. }
    destruct (check_level d) as [lv|e] eqn:CL.
    - destruct (set_all_valid ms t c d lv CL) as (t' & -> & W & C). split; auto.
      intros m c'. rewrite C, T. destruct (mem_name m ms), (Nat.eqb c c'); reflexivity.
    - rewrite (set_all_invalid _ _ _ _ _ CL). split; auto. intros m c'. destruct (Nat.eqb c c'); reflexivity. }
  (* *IDN? and disconnect: off for all modules *)
  all: destruct (set_all_valid mods t c (LStr s_off) OFF eq_refl) as (t' & -> & W & C); split; auto.
  all: intros m c'; rewrite C, andb_comm; simpl; destruct (Nat.eqb c c' && mem_name m mods); reflexivity.
Qed.

Definition run_from (mods : list name) (t : table) (ops : list op) : table :=
  fold_left (fun t o => fst (step mods t o)) ops t.

Lemma run_from_nil mods ops : run mods ops = run_from mods [] ops.
Proof. reflexivity. Qed.

Lemma run_from_app mods t a b : run_from mods t (a ++ b) = run_from mods (run_from mods t a) b.
Proof. apply fold_left_app. Qed.

Lemma run_from_wf mods ops : forall t, wf t -> wf (run_from mods t ops).
Proof.
  induction ops as [|o r]; simpl; intros t W; auto. apply IHr, (step_chosen mods t o), W.
Qed.

Lemma run_wf mods ops : wf (run mods ops).
Proof. rewrite run_from_nil. apply run_from_wf, wf_nil. Qed.

Lemma chosen_nil m c : chosen [] m c = None.
Proof. reflexivity. Qed.

(* refinement: the table of the handler after any history is the specification's choice function *)
Lemma run_refines_spec mods ops m c :
  chosen (run mods ops) m c = spec_choice mods (rev ops) m c.
Proof.
  unfold run. induction ops as [|o r IH] using rev_ind; simpl; auto.
  rewrite fold_left_app, rev_app_distr. simpl.
  rewrite (proj2 (step_chosen mods _ o)), IH. reflexivity.
Qed.

Lemma handle_loop_exact m nm lv c l :
  NoDup (map fst l) ->
  deliv_to c (handle_loop m nm lv l) =
  match conn_get c l with Some x => if Z.leb x lv then [(c, m, nm)] else [] | None => [] end.
Proof.
  induction l as [|[c' x] r]; simpl; intros ND; auto.
  inversion ND as [|? ? Nc Nr]; subst. specialize (IHr Nr).
  destruct (Nat.eqb_spec c c') as [<-|N].
  - rewrite conn_get_notin in IHr by auto.
    destruct (Z.leb x lv); simpl; rewrite ?Nat.eqb_refl, IHr; reflexivity.
  - destruct (Z.leb x lv); simpl; auto. destruct (Nat.eqb_spec c' c); [congruence|auto].
Qed.

Lemma handle_exact t m lv py c :
  wf t -> deliv_to c (handle t m lv py) = expected (chosen t m c) m lv py c.
Proof.
  intros W. unfold handle, chosen, subs_of, expected. destruct (get_mod m t) as [l|] eqn:G; auto.
  apply handle_loop_exact. eapply W; eauto.
Qed.

Lemma routing_exact mods ops m lv py c :
  deliv_to c (handle (run mods ops) m lv py) = expected (spec_choice mods (rev ops) m c) m lv py c.
Proof. rewrite handle_exact by apply run_wf. rewrite run_refines_spec. reflexivity. Qed.

Lemma in_deliv_to c d ds : In d (deliv_to c ds) <-> In d ds /\ fst (fst d) = c.
Proof. unfold deliv_to. rewrite filter_In, Nat.eqb_eq. tauto. Qed.

(* the messages of a record as an "exactly when", for every well-formed table and every level number *)
Lemma in_handle t m lv py c m' nm :
  wf t ->
  In (c, m', nm) (handle t m lv py) <->
  (m' = m /\ nm = record_name lv py) /\ exists x, chosen t m c = Some x /\ (x <= lv)%Z.
Proof.
  intros W. transitivity (In (c, m', nm) (deliv_to c (handle t m lv py))); [rewrite in_deliv_to; simpl; tauto|].
  rewrite handle_exact by auto. unfold expected.
  destruct (chosen t m c) as [x|]; [destruct (Z.leb_spec x lv)|]; simpl.
  - split; [intros [[= <- <-]|[]]; eauto|intros [[-> ->] _]; auto].
  - split; [tauto|]. intros (_ & y & [= <-] & L). lia.
  - split; [tauto|]. intros (_ & y & E & _). discriminate.
Qed.

(* the operation makes connection c stop receiving records of module m *)
Definition silences (mods : list name) (o : op) (m : name) (c : conn) : Prop :=
  req_effect mods o m c = Some None.

(* an operation that is no logging request of c leaves c's choice for m as it is or ends it *)
Lemma not_logging_effect mods o m c :
  is_logging_by c o = false -> req_effect mods o m c = None \/ req_effect mods o m c = Some None.
Proof.
  intros NL. destruct o as [c' spec d|m0 lv py|c'|c'|c' sp|c' sp]; simpl in *; auto.
  - (* OLogging *) rewrite NL. auto.
  - (* OIdent *) destruct (Nat.eqb c' c && mem_name m mods); auto.
  - (* ODisconnect *) destruct (Nat.eqb c' c && mem_name m mods); auto.
Qed.

(* after a silencing operation, and as long as c sends no new logging request, c has no choice for m *)
Lemma stop_choice mods ops1 o ops2 m c :
  silences mods o m c ->
  (forall o', In o' ops2 -> is_logging_by c o' = false) ->
  spec_choice mods (rev (ops1 ++ o :: ops2)) m c = None.
Proof.
  intros S NL. rewrite rev_app_distr. simpl. rewrite <- app_assoc. simpl.
  assert (NL' : forall o', In o' (rev ops2) -> is_logging_by c o' = false) by (intros o' I; apply NL, in_rev, I).
  clear NL. induction (rev ops2) as [|o' r IH]; simpl.
  - unfold silences in S. rewrite S. reflexivity.
  - rewrite IH by (intros; apply NL'; right; auto).
    destruct (not_logging_effect mods o' m c (NL' o' (or_introl eq_refl))) as [-> | ->]; reflexivity.
Qed.

Lemma silences_reset mods m c :
  mem_name m mods = true -> silences mods (OIdent c) m c /\ silences mods (ODisconnect c) m c.
Proof. intros M. unfold silences; simpl. rewrite Nat.eqb_refl, M. auto. Qed.

Lemma silences_logging mods spec d m c :
  targets mods spec m = true -> check_level d = inl OFF -> silences mods (OLogging c spec d) m c.
Proof. intros T CL. unfold silences; simpl. rewrite Nat.eqb_refl, CL, T. reflexivity. Qed.

(* a module that is not part of the node never has subscribers *)
Lemma spec_choice_unknown_module mods m c l : mem_name m mods = false -> spec_choice mods l m c = None.
Proof.
  intros M. induction l as [|o r]; simpl; auto.
  replace (req_effect mods o m c) with (@None (option Z)); auto.
  destruct o as [c' spec d|m0 lv py|c'|c'|c' sp|c' sp]; simpl; auto.
  - (* OLogging: no specifier targets m *)
    replace (targets mods spec m) with false; [destruct (Nat.eqb c' c), (check_level d); auto|].
    unfold targets. rewrite M. destruct (is_all spec), spec; rewrite ?andb_false_r; auto.
  - (* OIdent *) rewrite M, andb_false_r. reflexivity.
  - (* ODisconnect *) rewrite M, andb_false_r. reflexivity.
Qed.

(* a request naming a module of the node with a valid level other than off subscribes *)
Lemma spec_choice_enable mods older c m d lv :
  mem_name m mods = true -> check_level d = inl lv -> lv <> OFF ->
  spec_choice mods (OLogging c (Some m) d :: older) m c = Some lv.
Proof.
  intros M CL NO. simpl. rewrite Nat.eqb_refl, CL. unfold targets. rewrite name_eqb_refl, M.
  destruct (is_all (Some m)); simpl; destruct (Z.eqb_spec lv OFF); congruence.
Qed.

Lemma deliv_to_app c a b : deliv_to c (a ++ b) = deliv_to c a ++ deliv_to c b.
Proof. apply filter_app. Qed.

Lemma req_effect_other mods o m c c' : by_conn c o = true -> c <> c' -> req_effect mods o m c' = None.
Proof.
  intros B N. destruct o; simpl in *; try discriminate; auto; apply Nat.eqb_eq in B as ->;
    (destruct (Nat.eqb_spec c c'); [contradiction|reflexivity]).
Qed.

Lemma noninterference mods c c' : c <> c' -> forall ops t1 t2,
  wf t1 -> wf t2 -> (forall m, chosen t1 m c' = chosen t2 m c') ->
  deliv_to c' (trace_from mods t1 ops) =
  deliv_to c' (trace_from mods t2 (filter (fun o => negb (by_conn c o)) ops)).
Proof.
  intros N. induction ops as [|o r]; intros t1 t2 W1 W2 A; simpl; auto.
  destruct (step_chosen mods t1 o) as [SW1 SC1]. rewrite deliv_to_app.
  destruct (by_conn c o) eqn:B; simpl.
  - (* a request of c: no message, the choices of c' stay *)
    assert (E : fst (snd (step mods t1 o)) = []) by (rewrite msgs_step; destruct o; auto; discriminate).
    rewrite E. apply IHr; auto. intros m. rewrite SC1, (req_effect_other mods o m c c') by auto. auto.
  - destruct (step_chosen mods t2 o) as [SW2 SC2]. rewrite deliv_to_app. f_equal.
    + rewrite !msgs_step. destruct o; auto. rewrite !handle_exact by auto. rewrite A. reflexivity.
    + apply IHr; auto. intros m. rewrite SC1, SC2, A. auto.
Qed.

(* activate / deactivate requests (event subscriptions, property C08) do not touch remote logging *)
Definition not_activation (o : op) : bool := negb (is_activation o).
Definition without_activation (ops : list op) : list op := filter not_activation ops.

Lemma step_activation mods t o : is_activation o = true -> step mods t o = (t, ([], None)).
Proof. destruct o; simpl; intros H; try discriminate; reflexivity. Qed.

(* deleting them from a history changes neither the table nor the messages sent *)
Lemma without_activation_same mods ops : forall t,
  run_from mods t ops = run_from mods t (without_activation ops) /\
  trace_from mods t ops = trace_from mods t (without_activation ops).
Proof.
  induction ops as [|o r IH]; intros t; simpl; auto.
  unfold not_activation. destruct (is_activation o) eqn:A; simpl.
  - rewrite (step_activation mods t o A). apply IH.
  - destruct (IH (fst (step mods t o))) as [-> ->]. auto.
Qed.

Lemma run_without_activation mods ops : run mods ops = run mods (without_activation ops).
Proof. rewrite !run_from_nil. apply without_activation_same. Qed.
