(* C20 -- the property theorems, proved from the lemmas of Lemmas*.v, and worked examples (the C20_demo ones).
   mods ranges over every set of modules of a node, ops over every history of logging requests, records,
   *IDN? and disconnects on any number of connections; d over every directory content. *)
From Coq Require Import List Arith ZArith Bool NArith Lia.
Import ListNotations.
Require Import FV.Gen.C20 FV.C20.Model FV.C20.ConcModel FV.C20.Lemmas FV.C20.LemmasRot FV.C20.LemmasConc FV.C20.LemmasProg FV.C20.LemmasEmit FV.C20.LemmasNode.

(* obligations on the facts regenerated from /repo (Gen/C20.v) *)
Theorem C20_source_facts :
  log_levels_table_shape = true /\ check_level_shape = true /\ handle_shape = true /\ handle_iterates_snapshot = true /\
  handle_compares_ge = true /\
  set_conn_level_shape = true /\ module_sets_own_name = true /\ set_all_iterates_all_modules = true /\
  handle_logging_shape = true /\ reset_sets_all_off = true /\ remove_calls_reset = true /\ ident_calls_reset = true /\
  send_log_msg_shape = true /\ activation_handlers_leave_logging_alone = true /\ rollover_guard_max_days = true /\ rollover_lists_own_logs = true /\
  rollover_removes_old_earlier = true /\
  handle_request_holds_lock = true /\ close_path_takes_no_lock = true /\ subscriptions_touched_in_three_places = true.
Proof. repeat split; reflexivity. Qed.

(* Routing, full strength and exact: after ANY history, the messages connection c gets for a record of module m
   with level number lv (python level name py) are exactly [expected]: one message (c, m, name of lv) if the latest
   deciding request of c for m (spec_choice: the specification, a scan of the history) chose a level x <= lv, nothing
   otherwise.  The name is the SECoP level name, or python's name for level numbers without one (critical, custom levels). *)
Theorem C20_routing_exact : forall mods ops m lv py c,
  deliv_to c (handle (run mods ops) m lv py) = expected (spec_choice mods (rev ops) m c) m lv py c.
Proof. intros; apply routing_exact. Qed.

(* The property sentence "receives a log message exactly when the module is enabled and the level is at or above
   the chosen one", for EVERY level number (handle as repaired by 22ea150). *)
Theorem C20_routing : forall mods ops m lv py c,
  In (c, m, record_name lv py) (handle (run mods ops) m lv py) <->
  exists x, spec_choice mods (rev ops) m c = Some x /\ (x <= lv)%Z.
Proof. intros. rewrite in_handle by apply run_wf. rewrite run_refines_spec. intuition. Qed.

(* Switching off, re-identifying or disconnecting stops delivery: after a silencing operation of c for m, and as long
   as c sends no new logging request, no record of m reaches c, whatever everybody else does. *)
Theorem C20_stop : forall mods ops1 o ops2 m c lv py,
  silences mods o m c ->
  (forall o', In o' ops2 -> is_logging_by c o' = false) ->
  deliv_to c (handle (run mods (ops1 ++ o :: ops2)) m lv py) = [].
Proof. intros. rewrite routing_exact, stop_choice; auto. Qed.

(* the three ways of stopping named in the property are silencing operations *)
Theorem C20_stop_ways : forall mods m c,
  mem_name m mods = true ->
  silences mods (OIdent c) m c /\ silences mods (ODisconnect c) m c /\
  (forall spec, targets mods spec m = true -> silences mods (OLogging c spec (LStr s_off)) m c).
Proof.
  intros mods m c M. destruct (silences_reset mods m c M). repeat split; auto.
  intros. apply silences_logging; auto.
Qed.

(* A stop covers EVERY module.  nd: ANY node, a list of (module, export flag) -- exported modules, internal ones
   (export = False: not in the description, but `logging <name> <level>` accepts them, C20_internal_module_can_be_enabled)
   in any mix; o: *IDN? of c, disconnect of c, or a logging request of c addressing all modules (None, '', '.') with any
   spelling of the level off; ops1 / ops2: ANY history before / after in which c sends no new logging request afterwards.
   Then for every module name m -- exported, internal, or no module of the node at all -- connection c is subscribed to
   nothing and receives no record of any level.  (Holds because set_all_log_levels ranges over secnode.modules without a
   filter: obligation set_all_iterates_all_modules of C20_source_facts; C20_exported_only_stop_keeps_subscription shows what
   happens otherwise.) *)
Theorem C20_stop_covers_every_module : forall (nd : node) ops1 o ops2 c,
  stops_all o c ->
  (forall o', In o' ops2 -> is_logging_by c o' = false) ->
  forall m,
    chosen (run_node nd (ops1 ++ o :: ops2)) m c = None /\
    forall lv py, deliv_to c (handle (run_node nd (ops1 ++ o :: ops2)) m lv py) = [].
Proof.
  intros nd ops1 o ops2 c S NL m. unfold run_node.
  split; [rewrite run_refines_spec|intros; rewrite routing_exact]; rewrite spec_choice_after_stop; auto.
Qed.

(* non-vacuity for internal modules, for all histories: a request naming an internal module with a valid level is accepted
   and subscribes the connection *)
Theorem C20_internal_module_can_be_enabled : forall (nd : node) ops c m d lv,
  In (m, false) nd -> is_all (Some m) = false -> check_level d = inl lv -> lv <> OFF ->
  chosen (run_node nd (ops ++ [OLogging c (Some m) d])) m c = Some lv.
Proof.
  intros nd ops c m d lv I _ CL NO. unfold run_node. rewrite run_refines_spec, rev_unit.
  apply spec_choice_enable; auto. apply mem_name_in, (in_map fst nd (m, false)), I.
Qed.

(* Why `set_all_iterates_all_modules` is an obligation: the VARIANT in which the "all modules" operations (logging . <level>,
   the reset of *IDN? and disconnect) range over the exported modules only (LemmasNode.step_exported_only) is the same
   function on every node without internal modules -- no test on such a node can tell -- but there is a node and a history
   after which a connection that re-identified / switched everything off / disconnected is still subscribed to an internal
   module and keeps receiving its records. *)
Definition m_hidden : name := [104; 105; 100]%N.
Definition demo_node : node := [([109; 48]%N, true); (m_hidden, false)].
Theorem C20_exported_only_stop_keeps_subscription :
  (forall nd ops, forallb snd nd = true -> run_exported_only nd ops = run_node nd ops) /\
  (forall stop, In stop [OIdent 0; ODisconnect 0; OLogging 0 (Some [46%N]) (LStr s_off)] ->
     stops_all stop 0 /\
     let ops := [OLogging 0 (Some m_hidden) (LStr s_debug); stop] in
     handle (run_exported_only demo_node ops) m_hidden 20%Z s_info = [(0, m_hidden, s_info)] /\
     handle (run_node demo_node ops) m_hidden 20%Z s_info = []).
Proof.
  split.
  { intros nd ops H. pose proof (all_exported_modules nd H) as E.
    unfold run_exported_only, run_node, run. generalize (@nil (name * subs)) as t.
    induction ops as [|o r IH]; intros t; simpl; auto. rewrite (step_exported_only_same nd t o E). apply IH. }
  intros stop [E|[E|[E|[]]]]; subst stop; (split; [|vm_compute; auto]).
  - left; reflexivity.
  - right; left; reflexivity.
  - right; right. exists (Some [46%N]), (LStr s_off). repeat split; reflexivity.
Qed.

(* Other connections are unaffected: what c' receives over a whole history is what it receives in the history from
   which every request, *IDN? and disconnect of another connection c has been deleted. *)
Theorem C20_others_unaffected : forall mods c c' ops,
  c <> c' ->
  deliv_to c' (trace_from mods [] ops) =
  deliv_to c' (trace_from mods [] (filter (fun o => negb (by_conn c o)) ops)).
Proof. intros mods c c' ops N. apply noninterference; auto using wf_nil. Qed.

(* Only `logging ... off`, *IDN? and disconnect stop delivery -- `activate` / `deactivate` (event subscriptions) do not.
   Frame, for ALL node contents, ALL histories, any number of connections, activation requests with or without specifier
   (accepted or rejected) anywhere in the history:
   (1) each such request leaves the subscription table as it is, sends no log message;
   (2) the table after a history, every message sent during it, and what any later record delivers are those of the
       history with all activation requests deleted (without_activation = filter); inserting activation requests of
       anybody anywhere changes nothing;
   (3) a subscription (c chose level x for m) survives every continuation of the history that consists of activation
       requests of anybody and arbitrary operations of OTHER connections: c still receives the records of m at or above x.
   Rests on the obligation activation_handlers_leave_logging_alone of C20_source_facts (handle_activate / handle_deactivate
   reach neither reset_connection nor set_all_log_levels nor setRemoteLogging; seed C20-8 broke exactly that). *)
Theorem C20_activation_requests_do_not_touch_logging : forall mods,
  (forall t o, is_activation o = true -> step mods t o = (t, ([], None))) /\
  (forall ops,
     run mods ops = run mods (without_activation ops) /\
     trace_from mods [] ops = trace_from mods [] (without_activation ops) /\
     (forall m lv py, handle (run mods ops) m lv py = handle (run mods (without_activation ops)) m lv py) /\
     (forall m c, chosen (run mods ops) m c = spec_choice mods (rev (without_activation ops)) m c)) /\
  (forall ops1 acts ops2, forallb is_activation acts = true ->
     run mods (ops1 ++ acts ++ ops2) = run mods (ops1 ++ ops2)) /\
  (forall ops later m c x,
     chosen (run mods ops) m c = Some x ->
     (forall o, In o later -> is_activation o = true \/ by_conn c o = false) ->
     chosen (run mods (ops ++ later)) m c = Some x /\
     forall lv py, (x <= lv)%Z -> In (c, m, record_name lv py) (handle (run mods (ops ++ later)) m lv py)).
Proof.
  intros mods. split; [intros; apply step_activation; assumption|]. split; [|split].
  - intros ops. split; [apply run_without_activation|]. split; [apply (without_activation_same mods ops [])|]. split.
    + intros. rewrite <- run_without_activation. reflexivity.
    + intros. rewrite run_without_activation. apply run_refines_spec.
  - intros ops1 acts ops2 H. rewrite run_without_activation, (run_without_activation mods (ops1 ++ ops2)).
    unfold without_activation. rewrite !filter_app.
    replace (filter not_activation acts) with (@nil op); auto.
    induction acts as [|a r IH]; simpl in *; auto. apply andb_true_iff in H as [H1 H2].
    replace (not_activation a) with false by (unfold not_activation; rewrite H1; reflexivity). auto.
  - intros ops later m c x H A.
    assert (S : chosen (run mods (ops ++ later)) m c = Some x).
    { (* none of the later operations decides anything about (m, c) *)
      induction later as [|o r IH] using rev_ind; [rewrite app_nil_r; exact H|].
      rewrite app_assoc. unfold run. rewrite fold_left_app. simpl. rewrite (proj2 (step_chosen mods _ o)).
      replace (req_effect mods o m c) with (@None (option Z)).
      - apply IH. intros o' I. apply A, in_or_app. auto.
      - destruct (A o) as [Ao|Bo]; [apply in_or_app; right; left; reflexivity| |];
          destruct o; simpl in *; try discriminate; rewrite ?Bo; reflexivity. }
    split; [exact S|].
    intros lv py L. apply C20_routing. exists x. split; [|exact L]. rewrite <- run_refines_spec. exact S.
Qed.

(* rejected requests (invalid level of any kind, unknown module) leave every subscription as it was *)
Theorem C20_rejected_request_no_effect : forall mods t c spec d,
  (forall e, check_level d = inr e -> fst (step mods t (OLogging c spec d)) = t) /\
  (forall s, spec = Some s -> is_all spec = false -> mem_name s mods = false ->
             step mods t (OLogging c spec d) = (t, ([], Some EKey))).
Proof.
  intros. split.
  - intros e CL. rewrite fst_step, handle_logging_targets. destruct (req_targets mods spec); auto.
    eapply set_all_invalid, CL.
  - intros s -> A M. simpl. unfold handle_logging. rewrite A, M. reflexivity.
Qed.

(* The concurrent layer (ConcModel.v).
   progs: ANY programs of ANY number of threads (atomic steps: lock acquire / release, the three in-place dict operations
   setdefault / item assignment / pop, reader steps of handle); sched: ANY schedule (list of thread numbers; a step of a
   finished thread or of one waiting for the lock is void). *)

(* Linearizability: because every mutation of a module's subscription dict is one atomic in-place operation on one key,
   after any schedule there is an order lin of the executed steps which (1) contains for every thread exactly the executed
   prefix of its program, in program order, (2) produces the table when its table operations are applied one after the
   other, and (3) the entry of every key (module, connection) is the result of the operations on that key alone, in that
   order -- independent of every operation on another key. *)
Theorem C20_routing_linearizable : forall progs t0 sched,
  let st := crun (init progs t0) sched in
  exists lin : list (nat * aop),
    (forall i, by_thread i lin ++ nth i (c_progs st) [] = nth i progs []) /\
    c_table st = apply_all (tops (map snd lin)) t0 /\
    (forall m c, look (c_table st) m c =
                 key_run m c (filter (touches m c) (tops (map snd lin))) (look t0 m c)).
Proof.
  intros progs t0 sched st. destruct (inv_reach progs t0 sched) as [IT IO]. fold st in IT, IO.
  exists (lin st). split; [exact IO|]. unfold table_after in IT. split; [exact IT|].
  intros m c. rewrite IT, look_apply_all. apply key_run_filter.
Qed.

(* hence: an entry written by one thread only is, once all threads have finished, what that thread's program alone leaves
   there when run sequentially -- for every schedule and whatever the other threads do *)
Theorem C20_entry_written_by_one_thread : forall progs t0 sched i m c,
  (forall j o, j <> i -> In o (tops (nth j progs [])) -> touches m c o = false) ->
  all_done (crun (init progs t0) sched) = true ->
  look (c_table (crun (init progs t0) sched)) m c = look (apply_all (tops (nth i progs [])) t0) m c.
Proof. intros; apply owner_determines; assumption. Qed.

(* The property after a concurrent phase.  pre: the sequential history before the threads start; thread i serves connection
   c with the history ops (conn_prog: requests under the dispatcher lock, remove_connection without it), no other thread
   writes an entry of c.  Once all threads have finished, what c receives for a record (m, lv) is exactly what the
   specification demands for c's own history pre ++ ops: one message iff its latest choice for m is a level <= lv; a closed
   or re-identified connection receives nothing. *)
Theorem C20_concurrent_routing : forall mods pre progs sched i c ops m lv py,
  nth i progs [] = conn_prog mods ops ->
  (forall j o m, j <> i -> In o (tops (nth j progs [])) -> touches m c o = false) ->
  all_done (crun (init progs (run mods pre)) sched) = true ->
  deliv_to c (handle (c_table (crun (init progs (run mods pre)) sched)) m lv py) =
  expected (spec_choice mods (rev (pre ++ ops)) m c) m lv py c.
Proof.
  intros. rewrite handle_exact by apply crun_wf, run_wf. erewrite concurrent_choice; eauto.
Qed.

(* the program of a connection thread writes entries of its own connection only (so that the hypothesis above holds for
   every set of connection threads serving different connections, and for module threads, which write nothing) *)
Theorem C20_connection_thread_writes_own_entries : forall mods c ops o m' c',
  (forall op, In op ops -> by_conn c op = true) ->
  In o (tops (conn_prog mods ops)) -> c' <> c -> touches m' c' o = false.
Proof. intros; eapply conn_prog_touch; eauto. Qed.

(* Closing X and enabling Y on the same module commute: in ANY interleaving (with any other threads that do not write
   entries of X or Y) Y ends up subscribed with the level it asked for and X is removed from every module. *)
Theorem C20_close_and_enable_commute : forall mods pre others sched X Y m d lv,
  X <> Y -> mem_name m mods = true -> check_level d = inl lv -> lv <> OFF ->
  (forall p o m', In p others -> In o (tops p) -> touches m' X o = false /\ touches m' Y o = false) ->
  let progs := conn_prog mods [ODisconnect X] :: conn_prog mods [OLogging Y (Some m) d] :: others in
  let st := crun (init progs (run mods pre)) sched in
  all_done st = true ->
  chosen (c_table st) m Y = Some lv /\ forall m', chosen (c_table st) m' X = None.
Proof.
  intros mods pre others sched X Y m d lv N M CL NO OT progs st AD. unfold st.
  assert (TO : forall k o m', In o (tops (nth k others [])) -> touches m' X o = false /\ touches m' Y o = false).
  { intros k o m' I. destruct (nth_in_or_default k others []) as [H|H]; [apply (OT _ o m' H I)|rewrite H in I; destruct I]. }
  split; [|intros m'].
  - rewrite (concurrent_choice mods pre progs sched 1 Y [OLogging Y (Some m) d]); auto.
    + rewrite rev_unit. apply spec_choice_enable; auto.
    + intros [|[|k]] o m' J I; [|congruence|apply (TO k o m' I)].
      apply (conn_prog_touch mods X [ODisconnect X] o m' Y); [intros op [<-|[]]; apply Nat.eqb_refl|exact I|congruence].
  - rewrite (concurrent_choice mods pre progs sched 0 X [ODisconnect X]); auto.
    + apply spec_choice_after_stop with (ops2 := []); [right; left; reflexivity|intros o' []].
    + intros [|[|k]] o m2 J I; [congruence| |apply (TO k o m2 I)].
      apply (conn_prog_touch mods Y [OLogging Y (Some m) d] o m2 X); [intros op [<-|[]]; apply Nat.eqb_refl|exact I|congruence].
Qed.

(* the hypothesis "all threads have finished" is satisfiable: connection threads (any histories), module threads (any
   records) and any further threads using the lock in a balanced way can always be scheduled to completion -- the lock cannot
   block for ever, every snapshot is delivered completely *)
Theorem C20_complete_schedule_exists :
  forall mods (hist : list (list op)) (recss : list (list (name * Z * name))) (others : list (list aop)) t0,
  Forall (fun p => balanced p = true) others ->
  exists sched,
    all_done (crun (init (map (conn_prog mods) hist ++ map emit_prog recss ++ others) t0) sched) = true.
Proof.
  intros mods hist recss others t0 B. apply complete_schedule_exists. rewrite !Forall_app. repeat split; auto;
    apply Forall_forall; intros p I; apply in_map_iff in I as (x & <- & _);
    [apply conn_prog_balanced|apply emit_prog_balanced].
Qed.

(* Emissions (handle as repaired by 641822e: lookup, one-step snapshot of the module's dict, deliveries from the snapshot;
   every delivery is a step of its own, so writers run between the deliveries).  For ALL programs and schedules, once all
   threads have finished:
   (1) what thread i handed to send_log is exactly the concatenation of the messages of its emissions, in order -- nothing is
       lost (an emission never stops half way), nothing else is sent;
   (2) an emission e looked up its module at step em_start e and took its snapshot at step em_pos e of the executed
       sequence lin; its messages are what the sequential handle computes from the table at the snapshot;
   (3) seen from ANY moment l0 at or before the lookup: if no step between that moment and the snapshot writes the entry
       (module, c) -- in particular when nobody writes it during the emission -- connection c receives the record exactly once
       iff at that moment its level was at or below the record's level, and nothing otherwise.  Writes after the snapshot
       do not matter; writes of OTHER entries never matter. *)
Theorem C20_emission_complete_for_stable_subscribers : forall progs t0 sched i,
  wf t0 ->
  let st := crun (init progs t0) sched in
  all_done st = true ->
  msgs_by i st = flat_map em_msgs (emissions_by i st) /\
  forall e, In e (emissions_by i st) ->
    (em_start e <= em_pos e /\
     nth_error (lin st) (em_start e) = Some (i, AGet (em_mod e)) /\
     nth_error (lin st) (em_pos e) = Some (i, ASnap (em_lv e) (em_py e)) /\
     em_msgs e = if has_mod (em_mod e) (table_after t0 (firstn (em_start e) (lin st)))
                 then handle (table_after t0 (firstn (em_pos e) (lin st))) (em_mod e) (em_lv e) (em_py e) else []) /\
    forall l0 seg c,
      firstn (em_pos e) (lin st) = l0 ++ seg -> length l0 <= em_start e ->
      (forall o, In o (tops (map snd seg)) -> touches (em_mod e) c o = false) ->
      deliv_to c (em_msgs e) =
      expected (chosen (table_after t0 l0) (em_mod e) c) (em_mod e) (em_lv e) (em_py e) c.
Proof.
  intros progs t0 sched i W st AD. split.
  { unfold st. rewrite <- emissions_exact, all_done_pend, app_nil_r by exact AD. reflexivity. }
  intros e Ie. destruct (in_emissions_by _ _ _ Ie) as [Ic <-].
  destruct (emission_facts progs t0 sched e Ic) as (A & T & [F G1] & G2). fold st in T, F, G1, G2.
  split; [repeat split; auto; unfold em_msgs; rewrite F, T; reflexivity|].
  intros l0 seg c SPL LE ST. unfold em_msgs. destruct (em_found e).
  - rewrite T, handle_exact by auto using table_after_wf.
    rewrite (chosen_stable t0 _ l0 seg _ _ _ _ SPL) by (auto; lia). reflexivity.
  - (* the lookup found no dict for the module: at that moment nobody was subscribed, and c's entry is as it was at l0 *)
    rewrite <- (chosen_stable t0 _ l0 seg (em_start e) _ _ _ SPL) by (auto; lia).
    rewrite chosen_no_mod; auto.
Qed.

(* soundness, also while threads are still running: every message thread i handed to send_log belongs to one of its
   emissions and goes to a connection that was subscribed to the record's module at the moment of that snapshot with a level
   at or below the record's level, under the record's level name *)
Theorem C20_concurrent_delivery_sound : forall progs t0 sched i c m nm,
  wf t0 ->
  let st := crun (init progs t0) sched in
  In (c, m, nm) (msgs_by i st) ->
  exists e, In e (emissions_by i st) /\ em_found e = true /\ m = em_mod e /\ nm = record_name (em_lv e) (em_py e) /\
            exists x, chosen (em_table e) m c = Some x /\ (x <= em_lv e)%Z.
Proof.
  intros progs t0 sched i c m nm W st I.
  assert (I2 : In (c, m, nm) (flat_map em_msgs (emissions_by i st)))
    by (unfold st; rewrite <- emissions_exact; apply in_or_app; auto).
  apply in_flat_map in I2 as (e & Ie & Id). exists e. split; auto.
  destruct (in_emissions_by _ _ _ Ie) as [Ic _]. destruct (emission_facts progs t0 sched e Ic) as (_ & T & _).
  unfold em_msgs in Id. destruct (em_found e); [|destruct Id]. split; auto.
  apply in_handle in Id as [[-> ->] X]; auto. rewrite T. apply table_after_wf, W.
Qed.

(* Rotation.  d ranges over every directory: any set of dated log files of the handler (earlier, same day, dated later), foreign
   files, sub-directories, links; "earlier" = own log file (regular file named <root>-*.log) whose name is below the name of the
   file being written; "newest" = greatest name (date order for zero padded dates). *)

(* whatever the retention: a rollover creates nothing but the `current` link and the file of the day, never removes the
   `current` link, and never removes the file being written *)
Theorem C20_rollover_frame : forall prefix n d date,
  (forall e, In e (do_rollover prefix n d date) -> In e (open_file d (log_name prefix date))) /\
  has_name cur_name (do_rollover prefix n d date) = true /\
  has_name (log_name prefix date) (do_rollover prefix n d date) = true.
Proof.
  intros. split; [unfold do_rollover; destruct n; auto; intros e; apply remove_loop_sub|].
  split; apply rollover_keeps_name.
  - apply open_has_current.
  - intros e O _. apply (own_not_current _ _ O).
  - apply open_has_file.
  - intros e _ L N. rewrite N, name_ltb_irrefl in L. discriminate.
Qed.

(* "only older files are removed", first half: whatever is not an own log file dated before the file being written stays --
   foreign files, sub-directories such as comlog, links, own log files dated later, the file being written
   (were findings C20/rollover-removes-foreign and C20/rollover-later-dated-file) *)
Theorem C20_only_earlier_own_logs_removed : forall prefix n d date e,
  NoDup (names d) ->
  In e (open_file d (log_name prefix date)) ->
  own_log prefix e = false \/ name_ltb (e_name e) (log_name prefix date) = false ->
  In e (do_rollover prefix n d date).
Proof.
  intros prefix n d date e ND I F. unfold do_rollover. destruct n; auto.
  apply remove_loop_keeps_entry, not_victim_name; auto. intros x Ix O L N.
  rewrite (unique_entry _ x e (open_nodup d (log_name prefix date) ND)) in O, L by auto. destruct F; congruence.
Qed.

(* retention 0: nothing is removed, the file of the day exists *)
Theorem C20_retention_zero_keeps_all : forall prefix d date,
  do_rollover prefix 0 d date = open_file d (log_name prefix date) /\
  (forall e, In e d -> e_name e <> cur_name -> In e (do_rollover prefix 0 d date)) /\
  has_name (log_name prefix date) (do_rollover prefix 0 d date) = true.
Proof.
  intros. split; [reflexivity|]. split; [intros; apply open_keeps; auto|apply open_has_file].
Qed.

(* The retention clause of the property at full strength, no guard: with retention N = S n, for EVERY directory, the file
   being written (C20_rollover_frame) and the N-1 = n newest earlier files (kept: min(n, number of earlier files) entries,
   all still present) are kept, and only older files are removed: a name disappears iff it belongs to [removed], every
   removed entry is an earlier own log file and sorts below every kept one.
   (doRollover as repaired by deef1e5.) *)
Theorem C20_retention : forall prefix n d date,
  let fn := log_name prefix date in
  let d1 := open_file d fn in
  let earl := earlier fn (listing prefix d1) in
  let removed := firstn (length earl - n) earl in
  let kept := skipn (length earl - n) earl in
  (forall nm, has_name nm (do_rollover prefix (S n) d date) = has_name nm d1 && negb (has_name nm removed)) /\
  length kept = Nat.min n (length earl) /\
  (NoDup (names d) -> forall k, In k kept -> In k (do_rollover prefix (S n) d date)) /\
  (forall r k, In r removed -> In k kept -> name_leb (e_name r) (e_name k) = true) /\
  (forall r, In r removed -> In r d1 /\ own_log prefix r = true /\ name_ltb (e_name r) fn = true).
Proof.
  intros prefix n d date fn d1 earl removed kept.
  assert (V : victims (S n) earl = removed) by (unfold victims, removed; simpl; rewrite Nat.sub_0_r; reflexivity).
  split; [|split; [|split; [|split]]].
  - intros nm. rewrite <- V. apply remove_loop_names.
  - unfold kept. rewrite skipn_length. lia.
  - intros ND k Ik. apply remove_loop_keeps_entry.
    + apply in_skipn, earlier_in in Ik as [Ik _]. apply listing_in in Ik as [Ik _]. exact Ik.
    + fold fn d1 earl. rewrite V. apply kept_not_removed; auto. apply earlier_nodup, open_nodup, ND.
  - intros r k. apply sorted_split, earlier_sorted.
  - intros r Ir. apply (victims_spec prefix (S n) fn d1 r). fold earl. rewrite V. exact Ir.
Qed.

(* non-vacuity: a history with two connections in which every clause of the property is exercised *)
Definition mA : name := [109; 48]%N.
Definition mB : name := [109; 49]%N.
Definition s_critical : name := [99; 114; 105; 116; 105; 99; 97; 108]%N.
Definition demo_ops : list op :=
  [OLogging 0 (Some mA) (LStr s_debug); OLogging 1 None (LStr s_warning); OEmit mA 20%Z s_info; OEmit mB 30%Z s_warning;
   OLogging 0 (Some mA) (LStr s_off); OEmit mA 40%Z s_error; OIdent 1; OEmit mA 40%Z s_error;
   OLogging 1 (Some mB) (LStr s_error); OEmit mB 50%Z s_critical].
Example C20_demo :
  trace_from [mA; mB] [] demo_ops =
  [(0, mA, s_info); (1, mB, s_warning); (1, mA, s_error); (1, mB, s_critical)].
Proof. vm_compute. reflexivity. Qed.

(* non-vacuity of the activation frame: connection 0 enables mA, activates, deactivates (with and without specifier) --
   it still gets the record; connection 1 re-identified -- it does not *)
Example C20_demo_activation :
  trace_from [mA; mB] []
    [OLogging 0 (Some mA) (LStr s_debug); OLogging 1 None (LStr s_debug); OActivate 0 None; ODeactivate 0 (Some mA);
     ODeactivate 0 None; OIdent 1; OEmit mA 20%Z s_info] = [(0, mA, s_info)].
Proof. vm_compute. reflexivity. Qed.

(* non-vacuity of the concurrent theorems: connection 0 (subscribed to mA) closes while connection 1 enables mA; an
   interleaved schedule in which the close writes while the request holds the lock runs to completion *)
Definition demo_progs : list (list aop) :=
  [conn_prog [mA] [ODisconnect 0]; conn_prog [mA] [OLogging 1 (Some mA) (LStr s_info)]].
Example C20_demo_concurrent :
  let st := crun (init demo_progs (run [mA] [OLogging 0 (Some mA) (LStr s_debug)])) [1; 1; 0; 1; 0; 1] in
  all_done st = true /\ c_table st = [(mA, [(1, 20%Z)])].
Proof. vm_compute. auto. Qed.

(* connection 0 (debug) and 1 (info) are subscribed to mA; a module thread emits (mA, info) while connection 0 closes right
   after the snapshot: both get the record (connection 0 was still subscribed at the snapshot), the table ends without 0 *)
Example C20_demo_emission :
  let t0 := run [mA] [OLogging 0 (Some mA) (LStr s_debug); OLogging 1 (Some mA) (LStr s_info)] in
  let st := crun (init [conn_prog [mA] [ODisconnect 0]; emit_prog [(mA, 20%Z, s_info)]] t0) [1; 1; 0; 0; 1; 1] in
  all_done st = true /\ msgs_by 1 st = [(0, mA, s_info); (1, mA, s_info)] /\ c_table st = [(mA, [(1, 20%Z)])].
Proof. vm_compute. auto. Qed.

(* Why `set_conn_level_shape` is an obligation: a copy-on-write set_conn_level (copy the module's dict, change the copy,
   store it back: three steps, ConcModel.wstep) is equivalent single-threaded but loses updates.  Same scenario: run one
   after the other the two threads give [(1, 20)]; there is an interleaving after which connection 1, whose request was
   answered, is not subscribed, and one after which the closed connection 0 still is. *)
Definition cow_progs : list (list wop) := [cow_set_level 0 OFF mA; cow_set_level 1 20%Z mA].
Theorem C20_copy_on_write_loses_update :
  let t0 := [(mA, [(0, 10%Z)])] in
  w_table (wrun (winit cow_progs t0) [0; 0; 0; 1; 1; 1]) = [(mA, [(1, 20%Z)])] /\
  w_table (wrun (winit cow_progs t0) [1; 1; 1; 0; 0; 0]) = [(mA, [(1, 20%Z)])] /\
  (exists sched, let st := wrun (winit cow_progs t0) sched in
                 w_all_done st = true /\ look (w_table st) mA 1 = None) /\
  (exists sched, let st := wrun (winit cow_progs t0) sched in
                 w_all_done st = true /\ look (w_table st) mA 0 = Some 10%Z).
Proof.
  split; [vm_compute; reflexivity|]. split; [vm_compute; reflexivity|]. split.
  - exists [0; 1; 1; 1; 0; 0]. vm_compute. auto.
  - exists [1; 0; 0; 0; 1; 1]. vm_compute. auto.
Qed.

Definition frappy : name := [102; 114; 97; 112; 112; 121]%N.
Definition date_n (n : N) : name := [50; 48; 50; 52; 45; 48; 49; 45; 48; 48 + n]%N.   (* 2024-01-0n *)
Definition dated (n : N) : entry := {| e_name := log_name frappy (date_n n); e_file := true |}.

(* four earlier files, a later-dated file, a sub-directory, a foreign file and a link carrying a log name; retention 2 *)
Example C20_demo_rotation :
  map e_name (sort (do_rollover frappy 2
     [dated 1; dated 2; {| e_name := [99; 111; 109]%N; e_file := false |}; dated 3; dated 4; dated 9;
      {| e_name := [122; 122]%N; e_file := true |}; {| e_name := log_name frappy (date_n 0); e_file := false |}]
     (date_n 5))) =
  [[99; 111; 109]%N; cur_name; log_name frappy (date_n 0); log_name frappy (date_n 4); log_name frappy (date_n 5);
   log_name frappy (date_n 9); [122; 122]%N].
Proof. vm_compute. reflexivity. Qed.

Print Assumptions C20_source_facts.
Print Assumptions C20_routing_exact.
Print Assumptions C20_routing.
Print Assumptions C20_stop.
Print Assumptions C20_stop_ways.
Print Assumptions C20_stop_covers_every_module.
Print Assumptions C20_internal_module_can_be_enabled.
Print Assumptions C20_exported_only_stop_keeps_subscription.
Print Assumptions C20_others_unaffected.
Print Assumptions C20_rejected_request_no_effect.
Print Assumptions C20_activation_requests_do_not_touch_logging.
Print Assumptions C20_routing_linearizable.
Print Assumptions C20_entry_written_by_one_thread.
Print Assumptions C20_concurrent_routing.
Print Assumptions C20_connection_thread_writes_own_entries.
Print Assumptions C20_close_and_enable_commute.
Print Assumptions C20_complete_schedule_exists.
Print Assumptions C20_emission_complete_for_stable_subscribers.
Print Assumptions C20_concurrent_delivery_sound.
Print Assumptions C20_copy_on_write_loses_update.
Print Assumptions C20_rollover_frame.
Print Assumptions C20_only_earlier_own_logs_removed.
Print Assumptions C20_retention_zero_keeps_all.
Print Assumptions C20_retention.
