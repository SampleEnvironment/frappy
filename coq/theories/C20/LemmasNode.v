(* C20 -- the node: internal modules (export = False) next to exported ones.  A stop (off for all modules, *IDN?,
   disconnect) covers EVERY module of the node, because set_all_log_levels ranges over secnode.modules without a filter
   (translator fact set_all_iterates_all_modules).  Second half: the VARIANT in which the "all modules" operations range
   over the exported modules only -- equivalent on nodes without internal modules, but a subscription to an internal module
   enabled by name survives every stop.  The variant is used for the witness only. *)
From Coq Require Import List Arith ZArith Bool NArith Lia.
Import ListNotations.
Require Import FV.Gen.C20 FV.C20.Model FV.C20.Lemmas.

(* the operations after which, by the property, nothing may reach connection c any more: re-identification, disconnect,
   switching off with a specifier addressing all modules (None, '', '.') and any spelling of the level OFF *)
Definition stops_all (o : op) (c : conn) : Prop :=
  o = OIdent c \/ o = ODisconnect c \/
  exists spec d, o = OLogging c spec d /\ is_all spec = true /\ check_level d = inl OFF.

Lemma stops_all_silences mods o c m : stops_all o c -> mem_name m mods = true -> silences mods o m c.
Proof.
  intros [->|[->|(spec & d & -> & A & CL)]] M.
  - apply silences_reset, M.
  - apply silences_reset, M.
  - apply silences_logging; auto. unfold targets. rewrite A. exact M.
Qed.

(* a module of the node: silenced; a name that is no module of the node: never subscribed *)
Lemma spec_choice_after_stop mods ops1 o ops2 c m :
  stops_all o c -> (forall o', In o' ops2 -> is_logging_by c o' = false) ->
  spec_choice mods (rev (ops1 ++ o :: ops2)) m c = None.
Proof.
  intros S NL. destruct (mem_name m mods) eqn:M.
  - apply stop_choice; auto. apply stops_all_silences; auto.
  - apply spec_choice_unknown_module; auto.
Qed.

(* VARIANT: "all modules" = the exported modules *)
Definition step_exported_only (nd : node) (t : table) (o : op) : table :=
  match o with
  | OLogging c spec d =>
      if is_all spec then fst (set_all t (node_exported nd) c d)
      else fst (handle_logging (node_modules nd) t c spec d)
  | OEmit _ _ _ => t
  | OIdent c | ODisconnect c => fst (set_all t (node_exported nd) c (LStr s_off))
  | OActivate _ _ | ODeactivate _ _ => t
  end.
Definition run_exported_only (nd : node) (ops : list op) : table := fold_left (step_exported_only nd) ops [].

Lemma all_exported_modules nd : forallb snd nd = true -> node_exported nd = node_modules nd.
Proof.
  unfold node_exported, node_modules. induction nd as [|[m b] r]; simpl; auto.
  intros H. apply andb_true_iff in H as [-> H2]. simpl. rewrite IHr; auto.
Qed.

(* on a node whose modules are all exported the variant cannot be told from the code as it is *)
Lemma step_exported_only_same nd t o :
  node_exported nd = node_modules nd -> step_exported_only nd t o = fst (step (node_modules nd) t o).
Proof.
  intros E. rewrite fst_step. destruct o; simpl; rewrite ?E; auto.
  unfold handle_logging. destruct (is_all spec); reflexivity.
Qed.
