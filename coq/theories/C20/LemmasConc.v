(* C20 -- concurrent layer: every mutation of a module's subscription dict is one atomic in-place operation on one key,
   hence (for ALL schedules) the table is the result of the executed operations in an order consistent with every thread's
   program order, the entry of a key depends only on the operations on that key, and a connection whose entries are written
   by its own thread only ends up exactly where the sequential specification says. *)
From Coq Require Import List Arith ZArith Bool NArith Lia.
Import ListNotations.
Require Import FV.Gen.C20 FV.C20.Model FV.C20.ConcModel FV.C20.Lemmas.

Lemma look_chosen t m c : look t m c = chosen t m c.
Proof. unfold look, chosen, subs_of. destruct (get_mod m t); reflexivity. Qed.

(* what an operation does to the entry (m, c) *)
Definition key_eff (m : name) (c : conn) (o : top) (v : option Z) : option Z :=
  match o with
  | TSetDefault _ => v
  | TSet m' c' lv => if name_eqb m' m && Nat.eqb c' c then Some lv else v
  | TPop m' c' => if name_eqb m' m && Nat.eqb c' c then None else v
  end.
Definition key_run (m : name) (c : conn) (os : list top) (v : option Z) : option Z :=
  fold_left (fun v o => key_eff m c o v) os v.

(* frame lemma of the primitive updates *)
Lemma look_apply_top o t m c : look (apply_top o t) m c = key_eff m c o (look t m c).
Proof.
  rewrite !look_chosen. destruct o as [m'|m' c' lv|m' c']; simpl; rewrite chosen_upd;
    destruct (name_eqb_spec m' m) as [->|]; simpl; auto.
  - apply conn_get_set.
  - apply conn_get_pop.
Qed.

Lemma look_apply_all os : forall t m c, look (apply_all os t) m c = key_run m c os (look t m c).
Proof.
  induction os as [|o r]; intros t m c; simpl; auto.
  unfold apply_all in *. simpl. rewrite IHr, look_apply_top. reflexivity.
Qed.

Lemma key_eff_untouched m c o v : touches m c o = false -> key_eff m c o v = v.
Proof. destruct o; simpl; intros H; auto; rewrite H; auto. Qed.

(* the entry of a key depends only on the operations on that key *)
Lemma key_run_filter m c os : forall v, key_run m c os v = key_run m c (filter (touches m c) os) v.
Proof.
  induction os as [|o r]; intros v; simpl; auto.
  unfold key_run in *. simpl. destruct (touches m c o) eqn:T; simpl; rewrite ?key_eff_untouched by auto; apply IHr.
Qed.

Lemma key_run_untouched m c os v : (forall o, In o os -> touches m c o = false) -> key_run m c os v = v.
Proof.
  intros H. rewrite key_run_filter. replace (filter (touches m c) os) with (@nil top); auto.
  induction os as [|o r]; simpl in *; auto. rewrite (H o), <- IHr; auto.
Qed.

Lemma apply_top_wf o t : wf t -> wf (apply_top o t).
Proof.
  intros W. destruct o; simpl; apply wf_upd; auto; intros; [apply conn_set_nodup|apply conn_pop_nodup]; auto.
Qed.

Lemma apply_all_wf os : forall t, wf t -> wf (apply_all os t).
Proof.
  induction os as [|o r]; intros t W; simpl; auto. apply IHr, apply_top_wf, W.
Qed.

Lemma apply_all_app a b t : apply_all (a ++ b) t = apply_all b (apply_all a t).
Proof. apply fold_left_app. Qed.

Lemma tops_app a : forall b, tops (a ++ b) = tops a ++ tops b.
Proof.
  induction a as [|x r]; intros b; simpl; auto. destruct x; simpl; rewrite ?IHr; auto.
Qed.

Lemma tops_flat_map {A} (f : A -> list aop) l : tops (flat_map f l) = flat_map (fun x => tops (f x)) l.
Proof. induction l; simpl; auto. rewrite tops_app, IHl. reflexivity. Qed.

Lemma tops_In o p : In o (tops p) <-> In (ATab o) p.
Proof.
  induction p as [|x r]; simpl; [tauto|].
  destruct x; simpl; rewrite IHr; try (split; [auto|intros [H|H]; [discriminate H|auto]]).
  split; intros [H|H]; auto; left; congruence.
Qed.

Lemma set_nth_length {A} (x : A) l : forall n, length (set_nth n x l) = length l.
Proof. induction l; destruct n; simpl; auto. Qed.

Lemma nth_set_nth_same {A} (x d : A) l : forall n, n < length l -> nth n (set_nth n x l) d = x.
Proof.
  induction l; intros n H; simpl in H; [lia|]. destruct n; simpl; auto. apply IHl. lia.
Qed.

Lemma nth_set_nth_other {A} (x d : A) l : forall n k, n <> k -> nth k (set_nth n x l) d = nth k l d.
Proof.
  induction l; intros n k H; destruct n, k; simpl; auto. congruence.
Qed.

Lemma nth_set_nth {A} (x d : A) l n k :
  n < length l -> nth k (set_nth n x l) d = if Nat.eqb n k then x else nth k l d.
Proof.
  intros H. destruct (Nat.eqb_spec n k) as [<-|N]; [apply nth_set_nth_same|apply nth_set_nth_other]; auto.
Qed.

Lemma nth_error_lt {A} (l : list A) n x : nth_error l n = Some x -> n < length l.
Proof. intros H. apply nth_error_Some. congruence. Qed.

Definition by_thread (i : nat) (l : list (nat * aop)) : list aop :=
  map snd (filter (fun p => Nat.eqb (fst p) i) l).

Lemma by_thread_app i a b : by_thread i (a ++ b) = by_thread i a ++ by_thread i b.
Proof. unfold by_thread. rewrite filter_app, map_app. reflexivity. Qed.

Lemma by_thread_one i k a : by_thread k [(i, a)] = if Nat.eqb i k then [a] else [].
Proof. unfold by_thread. simpl. destruct (Nat.eqb i k); reflexivity. Qed.

(* ConcModel.v spells "the executed steps, oldest first" lin st; done_ops / done_by are its steps / those of one thread *)
Lemma done_ops_lin st : done_ops st = map snd (lin st).
Proof. reflexivity. Qed.

Lemma done_by_lin i st : done_by i st = by_thread i (lin st).
Proof. reflexivity. Qed.

Record inv (progs : list (list aop)) (t0 : table) (st : cstate) : Prop := {
  inv_table : c_table st = table_after t0 (lin st);
  inv_order : forall i, by_thread i (lin st) ++ nth i (c_progs st) [] = nth i progs []
}.

Lemma inv_init progs t0 : inv progs t0 (init progs t0).
Proof. constructor; simpl; auto. Qed.

Lemma done_ops_cons st i a :
  map snd (rev ((i, a) :: c_done st)) = done_ops st ++ [a].
Proof. unfold done_ops. simpl. rewrite map_app. reflexivity. Qed.

Lemma inv_step progs t0 st i : inv progs t0 st -> inv progs t0 (cstep st i).
Proof.
  intros [IT IO]. unfold cstep.
  destruct (l_pend (nth i (c_loc st) loc0)) as [|d pr]; [|constructor; auto].
  destruct (nth_error (c_progs st) i) as [[|a rest]|] eqn:E; try (constructor; auto; fail).
  destruct (enabled (c_lock st) a); [|constructor; auto].
  (* thread i executes a: the executed sequence grows by (i, a) *)
  constructor; unfold lin; cbn [c_done c_table c_progs rev]; fold (lin st).
  - unfold table_after. rewrite map_app, tops_app, apply_all_app. fold (table_after t0 (lin st)). rewrite <- IT.
    destruct a; reflexivity.
  - intros k. rewrite by_thread_app, by_thread_one, nth_set_nth by (eapply nth_error_lt, E).
    destruct (Nat.eqb_spec i k) as [<-|K].
    + rewrite <- app_assoc, <- IO, (nth_error_nth _ _ [] E). reflexivity.
    + rewrite app_nil_r. apply IO.
Qed.

Lemma inv_reach progs t0 sched : inv progs t0 (crun (init progs t0) sched).
Proof.
  generalize (inv_init progs t0). generalize (init progs t0) as st.
  induction sched as [|i r]; intros st I; simpl; auto. apply IHr, inv_step, I.
Qed.

Lemma crun_wf progs t0 sched : wf t0 -> wf (c_table (crun (init progs t0) sched)).
Proof. intros W. rewrite (inv_table _ _ _ (inv_reach progs t0 sched)). apply apply_all_wf, W. Qed.

Lemma forallb_nth {A} (p : A -> bool) l d i : forallb p l = true -> p d = true -> p (nth i l d) = true.
Proof.
  intros H D. destruct (nth_in_or_default i l d) as [I| ->]; auto. apply (proj1 (forallb_forall p l) H _ I).
Qed.

Lemma all_done_nth st i : all_done st = true -> nth i (c_progs st) [] = [].
Proof.
  intros H. apply andb_true_iff in H as [H _]. apply (forallb_nth _ _ [] i) in H; auto.
  destruct (nth i (c_progs st) []); [auto|discriminate].
Qed.

(* operations of the other threads that do not touch the key drop out of the filtered sequence *)
Lemma filter_owner m c i (l : list (nat * aop)) :
  (forall j o, In (j, ATab o) l -> j <> i -> touches m c o = false) ->
  filter (touches m c) (tops (map snd l)) = filter (touches m c) (tops (by_thread i l)).
Proof.
  unfold by_thread. induction l as [|[j a] r]; intros H; simpl; auto.
  specialize (IHr (fun j o I => H j o (or_intror I))).
  destruct (Nat.eqb_spec j i); destruct a; simpl; rewrite ?IHr; auto.
  rewrite (H j o); auto. left; auto.
Qed.

Lemma in_by_thread j a l : In (j, a) l -> In a (by_thread j l).
Proof.
  intros I. apply in_map_iff. exists (j, a). split; auto. apply filter_In. split; auto. apply Nat.eqb_refl.
Qed.

(* a key written by one thread only: when all threads have finished its entry is what that thread's program alone, run
   sequentially from the initial table, leaves there -- for every schedule *)
Lemma owner_determines progs t0 sched i m c :
  (forall j o, j <> i -> In o (tops (nth j progs [])) -> touches m c o = false) ->
  all_done (crun (init progs t0) sched) = true ->
  look (c_table (crun (init progs t0) sched)) m c = look (apply_all (tops (nth i progs [])) t0) m c.
Proof.
  intros OW AD. destruct (inv_reach progs t0 sched) as [IT IO].
  set (st := crun (init progs t0) sched) in *.
  (* all threads have finished: thread j has executed exactly its program *)
  assert (P : forall j, by_thread j (lin st) = nth j progs []).
  { intros j. rewrite <- (IO j), all_done_nth by auto. symmetry. apply app_nil_r. }
  (* both entries are the operations on the key (m, c) alone, applied to the entry of t0 ... *)
  rewrite IT. unfold table_after.
  rewrite !look_apply_all, key_run_filter, (key_run_filter m c (tops (nth i progs []))).
  (* ... and the executed operations on the key are those of thread i *)
  f_equal. rewrite <- P. apply filter_owner.
  intros j o I N. apply (OW j o N). rewrite <- P. apply tops_In, in_by_thread, I.
Qed.

(* a thread's program run alone = the sequential model *)
Lemma upd_upd_id m f t : upd_mod m f (upd_mod m (fun l => l) t) = upd_mod m f t.
Proof.
  induction t as [|[m' l] r]; simpl.
  - rewrite name_eqb_refl. reflexivity.
  - destruct (name_eqb m m') eqn:E; simpl; rewrite E; auto. rewrite IHr. reflexivity.
Qed.

Lemma set_level_ops_seq t m c d lv :
  check_level d = inl lv ->
  apply_all (tops (set_level_ops c lv m)) t = fst (set_conn_level t m c d).
Proof.
  intros CL. unfold set_conn_level. rewrite CL. simpl. destruct (Z.eqb lv OFF); apply upd_upd_id.
Qed.

Lemma set_all_seq ms : forall t c d lv,
  check_level d = inl lv ->
  apply_all (tops (flat_map (set_level_ops c lv) ms)) t = fst (set_all t ms c d).
Proof.
  induction ms as [|m r]; intros t c d lv CL; [reflexivity|].
  cbn [flat_map set_all]. rewrite tops_app, apply_all_app, (set_level_ops_seq t m c d lv CL).
  destruct (set_conn_level_valid t m c d lv CL) as (t' & -> & _). apply IHr, CL.
Qed.

Lemma logging_ops_seq mods t c spec d :
  apply_all (tops (fst (logging_ops mods c spec d))) t = fst (handle_logging mods t c spec d).
Proof.
  unfold logging_ops. rewrite handle_logging_targets. destruct (req_targets mods spec) as [ms|]; auto.
  destruct (check_level d) as [lv|e] eqn:CL; simpl.
  - apply set_all_seq, CL.
  - rewrite (set_all_invalid _ _ _ _ _ CL). reflexivity.
Qed.

Lemma check_level_off : check_level (LStr s_off) = inl OFF.
Proof. reflexivity. Qed.

Lemma op_prog_seq mods t o : apply_all (tops (op_prog mods o)) t = fst (step mods t o).
Proof.
  rewrite fst_step. destruct o as [c spec d|m0 lv0 py|c|c|c sp|c sp]; simpl; auto.
  - (* OLogging *)
    rewrite <- logging_ops_seq. destruct (logging_ops mods c spec d) as [ops e]. simpl.
    rewrite tops_app, app_nil_r. reflexivity.
  - (* OIdent *) rewrite tops_app, app_nil_r. apply set_all_seq, check_level_off.
  - (* ODisconnect *) apply set_all_seq, check_level_off.
Qed.

Lemma conn_prog_seq mods ops : forall t, apply_all (tops (conn_prog mods ops)) t = run_from mods t ops.
Proof.
  induction ops as [|o r]; intros t; simpl; auto.
  unfold conn_prog in *. simpl. rewrite tops_app, apply_all_app, op_prog_seq. apply IHr.
Qed.

(* the program of a connection's thread writes entries of that connection only *)
Lemma set_level_ops_touch c lv m o m' c' :
  In o (tops (set_level_ops c lv m)) -> c' <> c -> touches m' c' o = false.
Proof.
  simpl. intros [H|[H|[]]] N; subst; simpl; auto.
  destruct (Z.eqb lv OFF); simpl; apply andb_false_iff; right; apply Nat.eqb_neq; auto.
Qed.

Lemma flat_set_level_touch c lv ms o m' c' :
  In o (tops (flat_map (set_level_ops c lv) ms)) -> c' <> c -> touches m' c' o = false.
Proof.
  rewrite tops_flat_map, in_flat_map. intros (m & _ & H). eapply set_level_ops_touch, H.
Qed.

(* the table operations of an operation of connection c are set_level_ops of c on some modules *)
Lemma tops_op_prog mods op c :
  by_conn c op = true -> exists lv ms, tops (op_prog mods op) = tops (flat_map (set_level_ops c lv) ms).
Proof.
  intros B. destruct op as [c0 spec d|m0 lv0 py|c0|c0|c0 sp|c0 sp]; simpl in B; try discriminate B;
    apply Nat.eqb_eq in B as ->; simpl.
  - (* OLogging *)
    unfold logging_ops. destruct (req_targets mods spec) as [ms|]; [destruct (check_level d) as [lv|e]|]; simpl.
    + exists lv, ms. rewrite tops_app, app_nil_r. reflexivity.
    + exists OFF, []. reflexivity.
    + exists OFF, []. reflexivity.
  - (* OIdent *) exists OFF, mods. rewrite tops_app, app_nil_r. reflexivity.
  - (* ODisconnect *) exists OFF, mods. reflexivity.
  - (* OActivate *) exists OFF, []. reflexivity.
  - (* ODeactivate *) exists OFF, []. reflexivity.
Qed.

Lemma op_prog_touch mods o c op m' c' :
  by_conn c op = true -> In o (tops (op_prog mods op)) -> c' <> c -> touches m' c' o = false.
Proof.
  intros B H. destruct (tops_op_prog mods op c B) as (lv & ms & E). rewrite E in H.
  eapply flat_set_level_touch, H.
Qed.

Lemma conn_prog_touch mods c ops o m' c' :
  (forall op, In op ops -> by_conn c op = true) ->
  In o (tops (conn_prog mods ops)) -> c' <> c -> touches m' c' o = false.
Proof.
  unfold conn_prog. rewrite tops_flat_map, in_flat_map. intros B (op & I & H). eapply op_prog_touch; eauto.
Qed.

(* Any number of threads with any programs, any schedule, started after the sequential history pre.  If thread i serves
   connection c (its program is the one of the history ops of c) and no other thread writes an entry of c, then, once all
   threads have finished, c's choice for every module is the one the specification computes from c's own history --
   whatever the others did and however the steps were interleaved. *)
Lemma concurrent_choice mods pre progs sched i c ops :
  nth i progs [] = conn_prog mods ops ->
  (forall j o m, j <> i -> In o (tops (nth j progs [])) -> touches m c o = false) ->
  all_done (crun (init progs (run mods pre)) sched) = true ->
  forall m, chosen (c_table (crun (init progs (run mods pre)) sched)) m c = spec_choice mods (rev (pre ++ ops)) m c.
Proof.
  intros P OW AD m. rewrite <- look_chosen, (owner_determines _ _ _ i) by eauto.
  rewrite P, conn_prog_seq, look_chosen, <- run_refines_spec, !run_from_nil, run_from_app. reflexivity.
Qed.
