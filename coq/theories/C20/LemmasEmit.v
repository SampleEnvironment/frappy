(* C20 -- concurrent layer, emissions: handle takes an atomic snapshot of the module's dict and delivers from it.  For ALL
   programs and schedules: what a thread hands to send_log is exactly the concatenation of its emissions, each the
   messages the sequential handle computes from the table at the moment of the snapshot; hence a subscriber whose entry
   nobody writes between the start of the emission and the snapshot receives the record exactly once iff its level suffices. *)
From Coq Require Import List Arith ZArith Bool NArith Lia.
Import ListNotations.
Require Import FV.Gen.C20 FV.C20.Model FV.C20.ConcModel FV.C20.Lemmas FV.C20.LemmasConc FV.C20.LemmasProg.

(* thread i looked module m up at position s of the executed sequence l; f: whether the module's dict was there *)
Definition lookup_at (t0 : table) (l : list (nat * aop)) (i : nat) (m : name) (f : bool) (s : nat) : Prop :=
  f = has_mod m (table_after t0 (firstn s l)) /\ nth_error l s = Some (i, AGet m).

(* the record of emission e agrees with the executed sequence l *)
Definition emission_at (t0 : table) (l : list (nat * aop)) (e : emission) : Prop :=
  em_start e <= em_pos e /\
  em_table e = table_after t0 (firstn (em_pos e) l) /\
  lookup_at t0 l (em_thread e) (em_mod e) (em_found e) (em_start e) /\
  nth_error l (em_pos e) = Some (em_thread e, ASnap (em_lv e) (em_py e)).

Lemma firstn_app_le {A} (l r : list A) n : n <= length l -> firstn n (l ++ r) = firstn n l.
Proof.
  intros H. rewrite firstn_app. replace (n - length l) with 0 by lia. apply app_nil_r.
Qed.

(* they stay true when the sequence grows *)
Lemma at_snoc {A} (l : list A) x n y :
  nth_error l n = Some y -> nth_error (l ++ [x]) n = Some y /\ firstn n (l ++ [x]) = firstn n l.
Proof.
  intros H. pose proof (nth_error_lt _ _ _ H). rewrite nth_error_app1, firstn_app_le by lia. auto.
Qed.

Lemma at_end {A} (l : list A) x : nth_error (l ++ [x]) (length l) = Some x /\ firstn (length l) (l ++ [x]) = l.
Proof.
  rewrite nth_error_app2, Nat.sub_diag, firstn_app_le, firstn_all by lia. auto.
Qed.

Lemma lookup_at_snoc t0 l x i m f s : lookup_at t0 l i m f s -> lookup_at t0 (l ++ [x]) i m f s.
Proof. intros [F G]. destruct (at_snoc l x _ _ G) as [G' E]. split; rewrite ?E; auto. Qed.

Lemma emission_at_snoc t0 l x e : emission_at t0 l e -> emission_at t0 (l ++ [x]) e.
Proof.
  intros (A & T & L & G). destruct (at_snoc l x _ _ G) as [G' E].
  repeat split; rewrite ?E; auto; apply (lookup_at_snoc _ _ _ _ _ _ _ L).
Qed.

Record einv (t0 : table) (st : cstate) : Prop := {
  ei_len : length (c_loc st) = length (c_progs st);
  ei_msgs : forall i, msgs_by i st ++ pend_of st i = flat_map em_msgs (emissions_by i st);
  ei_emis : forall e, In e (c_emis st) -> emission_at t0 (lin st) e;
  ei_loc : forall i m f s, l_get (nth i (c_loc st) loc0) = Some (m, f, s) -> lookup_at t0 (lin st) i m f s
}.

Lemma einv_init progs t0 : einv t0 (init progs t0).
Proof.
  constructor; simpl.
  - apply map_length.
  - intros i. unfold msgs_by, emissions_by, pend_of. simpl. rewrite nth_init_loc. reflexivity.
  - intros e [].
  - intros i m f s. rewrite nth_init_loc. discriminate.
Qed.

Lemma einv_step progs t0 st i : inv progs t0 st -> einv t0 st -> einv t0 (cstep st i).
Proof.
  intros I [EL EM EE EO]. pose proof (inv_table _ _ _ I) as IT.
  assert (LEN : length (c_done st) = length (lin st)) by (symmetry; apply rev_length).
  unfold cstep. set (lo := nth i (c_loc st) loc0) in *.
  pose proof (EM i) as EMi. unfold pend_of in EMi. fold lo in EMi.
  destruct (l_pend lo) as [|d pr] eqn:P.
  - (* a program step *)
    destruct (nth_error (c_progs st) i) as [[|a rest]|] eqn:E; try (constructor; auto; fail).
    destruct (enabled (c_lock st) a); [|constructor; auto].
    pose proof (nth_error_lt _ _ _ E) as LT. rewrite <- EL in LT. rewrite app_nil_r in EMi.
    destruct (at_end (lin st) (i, a)) as [END1 END2].
    constructor; unfold pend_of, lin; cbn [c_loc c_progs c_sent c_emis c_done rev]; fold (lin st).
    + rewrite !set_nth_length. auto.
    + (* messages: a snapshot makes the messages of the new emission pending *)
      intros k. unfold msgs_by, emissions_by. cbn [c_sent c_emis]. fold (msgs_by k st).
      rewrite nth_set_nth by auto. destruct (Nat.eqb_spec i k) as [<-|N].
      * unfold loc_after, emis_after.
        destruct a; cbn [l_pend]; rewrite ?P, ?app_nil_r; auto.
        destruct (l_get lo) as [[[m f] s]|]; cbn [l_pend]; rewrite ?P, ?app_nil_r; auto.
        simpl. rewrite filter_app, flat_map_app. simpl. rewrite Nat.eqb_refl. simpl. rewrite app_nil_r.
        fold (emissions_by i st). rewrite <- EMi. reflexivity.
      * replace (filter _ (rev (emis_after st i lo a))) with (emissions_by k st); [apply EM|].
        unfold emis_after. destruct a; auto. destruct (l_get lo) as [[[m f] s]|]; auto.
        simpl. rewrite filter_app. simpl. apply Nat.eqb_neq in N. rewrite N. symmetry. apply app_nil_r.
    + (* emissions: the new one was looked up where the local state says and is taken here *)
      intros e He. unfold emis_after in He.
      assert (In e (c_emis st) -> emission_at t0 (lin st ++ [(i, a)]) e) by (intros; apply emission_at_snoc; auto).
      destruct a; auto. destruct (l_get lo) as [[[m f] s]|] eqn:G; auto. destruct He as [<-|Ho]; auto.
      pose proof (EO i m f s G) as L. pose proof (nth_error_lt _ _ _ (proj2 L)).
      unfold emission_at. cbn [em_start em_pos em_table em_thread em_mod em_found em_lv em_py]. rewrite LEN, END2.
      split; [lia|]. split; [exact IT|]. split; [apply lookup_at_snoc, L|exact END1].
    + (* local states: a lookup is recorded with the table as it is now *)
      intros k m f s. rewrite nth_set_nth by auto. destruct (Nat.eqb_spec i k) as [<-|N].
      * unfold loc_after.
        destruct a; try (intros G; apply lookup_at_snoc, EO, G).
        -- intros [= <- <- <-]. split; rewrite LEN, ?END2; auto. rewrite <- IT. reflexivity.
        -- destruct (l_get lo) as [[[m' f'] s']|] eqn:G; simpl; rewrite ?G; intros G'; apply lookup_at_snoc, EO; fold lo; congruence.
      * intros G. apply lookup_at_snoc, EO, G.
  - (* a message of the snapshot is sent *)
    assert (LT : i < length (c_loc st)).
    { destruct (Nat.lt_ge_cases i (length (c_loc st))) as [L|G]; auto. unfold lo in P. rewrite nth_overflow in P by auto. discriminate. }
    constructor; unfold pend_of; cbn [c_loc c_progs c_sent c_emis c_done lin]; auto.
    + rewrite set_nth_length. auto.
    + intros k. unfold msgs_by. simpl. rewrite filter_app, map_app. fold (msgs_by k st). simpl.
      rewrite nth_set_nth by auto. destruct (Nat.eqb_spec i k) as [<-|N]; simpl.
      * rewrite <- app_assoc. exact EMi.
      * rewrite app_nil_r. apply EM.
    + intros k m f s. rewrite nth_set_nth by auto. destruct (Nat.eqb_spec i k) as [<-|N]; apply EO.
Qed.

Lemma einv_reach progs t0 sched : einv t0 (crun (init progs t0) sched).
Proof.
  assert (H : forall st, inv progs t0 st -> einv t0 st -> einv t0 (crun st sched)).
  { induction sched as [|i r]; intros st I E; simpl; auto. apply IHr; [apply inv_step|eapply einv_step]; eauto. }
  apply H; [apply inv_init|apply einv_init].
Qed.

Lemma all_done_pend st i : all_done st = true -> pend_of st i = [].
Proof.
  intros H. apply andb_true_iff in H as [_ H]. apply (forallb_nth _ _ loc0 i) in H; auto.
  cbv beta in H. unfold pend_of. destruct (l_pend (nth i (c_loc st) loc0)); [auto|discriminate].
Qed.

(* whatever the threads are and however they are scheduled: what thread i handed to send_log so far, followed by what is
   left of its current snapshot, is the concatenation of the messages of its emissions *)
Lemma emissions_exact progs t0 sched i :
  let st := crun (init progs t0) sched in
  msgs_by i st ++ pend_of st i = flat_map em_msgs (emissions_by i st).
Proof. apply (ei_msgs _ _ (einv_reach progs t0 sched)). Qed.

Lemma emission_facts progs t0 sched e :
  let st := crun (init progs t0) sched in In e (c_emis st) -> emission_at t0 (lin st) e.
Proof. apply (ei_emis _ _ (einv_reach progs t0 sched)). Qed.

Lemma in_emissions_by i st e : In e (emissions_by i st) -> In e (c_emis st) /\ em_thread e = i.
Proof.
  unfold emissions_by. rewrite filter_In. intros [I E]. apply in_rev in I. apply Nat.eqb_eq in E. auto.
Qed.

Lemma table_after_wf t0 l : wf t0 -> wf (table_after t0 l).
Proof. apply apply_all_wf. Qed.

(* steps that do not write the entry (m, c) leave c's choice for m as it is: from l0 on, up to any moment in seg *)
Lemma chosen_stable t0 l l0 seg n p m c :
  firstn p l = l0 ++ seg -> length l0 <= n <= p ->
  (forall o, In o (tops (map snd seg)) -> touches m c o = false) ->
  chosen (table_after t0 (firstn n l)) m c = chosen (table_after t0 l0) m c.
Proof.
  intros SPL LE H. rewrite <- (Nat.min_l n p), <- firstn_firstn, SPL, firstn_app, firstn_all2 by lia.
  unfold table_after. rewrite map_app, tops_app, apply_all_app, <- !look_chosen, look_apply_all. apply key_run_untouched.
  intros o I. apply H. rewrite <- (firstn_skipn (n - length l0) seg), map_app, tops_app. apply in_or_app. auto.
Qed.
