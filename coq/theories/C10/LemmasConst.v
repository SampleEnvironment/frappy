(* C10 - what the theorems about a configured `constant` need beyond Lemmas.v (Parameter.setProperty never ends in a
   collected error; Parameter.finish converts and exports the constant and makes the parameter readonly - unguarded: a
   constant that is no value of the datatype leaves __init__), and the derivation of the well-formedness of the instance
   datatype from the class-level datatype (later range checks). *)
From Coq Require Import ZArith NArith Bool List Lia Permutation.
Import ListNotations.
Local Open Scope list_scope.
Require Import FV.Base.Util FV.Base.F64 FV.Base.F64Lemmas FV.Base.PyVal FV.C01.Model FV.C01.Lemmas FV.Gen.C10 FV.C10.Model
  FV.C10.Lemmas.

(* Parameter.setProperty never ends in a collected error: BadValueError / KeyError become ProgrammingError *)
Lemma param_setprop_noerr p k v er : param_setprop p k v <> PErr er.
Proof.
  unfold param_setprop.
  repeat match goal with
         | |- context [match ?x with _ => _ end] => destruct x
         | |- context [if ?b then _ else _] => destruct b
         end; discriminate.
Qed.

Lemma entry_noerr : forall en p pk er, p_iscmd p = false -> apply_entry_keep p en <> (pk, PErr er).
Proof.
  induction en as [|[k v] en IH]; intros p pk er Hc H; [simpl in H; inversion H|].
  rewrite apply_entry_keep_cons in H. destruct (prop_step (PGo p) (k, v)) as [|e0|p'] eqn:Es.
  - inversion H.
  - unfold prop_step in Es. rewrite Hc in Es. exact (param_setprop_noerr _ _ _ _ Es).
  - apply (IH p' pk er); [rewrite (keeps_cmd (prop_step_keeps _ _ _ Es)); exact Hc|exact H].
Qed.

(* Parameter.finish on a parameter that carries a constant *)
Lemma finish_param_const q y c d : p_iscmd q = false -> p_constant q = Some c -> p_dt q = Some d ->
  finish_param q = Some y ->
  exists x j, conv d c = Ok x /\ dt_exp d x = Some j /\ p_constant y = Some j /\ p_readonly y = true.
Proof.
  intros Hc Hk Hd. unfold finish_param, finish_constant. rewrite Hc, Hk, Hd.
  destruct (conv d c) as [x|] eqn:E1; [|discriminate]. destruct (dt_exp d x) as [j|] eqn:E2; [|discriminate].
  destruct (refit (Some d) (p_default q)); [|discriminate]. destruct (refit (Some d) (p_value q)); [|discriminate].
  intros H; inversion H; subst. exists x, j. split; [reflexivity|]. split; [exact E2|]. split; reflexivity.
Qed.
Lemma finish_param_noconst q y : p_iscmd q = false -> p_constant q = None -> finish_param q = Some y ->
  p_constant y = None /\ p_readonly y = p_readonly q.
Proof.
  intros Hc Hk. unfold finish_param, finish_constant. rewrite Hc, Hk.
  destruct (refit (p_dt q) (p_default q)); [|discriminate]. destruct (refit (p_dt q) (p_value q)); [|discriminate].
  intros H; inversion H; subst. split; reflexivity.
Qed.

(* the instance datatype of a configured parameter is the configured datatype of its entry *)
Lemma created_dt C c i p d en : mod_init C c = Created i -> In p (c_params C) -> p_optional p = false ->
  p_iscmd p = false -> p_dt p = Some d -> assoc_str (p_name p) c = Some (CDict en) ->
  exists p' d', In p' (i_params i) /\ p_name p' = p_name p /\ p_iscmd p' = false /\
    configured_dt d (p_unit p) en = Some d' /\ p_dt p' = Some d'.
Proof.
  intros H Hin Ho Hc Hd Hcfg.
  destruct (created_param _ _ _ _ H Hin Ho Hc) as [mv [p1 [q [w [y [main S]]]]]]. pose proof (st_entry S) as He.
  rewrite Hcfg in He. destruct He as [He _].
  destruct (configured_some en (Some d, p_unit p) d eq_refl) as [d' Hd'].
  exists (apply_main main y), d'. split; [exact (st_inst S)|].
  rewrite (tail_frame p_name main static_name (st_writes S) (st_finish S)), (tail_frame p_iscmd main static_cmd (st_writes S) (st_finish S)),
    (tail_frame p_dt main static_dt (st_writes S) (st_finish S)), (entry_dt _ _ _ _ Hc He Hd), (keeps_cmd (st_keeps S)).
  split; [exact (keeps_name (st_keeps S))|]. split; [exact Hc|]. split; exact Hd'.
Qed.

(* invariant of the overrides (the limits may be inverted in between: Param(min=20, max=30) on FloatRange(0, 10)): the
   limits of a float leaf are no NaN; a scaled leaf, tuples and structs stay as they are *)
Fixpoint lim_ok (d : dtype) : Prop :=
  match d with
  | TFloat mn mx _ _ => notnan mn /\ notnan mx
  | TArray e _ _ => lim_ok e
  | TScaled _ _ _ | TTuple _ | TStruct _ _ _ => wf d
  | _ => True
  end.

Lemma wf_lim_ok : forall d, wf d -> lim_ok d.
Proof.
  induction d; intros H; try exact I; try exact H.
  - cbn [wf] in H. apply fle_true_notnan in H. exact H.
  - cbn [wf] in H. cbn [lim_ok]. apply IHd. exact H.
Qed.

Lemma lim_ok_wf : forall d, lim_ok d -> dt_inverted d = false -> wf d.
Proof.
  induction d; intros H Hi; try exact I; try exact H.
  - cbn [lim_ok] in H. destruct H as [H1 H2]. cbn [wf]. simpl in Hi.
    apply (fle_true _ _ H1 H2). apply (flt_false _ _ H2 H1). exact Hi.
  - cbn [wf]. simpl in Hi. apply orb_false_iff in Hi. destruct Hi as [_ Hi]. apply IHd; [exact H|exact Hi].
Qed.

Lemma unl_float_notnan v f : unl_float v = Ok (PFloat f) -> notnan f.
Proof.
  unfold unl_float, float_validate. destruct (float_call v) as [[]|]; try discriminate.
  match goal with |- context [if ?b then _ else _] => destruct b eqn:E end; [|discriminate].
  apply andb_true_iff in E. destruct E as [E1 E2]. apply fle_true_notnan in E1. destruct E1 as [_ Nf].
  (* congruence, not inversion: inversion would evaluate the clamped float *)
  intros H. assert (f = fclamp (fopp fmaxval) f0 fmaxval) as -> by congruence. apply fclamp_notnan; [vm_compute; reflexivity|exact Nf|vm_compute; reflexivity].
Qed.

Definition scaled_leaf (d : dtype) : bool :=
  match d with TScaled _ _ _ | TArray (TScaled _ _ _) _ _ => true | _ => false end.
Fixpoint has_scaled (d : dtype) : bool :=
  match d with TScaled _ _ _ => true | TArray e _ _ => has_scaled e | _ => false end.

Lemma unit_only_not k c : limit_key c = true -> str_eqb c k_unit = false ->
  (limit_key k = true -> str_eqb k k_unit = true) -> str_eqb k c = false.
Proof.
  intros Hc Hu Hs. destruct (str_eqb k c) eqn:E; [|reflexivity]. apply str_eqb_true in E. subst k.
  rewrite (Hs Hc) in Hu. discriminate.
Qed.

Lemma leaf_setprop_lim d u k v d' u' : lim_ok d -> (has_scaled d = true -> limit_key k = true -> str_eqb k k_unit = true) ->
  leaf_setprop d u k v = Some (d', u') -> lim_ok d' /\ has_scaled d' = has_scaled d.
Proof.
  intros L Hs. unfold leaf_setprop. destruct d; try discriminate.
  (* int, string, blob: nothing to keep *)
  2,4,5: repeat match goal with
                | |- context [if ?b then _ else _] => destruct b
                | |- context [match ?r with _ => _ end] => destruct r; try discriminate
                end; intros H; inversion H; subst; (split; [exact I|reflexivity]).
  - destruct L as [L1 L2]. destruct (str_eqb k k_min).
    { destruct (unl_float v) as [[]|] eqn:E; try discriminate. intros H; inversion H; subst.
      split; [split; [eapply unl_float_notnan; exact E|exact L2]|reflexivity]. }
    destruct (str_eqb k k_max).
    { destruct (unl_float v) as [[]|] eqn:E; try discriminate. intros H; inversion H; subst.
      split; [split; [exact L1|eapply unl_float_notnan; exact E]|reflexivity]. }
    destruct (str_eqb k k_unit); [|discriminate].
    destruct (unit_validate v) as [[]|]; try discriminate. intros H; inversion H; subst. split; [split; assumption|reflexivity].
  - (* scaled: min / max are excluded by the hypothesis on the keys *)
    specialize (Hs eq_refl). rewrite (unit_only_not k k_min eq_refl eq_refl Hs), (unit_only_not k k_max eq_refl eq_refl Hs).
    destruct (str_eqb k k_unit); [|discriminate].
    destruct (unit_validate v) as [[]|]; try discriminate. intros H; inversion H; subst. split; [exact L|reflexivity].
Qed.

Lemma dt_setprop_lim : forall d u k v d' u', lim_ok d ->
  (has_scaled d = true -> limit_key k = true -> str_eqb k k_unit = true) ->
  dt_setprop d u k v = Some (d', u') -> lim_ok d' /\ has_scaled d' = has_scaled d.
Proof.
  induction d; intros u k v d' u' L Hs H; try exact (leaf_setprop_lim _ u k v d' u' L Hs H).
  simpl in H. destruct (str_eqb k k_minlen).
  { destruct (set_len c_array k v); [|discriminate]. inversion H; subst. split; [exact L|reflexivity]. }
  destruct (str_eqb k k_maxlen).
  { destruct (set_len c_array k v); [|discriminate]. inversion H; subst. split; [exact L|reflexivity]. }
  destruct (dt_setprop d u k v) as [[e' u2]|] eqn:E; [|discriminate]. inversion H; subst.
  cbn [lim_ok has_scaled] in *. exact (IHd u k v e' u' L Hs E).
Qed.

(* the keys of an entry never touch the limits of a scaled leaf *)
Definition scaled_limits_kept (d : dtype) (en : entry) : Prop :=
  has_scaled d = true -> forall k, In k (map fst en) -> limit_key k = true -> str_eqb k k_unit = true.

Lemma configured_lim en d u d' : lim_ok d -> scaled_limits_kept d en -> configured_dt d u en = Some d' -> lim_ok d'.
Proof.
  intros L Hs H. apply (configured_dt_ind (fun d0 => lim_ok d0 /\ has_scaled d0 = has_scaled d) en d u d'); [auto| |exact H].
  intros d0 u0 k v d1 u1 Hin _ [L0 S0] E. rewrite <- S0. apply (dt_setprop_lim _ _ _ _ _ _ L0) with (2 := E).
  intros S. rewrite S0 in S. apply (Hs S). apply (in_map fst _ _ Hin).
Qed.
