(* C10 - vacuity audit of the theorems of Properties.v: for every theorem the premises are instantiated with a
   concrete, non-degenerate instance (several parameters, several items in a Param dict, several files / modules) and
   the theorem is applied to it.  C10 has no oracle / environment hypotheses: the model is closed, every premise is an
   equation on the executable model.  The instance k = `constant` of the "value / default / constant" statements is
   not vacuous either (Parameter.setProperty and Parameter.finish are modelled for it): the last part of the file has
   both sides of every statement about it. *)
From Coq Require Import String.
From Coq Require Import ZArith NArith Bool List Permutation Lia.
Import ListNotations.
Local Open Scope list_scope.
Require Import FV.Base.Util FV.Base.F64 FV.Base.PyVal FV.C01.Model FV.C01.Lemmas FV.Gen.C10 FV.C10.Model FV.C10.Lemmas
  FV.C10.LemmasConst FV.C10.Refuted FV.C10.Properties.

Ltac nodup := repeat (apply NoDup_cons; [vm_compute; intuition discriminate|]); apply NoDup_nil.
(* mod_init C c is Created with an instance that passes the test w: decided by vm_compute on a boolean, the instance
   itself is never printed *)
Ltac created C c w i E X := destruct (created_if (mod_init C c) w) as [i [E X]]; [vm_compute; reflexivity|].
Ltac rejected C c w es E X := destruct (rejected_if (mod_init C c) w) as [es [E X]]; [vm_compute; reflexivity|].

(* instance 1: C1 / demo_cfg
   three parameters (float with driver method, bool, array of float), Param(5, min=1, unit='mK') *)
Definition p1 : param := mkp "p1" fl010 true.
Definition en1 : entry := [(k_min, PInt 1); (k_unit, PStr (s_ "mK")); (k_value, PInt 5)].

(* all premises of C10_value_applied, C10_value_applied_idempotent, C10_configured_value_written_exactly_once,
   C10_written_once_before_poll, C10_written_exactly_once, C10_writedict_only_configured_values,
   C10_export_names_applied at once *)
Example C10_nonvacuous_applied_premises :
  exists i, mod_init C1 demo_cfg = Created i /\ In p1 (c_params C1) /\ p_optional p1 = false /\ p_iscmd p1 = false /\
    p_dt p1 = Some fl010 /\ assoc_str (p_name p1) demo_cfg = Some (CDict en1) /\ NoDup (map fst en1) /\
    In (k_value, PInt 5) en1 /\ NoDup (map p_name (active (c_params C1))) /\ p_has_write p1 = true.
Proof.
  created C1 demo_cfg (fun _ : inst => true) i E X. exists i. split; [exact E|]. split; [left; reflexivity|].
  split; [reflexivity|]. split; [reflexivity|]. split; [reflexivity|]. split; [vm_compute; reflexivity|].
  split; [nodup|]. split; [vm_compute; auto 10|]. split; [nodup|reflexivity].
Qed.

Example C10_value_applied_applies :
  exists i p' d' c1, mod_init C1 demo_cfg = Created i /\ In p' (i_params i) /\ p_name p' = s_ "p1" /\
    configured_dt fl010 [] en1 = Some d' /\ p_dt p' = Some d' /\ conv d' (PInt 5) = Ok c1 /\
    p_value p' = match conv d' c1 with Ok c2 => Some c2 | Err _ => None end /\ In (s_ "p1", PInt 5) (i_write i).
Proof.
  destruct C10_nonvacuous_applied_premises as [i [E [A [B [D [F [G [H [I [J K]]]]]]]]]].
  destruct (C10_value_applied C1 demo_cfg i p1 fl010 en1 (PInt 5) E A B D F G H I) as [p' [d' [c1 [L [M [N [O [P [Q R]]]]]]]]].
  exists i, p', d', c1. split; [exact E|]. split; [exact L|]. split; [exact M|]. split; [exact N|].
  split; [exact O|]. split; [exact P|]. split; [exact Q|exact (R K)].
Qed.

Example C10_value_applied_idempotent_applies :
  exists i p' d' c1, mod_init C1 demo_cfg = Created i /\ In p' (i_params i) /\ p_name p' = s_ "p1" /\
    p_dt p' = Some d' /\ conv d' (PInt 5) = Ok c1 /\ (conv d' c1 = Ok c1 -> p_value p' = Some c1).
Proof.
  destruct C10_nonvacuous_applied_premises as [i [E [A [B [D [F [G [H [I [J K]]]]]]]]]].
  destruct (C10_value_applied_idempotent C1 demo_cfg i p1 fl010 en1 (PInt 5) E A B D F G H I) as [p' [d' [c1 L]]].
  exists i, p', d', c1. split; [exact E|exact L].
Qed.

(* the configured datatype of instance 1 without printing floats *)
Definition dcfg1 : dtype := match configured_dt fl010 [] en1 with Some d => d | None => TBool end.
Lemma dcfg1_eq : configured_dt fl010 (p_unit p1) en1 = Some dcfg1.
Proof. exact (configured_dt_total fl010 [] en1 TBool). Qed.
(* the configured limits are there: min = 1 (class level: 0), max = 10 *)
Example dcfg1_shape :
  match dcfg1 with TFloat mn mx _ _ => fsame mn (of_Z 1) && fsame mx (of_Z 10) | _ => false end = true.
Proof. vm_compute. reflexivity. Qed.
Lemma dcfg1_wf : wf dcfg1.
Proof. vm_compute. reflexivity. Qed.

(* the driver method of p1 receives the validated 5 exactly once; the `match` of the conclusion takes its Ok branch *)
Example C10_configured_value_written_exactly_once_applies :
  exists i x, mod_init C1 demo_cfg = Created i /\ has_thread i = true /\ valid dcfg1 (PInt 5) = Ok x /\
    writes_for (s_ "p1") (startup i) = [x].
Proof.
  destruct C10_nonvacuous_applied_premises as [i [E [A [B [D [F [G [H [I [J K]]]]]]]]]].
  destruct (C10_configured_value_written_exactly_once C1 demo_cfg i p1 fl010 en1 (PInt 5) E A B D F G H I J K)
    as [p' [d' [L [M [N [O P]]]]]].
  rewrite dcfg1_eq in N. assert (d' = dcfg1) as -> by congruence.
  assert (V : match valid dcfg1 (PInt 5) with Ok _ => true | Err _ => false end = true) by (vm_compute; reflexivity).
  destruct (valid dcfg1 (PInt 5)) as [x|] eqn:EV; [|discriminate V].
  exists i, x. split; [exact E|]. split; [exact O|]. split; [reflexivity|]. exact P.
Qed.

(* C10_later_range_checks_use_instance_limits: the class-level datatype fl010 is well formed, the entry of p1 overrides
   min and unit of a float (nothing scaled): the theorem DERIVES wf of the instance datatype dcfg1 (min = 1) and gives the
   soundness of its validate; probe 5 *)
Lemma fl010_wf : wf fl010.
Proof. vm_compute. reflexivity. Qed.
Lemma en1_scaled_kept : scaled_limits_kept fl010 en1.
Proof. intros S. vm_compute in S. discriminate S. Qed.
Example C10_later_range_checks_applies :
  exists i p y, mod_init C1 demo_cfg = Created i /\ In p (i_params i) /\ p_dt p = Some dcfg1 /\ wf dcfg1 /\
    valid dcfg1 (PInt 5) = Ok y /\ in_setb dcfg1 y = true.
Proof.
  destruct C10_nonvacuous_applied_premises as [i [E [A [B [D [F [G [H [I [J K]]]]]]]]]].
  destruct (C10_later_range_checks_use_instance_limits C1 demo_cfg i p1 fl010 en1 E A B D F G fl010_wf en1_scaled_kept)
    as [p' [d' [L [M [N [O [W V]]]]]]].
  rewrite dcfg1_eq in N. assert (d' = dcfg1) as -> by congruence.
  assert (X : match valid dcfg1 (PInt 5) with Ok _ => true | Err _ => false end = true) by (vm_compute; reflexivity).
  destruct (valid dcfg1 (PInt 5)) as [y|] eqn:EV; [|discriminate X].
  exists i, p', y. split; [exact E|]. split; [exact L|]. split; [exact O|]. split; [exact W|].
  split; [reflexivity|]. exact (V (PInt 5) y EV).
Qed.
(* the start-up write of p1 (the validated 5) lies in the value set of the configured datatype *)
Example C10_start_up_write_within_configured_limits_applies :
  exists i x, mod_init C1 demo_cfg = Created i /\ writes_for (s_ "p1") (startup i) = [x] /\ in_setb dcfg1 x = true.
Proof.
  destruct C10_nonvacuous_applied_premises as [i [E [A [B [D [F [G [H [I [J K]]]]]]]]]].
  destruct (C10_configured_value_written_exactly_once_applies) as [i' [x [E' [_ [_ W]]]]].
  rewrite E in E'. inversion E'; subst i'.
  destruct (C10_start_up_write_within_configured_limits C1 demo_cfg i p1 fl010 en1 (PInt 5) E A B D F G H I J K fl010_wf
              en1_scaled_kept) as [d' [N V]].
  rewrite dcfg1_eq in N. assert (d' = dcfg1) as -> by congruence.
  exists i, x. split; [exact E|]. split; [exact W|]. apply V. change (p_name p1) with (s_ "p1"). rewrite W. left. reflexivity.
Qed.
(* ... and a probe outside the configured limits (0.5 < min = 1 is not available as an integer: 0) is refused by the
   instance datatype although the class-level datatype fl010 accepts it: the premise `valid d x = Ok y` is a real
   restriction *)
Example later_range_check_refuses :
  match valid dcfg1 (PInt 0), valid fl010 (PInt 0) with Err _, Ok _ => true | _, _ => false end = true.
Proof. vm_compute. reflexivity. Qed.

Example C10_limit_overrides_keep_conversion_applies :
  limits_only en1 = true /\ configured_dt fl010 [] en1 = Some dcfg1 /\ forall x, conv dcfg1 x = conv fl010 x.
Proof.
  assert (L : limits_only en1 = true) by (vm_compute; reflexivity).
  split; [exact L|]. split; [exact dcfg1_eq|].
  exact (C10_limit_overrides_keep_conversion en1 fl010 [] dcfg1 L dcfg1_eq).
Qed.

Example C10_inverted_limits_rejected_applies :
  exists i p, mod_init C1 demo_cfg = Created i /\ In p (i_params i) /\ p_iscmd p = false /\ p_dt p = Some dcfg1 /\
    dt_inverted dcfg1 = false.
Proof.
  destruct C10_nonvacuous_applied_premises as [i [E [A [B [D [F [G [H [I [J K]]]]]]]]]].
  destruct (C10_value_applied C1 demo_cfg i p1 fl010 en1 (PInt 5) E A B D F G H I) as [p' [d' [c1 [L [M [N [O _]]]]]]].
  rewrite dcfg1_eq in N. assert (d' = dcfg1) as -> by congruence.
  created C1 demo_cfg (fun j => forallb (fun p => negb (p_iscmd p)) (i_params j)) i' E' Hc.
  rewrite E in E'. injection E' as <-.
  assert (Hp : p_iscmd p' = false).
  { rewrite forallb_forall in Hc. apply negb_true_iff. exact (Hc p' L). }
  exists i, p'. split; [exact E|]. split; [exact L|]. split; [exact Hp|]. split; [exact O|].
  exact (C10_inverted_limits_rejected C1 demo_cfg i p' dcfg1 E L Hp O).
Qed.
(* the other side: Param(5, min=20) on fl010 (max 10), and minlen=5 on the array p3 (maxlen 3) are refused *)
Example inverted_limits_refused :
  match mod_init C1 [descr; (s_ "p1", CDict [(k_min, PInt 20)]); (s_ "p3", CDict [(k_minlen, PInt 5)])] with
  | Rejected [ErrCheck a; ErrCheck b] => str_eqb a (s_ "p1") && str_eqb b (s_ "p3")
  | _ => false
  end = true.
Proof. vm_compute. reflexivity. Qed.

Example C10_export_names_applied_applies :
  exists i, mod_init C1 demo_cfg = Created i /\ List.length (i_names i) = 3 /\ NoDup (map fst (i_names i)) /\
    exists p', In p' (i_params i) /\ p_name p' = s_ "p2" /\ p_export p' = XName (s_ "_p2").
Proof.
  created C1 demo_cfg (fun j => Nat.eqb (List.length (i_names j)) 3 &&
    existsb (fun sn => str_eqb (fst sn) (s_ "_p2") && str_eqb (snd sn) (s_ "p2")) (i_names j)) i E X.
  exists i. split; [exact E|]. apply andb_prop in X. destruct X as [X1 X2]. apply Nat.eqb_eq in X1.
  apply existsb_exists in X2. destruct X2 as [[s n] [Hin Hsn]]. apply andb_prop in Hsn. destruct Hsn as [Hs Hn].
  apply str_eqb_true in Hs. apply str_eqb_true in Hn. simpl in Hs, Hn. subst s n.
  destruct (C10_export_names_applied C1 demo_cfg i E) as [ND Hiff].
  split; [exact X1|]. split; [exact ND|]. apply Hiff. exact Hin.
Qed.

(* instance 2: C2 / demo_cfg2 (take-over scripts) *)
Example C10_written_exactly_once_applies :
  exists i ws rs, mod_init C2 demo_cfg2 = Created i /\ List.length (i_write i) = 3 /\
    startup i = ws ++ EvInit :: rs /\ forallb is_write ws = true /\ forallb is_read rs = true /\
    Permutation ws (flat_map (fun nv => map (EvWrite (fst nv)) (handed (i_params i) (fst nv) (snd nv))) (i_write i)) /\
    List.length ws = 3.
Proof.
  created C2 demo_cfg2 (fun j => has_thread j && Nat.eqb (List.length (i_write j)) 3 &&
    Nat.eqb (List.length (flat_map (fun nv => map (EvWrite (fst nv)) (handed (i_params j) (fst nv) (snd nv))) (i_write j))) 3)
    i E X.
  assert (ND : NoDup (map p_name (active (c_params C2)))) by nodup.
  apply andb_prop in X. destruct X as [X X3]. apply andb_prop in X. destruct X as [X1 X2].
  apply Nat.eqb_eq in X2. apply Nat.eqb_eq in X3.
  destruct (C10_written_exactly_once C2 demo_cfg2 i E ND) as [Hs _].
  destruct (Hs X1) as [ws [rs [A [B [D [P _]]]]]].
  exists i, ws, rs. split; [exact E|]. split; [exact X2|]. split; [exact A|]. split; [exact B|].
  split; [exact D|]. split; [exact P|]. rewrite (Permutation_length P). exact X3.
Qed.

Example C10_written_once_before_poll_applies :
  exists i v, mod_init C2 demo_cfg2 = Created i /\ assoc_str (s_ "p3") (i_write i) = Some v /\
    writes_for (s_ "p3") (startup i) = handed (i_params i) (s_ "p3") v /\
    List.length (writes_for (s_ "p3") (startup i)) = 1.
Proof.
  created C2 demo_cfg2 (fun j => has_thread j &&
    match assoc_str (s_ "p3") (i_write j) with Some _ => true | None => false end &&
    Nat.eqb (List.length (writes_for (s_ "p3") (startup j))) 1) i E X.
  assert (ND : NoDup (map p_name (active (c_params C2)))) by nodup.
  apply andb_prop in X. destruct X as [X X3]. apply andb_prop in X. destruct X as [X1 X2].
  apply Nat.eqb_eq in X3.
  destruct (C10_written_once_before_poll C2 demo_cfg2 i (s_ "p3") E ND) as [_ [W _]].
  rewrite X1 in W. destruct (assoc_str (s_ "p3") (i_write i)) as [v|] eqn:EA; [|discriminate X2].
  exists i, v. split; [exact E|]. split; [exact EA|]. split; [exact W|exact X3].
Qed.

Example C10_writedict_only_configured_values_applies :
  exists i p, mod_init C2 demo_cfg2 = Created i /\ In (s_ "p3", PInt 3) (i_write i) /\
    In p (c_params C2) /\ p_name p = s_ "p3" /\ p_has_write p = true /\ NoDup (map fst (i_write i)).
Proof.
  created C2 demo_cfg2 (fun j => existsb (fun nv => str_eqb (fst nv) (s_ "p3") &&
    match snd nv with PInt z => Z.eqb z 3 | _ => false end) (i_write j)) i E X.
  assert (ND : NoDup (map p_name (active (c_params C2)))) by nodup.
  apply existsb_exists in X. destruct X as [[n v] [Hin Hnv]]. apply andb_prop in Hnv.
  destruct Hnv as [Hn Hv]. apply str_eqb_true in Hn. simpl in Hn, Hv. subst n.
  destruct v; try discriminate Hv. apply Z.eqb_eq in Hv. subst.
  destruct (C10_writedict_only_configured_values C2 demo_cfg2 i E) as [S N].
  destruct (S _ _ Hin) as [p [A [_ [_ [B [D _]]]]]].
  exists i, p. split; [exact E|]. split; [exact Hin|]. split; [exact A|]. split; [exact B|]. split; [exact D|exact (N ND)].
Qed.

(* the clause `has_thread i = false -> ...` of C10_written_exactly_once: a class without polling and no configured
   value *)
Definition C6 : cls := {| c_params := [mkp "p1" fl010 true; mkp "p2" TBool false]; c_props := []; c_enablepoll := false |}.
Example C10_written_exactly_once_no_thread :
  exists i, mod_init C6 [descr] = Created i /\ has_thread i = false /\ i_write i = [] /\ startup i = [].
Proof.
  created C6 [descr] (fun j => negb (has_thread j)) i E T. exists i. split; [exact E|].
  assert (ND : NoDup (map p_name (active (c_params C6)))) by nodup.
  apply negb_true_iff in T. split; [exact T|].
  destruct (C10_written_exactly_once C6 [descr] i E ND) as [_ [_ H]]. exact (H T).
Qed.

(* instance 3: C3, Param(value, overrides)
   C10_value_checked_against_configured_datatype, rejecting side: Param('abcdef', maxchars=3) *)
Definition plabel : param := mkp "label" str0 false.
Definition kw3 : entry := [(k_maxchars, PInt 3)].
Definition cfg3 : cfg := [descr; (s_ "label", CDict (param_dict (Some abcdef) kw3))].

Example C10_value_checked_rejects :
  param_dict (Some abcdef) kw3 = kw3 ++ [(k_value, abcdef)] /\
  configured_dt str0 (p_unit plabel) kw3 = Some (TString 0 3 false) /\
  conv (TString 0 3 false) abcdef = Err ERange /\
  (forall i, mod_init C3 cfg3 <> Created i) /\
  exists es, mod_init C3 cfg3 = Rejected es /\ In (ErrBadValue (s_ "label") k_value) es.
Proof.
  assert (A : In plabel (c_params C3)) by (left; reflexivity).
  assert (K : assoc_str k_value kw3 = None) by (vm_compute; reflexivity).
  assert (ND : NoDup (map fst kw3)) by nodup.
  assert (Hc : assoc_str (p_name plabel) cfg3 = Some (CDict (param_dict (Some abcdef) kw3))) by (vm_compute; reflexivity).
  destruct (C10_value_checked_against_configured_datatype C3 cfg3 plabel str0 abcdef kw3 A eq_refl eq_refl eq_refl K ND Hc)
    as [PD [dcfg [HD [_ [R1 [R2 _]]]]]].
  assert (HD' : configured_dt str0 (p_unit plabel) kw3 = Some (TString 0 3 false)) by (vm_compute; reflexivity).
  rewrite HD' in HD. inversion HD; subst dcfg.
  assert (CV : conv (TString 0 3 false) abcdef = Err ERange) by (vm_compute; reflexivity).
  split; [exact PD|]. split; [exact HD'|]. split; [exact CV|]. split; [intros i; exact (R1 ERange i CV)|].
  rejected C3 cfg3 (fun _ : list err => true) es E X. exists es. split; [exact E|].
  apply (R2 ERange es (set_dt plabel (TString 0 3 false) []) CV eq_refl); [vm_compute; reflexivity|exact E].
Qed.

(* applying side, with a configured default besides the value (so that the hypothesis on default / constant of the last
   clause is not empty): Param('\181m', isUTF8=True, default='\181m') *)
Definition kwu : entry := [(k_isutf8, PBool true); (k_default, um)].
Definition cfgu : cfg := [descr; (s_ "label", CDict (param_dict (Some um) kwu))].
Definition dutf : dtype := TString 0 unlimited true.

Example C10_value_checked_applies :
  configured_dt str0 (p_unit plabel) kwu = Some dutf /\ conv dutf um = Ok um /\ (exists e, conv str0 um = Err e /\ is_bad_value e = true) /\
  (exists i p', mod_init C3 cfgu = Created i /\ In p' (i_params i) /\ p_name p' = s_ "label" /\ p_dt p' = Some dutf /\
     p_value p' = Some um /\ In (s_ "label", um) (i_write i)) /\
  (exists a, acc_step true plabel (Some (CDict (param_dict (Some um) kwu))) = Some a /\ a_errs a = [] /\
     p_dt (a_param a) = Some dutf /\ p_value (a_param a) = Some um /\ a_write a = Some um).
Proof.
  assert (A : In plabel (c_params C3)) by (left; reflexivity).
  assert (K : assoc_str k_value kwu = None) by (vm_compute; reflexivity).
  assert (ND : NoDup (map fst kwu)) by nodup.
  assert (Hc : assoc_str (p_name plabel) cfgu = Some (CDict (param_dict (Some um) kwu))) by (vm_compute; reflexivity).
  destruct (C10_value_checked_against_configured_datatype C3 cfgu plabel str0 um kwu A eq_refl eq_refl eq_refl K ND Hc)
    as [_ [dcfg [HD [R0 [_ [_ R3]]]]]].
  assert (HD' : configured_dt str0 (p_unit plabel) kwu = Some dutf) by (vm_compute; reflexivity).
  rewrite HD' in HD. inversion HD; subst dcfg.
  assert (CV : conv dutf um = Ok um) by (vm_compute; reflexivity).
  split; [exact HD'|]. split; [exact CV|]. split; [exists ERange; split; vm_compute; reflexivity|]. split.
  - created C3 cfgu (fun _ : inst => true) i E X. destruct (R0 i E) as [p' [c1 [L [M [N [O [P Q]]]]]]].
    rewrite CV in O. inversion O; subst c1. rewrite CV in P.
    exists i, p'. split; [exact E|]. split; [exact L|]. split; [exact M|]. split; [exact N|]. split; [exact P|].
    exact (Q eq_refl).
  - destruct (R3 um (set_default (set_dt plabel dutf []) (Some um)) true CV) as [a [S1 [S2 [S3 [S4 S5]]]]].
    + vm_compute. reflexivity.
    + intros k v' [Hk|[Hk|[]]] Hv; subst k; vm_compute in Hv; [|discriminate Hv].
      inversion Hv; subst v'. exists um. exact CV.
    + exists a. split; [exact S1|]. split; [exact S2|]. split; [exact S3|]. split; [exact S4|exact S5].
Qed.

(* C10_wrong_type_value_rejected for k = value (value BEFORE the override that refuses it) and k = default *)
Example C10_wrong_type_value_rejected_applies :
  (forall i, mod_init C3 [descr; (s_ "label", CDict [(k_value, abcdef); (k_maxchars, PInt 3)])] <> Created i) /\
  (forall i, mod_init C3 cfg_default_first <> Created i).
Proof.
  assert (A : In plabel (c_params C3)) by (left; reflexivity).
  split; intros i.
  - apply (C10_wrong_type_value_rejected C3 _ i plabel str0 [(k_value, abcdef); (k_maxchars, PInt 3)] k_value abcdef
             (TString 0 3 false) ERange A eq_refl eq_refl eq_refl); vm_compute; reflexivity.
  - apply (C10_wrong_type_value_rejected C3 _ i plabel str0 [(k_default, abcdef); (k_maxchars, PInt 3)] k_default abcdef
             (TString 0 3 false) ERange A eq_refl eq_refl eq_refl); vm_compute; reflexivity.
Qed.

(* instance 4: a module with four different errors *)
Definition pneed : param := set_needscfg (mkp "need" fl010 false) true.
Definition C4 : cls :=
  {| c_params := [mkp "p1" fl010 true; plabel; pneed]; c_props := []; c_enablepoll := true |}.
Definition en4 : entry := [(k_maxchars, PInt 3); (k_value, abcdef)].
Definition c4 : cfg :=
  [descr; (k_visibility, CRaw (PStr (s_ "nonsense"))); (s_ "label", CDict en4); (s_ "bogus", CRaw (PInt 1))].

Example C10_unknown_name_rejected_applies : forall i, mod_init C4 c4 <> Created i.
Proof.
  intros i. apply (C10_unknown_name_rejected C4 c4 (s_ "bogus") i); [vm_compute; auto 10|vm_compute; reflexivity].
Qed.
(* unknown name alone: the module is Rejected (not Crashed) and the name is listed *)
Example unknown_name_alone :
  match mod_init C1 [descr; (s_ "bogus", CRaw (PInt 1))] with
  | Rejected [ErrUnknown [n]] => str_eqb n (s_ "bogus") | _ => false end = true.
Proof. vm_compute. reflexivity. Qed.

Example C10_missing_required_value_rejected_applies :
  (forall i, mod_init C4 [descr] <> Created i) /\
  match mod_init C4 [descr] with Rejected [ErrNeedsCfg n] => str_eqb n (s_ "need") | _ => false end = true.
Proof.
  split; [|vm_compute; reflexivity]. intros i.
  apply (C10_missing_required_value_rejected C4 [descr] i pneed); try reflexivity.
  right; right; left; reflexivity.
Qed.

Definition pnodescr : param :=
  upd_param (mkp "q" fl010 false) (Some fl010) [] None false false (XName (95%N :: s_ "q")) 1 [] None None false.
Definition C5 : cls := {| c_params := [mkp "p1" fl010 true; pnodescr]; c_props := []; c_enablepoll := true |}.
Example C10_missing_mandatory_description_rejected_applies :
  (forall i, mod_init C5 [descr] <> Created i) /\
  match mod_init C5 [descr] with Rejected [ErrCheck n] => str_eqb n (s_ "q") | _ => false end = true.
Proof.
  split; [|vm_compute; reflexivity]. intros i.
  apply (C10_missing_mandatory_description_rejected C5 [descr] i pnodescr); try reflexivity.
  right; left; reflexivity.
Qed.

(* all four clauses of C10_error_list_names_every_collected_item in ONE rejected module *)
Example C10_error_list_applies :
  exists es, mod_init C4 c4 = Rejected es /\
    (exists l, In (ErrUnknown l) es /\ In (s_ "bogus") l) /\
    In (ErrModProp k_visibility) es /\
    (exists k', mem_str k' checked_value_props = true /\ In (ErrBadValue (s_ "label") k') es) /\
    In (ErrNeedsCfg (s_ "need")) es.
Proof.
  rejected C4 c4 (fun _ : list err => true) es E X. exists es. split; [exact E|].
  destruct (C10_error_list_names_every_collected_item C4 c4 es E) as [U [M [B N]]].
  split; [|split; [|split]].
  - apply U; [vm_compute; auto 10|vm_compute; reflexivity].
  - assert (F : match find (fun sp => str_eqb k_visibility (mp_name sp)) (all_mprops C4) with
                | Some sp => str_eqb (mp_name sp) k_visibility && match mp_type sp with MVis => true | _ => false end
                | None => false end = true) by (vm_compute; reflexivity).
    destruct (find (fun sp => str_eqb k_visibility (mp_name sp)) (all_mprops C4)) as [sp|] eqn:EF; [|discriminate F].
    apply andb_prop in F. destruct F as [F1 F2]. apply str_eqb_true in F1.
    apply find_some in EF. destruct EF as [Hin _].
    rewrite <- F1. apply (M sp (PStr (s_ "nonsense")) ERange Hin).
    + rewrite F1. vm_compute. reflexivity.
    + destruct (mp_type sp); try discriminate F2. vm_compute. reflexivity.
    + reflexivity.
  - apply (B plabel en4 k_value abcdef (set_value (set_dt plabel (TString 0 3 false) []) (Some abcdef))
             (TString 0 3 false) ERange);
      [right; left; reflexivity|reflexivity|reflexivity|vm_compute; reflexivity|vm_compute; reflexivity
      |vm_compute; reflexivity|vm_compute; reflexivity|reflexivity|vm_compute; reflexivity].
  - apply (N pneed fl010); try reflexivity. right; right; left; reflexivity.
Qed.

(* node level and merging *)
Definition secs7 : list (str * section) := [(s_ "a", (0, demo_cfg)); (s_ "b", (1, c4)); (s_ "c", (0, demo_cfg2))].
(* C10_node_rejects_whole has no premises; both sides of its equivalences are inhabited: one registered module, one
   refused one (class 0 with demo_cfg2 is rejected too: p3 is an array there), the node does not start *)
Example C10_node_rejects_whole_instance :
  let rs := create_all [C1; C4] secs7 in
  list_eqb str_eqb (registered rs) [s_ "a"] && negb (node_starts rs) &&
  list_eqb str_eqb (map nerr_name (node_errors rs)) [s_ "b"; s_ "c"] = true.
Proof. vm_compute. reflexivity. Qed.
Example C10_node_rejects_whole_applies :
  exists i, In (s_ "a") (registered (create_all [C1; C4] secs7)) /\ mod_init C1 demo_cfg = Created i.
Proof.
  destruct (C10_node_rejects_whole [C1; C4] secs7) as [R _].
  assert (H : In (s_ "a") (registered (create_all [C1; C4] secs7))).
  { apply (proj1 (mem_str_In _ _)). vm_compute. reflexivity. }
  destruct (proj1 (R (s_ "a")) H) as [s [i [Hs Hi]]]. exists i. split; [exact H|].
  destruct Hs as [Hs|[Hs|[Hs|[]]]]; inversion Hs; subst s; try exact Hi.
Qed.

Definition mc (name : string) (k : nat) (kws : list (str * kwv)) : modcall :=
  {| mc_name := s_ name; mc_cls := k; mc_descr := PStr (s_ "d"); mc_kws := kws |}.
Definition f1 : file :=
  {| f_eid := s_ "eq1"; f_mods := [mc "a" 0 [(s_ "p1", KwParam (Some (PInt 5)) [(k_min, PInt 1)])]; mc "b" 1 []] |}.
Definition f2 : file := {| f_eid := s_ "eq2"; f_mods := [mc "b" 0 [(s_ "p1", KwBare (PInt 2))]; mc "c" 0 []] |}.
Definition f3 : file := {| f_eid := s_ "eq3"; f_mods := [mc "c" 1 []; mc "d" 1 []] |}.
Definition acc1 : list (str * section) := match file_sections (f_mods f1) [] with Some a => a | None => [] end.

Example C10_merge_first_file_wins_applies :
  exists res extra, load_config [f1; f2; f3] = Some res /\ load_rest acc1 [f2; f3] = Some res /\
    List.length acc1 = 2 /\ res = acc1 ++ extra /\ List.length extra = 2 /\
    Forall (fun e => mem_str (fst e) (map fst acc1) = false /\
                     exists f s, In f [f2; f3] /\ snd e = tag_origin (f_eid f) s) extra.
Proof.
  assert (X : match load_rest acc1 [f2; f3] with
              | Some r => Nat.eqb (List.length r) 4 && Nat.eqb (List.length acc1) 2 | None => false end = true)
    by (vm_compute; reflexivity).
  assert (Y : load_config [f1; f2; f3] = load_rest acc1 [f2; f3]) by (vm_compute; reflexivity).
  destruct (load_rest acc1 [f2; f3]) as [res|] eqn:E; [|discriminate X].
  apply andb_prop in X. destruct X as [X1 X2]. apply Nat.eqb_eq in X1. apply Nat.eqb_eq in X2.
  destruct (C10_merge_first_file_wins [f2; f3] acc1 res E) as [extra [He Hf]].
  exists res, extra. split; [exact Y|]. split; [reflexivity|]. split; [exact X2|]. split; [exact He|]. split; [|exact Hf].
  rewrite He, app_length, X2 in X1. lia.
Qed.

(* the `constant` of a Param entry
   checked_value_props = [value; default; constant].  Parameter.setProperty stores the constant
   as given, the second loop of _add_accessible checks it with the configured datatype, Parameter.finish converts and
   exports it and makes the parameter readonly - unguarded. *)
Definition enc : entry := [(k_constant, PInt 3); (k_min, PInt 1)].
Definition cfgc : cfg := [descr; (s_ "p1", CDict enc)].
Definition dcfgc : dtype := match configured_dt fl010 [] enc with Some d => d | None => TBool end.
Lemma dcfgc_eq : configured_dt fl010 (p_unit p1) enc = Some dcfgc.
Proof. exact (configured_dt_total fl010 [] enc TBool). Qed.

(* the applying side: Param(constant=3, min=1) on FloatRange(0, 10): created, the instance carries the exported 3.0 and
   is readonly although the class says readonly = False *)
Example C10_constant_applied_applies :
  p_readonly p1 = false /\
  exists i p' c1 j, mod_init C1 cfgc = Created i /\ In p' (i_params i) /\ p_name p' = s_ "p1" /\ p_dt p' = Some dcfgc /\
    conv dcfgc (PInt 3) = Ok c1 /\ dt_exp dcfgc c1 = Some j /\ pv_same j (PFloat (of_Z 3)) = true /\
    p_constant p' = Some j /\ p_readonly p' = true.
Proof.
  split; [reflexivity|]. created C1 cfgc (fun _ : inst => true) i E X0.
  assert (A : In p1 (c_params C1)) by (left; reflexivity).
  assert (ND : NoDup (map fst enc)) by nodup.
  destruct (C10_constant_applied C1 cfgc i p1 fl010 enc (PInt 3) E A eq_refl eq_refl eq_refl) as
    [p' [d' [c1 [j [L [M [N [O [P [Q [R S]]]]]]]]]]]; [vm_compute; reflexivity|exact ND|left; reflexivity|].
  rewrite dcfgc_eq in N. assert (d' = dcfgc) as -> by congruence.
  assert (X : match conv dcfgc (PInt 3) with
              | Ok c => match dt_exp dcfgc c with Some j0 => pv_same j0 (PFloat (of_Z 3)) | None => false end
              | Err _ => false end = true) by (vm_compute; reflexivity).
  rewrite P, Q in X.
  exists i, p', c1, j. split; [exact E|]. split; [exact L|]. split; [exact M|]. split; [exact O|]. split; [exact P|].
  split; [exact Q|]. split; [exact X|]. split; [exact R|exact S].
Qed.

(* the rejecting side: C10_wrong_type_value_rejected with k = constant and C10_wrong_type_constant_leaves_init on
   Param(constant='abcdef', maxchars=3): no instance and no ConfigError either - the outcome is Crashed *)
Definition enw : entry := [(k_constant, abcdef); (k_maxchars, PInt 3)].
Definition cfgw : cfg := [descr; (s_ "label", CDict enw)].
Example C10_wrong_type_constant_applies :
  (forall i, mod_init C3 cfgw <> Created i) /\ (forall es, mod_init C3 cfgw <> Rejected es) /\
  match mod_init C3 cfgw with Crashed => true | _ => false end = true /\
  (* the same constant IS accepted without the override that refuses it *)
  match mod_init C3 [descr; (s_ "label", CDict [(k_constant, abcdef)])] with Created _ => true | _ => false end = true.
Proof.
  assert (A : In plabel (c_params C3)) by (left; reflexivity).
  assert (ND : NoDup (map fst enw)) by nodup.
  destruct (C10_wrong_type_constant_leaves_init C3 cfgw plabel str0 enw abcdef (TString 0 3 false) ERange A eq_refl eq_refl
              eq_refl) as [N1 N2]; [vm_compute; reflexivity|exact ND|left; reflexivity|discriminate|vm_compute; reflexivity
              |vm_compute; reflexivity|].
  split; [|split; [exact N2|split; vm_compute; reflexivity]].
  intros i. apply (C10_wrong_type_value_rejected C3 cfgw i plabel str0 enw k_constant abcdef (TString 0 3 false) ERange A
                     eq_refl eq_refl eq_refl); vm_compute; reflexivity.
Qed.

(* third clause of C10_error_list_names_every_collected_item with k = constant: the premises (Rejected, the entry applies,
   the constant is no value of the final datatype) are satisfiable exactly for Param(constant=None) - datatype(None) is
   collected by the second loop, Parameter.finish skips a None constant - and the clause names `p1.constant` *)
Definition enn : entry := [(k_constant, PNone)].
Definition cfgn : cfg := [descr; (s_ "p1", CDict enn)].
Example C10_error_list_constant_applies :
  exists es, mod_init C1 cfgn = Rejected es /\ In (ErrBadValue (s_ "p1") k_constant) es.
Proof.
  rejected C1 cfgn (forallb (fun e0 => match e0 with ErrBadValue _ k0 => str_eqb k0 k_constant | _ => true end)) es E X.
  exists es. split; [exact E|].
  destruct (C10_error_list_names_every_collected_item C1 cfgn es E) as [_ [_ [B _]]].
  destruct (B p1 enn k_constant PNone (set_constant p1 None) fl010 EWrongType) as [k' [Hk' Hin]];
    [left; reflexivity|reflexivity|reflexivity|vm_compute; reflexivity|reflexivity|vm_compute; reflexivity
    |vm_compute; reflexivity|reflexivity|reflexivity|].
  rewrite forallb_forall in X. specialize (X _ Hin). simpl in X. apply str_eqb_true in X. subst k'. exact Hin.
Qed.

(* last clause of C10_value_checked_against_configured_datatype with a configured constant among the keywords (the member
   `constant` of its hypothesis on [default; constant] occurs): Param(5, constant=7) on FloatRange(0, 10) *)
Definition kwk : entry := [(k_constant, PInt 7)].
Example C10_value_checked_with_constant_applies :
  exists a, acc_step true p1 (Some (CDict (param_dict (Some (PInt 5)) kwk))) = Some a /\ a_errs a = [] /\
    p_constant (a_param a) = Some (PInt 7).
Proof.
  assert (A : In p1 (c_params C1)) by (left; reflexivity).
  assert (ND : NoDup (map fst kwk)) by nodup.
  set (cc := [descr; (s_ "p1", CDict (param_dict (Some (PInt 5)) kwk))] : cfg).
  destruct (C10_value_checked_against_configured_datatype C1 cc p1 fl010 (PInt 5) kwk A eq_refl eq_refl eq_refl)
    as [_ [dcfg [HD [_ [_ [_ R3]]]]]]; [vm_compute; reflexivity|exact ND|vm_compute; reflexivity|].
  assert (HD' : configured_dt fl010 (p_unit p1) kwk = Some fl010) by reflexivity.
  rewrite HD' in HD. inversion HD; subst dcfg.
  assert (X : match conv fl010 (PInt 5) with Ok _ => true | Err _ => false end = true) by (vm_compute; reflexivity).
  destruct (conv fl010 (PInt 5)) as [c1|] eqn:CV; [|discriminate X].
  destruct (R3 c1 (set_constant p1 (Some (PInt 7))) true eq_refl) as [a [S1 [S2 _]]].
  - reflexivity.
  - intros k v' [Hk|[Hk|[]]] Hv; subst k; vm_compute in Hv; [discriminate Hv|].
    inversion Hv; subst v'.
    assert (Y : match conv fl010 (PInt 7) with Ok _ => true | Err _ => false end = true) by (vm_compute; reflexivity).
    destruct (conv fl010 (PInt 7)) as [c'|]; [exists c'; reflexivity|discriminate Y].
  - exists a. split; [exact S1|]. split; [exact S2|].
    assert (Z : match acc_step true p1 (Some (CDict (param_dict (Some (PInt 5)) kwk))) with
                | Some a0 => match p_constant (a_param a0) with Some (PInt z) => Z.eqb z 7 | _ => false end
                | None => false end = true) by (vm_compute; reflexivity).
    rewrite S1 in Z. destruct (p_constant (a_param a)) as [[]|]; try discriminate Z.
    apply Z.eqb_eq in Z. subst. reflexivity.
Qed.
