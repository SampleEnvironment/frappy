(* C10 - lemmas about the model, in this order: strings and association lists; the node level and the merging of files;
   the start-up trace (the invariant `consumes` of the pending writes); the structure of mod_init (created_inv; rejected_inv
   further down); the configured datatype of a Param entry; then the stages of one accessible: a frame lemma per stage,
   Parameter.setProperty and the first loop over the entry, the second loop, acc_of (the rest of the step), up to
   created_param (from a parameter of the class to the parameter of the created instance).  What follows serves single
   theorems of Properties.v: writeDict, the error list, the name map, Param(value, overrides). *)
From Coq Require Import ZArith NArith Bool List Lia Permutation.
Import ListNotations.
Local Open Scope list_scope.
Require Import FV.Base.Util FV.Base.F64 FV.Base.PyVal FV.C01.Model FV.Gen.C10 FV.C10.Model.

Lemma str_eqb_refl' s : str_eqb s s = true.
Proof. unfold str_eqb. induction s; simpl; [reflexivity|]. rewrite N.eqb_refl. exact IHs. Qed.
Lemma str_eqb_true a b : str_eqb a b = true -> a = b.
Proof.
  unfold str_eqb. revert b. induction a; destruct b; simpl; intros H; try discriminate; [reflexivity|].
  apply andb_true_iff in H. destruct H as [H1 H2]. apply N.eqb_eq in H1. subst. f_equal. apply IHa. exact H2.
Qed.
Lemma mem_str_In k l : mem_str k l = true <-> In k l.
Proof.
  induction l; simpl; [split; [discriminate|tauto]|]. rewrite orb_true_iff, IHl. split.
  - intros [H|H]; [left; symmetry; apply str_eqb_true; exact H|right; exact H].
  - intros [H|H]; [left; subst; apply str_eqb_refl'|right; exact H].
Qed.

Lemma mem_str_app_false k a b : mem_str k (a ++ b) = false -> mem_str k a = false.
Proof.
  intros H. destruct (mem_str k a) eqn:E; [|reflexivity]. apply mem_str_In in E.
  rewrite (proj2 (mem_str_In k (a ++ b)) (in_or_app _ _ _ (or_introl E))) in H. discriminate.
Qed.

Lemma assoc_none_iff {A} k (l : list (str * A)) : assoc_str k l = None <-> ~ In k (map fst l).
Proof.
  induction l as [|[k' x] l IH]; simpl; [tauto|]. destruct (str_eqb k k') eqn:E.
  - apply str_eqb_true in E. subst. split; [discriminate|intros H; destruct H; left; reflexivity].
  - rewrite IH. split; [|tauto]. intros H [Hk|Hk]; [subst; rewrite str_eqb_refl' in E; discriminate|exact (H Hk)].
Qed.
Lemma assoc_str_nodup {A} n (v : A) : forall w, NoDup (map fst w) -> In (n, v) w -> assoc_str n w = Some v.
Proof.
  induction w as [|[k x] w IH]; intros ND Hin; [destruct Hin|]. simpl. simpl in ND.
  inversion ND as [|? ? Hk ND']; subst. destruct Hin as [Hq|Hin].
  - inversion Hq; subst. rewrite str_eqb_refl'. reflexivity.
  - destruct (str_eqb n k) eqn:E; [|apply IH; auto].
    apply str_eqb_true in E. subst k. exfalso. apply Hk. change n with (fst (n, v)). apply in_map. exact Hin.
Qed.

Definition is_created (o : outcome) : bool := match o with Created _ => true | _ => false end.
Definition nerr_name (e : nerr) : str := match e with NRejected m _ => m | NCrashed m => m end.

(* an outcome known through a boolean test on its content (decided by evaluation for the concrete examples) *)
Lemma created_if (o : outcome) (w : inst -> bool) :
  match o with Created i => w i | _ => false end = true -> exists i, o = Created i /\ w i = true.
Proof. destruct o as [i| |]; [exists i; auto|discriminate|discriminate]. Qed.
Lemma rejected_if (o : outcome) (w : list err -> bool) :
  match o with Rejected es => w es | _ => false end = true -> exists es, o = Rejected es /\ w es = true.
Proof. destruct o as [|es|]; [discriminate|exists es; auto|discriminate]. Qed.

Lemma registered_iff rs n :
  In n (registered rs) <-> exists o, In (n, o) rs /\ is_created o = true.
Proof.
  unfold registered. rewrite in_flat_map. split.
  - intros [[m o] [Hin H]]. simpl in H. destruct o; simpl in H; try contradiction.
    destruct H as [H|[]]. subst. exists (Created i). split; [exact Hin|reflexivity].
  - intros [o [Hin Hc]]. exists (n, o). split; [exact Hin|]. destruct o; try discriminate. simpl. left. reflexivity.
Qed.

Lemma node_errors_iff rs n :
  (exists e, In e (node_errors rs) /\ nerr_name e = n) <-> exists o, In (n, o) rs /\ is_created o = false.
Proof.
  unfold node_errors. split.
  - intros [e [Hin Hn]]. apply in_flat_map in Hin. destruct Hin as [[m o] [Hin H]]. simpl in H.
    destruct o; simpl in H; try contradiction; destruct H as [H|[]]; subst; simpl;
      eexists; (split; [exact Hin|reflexivity]).
  - intros [o [Hin Hc]]. destruct o; try discriminate.
    + exists (NRejected n es). split; [|reflexivity]. apply in_flat_map. exists (n, Rejected es). split; [exact Hin|left; reflexivity].
    + exists (NCrashed n). split; [|reflexivity]. apply in_flat_map. exists (n, Crashed). split; [exact Hin|left; reflexivity].
Qed.

Lemma node_starts_iff rs : node_starts rs = true <-> forall r, In r rs -> is_created (snd r) = true.
Proof.
  unfold node_starts, node_errors. induction rs as [|[n o] rs IH]; simpl.
  - split; [intros _ r []|reflexivity].
  - destruct o; simpl.
    + rewrite IH. split.
      * intros H r [Hr|Hr]; [subst; reflexivity|apply H; exact Hr].
      * intros H r Hr. apply H. right. exact Hr.
    + split; [discriminate|]. intros H. specialize (H (n, Rejected es) (or_introl eq_refl)). discriminate.
    + split; [discriminate|]. intros H. specialize (H (n, Crashed) (or_introl eq_refl)). discriminate.
Qed.

Lemma create_all_in classes secs n o :
  In (n, o) (create_all classes secs) ->
  exists s, In (n, s) secs /\ o = mod_init (nth (fst s) classes dummy_cls) (snd s).
Proof.
  unfold create_all. intros H. apply in_map_iff in H. destruct H as [[m s] [Heq Hin]]. simpl in Heq.
  inversion Heq; subst. exists s. split; [exact Hin|reflexivity].
Qed.

Lemma merge_modules_prefix eid other : forall acc, exists extra,
  merge_modules acc eid other = acc ++ extra /\
  Forall (fun e => exists s, In (fst e, s) other /\ snd e = tag_origin eid s /\ mem_str (fst e) (map fst acc) = false) extra.
Proof.
  unfold merge_modules. induction other as [|[n s0] other IH]; intros acc; simpl.
  - exists []. rewrite app_nil_r. split; [reflexivity|constructor].
  - unfold merge_step at 2. simpl. destruct (mem_str n (map fst acc)) eqn:E.
    + destruct (IH acc) as [ex [He Hf]]. exists ex. split; [exact He|]. eapply Forall_impl; [|exact Hf].
      intros e [s [Hin Ht]]. exists s. split; [right; exact Hin|exact Ht].
    + destruct (IH (acc ++ [(n, tag_origin eid s0)])) as [ex [He Hf]]. exists ((n, tag_origin eid s0) :: ex).
      rewrite He, <- app_assoc. split; [reflexivity|]. constructor; [exists s0; simpl; auto|].
      eapply Forall_impl; [|exact Hf]. intros e [s [Hin [Ht Hm]]]. exists s. split; [right; exact Hin|split; [exact Ht|]].
      rewrite map_app in Hm. exact (mem_str_app_false _ _ _ Hm).
Qed.

Definition is_write (e : ev) : bool := match e with EvWrite _ _ => true | _ => false end.
Definition is_read (e : ev) : bool := match e with EvRead _ => true | _ => false end.
Definition writes_for (n : str) (l : list ev) : list pyval :=
  flat_map (fun e => match e with EvWrite m v => if str_eqb n m then [v] else [] | _ => [] end) l.

(* what the write method of n receives when its wrapper is called with v: the validated value, once - or nothing *)
Definition handed (ps : list param) (n : str) (v : pyval) : list pyval :=
  match find_param n ps with
  | Some p => match p_dt p with
              | Some d => match valid d v with Ok x => if p_wfunc p then [x] else [] | Err _ => [] end
              | None => []
              end
  | None => []
  end.
(* the hardware write calls that belong to the pending entries w: one call per entry (none where the value does not
   validate or there is no driver method) *)
Definition handed_ev (ps : list param) (nv : str * pyval) : list ev := map (EvWrite (fst nv)) (handed ps (fst nv) (snd nv)).
Definition hw (ps : list param) (w : wdict) : list ev := flat_map (handed_ev ps) w.

Lemma hw_writes ps w : forallb is_write (hw ps w) = true.
Proof.
  induction w as [|[n v] w IH]; simpl; [reflexivity|]. rewrite forallb_app, IH, andb_true_r.
  unfold handed_ev. simpl. induction (handed ps n v); simpl; [reflexivity|assumption].
Qed.

Lemma wpop_perm n : forall w v w1, wpop n w = Some (v, w1) -> Permutation w ((n, v) :: w1).
Proof.
  induction w as [|[k x] w IH]; intros v w1 H; simpl in H; [discriminate|].
  destruct (str_eqb n k) eqn:E.
  - apply str_eqb_true in E. subst. inversion H; subst. apply Permutation_refl.
  - destruct (wpop n w) as [[y r]|] eqn:E2; [|discriminate]. inversion H; subst.
    eapply perm_trans; [apply perm_skip; apply IH; reflexivity|apply perm_swap].
Qed.
Lemma wpop_none n : forall w, wpop n w = None -> ~ In n (map fst w).
Proof.
  induction w as [|[k x] w IH]; simpl; intros H; [tauto|].
  destruct (str_eqb n k) eqn:E; [discriminate|]. destruct (wpop n w) as [[y r]|]; [discriminate|].
  intros [Hk|Hk]; [subst; rewrite str_eqb_refl' in E; discriminate|exact (IH eq_refl Hk)].
Qed.

Lemma nodup_app_r {A} (a b : list A) : NoDup (a ++ b) -> NoDup b.
Proof. induction a; simpl; intros H; [exact H|]. inversion H as [|? ? _ H']. exact (IHa H'). Qed.

(* the invariant of the start-up writes: going from the pending entries w to w', the entries c were consumed, and the
   hardware writes es are, up to order, one call per entry of pre ++ c (pre: the entry a wrapper was called with) *)
Definition consumes (ps : list param) (pre w : wdict) (es : list ev) (w' : wdict) : Prop :=
  exists c, Permutation w (c ++ w') /\ Permutation es (hw ps (pre ++ c)).

Lemma consumes_nil ps w : consumes ps [] w [] w.
Proof. exists []. split; apply Permutation_refl. Qed.
Lemma consumes_trans ps pre w e1 w1 e2 w2 :
  consumes ps pre w e1 w1 -> consumes ps [] w1 e2 w2 -> consumes ps pre w (e1 ++ e2) w2.
Proof.
  intros [c1 [P1 Q1]] [c2 [P2 Q2]]. exists (c1 ++ c2). split.
  - rewrite <- app_assoc. eapply perm_trans; [exact P1|]. apply Permutation_app_head. exact P2.
  - rewrite app_assoc. unfold hw. rewrite flat_map_app. apply Permutation_app; assumption.
Qed.
Lemma consumes_pop ps n v w w1 es w' : wpop n w = Some (v, w1) -> consumes ps [(n, v)] w1 es w' -> consumes ps [] w es w'.
Proof.
  intros Ep [c [P Q]]. exists ((n, v) :: c). split; [|exact Q].
  eapply perm_trans; [exact (wpop_perm _ _ _ _ Ep)|]. apply perm_skip. exact P.
Qed.
Lemma consumes_call ps nv w es w' : consumes ps [] w es w' -> consumes ps [nv] w (handed_ev ps nv ++ es) w'.
Proof. intros [c [P Q]]. exists c. split; [exact P|]. simpl. apply Permutation_app_head. exact Q. Qed.
(* what remains pending is part of what was pending *)
Lemma consumes_keys ps pre w es w' : consumes ps pre w es w' ->
  (forall k, In k (map fst w') -> In k (map fst w)) /\ (NoDup (map fst w) -> NoDup (map fst w')) /\ List.length w' <= List.length w.
Proof.
  intros [c [P _]]. pose proof (Permutation_map fst P) as Pk. rewrite map_app in Pk. split; [|split].
  - intros k Hk. eapply Permutation_in; [apply Permutation_sym; exact Pk|]. apply in_or_app. right. exact Hk.
  - intros ND. exact (nodup_app_r _ _ (Permutation_NoDup Pk ND)).
  - rewrite (Permutation_length P), app_length. lia.
Qed.

(* what a wrapper `call` does when fewer than `bound` entries are pending (the fuel of wcall) *)
Definition call_ok (ps : list param) (call : str -> pyval -> wdict -> wres) (bound : nat) : Prop :=
  forall n v w es w' ok, List.length w < bound -> call n v w = (es, w', ok) -> consumes ps [(n, v)] w es w'.

Lemma takes_ok ps call b : call_ok ps call b -> forall qs w es w' ok,
  List.length w <= b -> takes_loop call qs w = (es, w', ok) -> consumes ps [] w es w'.
Proof.
  intros Hc. induction qs as [|q qs IH]; intros w es w' ok Hl H; simpl in H.
  - inversion H; subst. apply consumes_nil.
  - destruct (wpop q w) as [[vq w1]|] eqn:Ep; [|apply (IH _ _ _ _ Hl H)].
    pose proof (Permutation_length (wpop_perm _ _ _ _ Ep)) as L0. simpl in L0.
    destruct (call q vq w1) as [[e1 w2] ok1] eqn:Ec.
    assert (C1 : consumes ps [(q, vq)] w1 e1 w2) by (apply (Hc q vq w1 e1 w2 ok1); [lia|exact Ec]).
    destruct ok1; [|inversion H; subst; exact (consumes_pop _ _ _ _ _ _ _ Ep C1)].
    destruct (takes_loop call qs w2) as [[e2 w3] ok2] eqn:Et. inversion H; subst.
    destruct (consumes_keys _ _ _ _ _ C1) as [_ [_ L1]].
    apply (consumes_trans _ _ _ _ _ _ _ (consumes_pop _ _ _ _ _ _ _ Ep C1)). apply (IH w2 e2 w' ok); [lia|exact Et].
Qed.

Lemma wrapper_ok ps call b : call_ok ps call b -> forall n v w es w' ok,
  List.length w <= b -> wrapper call ps n v w = (es, w', ok) -> consumes ps [(n, v)] w es w'.
Proof.
  intros Hc n v w es w' ok Hl. unfold wrapper.
  (* in every branch es is the call `handed` describes, followed by what the take-over script did *)
  assert (Z : forall es0 ok0, consumes ps [] w es0 w' -> (map (EvWrite n) (handed ps n v) ++ es0, w', ok0) = (es, w', ok) ->
              consumes ps [(n, v)] w es w').
  { intros es0 ok0 C H. inversion H; subst. exact (consumes_call ps (n, v) _ _ _ C). }
  unfold handed in Z.
  destruct (find_param n ps) as [p|]; [destruct (p_dt p) as [d|]; [destruct (valid d v) as [x|e]; [destruct (p_wfunc p)|]|]|];
    try (intros H; inversion H; subst; apply (Z [] _ (consumes_nil _ _) eq_refl)).
  destruct (takes_loop call (p_takes p) w) as [[es0 w0] ok0] eqn:Et. intros H; inversion H; subst.
  exact (Z es0 _ (takes_ok ps call b Hc _ _ _ _ _ Hl Et) eq_refl).
Qed.

Lemma wcall_ok ps : forall f, call_ok ps (wcall f ps) f.
Proof.
  induction f as [|f IH]; intros n v w es w' ok Hl H; [lia|]. simpl in H.
  eapply wrapper_ok; [exact IH| |exact H]. lia.
Qed.

Lemma init_loop_cons ps n r w : init_loop ps (n :: r) w =
  match wpop n w with
  | None => init_loop ps r w
  | Some (v, w1) => let '(e, w2, _) := wcall (S (List.length w1)) ps n v w1 in
                    let '(e', w3) := init_loop ps r w2 in (e ++ e', w3)
  end.
Proof. reflexivity. Qed.

(* the loop over the names of the pending entries leaves nothing pending *)
Lemma init_loop_ok ps : forall names w es wf, init_loop ps names w = (es, wf) ->
  NoDup (map fst w) -> incl (map fst w) names -> wf = [] /\ consumes ps [] w es [].
Proof.
  induction names as [|n names IH]; intros w es wf H ND Hi; [simpl in H|rewrite init_loop_cons in H].
  - destruct w as [|[k x] w]; [|destruct (Hi k (or_introl eq_refl))]. inversion H; subst. split; [reflexivity|apply consumes_nil].
  - destruct (wpop n w) as [[v w1]|] eqn:Ep.
    + pose proof (Permutation_map fst (wpop_perm _ _ _ _ Ep)) as P0. pose proof (Permutation_NoDup P0 ND) as ND1.
      simpl in P0, ND1. inversion ND1 as [|? ? Hn ND1']; subst.
      destruct (wcall (S (List.length w1)) ps n v w1) as [[e w2] ok] eqn:Ec.
      pose proof (wcall_ok ps _ _ _ _ _ _ _ (Nat.lt_succ_diag_r _) Ec) as C1.
      destruct (consumes_keys _ _ _ _ _ C1) as [K1 [N1 _]].
      destruct (init_loop ps names w2) as [e' w3] eqn:El. inversion H; subst.
      destruct (IH _ _ _ El (N1 ND1')) as [-> C2].
      { intros k Hk. apply K1 in Hk. destruct (Hi k (Permutation_in _ (Permutation_sym P0) (or_intror Hk))) as [<-|Hk'];
          [contradiction|exact Hk']. }
      split; [reflexivity|exact (consumes_trans _ _ _ _ _ _ _ (consumes_pop _ _ _ _ _ _ _ Ep C1) C2)].
    + apply (IH _ _ _ H ND). intros k Hk. destruct (Hi k Hk) as [<-|Hk']; [destruct (wpop_none _ _ Ep Hk)|exact Hk'].
Qed.

(* writeInitParams: nothing stays pending, and the hardware write calls are, up to their order, exactly one call per
   pending entry - whoever (the loop or a write method that took the entry over) made it *)
Lemma write_init_ok ps w es wf : NoDup (map fst w) -> write_init ps w = (es, wf) ->
  wf = [] /\ Permutation es (hw ps w).
Proof.
  intros ND H. destruct (init_loop_ok _ _ _ _ _ H ND (incl_refl _)) as [-> [c [P Q]]]. split; [reflexivity|].
  rewrite app_nil_r in P. eapply perm_trans; [exact Q|]. apply Permutation_flat_map. apply Permutation_sym. exact P.
Qed.

Lemma forallb_perm {A} (f : A -> bool) l l' : Permutation l l' -> forallb f l = true -> forallb f l' = true.
Proof.
  intros P H. apply forallb_forall. intros x Hx. rewrite forallb_forall in H. apply H.
  eapply Permutation_in; [apply Permutation_sym; exact P|exact Hx].
Qed.

Lemma startup_shape i : NoDup (map fst (i_write i)) -> has_thread i = true ->
  exists ws rs, startup i = ws ++ EvInit :: rs /\ forallb is_write ws = true /\ forallb is_read rs = true /\
                Permutation ws (hw (i_params i) (i_write i)) /\ rs = map EvRead (polled_names i).
Proof.
  intros ND H. unfold startup. rewrite H. destruct (write_init (i_params i) (i_write i)) as [es wf] eqn:E.
  destruct (write_init_ok _ _ _ _ ND E) as [_ P]. simpl.
  exists es, (map EvRead (polled_names i)). split; [reflexivity|]. split; [|split; [|split; [exact P|reflexivity]]].
  - eapply forallb_perm; [apply Permutation_sym; exact P|apply hw_writes].
  - induction (polled_names i); simpl; [reflexivity|assumption].
Qed.

Lemma startup_none i : has_thread i = false -> startup i = [].
Proof. intros H. unfold startup. rewrite H. reflexivity. Qed.

Lemma writes_for_app n a b : writes_for n (a ++ b) = writes_for n a ++ writes_for n b.
Proof. unfold writes_for. apply flat_map_app. Qed.

Lemma writes_for_reads n l : writes_for n (EvInit :: map EvRead l) = [].
Proof. unfold writes_for. simpl. induction l; simpl; [reflexivity|exact IHl]. Qed.

Lemma writes_for_handed ps n nv :
  writes_for n (handed_ev ps nv) = if str_eqb n (fst nv) then handed ps (fst nv) (snd nv) else [].
Proof.
  unfold handed_ev. induction (handed ps (fst nv) (snd nv)) as [|x l IH]; simpl; [destruct (str_eqb n (fst nv)); reflexivity|].
  rewrite IH. destruct (str_eqb n (fst nv)); reflexivity.
Qed.
Lemma handed_le1 ps n v : List.length (handed ps n v) <= 1.
Proof.
  unfold handed. destruct (find_param n ps); [|simpl; lia]. destruct (p_dt p); [|simpl; lia].
  destruct (valid d v); [|simpl; lia]. destruct (p_wfunc p); simpl; lia.
Qed.

Lemma writes_for_dict ps n : forall w, NoDup (map fst w) ->
  writes_for n (hw ps w) = match assoc_str n w with Some v => handed ps n v | None => [] end.
Proof.
  induction w as [|[m v] w IH]; intros ND; simpl; [reflexivity|]. inversion ND as [|? ? Hm ND']; subst.
  rewrite writes_for_app, writes_for_handed, (IH ND'). simpl. destruct (str_eqb n m) eqn:E; [|reflexivity].
  apply str_eqb_true in E. subst m. rewrite (proj2 (assoc_none_iff n w) Hm). apply app_nil_r.
Qed.

Lemma perm_short {A} (l s : list A) : Permutation l s -> List.length s <= 1 -> l = s.
Proof.
  intros P L. destruct s as [|x [|y s]]; simpl in L; [| |lia].
  - apply Permutation_nil. apply Permutation_sym. exact P.
  - apply Permutation_length_1_inv. apply Permutation_sym. exact P.
Qed.

Lemma startup_writes i n : NoDup (map fst (i_write i)) ->
  writes_for n (startup i) =
  if has_thread i
  then match assoc_str n (i_write i) with Some v => handed (i_params i) n v | None => [] end
  else [].
Proof.
  intros ND. destruct (has_thread i) eqn:E.
  - destruct (startup_shape i ND E) as [ws [rs [S [_ [_ [P R]]]]]]. rewrite S, R, writes_for_app, writes_for_reads, app_nil_r.
    rewrite <- (writes_for_dict _ _ _ ND). apply perm_short; [apply Permutation_flat_map; exact P|].
    rewrite (writes_for_dict _ _ _ ND). destruct (assoc_str n (i_write i)); [apply handed_le1|simpl; lia].
  - rewrite startup_none; [reflexivity|exact E].
Qed.

(* the errors collected while the configuration is applied; the consistency checks only run when there are none *)
Definition first_errs (C : cls) (c : cfg) (esA : list err) (accs : list accres) : list err :=
  esA ++ (flat_map a_errs accs ++ dup_errs [] accs) ++ match unknown_names C c with [] => [] | l => [ErrUnknown l] end.

(* the structure of a successful Module.__init__: nothing was collected, nothing raised, the consistency checks found nothing *)
Set Implicit Arguments.
Record created_by (C : cls) (c : cfg) (i : inst) (mv : mvals) (accs : list accres) (ps : list param) : Prop := {
  cb_phaseA : phaseA C c = Some (mv, []);
  cb_phaseB : phaseB (mexport mv) (c_params C) c = Some accs;
  cb_errs : flat_map a_errs accs = [];
  cb_dup : dup_errs [] accs = [];
  cb_unknown : unknown_names C c = [];
  cb_finish : map_opt finish_param (map a_param accs) = Some ps;
  cb_module : check_module C mv = [];
  cb_params : flat_map check_param (map (apply_main (main_unit ps)) ps) = [];
  cb_inst : i = {| i_mvals := mv; i_params := map (apply_main (main_unit ps)) ps; i_write := writes_of accs;
                   i_names := names_of accs; i_enablepoll := c_enablepoll C |};
}.
Unset Implicit Arguments.
Lemma created_inv C c i : mod_init C c = Created i -> exists mv accs ps, created_by C c i mv accs ps.
Proof.
  unfold mod_init. destruct (phaseA C c) as [[mv esA]|] eqn:EA; [|discriminate].
  destruct (phaseB (mexport mv) (c_params C) c) as [accs|] eqn:EB; [|discriminate].
  destruct (map_opt finish_param (map a_param accs)) as [ps|] eqn:EF; [|discriminate].
  fold (first_errs C c esA accs). cbv zeta. destruct (first_errs C c esA accs) eqn:E; [|discriminate].
  destruct (check_module C mv ++ flat_map check_param (map (apply_main (main_unit ps)) ps)) eqn:E4; [|discriminate].
  intros H. injection H as <-. apply app_eq_nil in E. destruct E as [-> E]. apply app_eq_nil in E. destruct E as [E2 E3].
  apply app_eq_nil in E2. destruct E2 as [E2 E2']. apply app_eq_nil in E4. destruct E4 as [E4 E5].
  destruct (unknown_names C c) eqn:EU; [|discriminate E3]. exists mv, accs, ps. split; assumption || reflexivity.
Qed.

Lemma Forall2_in_l {A B} (R : A -> B -> Prop) l l' x : Forall2 R l l' -> In x l -> exists y, In y l' /\ R x y.
Proof.
  induction 1 as [|a b l l' Hab _ IH]; intros [].
  - subst. exists b. split; [left; reflexivity|exact Hab].
  - destruct (IH H) as [y [Hy Hr]]. exists y. split; [right; exact Hy|exact Hr].
Qed.
Lemma Forall2_in_r {A B} (R : A -> B -> Prop) l l' y : Forall2 R l l' -> In y l' -> exists x, In x l /\ R x y.
Proof.
  induction 1 as [|a b l l' Hab _ IH]; intros [].
  - subst. exists a. split; [left; reflexivity|exact Hab].
  - destruct (IH H) as [x [Hx Hr]]. exists x. split; [right; exact Hx|exact Hr].
Qed.
Lemma Forall2_map_eq {A B C} (R : A -> B -> Prop) (f : A -> C) (g : B -> C) l l' :
  (forall x y, R x y -> g y = f x) -> Forall2 R l l' -> map g l' = map f l.
Proof. intros Hr. induction 1; simpl; [reflexivity|]. rewrite IHForall2. f_equal. apply Hr. assumption. Qed.

Lemma map_opt_spec {A B} (f : A -> option B) : forall l r, map_opt f l = Some r -> Forall2 (fun x y => f x = Some y) l r.
Proof.
  induction l as [|a l IH]; intros r H; simpl in H; [injection H as <-; constructor|].
  destruct (f a) as [y|] eqn:E; [|discriminate]. destruct (map_opt f l) as [ys|]; [|discriminate].
  injection H as <-. constructor; [exact E|apply IH; reflexivity].
Qed.

Lemma unknown_names_in C c k : In k (map fst c) -> mem_str k (known_names C) = false -> In k (unknown_names C c).
Proof. intros Hin Hk. apply filter_In. rewrite Hk. auto. Qed.

Lemma flat_map_nil {A B} (f : A -> list B) l x : flat_map f l = [] -> In x l -> f x = [].
Proof.
  induction l; simpl; intros H []; apply app_eq_nil in H; destruct H as [H1 H2]; [subst; exact H1|apply IHl; assumption].
Qed.

(* one item of a Param dict acting on (datatype, unit): a key that is no Parameter property goes to
   datatype.setProperty (a refused override leaves the constructor: no created module, the state is kept here) *)
Definition dtu (p : param) : option dtype * str := (p_dt p, p_unit p).
Definition over_step (s : option dtype * str) (kv : str * pyval) : option dtype * str :=
  match pprop_type param_props (fst kv), fst s with
  | None, Some d => match dt_setprop d (snd s) (fst kv) (snd kv) with Some (d', u') => (Some d', u') | None => s end
  | _, _ => s
  end.
Definition configured (s : option dtype * str) (en : entry) : option dtype * str := fold_left over_step en s.
(* the CONFIGURED datatype: the class-level datatype d (unit u) with the datatype overrides of the items en of a
   Param(...) applied in the order of the dict *)
Definition configured_dt (d : dtype) (u : str) (en : entry) : option dtype := fst (configured (Some d, u) en).

Lemma configured_some : forall en s d, fst s = Some d -> exists d', fst (configured s en) = Some d'.
Proof.
  induction en as [|kv en IH]; intros s d H; simpl; [exists d; exact H|].
  assert (exists d1, fst (over_step s kv) = Some d1) as [d1 H1]; [|apply (IH _ _ H1)].
  unfold over_step. destruct (pprop_type param_props (fst kv)); [exists d; exact H|]. rewrite H.
  destruct (dt_setprop d (snd s) (fst kv) (snd kv)) as [[d' u']|]; [exists d'; reflexivity|exists d; exact H].
Qed.
(* what every accepted datatype override of the entry preserves holds of the configured datatype *)
Lemma configured_dt_ind (P : dtype -> Prop) en : forall d u d', P d ->
  (forall d0 u0 k v d1 u1, In (k, v) en -> pprop_type param_props k = None -> P d0 ->
     dt_setprop d0 u0 k v = Some (d1, u1) -> P d1) ->
  configured_dt d u en = Some d' -> P d'.
Proof.
  unfold configured_dt. induction en as [|[k v] en IH]; intros d u d' Hd Hs H; simpl in H; [injection H as <-; exact Hd|].
  assert (Hs' : forall d0 u0 k0 v0 d1 u1, In (k0, v0) en -> pprop_type param_props k0 = None -> P d0 ->
                  dt_setprop d0 u0 k0 v0 = Some (d1, u1) -> P d1) by (intros; eapply Hs; [right| | |]; eassumption).
  unfold over_step in H. simpl in H. destruct (pprop_type param_props k) eqn:Ep; [exact (IH _ _ _ Hd Hs' H)|].
  destruct (dt_setprop d u k v) as [[d1 u1]|] eqn:E; [|exact (IH _ _ _ Hd Hs' H)].
  exact (IH d1 u1 d' (Hs _ _ _ _ _ _ (or_introl eq_refl) Ep Hd E) Hs' H).
Qed.
Lemma configured_dt_total d u en dflt :
  configured_dt d u en = Some (match configured_dt d u en with Some d' => d' | None => dflt end).
Proof. destruct (configured_some en (Some d, u) d eq_refl) as [d' H]. unfold configured_dt. rewrite H. reflexivity. Qed.

(* min / max / unit never influence the conversion datatype(value); the length and character-set properties do *)
Definition limit_key (k : str) : bool := str_eqb k k_min || str_eqb k k_max || str_eqb k k_unit.

Lemma limit_key_not k c : limit_key c = false -> limit_key k = true -> str_eqb k c = false.
Proof. intros Hc Hl. destruct (str_eqb k c) eqn:E; [apply str_eqb_true in E; congruence|reflexivity]. Qed.

Lemma leaf_setprop_conv d u k v d' u' : limit_key k = true -> leaf_setprop d u k v = Some (d', u') ->
  forall x, dt_call d' x = dt_call d x.
Proof.
  unfold leaf_setprop. intros Hl H x. destruct d; try discriminate.
  1-3: repeat match type of H with
            | context[if ?b then _ else _] => destruct b
            | context[match ?r with _ => _ end] => destruct r; try discriminate
            end; inversion H; subst; reflexivity.
  - rewrite (limit_key_not k k_minchars eq_refl Hl), (limit_key_not k k_maxchars eq_refl Hl),
      (limit_key_not k k_isutf8 eq_refl Hl) in H. discriminate H.
  - rewrite (limit_key_not k k_minbytes eq_refl Hl), (limit_key_not k k_maxbytes eq_refl Hl) in H. discriminate H.
Qed.

Lemma dt_setprop_conv : forall d u k v d' u', limit_key k = true -> dt_setprop d u k v = Some (d', u') ->
  forall x, conv d' x = conv d x.
Proof.
  unfold conv. induction d; intros u k v d' u' Hl H x; try (apply (leaf_setprop_conv _ u k v d' u' Hl H)).
  simpl in H. rewrite (limit_key_not k k_minlen eq_refl Hl), (limit_key_not k k_maxlen eq_refl Hl) in H.
  destruct (dt_setprop d u k v) as [[e' u2]|] eqn:E; [|discriminate]. inversion H; subst.
  pose proof (IHd _ _ _ _ _ Hl E) as Hc. simpl.
  destruct (array_check minlen maxlen x); [|reflexivity]. simpl. destruct (py_iter x); [|reflexivity].
  assert (forall l, map_res (dt_call e') l = map_res (dt_call d) l) as ->; [|reflexivity].
  intros l0. induction l0; simpl; [reflexivity|]. rewrite Hc, IHl0. reflexivity.
Qed.

(* the entries that override only limits and unit (besides Parameter properties); they leave the conversion as it is
   (C10_limit_overrides_keep_conversion) *)
Definition limits_only (en : entry) : bool :=
  forallb (fun kv => match pprop_type param_props (fst kv) with Some _ => true | None => limit_key (fst kv) end) en.
Lemma limits_only_app a b : limits_only (a ++ b) = limits_only a && limits_only b.
Proof. unfold limits_only. apply forallb_app. Qed.

(* no stage (cfg entry, hiding / fixExport, _handle_writes, Parameter.finish, main unit) changes these *)
Record keeps (p p' : param) : Prop := {
  keeps_name : p_name p' = p_name p;
  keeps_cmd : p_iscmd p' = p_iscmd p;
  keeps_hw : p_has_write p' = p_has_write p;
  keeps_wfunc : p_wfunc p' = p_wfunc p;
}.
Arguments keeps_name {p p'}. Arguments keeps_cmd {p p'}. Arguments keeps_hw {p p'}. Arguments keeps_wfunc {p p'}.
Lemma keeps_refl p : keeps p p.
Proof. split; reflexivity. Qed.
Lemma keeps_trans a b c : keeps a b -> keeps b c -> keeps a c.
Proof. intros [] []. split; congruence. Qed.

(* frame lemmas: an observation f of a parameter that the setters a stage uses do not see is not changed by it *)
Lemma post_frame {A} (f : param -> A) mexp p : (forall q x, f (set_export q x) = f q) -> f (post mexp p) = f p.
Proof.
  intros Hf. unfold post, fix_export. destruct mexp; [destruct (p_export p); rewrite ?Hf; reflexivity|apply Hf].
Qed.
Lemma post_export mexp p : p_export (post mexp p) <> XTrue.
Proof.
  unfold post, fix_export. destruct mexp; [destruct (p_export p) eqn:E; try rewrite E|]; discriminate.
Qed.
Lemma post_unit mexp p : p_unit (post mexp p) = p_unit p.
Proof. apply post_frame. reflexivity. Qed.
Lemma handle_writes_frame {A} (f : param -> A) {p q es w} : handle_writes p = (q, es, w) ->
  (forall q d v u, f (set_dv q d v u) = f q) -> f q = f p.
Proof.
  unfold handle_writes. intros H Hf. destruct (p_dt p); [|injection H as <- _ _; reflexivity].
  destruct (p_value p); [injection H as <- _ _; apply Hf|]. destruct (p_default p); injection H as <- _ _; apply Hf.
Qed.
Lemma finish_param_frame {A} (f : param -> A) p y : finish_param p = Some y ->
  (forall q x, f (set_export q x) = f q) -> (forall q d v u, f (set_dv q d v u) = f q) ->
  (forall q x, f (set_readonly q x) = f q) -> (forall q x, f (set_constant q x) = f q) -> f y = f p.
Proof.
  unfold finish_param. destruct (p_iscmd p); [intros H; injection H as <-; reflexivity|].
  destruct (finish_constant p) as [[cst ro]|]; [|discriminate].
  destruct (refit (p_dt p) (p_default p)); [|discriminate]. destruct (refit (p_dt p) (p_value p)); [|discriminate].
  intros H He Hd Hr Hc. injection H as <-. rewrite Hc, Hr, Hd, He. reflexivity.
Qed.
Lemma apply_main_frame {A} (f : param -> A) main p :
  (forall q d u, p_dt q = Some d -> f (set_dt q d u) = f q) -> f (apply_main main p) = f p.
Proof.
  intros Hf. unfold apply_main. destruct main; [reflexivity|]. destruct (p_dt p) eqn:E; [|reflexivity].
  destruct (negb (p_iscmd p) && carries_unit d && has_dollar (p_unit p)); [apply Hf; exact E|reflexivity].
Qed.
(* f is blind to every setter the stages after the cfg entry use *)
Definition static {A} (f : param -> A) : Prop :=
  (forall q x, f (set_export q x) = f q) /\ (forall q d v u, f (set_dv q d v u) = f q) /\
  (forall q x, f (set_readonly q x) = f q) /\ (forall q x, f (set_constant q x) = f q) /\
  (forall q d u, p_dt q = Some d -> f (set_dt q d u) = f q).
Lemma static_name : static p_name. Proof. repeat split. Qed.
Lemma static_cmd : static p_iscmd. Proof. repeat split. Qed.
Lemma static_descr : static p_descr. Proof. repeat split. Qed.
Lemma static_wfunc : static p_wfunc. Proof. repeat split. Qed.
Lemma static_dt : static p_dt. Proof. repeat split. intros q d u H. symmetry. exact H. Qed.
Lemma tail_frame {A} (f : param -> A) {mexp p1 q es w y} main : static f ->
  handle_writes (post mexp p1) = (q, es, w) -> finish_param q = Some y -> f (apply_main main y) = f p1.
Proof.
  intros [He [Hd [Hr [Hc Hu]]]] Hh Hf.
  rewrite (apply_main_frame f main y Hu), (finish_param_frame f q y Hf He Hd Hr Hc), (handle_writes_frame f Hh Hd).
  apply post_frame. exact He.
Qed.
Lemma writes_frame {A} (f : param -> A) {mexp p1 q es w} : static f -> handle_writes (post mexp p1) = (q, es, w) -> f q = f p1.
Proof. intros [He [Hd _]] Hh. rewrite (handle_writes_frame f Hh Hd). apply post_frame. exact He. Qed.

Lemma finish_param_name p y : finish_param p = Some y -> p_name y = p_name p.
Proof. intros H. apply (finish_param_frame p_name p y H); reflexivity. Qed.

(* a branch of setProperty that returns PGo of an explicit setter: every clause holds by computation *)
Local Ltac fin := intros H; injection H as <-; repeat split; reflexivity.
(* value, default and constant are stored as given (None for Python's None), every other Parameter property leaves them *)
Lemma param_setprop_inv p k v p' : param_setprop p k v = PGo p' ->
  keeps p p' /\ dtu p' = over_step (dtu p) (k, v) /\
  p_value p' = (if str_eqb k k_value then nn v else p_value p) /\
  p_constant p' = (if str_eqb k k_constant then nn v else p_constant p).
Proof.
  unfold param_setprop, over_step, dtu. cbn [fst snd]. destruct (pprop_type param_props k) as [t|] eqn:Ep.
  - destruct (str_eqb k k_value) eqn:Ev; [apply str_eqb_true in Ev; subst k; fin|].
    destruct (str_eqb k k_default) eqn:Ed; [apply str_eqb_true in Ed; subst k; fin|].
    destruct (str_eqb k k_constant); [fin|].
    destruct (mp_validate t v) as [x|]; [|discriminate].
    destruct (str_eqb k k_readonly); [destruct x; try discriminate; fin|].
    destruct (str_eqb k k_needscfg); [destruct x; try discriminate; fin|].
    destruct (str_eqb k k_visibility); [destruct x; try discriminate; fin|].
    destruct (str_eqb k k_group); [destruct x; try discriminate; fin|].
    destruct (str_eqb k k_description); [destruct x; try discriminate; fin|].
    destruct (str_eqb k k_export); [destruct x; try discriminate; fin|]. discriminate.
  - assert (Ev : str_eqb k k_value = false /\ str_eqb k k_constant = false).
    { split; match goal with |- ?b = false => destruct b eqn:E end; try reflexivity;
        apply str_eqb_true in E; subst k; vm_compute in Ep; discriminate Ep. }
    destruct Ev as [-> ->]. destruct (p_dt p) as [d|] eqn:Ed; [|intros H; injection H as <-; rewrite Ed; repeat split; reflexivity].
    destruct (dt_setprop d (p_unit p) k v) as [[d' u']|]; [fin|discriminate].
Qed.

Lemma cmd_setprop_keeps p k v p' : cmd_setprop p k v = PGo p' -> keeps p p'.
Proof.
  unfold cmd_setprop. destruct (pprop_type command_props k) as [t|]; [|discriminate].
  destruct (mp_validate t v) as [x|e]; [|destruct e; discriminate].
  destruct (str_eqb k k_visibility); [destruct x; try discriminate; fin|].
  destruct (str_eqb k k_group); [destruct x; try discriminate; fin|].
  destruct (str_eqb k k_description); [destruct x; try discriminate; fin|].
  destruct (str_eqb k k_export); [destruct x; try discriminate; fin|]. discriminate.
Qed.
Lemma prop_step_keeps p kv p' : prop_step (PGo p) kv = PGo p' -> keeps p p'.
Proof.
  destruct kv as [k v]. unfold prop_step. destruct (p_iscmd p); [apply cmd_setprop_keeps|].
  intros H. apply (param_setprop_inv _ _ _ _ H).
Qed.
Lemma prop_step_inv p k v p' : p_iscmd p = false -> prop_step (PGo p) (k, v) = PGo p' ->
  dtu p' = over_step (dtu p) (k, v) /\
  p_value p' = (if str_eqb k k_value then nn v else p_value p) /\
  p_constant p' = (if str_eqb k k_constant then nn v else p_constant p).
Proof. intros Hc. unfold prop_step. rewrite Hc. intros H. apply (param_setprop_inv _ _ _ _ H). Qed.

Lemma apply_entry_keep_cons p kv r :
  apply_entry_keep p (kv :: r) = match prop_step (PGo p) kv with PGo p' => apply_entry_keep p' r | x => (p, x) end.
Proof. reflexivity. Qed.

Lemma apply_entry_keep_keeps : forall en p pk r, apply_entry_keep p en = (pk, r) -> keeps p pk.
Proof.
  induction en as [|kv en IH]; intros p pk r H; [injection H as <- _; apply keeps_refl|].
  rewrite apply_entry_keep_cons in H. destruct (prop_step (PGo p) kv) as [| |p'] eqn:E;
    try (injection H as <- _; apply keeps_refl).
  exact (keeps_trans _ _ _ (prop_step_keeps _ _ _ E) (IH _ _ _ H)).
Qed.
Lemma apply_entry_keep_go : forall en p pk p1, apply_entry_keep p en = (pk, PGo p1) -> pk = p1.
Proof.
  induction en as [|kv en IH]; intros p pk p1 H; [injection H as <- <-; reflexivity|].
  rewrite apply_entry_keep_cons in H. destruct (prop_step (PGo p) kv); try discriminate H. exact (IH _ _ _ H).
Qed.
Lemma apply_entry_keep_app : forall pre p r,
  apply_entry_keep p (pre ++ r) =
  match apply_entry_keep p pre with (p1, PGo _) => apply_entry_keep p1 r | x => x end.
Proof.
  induction pre as [|kv pre IH]; intros p r; [reflexivity|].
  rewrite <- app_comm_cons, !apply_entry_keep_cons. destruct (prop_step (PGo p) kv); try reflexivity. apply IH.
Qed.

(* the first loop over an entry that goes through: the datatype overrides are folded in dict order ... *)
Lemma entry_dtu : forall en p p1, p_iscmd p = false -> apply_entry_keep p en = (p1, PGo p1) ->
  dtu p1 = configured (dtu p) en.
Proof.
  induction en as [|[k v] en IH]; intros p p1 Hc H; [injection H as <-; reflexivity|].
  rewrite apply_entry_keep_cons in H. destruct (prop_step (PGo p) (k, v)) as [| |p'] eqn:Es; try discriminate H.
  destruct (prop_step_inv _ _ _ _ Hc Es) as [DU _]. simpl. rewrite <- DU.
  apply IH; [rewrite (keeps_cmd (prop_step_keeps _ _ _ Es)); exact Hc|exact H].
Qed.
Lemma entry_dt en p p1 d : p_iscmd p = false -> apply_entry_keep p en = (p1, PGo p1) -> p_dt p = Some d ->
  p_dt p1 = configured_dt d (p_unit p) en.
Proof.
  intros Hc H Hd. unfold configured_dt. rewrite <- Hd. change (p_dt p, p_unit p) with (dtu p).
  rewrite <- (entry_dtu _ _ _ Hc H). reflexivity.
Qed.

(* ... and a property f that the key kf stores as given (value, constant) holds what the last item with that key gave *)
Section Stored.
  Variables (f : param -> option pyval) (kf : str).
  Hypothesis step : forall p k v p', p_iscmd p = false -> prop_step (PGo p) (k, v) = PGo p' ->
    f p' = if str_eqb k kf then nn v else f p.

  Lemma entry_untouched : forall en p p1, p_iscmd p = false -> apply_entry_keep p en = (p1, PGo p1) ->
    ~ In kf (map fst en) -> f p1 = f p.
  Proof.
    induction en as [|[k v] en IH]; intros p p1 Hc H Hn; [injection H as <-; reflexivity|].
    rewrite apply_entry_keep_cons in H. destruct (prop_step (PGo p) (k, v)) as [| |p'] eqn:Es; try discriminate H.
    rewrite (IH p' p1), (step _ _ _ _ Hc Es); [|rewrite (keeps_cmd (prop_step_keeps _ _ _ Es)); exact Hc|exact H
      |intros Hi; apply Hn; right; exact Hi].
    destruct (str_eqb k kf) eqn:E; [|reflexivity]. apply str_eqb_true in E. subst k. destruct Hn. left. reflexivity.
  Qed.
  Lemma entry_last p pre v rest p1 : p_iscmd p = false ->
    apply_entry_keep p (pre ++ (kf, v) :: rest) = (p1, PGo p1) -> ~ In kf (map fst rest) -> f p1 = nn v.
  Proof.
    intros Hc H Hn. rewrite apply_entry_keep_app in H.
    destruct (apply_entry_keep p pre) as [pp [| |pp']] eqn:H1; try discriminate H.
    pose proof (keeps_cmd (apply_entry_keep_keeps _ _ _ _ H1)) as Hcp. rewrite Hc in Hcp.
    rewrite apply_entry_keep_cons in H. destruct (prop_step (PGo pp) (kf, v)) as [| |p'] eqn:Es; try discriminate H.
    rewrite (entry_untouched _ _ _ (eq_trans (keeps_cmd (prop_step_keeps _ _ _ Es)) Hcp) H Hn), (step _ _ _ _ Hcp Es), str_eqb_refl'.
    reflexivity.
  Qed.
  Lemma entry_stored en p p1 v : p_iscmd p = false -> apply_entry_keep p en = (p1, PGo p1) ->
    NoDup (map fst en) -> In (kf, v) en -> f p1 = nn v.
  Proof.
    intros Hc H ND Hin. destruct (in_split _ _ Hin) as [pre [rest ->]]. apply (entry_last p pre v rest p1 Hc H).
    rewrite map_app in ND. apply NoDup_remove_2 in ND. intros Hi. apply ND. apply in_or_app. right. exact Hi.
  Qed.
  Lemma entry_source : forall en p p1 v, p_iscmd p = false -> apply_entry_keep p en = (p1, PGo p1) ->
    f p1 = Some v -> In (kf, v) en \/ f p = Some v.
  Proof.
    induction en as [|[k x] en IH]; intros p p1 v Hc H Hv; [injection H as <-; right; exact Hv|].
    rewrite apply_entry_keep_cons in H. destruct (prop_step (PGo p) (k, x)) as [| |p'] eqn:Es; try discriminate H.
    destruct (IH p' p1 v) as [Hi|Hp];
      [rewrite (keeps_cmd (prop_step_keeps _ _ _ Es)); exact Hc|exact H|exact Hv|left; right; exact Hi|].
    rewrite (step _ _ _ _ Hc Es) in Hp. destruct (str_eqb k kf) eqn:E; [|right; exact Hp].
    apply str_eqb_true in E. subst k. left. left. destruct x; inversion Hp; subst; reflexivity.
  Qed.
End Stored.
(* outside the section each of these takes f, kf and the proof of `step` first; step_value and step_constant are the two
   instances used *)

Lemma step_value p k v p' : p_iscmd p = false -> prop_step (PGo p) (k, v) = PGo p' ->
  p_value p' = if str_eqb k k_value then nn v else p_value p.
Proof. intros Hc H. apply (prop_step_inv _ _ _ _ Hc H). Qed.
Lemma step_constant p k v p' : p_iscmd p = false -> prop_step (PGo p) (k, v) = PGo p' ->
  p_constant p' = if str_eqb k k_constant then nn v else p_constant p.
Proof. intros Hc H. apply (prop_step_inv _ _ _ _ Hc H). Qed.

Lemma entry_value p pre v rest p1 : p_iscmd p = false ->
  apply_entry_keep p (pre ++ (k_value, v) :: rest) = (p1, PGo p1) -> ~ In k_value (map fst rest) -> p_value p1 = nn v.
Proof. exact (entry_last p_value k_value step_value p pre v rest p1). Qed.

(* the second loop of the try block: when it goes through, every value / default / constant of the entry is a value of the
   datatype the parameter has THEN (all properties applied) *)
Lemma check_loop_go p en : forall ks p', check_loop p en ks = PGo p' -> p' = p.
Proof.
  induction ks as [|k ks IH]; intros p' H; simpl in H; [inversion H; reflexivity|].
  destruct (assoc_str k en); [|apply IH; exact H]. destruct (p_iscmd p); [discriminate|].
  destruct (p_dt p); [|apply IH; exact H]. destruct (conv d p0) as [c|e]; [apply IH; exact H|].
  destruct (is_bad_value e); discriminate.
Qed.
Lemma check_loop_ok p en : forall ks p', check_loop p en ks = PGo p' ->
  forall k v d, In k ks -> assoc_str k en = Some v -> p_dt p = Some d -> exists c, conv d v = Ok c.
Proof.
  induction ks as [|k0 ks IH]; intros p' H k v d Hin Ha Hd; [destruct Hin|]. simpl in H.
  destruct Hin as [Hk|Hin].
  - subst k0. rewrite Ha in H. destruct (p_iscmd p); [discriminate|]. rewrite Hd in H.
    destruct (conv d v) as [c|e]; [exists c; reflexivity|]. destruct (is_bad_value e); discriminate.
  - destruct (assoc_str k0 en); [|eapply IH; eassumption]. destruct (p_iscmd p); [discriminate|].
    destruct (p_dt p); [|eapply IH; eassumption]. destruct (conv d0 p0) as [c|e]; [eapply IH; eassumption|].
    destruct (is_bad_value e); discriminate.
Qed.
Lemma check_loop_err p en : forall ks er, check_loop p en ks = PErr er -> exists k, In k ks /\ er = ErrBadValue (p_name p) k.
Proof.
  induction ks as [|k0 ks IH]; intros er H; simpl in H; [discriminate|].
  assert (R : check_loop p en ks = PErr er -> exists k, In k (k0 :: ks) /\ er = ErrBadValue (p_name p) k).
  { intros H'. destruct (IH _ H') as [k [Hk He]]. exists k. split; [right; exact Hk|exact He]. }
  destruct (assoc_str k0 en); [|apply R; exact H]. destruct (p_iscmd p); [discriminate|].
  destruct (p_dt p); [|apply R; exact H]. destruct (conv d p0) as [c|e]; [apply R; exact H|].
  destruct (is_bad_value e); [|discriminate]. inversion H. exists k0. split; [left; reflexivity|reflexivity].
Qed.
(* ... and when nothing fails it goes through *)
Lemma check_loop_pass p en d : p_iscmd p = false -> p_dt p = Some d -> forall ks,
  (forall k v, In k ks -> assoc_str k en = Some v -> exists c, conv d v = Ok c) -> check_loop p en ks = PGo p.
Proof.
  intros Hc Hd. induction ks as [|k ks IH]; intros H; simpl; [reflexivity|].
  destruct (assoc_str k en) as [v|] eqn:Ea; [|apply IH; intros; eapply H; [right|]; eassumption].
  rewrite Hc, Hd. destruct (H k v (or_introl eq_refl) Ea) as [c Hcv]. rewrite Hcv.
  apply IH. intros; eapply H; [right|]; eassumption.
Qed.
Lemma checked_order : checked_value_props = [k_value; k_default; k_constant].
Proof. vm_compute. reflexivity. Qed.
Lemma mem_checked_in k : mem_str k checked_value_props = true -> In k checked_value_props.
Proof. apply mem_str_In. Qed.

Lemma apply_entry_go p en pk p1 : apply_entry p en = (pk, PGo p1) ->
  pk = p1 /\ apply_entry_keep p en = (p1, PGo p1) /\ check_loop p1 en checked_value_props = PGo p1.
Proof.
  unfold apply_entry. destruct (apply_entry_keep p en) as [q [| |q']] eqn:E; try discriminate.
  apply apply_entry_keep_go in E as ->. intros H. apply pair_equal_spec in H. destruct H as [<- B].
  pose proof (check_loop_go _ _ _ _ B) as ->. auto.
Qed.
Lemma apply_entry_keeps p en pk r : apply_entry p en = (pk, r) -> keeps p pk.
Proof.
  unfold apply_entry. destruct (apply_entry_keep p en) as [q r0] eqn:E. apply apply_entry_keep_keeps in E.
  destruct r0; intros H; injection H as <- _; exact E.
Qed.

(* the part of the step of one accessible after its cfg entry, on the parameter pk the entry left and the errors ers
   it raised: hiding and fixExport, _handle_writes for a parameter, the name-map entry *)
Definition acc_of (mexp : bool) (pk : param) (ers : list err) : accres :=
  let q := post mexp pk in
  if p_iscmd q then {| a_param := q; a_errs := ers; a_write := None; a_name := name_of q |}
  else let '(p2, es, w) := handle_writes q in {| a_param := p2; a_errs := ers ++ es; a_write := w; a_name := name_of q |}.

Lemma acc_step_eq mexp p e : acc_step mexp p e =
  match e with
  | Some (CRaw _) => None
  | Some (CDict en) => match apply_entry p en with
                       | (_, PCrash) => None
                       | (pk, PErr er) => Some (acc_of mexp pk [er])
                       | (_, PGo p1) => Some (acc_of mexp p1 [])
                       end
  | None => Some (acc_of mexp p [])
  end.
Proof.
  unfold acc_step, acc_of. destruct e as [[v|en]|]; [reflexivity|destruct (apply_entry p en) as [pk [|er|p1]]; [reflexivity| |]|];
    cbv zeta; match goal with |- context [p_iscmd ?q] => destruct (p_iscmd q); [reflexivity|] end;
    match goal with |- context [handle_writes ?q] => destruct (handle_writes q) as [[p2 es] w]; reflexivity end.
Qed.

Lemma acc_of_frame {A} (f : param -> A) mexp pk ers :
  (forall q x, f (set_export q x) = f q) -> (forall q d v u, f (set_dv q d v u) = f q) ->
  f (a_param (acc_of mexp pk ers)) = f pk.
Proof.
  intros He Hd. rewrite <- (post_frame f mexp pk He). unfold acc_of. cbv zeta.
  destruct (p_iscmd (post mexp pk)); [reflexivity|].
  destruct (handle_writes (post mexp pk)) as [[p2 es] w] eqn:E. exact (handle_writes_frame f E Hd).
Qed.
(* the name-map entry is the export name the parameter carries *)
Lemma acc_of_name mexp pk ers : let a := acc_of mexp pk ers in a_name a = name_of (a_param a) /\ p_export (a_param a) <> XTrue.
Proof.
  pose proof (post_export mexp pk) as NX. unfold acc_of. cbv zeta. destruct (p_iscmd (post mexp pk)); [auto|].
  destruct (handle_writes (post mexp pk)) as [[p2 es] w] eqn:E. cbn [a_name a_param]. unfold name_of.
  rewrite (handle_writes_frame p_export E), (handle_writes_frame p_name E) by reflexivity. auto.
Qed.
Lemma acc_of_errs mexp pk ers e : In e ers -> In e (a_errs (acc_of mexp pk ers)).
Proof.
  intros H. unfold acc_of. cbv zeta. destruct (p_iscmd (post mexp pk)); [exact H|].
  destruct (handle_writes (post mexp pk)) as [[p2 es] w]. apply in_or_app. left. exact H.
Qed.
Lemma acc_of_cmd mexp pk ers : p_iscmd pk = true -> a_write (acc_of mexp pk ers) = None.
Proof. intros Hc. unfold acc_of. cbv zeta. rewrite (post_frame p_iscmd), Hc; reflexivity. Qed.
Lemma acc_of_ok mexp pk ers : p_iscmd pk = false -> a_errs (acc_of mexp pk ers) = [] ->
  ers = [] /\ handle_writes (post mexp pk) = (a_param (acc_of mexp pk ers), [], a_write (acc_of mexp pk ers)).
Proof.
  intros Hc. unfold acc_of. cbv zeta. rewrite (post_frame p_iscmd), Hc by reflexivity.
  destruct (handle_writes (post mexp pk)) as [[p2 es] w]. cbn [a_param a_errs a_write]. intros H.
  apply app_eq_nil in H. destruct H as [-> ->]. auto.
Qed.

(* the step of a parameter that carries a value v and raised no error before *)
Lemma acc_of_value mexp pk v d : p_iscmd pk = false -> p_dt pk = Some d -> p_value pk = Some v ->
  a_errs (acc_of mexp pk []) = [] /\
  p_value (a_param (acc_of mexp pk [])) = Some (match conv d v with Ok c => c | Err _ => v end) /\
  a_write (acc_of mexp pk []) = (if p_has_write pk then Some v else None).
Proof.
  intros Hc Hd Hv. unfold acc_of. cbv zeta. rewrite (post_frame p_iscmd), Hc by reflexivity. unfold handle_writes.
  rewrite (post_frame p_dt), (post_frame p_value), (post_frame p_has_write), Hd, Hv by reflexivity. repeat split.
Qed.

(* the step of one accessible: its cfg entry (result r) leaves pk, with the name and kind of p, and at most one error;
   the rest is acc_of *)
Lemma acc_step_inv mexp p e a : acc_step mexp p e = Some a ->
  exists pk ers, keeps p pk /\ a = acc_of mexp pk ers /\
    match e with
    | None => pk = p /\ ers = []
    | Some (CDict en) => exists r, apply_entry p en = (pk, r) /\
        match r with PGo p1 => p1 = pk /\ ers = [] | PErr er => ers = [er] | PCrash => False end
    | Some (CRaw _) => False
    end.
Proof.
  rewrite acc_step_eq. destruct e as [[v|en]|]; [discriminate| |].
  - destruct (apply_entry p en) as [pk r] eqn:E. pose proof (apply_entry_keeps _ _ _ _ E) as K.
    destruct r as [|er|p1]; [discriminate| |]; intros H; injection H as <-.
    + exists pk, [er]. split; [exact K|]. split; [reflexivity|]. exists (PErr er). auto.
    + destruct (apply_entry_go _ _ _ _ E) as [-> _]. exists p1, []. split; [exact K|]. split; [reflexivity|].
      exists (PGo p1). auto.
  - intros H; injection H as <-. exists p, []. split; [apply keeps_refl|auto].
Qed.

Lemma acc_step_ok mexp p e a : p_iscmd p = false -> acc_step mexp p e = Some a -> a_errs a = [] ->
  exists p1, keeps p p1 /\
    (match e with
     | Some (CDict en) => apply_entry_keep p en = (p1, PGo p1) /\ check_loop p1 en checked_value_props = PGo p1
     | None => p1 = p
     | Some (CRaw _) => False
     end) /\
    handle_writes (post mexp p1) = (a_param a, [], a_write a).
Proof.
  intros Hc H He. destruct (acc_step_inv _ _ _ _ H) as [pk [ers [K [-> S]]]].
  destruct (acc_of_ok mexp pk ers) as [-> Hh]; [rewrite (keeps_cmd K); exact Hc|exact He|].
  exists pk. split; [exact K|]. split; [|exact Hh]. destruct e as [[v|en]|]; [exact S| |exact (proj1 S)].
  destruct S as [[|er|p1] [E S]]; [destruct S|discriminate S|]. destruct S as [-> _]. apply (apply_entry_go _ _ _ _ E).
Qed.
Lemma acc_step_name mexp p e a : acc_step mexp p e = Some a -> p_name (a_param a) = p_name p.
Proof.
  intros H. destruct (acc_step_inv _ _ _ _ H) as [pk [ers [K [-> _]]]].
  rewrite acc_of_frame by reflexivity. exact (keeps_name K).
Qed.

Definition active (ps : list param) : list param := filter (fun p => negb (p_optional p)) ps.

(* phase B runs the step on the non-optional accessibles of the class, in order *)
Lemma phaseB_spec mexp c : forall ps accs, phaseB mexp ps c = Some accs ->
  Forall2 (fun p a => acc_step mexp p (assoc_str (p_name p) c) = Some a) (active ps) accs.
Proof.
  induction ps as [|p ps IH]; intros accs H; simpl in H; [injection H as <-; constructor|].
  unfold active. simpl. destruct (p_optional p); [apply IH; exact H|].
  destruct (acc_step mexp p (assoc_str (p_name p) c)) as [a|] eqn:E; [|discriminate].
  destruct (phaseB mexp ps c) as [l|]; [|discriminate]. injection H as <-. constructor; [exact E|apply IH; reflexivity].
Qed.

Lemma phaseB_in mexp c ps accs p : phaseB mexp ps c = Some accs -> In p ps -> p_optional p = false ->
  exists a, In a accs /\ acc_step mexp p (assoc_str (p_name p) c) = Some a.
Proof.
  intros H Hin Ho. apply (Forall2_in_l _ _ _ p (phaseB_spec _ _ _ _ H)). apply filter_In. rewrite Ho. auto.
Qed.
Lemma phaseB_names mexp c ps accs : phaseB mexp ps c = Some accs ->
  map (fun a => p_name (a_param a)) accs = map p_name (active ps).
Proof.
  intros H. apply (Forall2_map_eq _ p_name _ _ _ (fun p a => acc_step_name mexp p _ a) (phaseB_spec _ _ _ _ H)).
Qed.

Lemma phaseB_back mexp c ps accs a : phaseB mexp ps c = Some accs -> In a accs ->
  exists p, In p ps /\ p_optional p = false /\ acc_step mexp p (assoc_str (p_name p) c) = Some a.
Proof.
  intros H Ha. destruct (Forall2_in_r _ _ _ a (phaseB_spec _ _ _ _ H) Ha) as [p [Hp Hs]].
  apply filter_In in Hp. destruct Hp as [Hp Ho]. exists p. split; [exact Hp|]. split; [|exact Hs].
  destruct (p_optional p); [discriminate Ho|reflexivity].
Qed.
Lemma phaseB_shape mexp c ps accs : phaseB mexp ps c = Some accs ->
  forall a, In a accs -> a_name a = name_of (a_param a) /\ p_export (a_param a) <> XTrue.
Proof.
  intros H a Ha. destruct (Forall2_in_r _ _ _ a (phaseB_spec _ _ _ _ H) Ha) as [p [_ Hs]].
  destruct (acc_step_inv _ _ _ _ Hs) as [pk [ers [_ [-> _]]]]. apply acc_of_name.
Qed.

(* _handle_writes after the hiding / fixExport step, when it raises no error *)
Lemma handle_writes_ok mexp p q w : handle_writes (post mexp p) = (q, [], w) ->
  exists d, p_dt p = Some d /\ (p_needscfg p = true -> p_value p <> None) /\
    match p_value p with
    | Some v => p_value q = Some (match conv d v with Ok c => c | Err _ => v end) /\
                w = (if p_has_write p then Some v else None)
    | None => w = None
    end.
Proof.
  intros H. unfold handle_writes in H.
  rewrite (post_frame p_dt), (post_frame p_value), (post_frame p_needscfg), (post_frame p_has_write) in H by reflexivity.
  destruct (p_dt p) as [d|]; [|discriminate H]. exists d. split; [reflexivity|]. destruct (p_value p) as [v|].
  - injection H as <- <-. split; [discriminate|]. split; reflexivity.
  - destruct (p_needscfg p); [destruct (p_default (post mexp p)); discriminate H|].
    destruct (p_default (post mexp p)); injection H as _ <-; (split; [discriminate|reflexivity]).
Qed.

Lemma finish_param_value p y : p_iscmd p = false -> finish_param p = Some y -> refit (p_dt p) (p_value p) = Some (p_value y).
Proof.
  intros Hc. unfold finish_param. rewrite Hc. destruct (finish_constant p) as [[cst ro]|]; [|discriminate].
  destruct (refit (p_dt p) (p_default p)); [|discriminate]. destruct (refit (p_dt p) (p_value p)); [|discriminate].
  intros H; injection H as <-. reflexivity.
Qed.

(* from a parameter p of the class to the parameter of the created instance: p1 after the cfg entry, q after
   _handle_writes, y after Parameter.finish *)
Set Implicit Arguments.
Record stages (C : cls) (c : cfg) (i : inst) (p : param) (mv : mvals) (p1 q : param) (w : option pyval) (y : param)
  (main : str) : Prop := {
  st_keeps : keeps p p1;
  st_entry : match assoc_str (p_name p) c with
             | Some (CDict en) => apply_entry_keep p en = (p1, PGo p1) /\ check_loop p1 en checked_value_props = PGo p1
             | None => p1 = p
             | Some (CRaw _) => False
             end;
  st_writes : handle_writes (post (mexport mv) p1) = (q, [], w);
  st_finish : finish_param q = Some y;
  st_inst : In (apply_main main y) (i_params i);
  st_write : forall v, w = Some v -> In (p_name p, v) (i_write i);
}.
Unset Implicit Arguments.
Lemma created_param C c i p : mod_init C c = Created i -> In p (c_params C) -> p_optional p = false -> p_iscmd p = false ->
  exists mv p1 q w y main, stages C c i p mv p1 q w y main.
Proof.
  intros H Hin Ho Hc. destruct (created_inv _ _ _ H) as [mv [accs [ps R]]]. rewrite (cb_inst R).
  destruct (phaseB_in _ _ _ _ _ (cb_phaseB R) Hin Ho) as [a [Ha Hs]].
  destruct (acc_step_ok _ _ _ _ Hc Hs (flat_map_nil _ _ _ (cb_errs R) Ha)) as [p1 [K [He Hh]]].
  destruct (Forall2_in_l _ _ _ (a_param a) (map_opt_spec _ _ _ (cb_finish R))) as [y [Hyin Hy]]; [apply in_map; exact Ha|].
  exists mv, p1, (a_param a), (a_write a), y, (main_unit ps).
  split; [exact K|exact He|exact Hh|exact Hy|apply in_map; exact Hyin|]. intros v Hw. rewrite <- (acc_step_name _ _ _ _ Hs).
  apply in_flat_map. exists a. split; [exact Ha|]. rewrite Hw. left. reflexivity.
Qed.

(* the start value: Module._handle_writes stores datatype(value) through announceUpdate (the raw value stays when that
   fails), Parameter.finish converts once more and clears a value that does not convert *)
Definition start_value (d : dtype) (v : pyval) : option pyval :=
  match conv d (match conv d v with Ok c => c | Err _ => v end) with Ok c2 => Some c2 | Err _ => None end.

Lemma conv_ok_nn d v c : conv d v = Ok c -> nn v = Some v.
Proof. intros H. destruct v; try reflexivity. unfold conv in H. destruct d; discriminate H. Qed.

Lemma value_applied C c i p d en v :
  mod_init C c = Created i -> In p (c_params C) -> p_optional p = false -> p_iscmd p = false -> p_dt p = Some d ->
  assoc_str (p_name p) c = Some (CDict en) -> NoDup (map fst en) -> In (k_value, v) en ->
  exists p' d' c1, In p' (i_params i) /\ p_name p' = p_name p /\
    configured_dt d (p_unit p) en = Some d' /\ p_dt p' = Some d' /\ conv d' v = Ok c1 /\
    p_value p' = match conv d' c1 with Ok c2 => Some c2 | Err _ => None end /\
    (p_has_write p = true -> In (p_name p, v) (i_write i)) /\ p_wfunc p' = p_wfunc p.
Proof.
  intros H Hin Ho Hc Hd Hcfg ND Hv.
  destruct (created_param _ _ _ _ H Hin Ho Hc) as [mv [p1 [q [w [y [main S]]]]]]. pose proof (st_entry S) as He.
  rewrite Hcfg in He. destruct He as [He Ck].
  assert (Hc1 : p_iscmd p1 = false) by (rewrite (keeps_cmd (st_keeps S)); exact Hc).
  (* p1 has a datatype d1 (else _handle_writes raises); the second loop accepted v with it: c1 *)
  destruct (handle_writes_ok _ _ _ _ (st_writes S)) as [d1 [Hd1 [_ Hm]]].
  destruct (check_loop_ok _ _ _ _ Ck k_value v d1) as [c1 Hc1v];
    [rewrite checked_order; left; reflexivity|apply assoc_str_nodup; assumption|exact Hd1|].
  (* the entry left v as the value of p1, so _handle_writes stored c1 in q (Hv2) and registered the raw v (Hw2) *)
  rewrite (entry_stored p_value k_value step_value en p p1 v Hc He ND Hv),
    (conv_ok_nn _ _ _ Hc1v), Hc1v in Hm. destruct Hm as [Hv2 Hw2].
  (* Parameter.finish converts the stored c1 once more with the same datatype (Fr); the later stages keep name,
     datatype and driver method *)
  pose proof (writes_frame p_dt static_dt (st_writes S)) as Hdq. rewrite Hd1 in Hdq.
  pose proof (finish_param_value q y (eq_trans (writes_frame p_iscmd static_cmd (st_writes S)) Hc1) (st_finish S)) as Fr.
  rewrite Hdq, Hv2 in Fr. exists (apply_main main y), d1, c1. split; [exact (st_inst S)|].
  rewrite (tail_frame p_name main static_name (st_writes S) (st_finish S)), (tail_frame p_dt main static_dt (st_writes S) (st_finish S)),
    (tail_frame p_wfunc main static_wfunc (st_writes S) (st_finish S)), (apply_main_frame p_value) by reflexivity.
  split; [exact (keeps_name (st_keeps S))|]. split; [rewrite <- (entry_dt _ _ _ _ Hc He Hd); exact Hd1|]. split; [exact Hd1|].
  split; [exact Hc1v|]. split; [|split; [|exact (keeps_wfunc (st_keeps S))]].
  - unfold refit in Fr. destruct (conv d1 c1) as [c2|e]; [|destruct (is_bad_value e)]; congruence.
  - intros Hhw. apply (st_write S). rewrite Hw2, (keeps_hw (st_keeps S)), Hhw. reflexivity.
Qed.

Lemma raw_section_rejected C c i p v :
  In p (c_params C) -> p_optional p = false -> p_iscmd p = false ->
  assoc_str (p_name p) c = Some (CRaw v) -> mod_init C c <> Created i.
Proof.
  intros Hin Ho Hc Hcfg H.
  destruct (created_param _ _ _ _ H Hin Ho Hc) as [mv [p1 [q [w [y [main S]]]]]]. pose proof (st_entry S) as He.
  rewrite Hcfg in He. exact He.
Qed.

(* checkProperties of every accessible of a created module found nothing: it has a description, and its limits are not
   inverted, also not on the element type of an array *)
Lemma created_checked C c i p : mod_init C c = Created i -> In p (i_params i) -> check_param p = [].
Proof.
  intros H Hin. destruct (created_inv _ _ _ H) as [mv [accs [ps R]]]. rewrite (cb_inst R) in Hin.
  exact (flat_map_nil _ _ _ (cb_params R) Hin).
Qed.
Lemma no_inverted_limits C c i p d :
  mod_init C c = Created i -> In p (i_params i) -> p_iscmd p = false -> p_dt p = Some d -> dt_inverted d = false.
Proof.
  intros H Hin Hc Hd. pose proof (created_checked _ _ _ _ H Hin) as Hck. unfold check_param in Hck.
  destruct (p_descr p); [|discriminate]. rewrite Hc, Hd in Hck. destruct (dt_inverted d); [discriminate|reflexivity].
Qed.
Lemma created_has_description C c i p : mod_init C c = Created i -> In p (i_params i) -> p_descr p <> None.
Proof.
  intros H Hin. pose proof (created_checked _ _ _ _ H Hin) as Hck. unfold check_param in Hck.
  destruct (p_descr p); discriminate.
Qed.

Lemma writes_of_nodup accs : NoDup (map (fun a => p_name (a_param a)) accs) -> NoDup (map fst (writes_of accs)).
Proof.
  unfold writes_of. induction accs as [|a accs IH]; simpl; intros ND; [constructor|]. inversion ND as [|? ? Ha ND']; subst.
  rewrite map_app. destruct (a_write a); simpl; [|apply IH; exact ND']. constructor; [|apply IH; exact ND'].
  intros Hin. apply Ha. clear - Hin. induction accs as [|b accs IH]; simpl in *; [exact Hin|].
  rewrite map_app in Hin. apply in_app_or in Hin. destruct Hin as [Hin|Hin].
  - destruct (a_write b); simpl in Hin; [destruct Hin as [Hin|[]]; left; exact Hin|destruct Hin].
  - right. apply IH. exact Hin.
Qed.

Lemma created_write_nodup C c i : mod_init C c = Created i -> NoDup (map p_name (active (c_params C))) ->
  NoDup (map fst (i_write i)).
Proof.
  intros H ND. destruct (created_inv _ _ _ H) as [mv [accs [ps R]]]. rewrite (cb_inst R). simpl.
  apply writes_of_nodup. rewrite (phaseB_names _ _ _ _ (cb_phaseB R)). exact ND.
Qed.

(* the accessibles of the instance are the active accessibles of the class, in order *)
Lemma created_param_names C c i : mod_init C c = Created i -> map p_name (i_params i) = map p_name (active (c_params C)).
Proof.
  intros H. destruct (created_inv _ _ _ H) as [mv [accs [ps R]]]. rewrite (cb_inst R). simpl.
  rewrite map_map. rewrite <- (phaseB_names _ _ _ _ (cb_phaseB R)).
  rewrite (map_ext (fun x => p_name (apply_main (main_unit ps) x)) p_name);
    [|intros x; apply apply_main_frame; reflexivity].
  rewrite (Forall2_map_eq _ p_name p_name _ _ finish_param_name (map_opt_spec _ _ _ (cb_finish R))). apply map_map.
Qed.

Lemma find_param_nodup n : forall ps p, NoDup (map p_name ps) -> In p ps -> p_name p = n -> find_param n ps = Some p.
Proof.
  unfold find_param. induction ps as [|q ps IH]; intros p ND Hin Hn; [destruct Hin|]. simpl.
  inversion ND as [|? ? Hq' ND']; subst. destruct Hin as [Hq|Hin].
  - subst q. rewrite str_eqb_refl'. reflexivity.
  - destruct (str_eqb (p_name p) (p_name q)) eqn:E; [|apply IH; auto].
    apply str_eqb_true in E. exfalso. apply Hq'. rewrite <- E. apply in_map. exact Hin.
Qed.

(* a configured value of a parameter with a write wrapper: what its driver method receives during start-up *)
Lemma configured_value_written C c i p d en v :
  mod_init C c = Created i -> In p (c_params C) -> p_optional p = false -> p_iscmd p = false -> p_dt p = Some d ->
  assoc_str (p_name p) c = Some (CDict en) -> NoDup (map fst en) -> In (k_value, v) en ->
  NoDup (map p_name (active (c_params C))) -> p_has_write p = true ->
  exists p' d', find_param (p_name p) (i_params i) = Some p' /\ p_dt p' = Some d' /\
    configured_dt d (p_unit p) en = Some d' /\
    has_thread i = true /\
    writes_for (p_name p) (startup i) = match valid d' v with Ok x => if p_wfunc p then [x] else [] | Err _ => [] end.
Proof.
  intros H Hin Ho Hc Hd Hcfg NDe Hv ND Hhw.
  destruct (value_applied _ _ _ _ _ _ _ H Hin Ho Hc Hd Hcfg NDe Hv) as [p' [d1 [c1 [Hp' [Hname [Hcfgd [Hd' [_ [_ [Hwa Hw']]]]]]]]]].
  specialize (Hwa Hhw).
  pose proof (created_write_nodup _ _ _ H ND) as NW.
  assert (Hfind : find_param (p_name p) (i_params i) = Some p').
  { apply find_param_nodup; [rewrite (created_param_names _ _ _ H); exact ND|exact Hp'|exact Hname]. }
  assert (Ht : has_thread i = true).
  { unfold has_thread. destruct (i_write i); [destruct Hwa|]. apply orb_true_r. }
  exists p', d1. split; [exact Hfind|]. split; [exact Hd'|]. split; [exact Hcfgd|]. split; [exact Ht|].
  rewrite (startup_writes _ _ NW), Ht, (assoc_str_nodup _ _ _ NW Hwa). unfold handed.
  rewrite Hfind, Hd', Hw'. reflexivity.
Qed.

(* a rejected module: its list is what was collected while the configuration was applied or, only when that is nothing,
   what the consistency checks found *)
Lemma rejected_inv C c es : mod_init C c = Rejected es ->
  exists mv esA accs ps, phaseA C c = Some (mv, esA) /\ phaseB (mexport mv) (c_params C) c = Some accs /\
    map_opt finish_param (map a_param accs) = Some ps /\
    es = match first_errs C c esA accs with
         | [] => check_module C mv ++ flat_map check_param (map (apply_main (main_unit ps)) ps)
         | l => l
         end.
Proof.
  unfold mod_init. destruct (phaseA C c) as [[mv esA]|] eqn:EA; [|discriminate].
  destruct (phaseB (mexport mv) (c_params C) c) as [accs|] eqn:EB; [|discriminate].
  destruct (map_opt finish_param (map a_param accs)) as [ps|] eqn:EF; [|discriminate].
  fold (first_errs C c esA accs). cbv zeta. intros H. exists mv, esA, accs, ps. split; [reflexivity|split; [exact EB|split; [exact EF|]]].
  destruct (first_errs C c esA accs); [|inversion H; reflexivity].
  destruct (check_module C mv ++ flat_map check_param (map (apply_main (main_unit ps)) ps)); [discriminate|].
  inversion H. reflexivity.
Qed.
Lemma in_or_else {A} (l d : list A) e : In e l -> In e (match l with [] => d | x :: r => x :: r end).
Proof. destruct l; [intros []|auto]. Qed.

(* the step of every accessible of a rejected module went through, and its errors are in the list *)
Lemma rejected_step C c es p : mod_init C c = Rejected es -> In p (c_params C) -> p_optional p = false ->
  exists mv a, acc_step (mexport mv) p (assoc_str (p_name p) c) = Some a /\ forall e, In e (a_errs a) -> In e es.
Proof.
  intros H Hin Ho. destruct (rejected_inv _ _ _ H) as [mv [esA [accs [ps [_ [EB [_ ->]]]]]]].
  destruct (phaseB_in _ _ _ _ _ EB Hin Ho) as [a [Ha Hs]]. exists mv, a. split; [exact Hs|]. intros e He. apply (in_or_else (first_errs C c esA accs)).
  unfold first_errs. apply in_or_app. right. apply in_or_app. left. apply in_or_app. left.
  apply in_flat_map. exists a. split; assumption.
Qed.

(* a Param entry whose properties all apply and whose value / default / constant is no value of the final datatype: the
   first of the three (in the fixed order of the second loop) that fails is named *)
Lemma check_error_listed C c es p en p1 er : mod_init C c = Rejected es ->
  In p (c_params C) -> p_optional p = false -> p_iscmd p = false ->
  assoc_str (p_name p) c = Some (CDict en) -> apply_entry_keep p en = (p1, PGo p1) ->
  check_loop p1 en checked_value_props = PErr er -> In er es.
Proof.
  intros H Hin Ho Hc Hcfg Hpre Hck.
  destruct (rejected_step _ _ _ _ H Hin Ho) as [mv [a [Hs Hes]]]. apply Hes.
  rewrite Hcfg, acc_step_eq in Hs. unfold apply_entry in Hs. rewrite Hpre, Hck in Hs. injection Hs as <-.
  apply acc_of_errs. left. reflexivity.
Qed.

(* the value the cfg gives a module property: a bare value (None: not given) or the `value` of a dict *)
Definition mprop_cfg_value (c : cfg) (k : str) : option pyval :=
  match assoc_str k c with
  | Some (CRaw PNone) => None
  | Some (CRaw v) => Some v
  | Some (CDict e) => assoc_str k_value e
  | None => None
  end.

(* one step of the module properties, by the value the cfg gives the property *)
Lemma mprop_step_eq c mv es sp : mprop_step c (Some (mv, es)) sp =
  match assoc_str (mp_name sp) c with
  | None => Some (mv, es)
  | Some cv =>
      match mprop_cfg_value c (mp_name sp) with
      | Some v => match mp_validate (mp_type sp) v with
                  | Ok x => Some (dict_set (mp_name sp) x mv, es)
                  | Err e => if is_bad_value e then Some (mv, es ++ [ErrModProp (mp_name sp)]) else None
                  end
      | None => match cv with CRaw _ => Some (mv, es) | CDict _ => None end
      end
  end.
Proof.
  unfold mprop_step, mprop_cfg_value. destruct (assoc_str (mp_name sp) c) as [[v|en]|]; [destruct v; reflexivity| |reflexivity].
  destruct (assoc_str k_value en); reflexivity.
Qed.

Lemma mprop_step_inv c acc a mv1 es1 : mprop_step c acc a = Some (mv1, es1) ->
  exists mv0 es0, acc = Some (mv0, es0) /\ incl es0 es1 /\
    forall v e, mprop_cfg_value c (mp_name a) = Some v -> mp_validate (mp_type a) v = Err e -> is_bad_value e = true ->
                In (ErrModProp (mp_name a)) es1.
Proof.
  destruct acc as [[mv0 es0]|]; [|discriminate]. rewrite mprop_step_eq. intros H. exists mv0, es0. split; [reflexivity|].
  destruct (mprop_cfg_value c (mp_name a)) as [v|] eqn:Ev.
  - destruct (assoc_str (mp_name a) c) as [cv|] eqn:Ea; [|unfold mprop_cfg_value in Ev; rewrite Ea in Ev; discriminate Ev].
    destruct (mp_validate (mp_type a) v) as [x|e0] eqn:E.
    + injection H as _ <-. split; [apply incl_refl|]. intros v0 e Hv. injection Hv as <-. congruence.
    + destruct (is_bad_value e0); [|discriminate]. injection H as _ <-. split; [apply incl_appl; apply incl_refl|].
      intros _ _ _ _ _. apply in_or_app. right. left. reflexivity.
  - split; [|discriminate]. destruct (assoc_str (mp_name a) c) as [[v|en]|]; try discriminate; injection H as _ <-; apply incl_refl.
Qed.

Lemma phaseA_fold c : forall l acc mv es, fold_left (mprop_step c) l acc = Some (mv, es) ->
  exists mv0 es0, acc = Some (mv0, es0) /\ incl es0 es /\
    forall sp v e, In sp l -> mprop_cfg_value c (mp_name sp) = Some v -> mp_validate (mp_type sp) v = Err e ->
                   is_bad_value e = true -> In (ErrModProp (mp_name sp)) es.
Proof.
  induction l as [|a l IH]; intros acc mv es H; simpl in H.
  - exists mv, es. split; [exact H|split; [apply incl_refl|intros ? ? ? []]].
  - destruct (IH _ _ _ H) as [mv1 [es1 [H1 [I1 F1]]]].
    destruct (mprop_step_inv _ _ _ _ _ H1) as [mv0 [es0 [H0 [I0 F0]]]].
    exists mv0, es0. split; [exact H0|split; [eapply incl_tran; eassumption|]].
    intros sp v e [Hs|Hs] Hv He Hb; [subst sp; apply I1; eapply F0; eassumption|eapply F1; eassumption].
Qed.

Lemma dup_errs_nodup : forall l seen, dup_errs seen l = [] ->
  NoDup (map fst (names_of l)) /\ forall x, In x (map fst (names_of l)) -> ~ In x seen.
Proof.
  unfold names_of. induction l as [|a l IH]; intros seen H; simpl in *.
  - split; [constructor|intros x []].
  - destruct (a_name a) as [[x n]|]; simpl.
    + apply app_eq_nil in H. destruct H as [H1 H2]. destruct (IH _ H2) as [ND Hs].
      destruct (mem_str x seen) eqn:E; [discriminate|]. split.
      * constructor; [|exact ND]. intros Hin. apply (Hs x Hin). left. reflexivity.
      * intros y [Hy|Hy]; [subst; intros Hin; apply mem_str_In in Hin; rewrite Hin in E; discriminate|].
        intros Hin. apply (Hs y Hy). right. exact Hin.
    + apply IH. exact H.
Qed.

Lemma finish_param_export p y : p_export p <> XTrue -> finish_param p = Some y -> p_export y = p_export p.
Proof.
  intros NX. unfold finish_param. destruct (p_iscmd p); [intros H; inversion H; auto|].
  destruct (finish_constant p) as [[cst ro]|]; [|discriminate].
  destruct (refit (p_dt p) (p_default p)); [|discriminate]. destruct (refit (p_dt p) (p_value p)); [|discriminate].
  intros H; inversion H; subst; simpl. destruct (p_export p); try contradiction; auto.
Qed.

(* the dict a Param(v, kw) builds: the keyword overrides in their order, `value` last *)
Lemma param_dict_some v kw : assoc_str k_value kw = None -> param_dict (Some v) kw = kw ++ [(k_value, v)].
Proof.
  unfold param_dict. induction kw as [|[k' x] l IH]; simpl; intros H; [reflexivity|].
  destruct (str_eqb k_value k'); [discriminate|]. rewrite (IH H). reflexivity.
Qed.

Lemma NoDup_app_last {A} (l : list A) x : NoDup l -> ~ In x l -> NoDup (l ++ [x]).
Proof.
  induction l as [|a l IH]; simpl; intros ND Hn; [constructor; [intros []|constructor]|].
  inversion ND as [|? ? Ha ND']; subst. constructor.
  - intros Hi. apply in_app_or in Hi. destruct Hi as [Hi|[Hi|[]]]; [exact (Ha Hi)|subst; apply Hn; left; reflexivity].
  - apply IH; [exact ND'|intros Hi; apply Hn; right; exact Hi].
Qed.
Lemma value_ptype : exists t, pprop_type param_props k_value = Some t.
Proof. vm_compute. eexists. reflexivity. Qed.
Lemma value_is_checked : mem_str k_value checked_value_props = true.
Proof. vm_compute. reflexivity. Qed.

Lemma configured_dt_value d u kw v : configured_dt d u (kw ++ [(k_value, v)]) = configured_dt d u kw.
Proof.
  unfold configured_dt, configured. rewrite fold_left_app. cbn [fold_left]. unfold over_step at 1. cbn [fst].
  destruct value_ptype as [t ->]. reflexivity.
Qed.

Lemma value_step p1 v : p_iscmd p1 = false -> prop_step (PGo p1) (k_value, v) = PGo (set_value p1 (nn v)).
Proof.
  intros Hc. unfold prop_step. rewrite Hc. unfold param_setprop.
  destruct value_ptype as [t Ht]. rewrite Ht, str_eqb_refl'. reflexivity.
Qed.

Lemma assoc_app_last {A} k (v : A) : forall l, assoc_str k l = None -> assoc_str k (l ++ [(k, v)]) = Some v.
Proof.
  induction l as [|[k' x] l IH]; simpl; intros H; [rewrite str_eqb_refl'; reflexivity|].
  destruct (str_eqb k k'); [discriminate|]. apply IH. exact H.
Qed.
Lemma assoc_app_other {A} k k2 (v : A) : forall l, str_eqb k k2 = false -> assoc_str k (l ++ [(k2, v)]) = assoc_str k l.
Proof.
  induction l as [|[k' x] l IH]; simpl; intros H; [rewrite H; reflexivity|].
  destruct (str_eqb k k'); [reflexivity|]. apply IH. exact H.
Qed.
