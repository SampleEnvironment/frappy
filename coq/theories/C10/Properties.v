(* C10 - the property theorems, over the lemmas about the model in Lemmas.v / LemmasConst.v / Refuted.v.
   C ranges over every class descriptor, c over every module configuration (cfg dict), fs over every list of config
   files.  mod_init is the model of Module.__init__, node_run of load_config + create_modules, startup of the part of the
   poll thread before the start callback. *)
From Coq Require Import String.
From Coq Require Import ZArith NArith Bool List Permutation.
Import ListNotations.
Local Open Scope list_scope.
Require Import FV.Base.Util FV.Base.F64 FV.Base.PyVal FV.C01.Model FV.C01.Lemmas FV.Gen.C10 FV.C10.Model FV.C10.Lemmas
  FV.C10.LemmasConst FV.C10.Refuted.

(* obligations on the facts regenerated from /repo (Gen/C10.v) *)
Theorem C10_source_facts :
  add_accessible_catches_exactly_key_and_badvalue = true /\ param_setproperty_wraps_badvalue = true /\
  checks_only_without_errors_and_raise = true /\ unknown_names_reported = true /\
  module_props_popped_and_badvalue_collected = true /\ writedict_only_with_write_method = true /\
  needscfg_and_uninit_marker = true /\ writes_before_first_polls = true /\
  write_init_fetches_value_at_time_of_use = true /\
  minmax_check_present = true /\ mandatory_check_present = true /\ numeric_datatypes_check_properties = true /\
  array_check_descends_into_members = true /\ name_map_filled_after_cfg = true /\ all_modules_initialised = true /\
  registers_only_created = true /\
  exit_on_errors = true /\ merge_first_wins_and_tags = true /\ mod_wraps_bare_values = true /\
  checked_value_props = [k_value; k_default; k_constant] /\ properties_applied_before_value_checks = true /\
  map mp_name base_mprops = map s_ ["export"; "group"; "description"; "meaning"; "visibility"; "implementation";
    "interface_classes"; "features"; "pollinterval"; "slowinterval"; "omit_unchanged_within"; "original_id"]%string /\
  map (pprop_type module_props) [k_export; k_group; k_description; k_visibility; k_original_id] =
    [Some MBool; Some MString; Some MText; Some MVis; Some MNoneOrString] /\
  map (pprop_type param_props) [k_readonly; k_group; k_description; k_visibility; k_export; k_needscfg] =
    [Some MBool; Some MString; Some MText; Some MVis; Some MBoolOrString; Some MNoneOrBool] /\
  map (pprop_type param_props) [k_min; k_max; k_unit] = [None; None; None] /\
  filter mp_mandatory base_mprops = filter (fun sp => mem_str (mp_name sp) [k_description; k_implementation;
    k_interface_classes; k_features]) base_mprops /\
  unlimited = (2 ^ 64)%Z /\ modname_regex = 62 /\
  (* config.Param appends `value` AFTER the keyword overrides (param_dict); the length / character-set properties of
     the datatypes and their bounds (len_validate), `min* <= max*` also checked for them *)
  param_value_appended_after_overrides = true /\ string_isutf8_is_bool = true /\
  (* Parameter.finish converts and exports a constant unguarded and makes the parameter readonly (finish_constant) *)
  finish_converts_constant_unguarded = true /\
  length_datatypes_check_properties = true /\
  dt_length_props = [(c_string, k_minchars, 0, unlimited); (c_string, k_maxchars, 0, unlimited);
                     (c_blob, k_minbytes, 0, 16777216); (c_blob, k_maxbytes, 0, 16777216);
                     (c_array, k_minlen, 0, 16777216); (c_array, k_maxlen, 0, 16777216)]%Z /\
  map (pprop_type param_props) [k_minchars; k_maxchars; k_isutf8; k_minbytes; k_maxbytes; k_minlen; k_maxlen] =
    [None; None; None; None; None; None; None].
Proof. repeat apply conj; vm_compute; reflexivity. Qed.

(* first half of the property: a configuration that is accepted is applied faithfully *)

(* the CONFIGURED datatype of a parameter: `configured_dt d u en` is the class-level datatype d (unit u) with the datatype
   overrides among the items en of a Param dict applied in dict order (Lemmas.v: fold of datatype.setProperty over the keys
   that are no Parameter property).  Since 8b6cdcd Module._add_accessible applies ALL properties of the entry first and
   checks value, default and constant afterwards (obligations properties_applied_before_value_checks, checked_value_props):
   they are checked by the configured datatype of the WHOLE entry, wherever they stand in the dict.

   Param(v, kw) - the dict config.Param builds is `param_dict (Some v) kw` = kw ++ [(value, v)] (first clause; obligation
   param_value_appended_after_overrides; the position of `value` does not matter for the check).
   For ALL classes C, configurations c, parameters p, values v and keyword lists kw (a dict: distinct keys, `value` is the
   positional parameter of Param and not among them):
   - the module is created only if v is a value of the configured datatype dcfg = d with ALL overrides of the same Param
     applied, the instance carries dcfg and the start value is v converted with dcfg (the code converts twice);
   - a v that dcfg does not accept rejects the configuration as a whole (no instance), and the error list names
     `<p>.value` whenever the properties themselves could be applied;
   - a v that dcfg accepts is not refused: when a configured default / constant is a value of dcfg too, the step of this
     accessible ends without error, with the converted value as start value and the raw value registered for the write
     method. *)
Theorem C10_value_checked_against_configured_datatype : forall C c p d v kw,
  In p (c_params C) -> p_optional p = false -> p_iscmd p = false -> p_dt p = Some d ->
  assoc_str k_value kw = None -> NoDup (map fst kw) ->
  assoc_str (p_name p) c = Some (CDict (param_dict (Some v) kw)) ->
  param_dict (Some v) kw = kw ++ [(k_value, v)] /\
  exists dcfg, configured_dt d (p_unit p) kw = Some dcfg /\
    (forall i, mod_init C c = Created i ->
       exists p' c1, In p' (i_params i) /\ p_name p' = p_name p /\ p_dt p' = Some dcfg /\ conv dcfg v = Ok c1 /\
         p_value p' = match conv dcfg c1 with Ok c2 => Some c2 | Err _ => None end /\
         (p_has_write p = true -> In (p_name p, v) (i_write i))) /\
    (forall e i, conv dcfg v = Err e -> mod_init C c <> Created i) /\
    (forall e es p1, conv dcfg v = Err e -> is_bad_value e = true -> apply_entry_keep p kw = (p1, PGo p1) ->
       mod_init C c = Rejected es -> In (ErrBadValue (p_name p) k_value) es) /\
    (forall c1 p1 mexp, conv dcfg v = Ok c1 -> apply_entry_keep p kw = (p1, PGo p1) ->
       (forall k v', In k [k_default; k_constant] -> assoc_str k kw = Some v' -> exists c', conv dcfg v' = Ok c') ->
       exists a, acc_step mexp p (Some (CDict (param_dict (Some v) kw))) = Some a /\ a_errs a = [] /\
         p_dt (a_param a) = Some dcfg /\ p_value (a_param a) = Some c1 /\
         a_write a = (if p_has_write p then Some v else None)).
Proof.
  intros C c p d v kw Hin Ho Hc Hd Hkw NDk Hcfg. split; [apply param_dict_some; exact Hkw|].
  rewrite (param_dict_some _ _ Hkw) in *.
  destruct (configured_some kw (Some d, p_unit p) d eq_refl) as [dcfg Hdc]. exists dcfg. split; [exact Hdc|].
  assert (NDe : NoDup (map fst (kw ++ [(k_value, v)]))).
  { rewrite map_app. simpl. apply NoDup_app_last; [exact NDk|apply assoc_none_iff; exact Hkw]. }
  assert (A1 : forall i, mod_init C c = Created i ->
       exists p' c1, In p' (i_params i) /\ p_name p' = p_name p /\ p_dt p' = Some dcfg /\ conv dcfg v = Ok c1 /\
         p_value p' = match conv dcfg c1 with Ok c2 => Some c2 | Err _ => None end /\
         (p_has_write p = true -> In (p_name p, v) (i_write i))).
  { intros i H.
    assert (Hiv : In (k_value, v) (kw ++ [(k_value, v)])) by (apply in_or_app; right; left; reflexivity).
    destruct (value_applied _ _ _ _ _ _ _ H Hin Ho Hc Hd Hcfg NDe Hiv) as [p' [d' [c1 [Hp' [Hn [Hd' [Hpd [Hc1 [Hval [Hw _]]]]]]]]]].
    rewrite configured_dt_value in Hd'. unfold configured_dt in Hd'. rewrite Hdc in Hd'. inversion Hd'; subst d'.
    exists p', c1. repeat split; assumption. }
  (* the entry with the value appended: all properties apply when the overrides do *)
  assert (PD : forall p1, apply_entry_keep p kw = (p1, PGo p1) ->
            p_iscmd p1 = false /\ p_dt p1 = Some dcfg /\ keeps p p1 /\
            apply_entry_keep p (kw ++ [(k_value, v)]) = (set_value p1 (nn v), PGo (set_value p1 (nn v)))).
  { intros p1 Hpre. pose proof (apply_entry_keep_keeps _ _ _ _ Hpre) as K.
    assert (Hcp : p_iscmd p1 = false) by (rewrite (keeps_cmd K); exact Hc).
    split; [exact Hcp|]. split; [rewrite (entry_dt _ _ _ _ Hc Hpre Hd); exact Hdc|]. split; [exact K|].
    rewrite apply_entry_keep_app, Hpre, apply_entry_keep_cons, (value_step _ _ Hcp). reflexivity. }
  split; [exact A1|]. split; [|split].
  - intros e i He H. destruct (A1 i H) as [p' [c1 [_ [_ [_ [Hc1 _]]]]]]. rewrite He in Hc1. discriminate.
  - intros e es p1 He Hb Hpre H. destruct (PD p1 Hpre) as [Hcp [Hd1 [K Happ]]].
    rewrite <- (keeps_name K). change (p_name p1) with (p_name (set_value p1 (nn v))).
    eapply check_error_listed; try eassumption.
    rewrite checked_order. simpl. rewrite (assoc_app_last _ _ _ Hkw). change (p_iscmd (set_value p1 (nn v))) with (p_iscmd p1).
    rewrite Hcp. change (p_dt (set_value p1 (nn v))) with (p_dt p1). rewrite Hd1, He, Hb. reflexivity.
  - intros c1 p1 mexp Hc1 Hpre Hdc2. destruct (PD p1 Hpre) as [Hcp [Hd1 [K Happ]]].
    rewrite (conv_ok_nn _ _ _ Hc1) in Happ.
    set (q := set_value p1 (Some v)) in *.
    assert (Hck : check_loop q (kw ++ [(k_value, v)]) checked_value_props = PGo q).
    { apply (check_loop_pass q _ dcfg Hcp Hd1). rewrite checked_order. intros k v' [Hk|Hk] Ha.
      - subst k. rewrite (assoc_app_last _ _ _ Hkw) in Ha. inversion Ha; subst v'. exists c1. exact Hc1.
      - assert (str_eqb k k_value = false) as Hne by (destruct Hk as [Hk|[Hk|[]]]; subst k; reflexivity).
        rewrite (assoc_app_other _ _ _ _ Hne) in Ha. eapply Hdc2; eassumption. }
    rewrite acc_step_eq. unfold apply_entry. rewrite Happ, Hck. exists (acc_of mexp q []). split; [reflexivity|].
    destruct (acc_of_value mexp q v dcfg Hcp Hd1 eq_refl) as [A [B D]]. rewrite Hc1 in B.
    split; [exact A|]. split; [rewrite acc_of_frame by reflexivity; exact Hd1|]. split; [exact B|].
    rewrite D. change (p_has_write q) with (p_has_write p1). rewrite (keeps_hw K). reflexivity.
Qed.

(* order independent: a `value` anywhere in a cfg entry en (a dict: distinct keys) of a created module is a value of the
   datatype configured by the WHOLE entry (d'), the instance carries d' and the start value is v converted with d' (twice:
   announceUpdate and Parameter.finish); with a write wrapper the raw value is in writeDict *)
Theorem C10_value_applied : forall C c i p d en v,
  mod_init C c = Created i -> In p (c_params C) -> p_optional p = false -> p_iscmd p = false -> p_dt p = Some d ->
  assoc_str (p_name p) c = Some (CDict en) -> NoDup (map fst en) -> In (k_value, v) en ->
  exists p' d' c1, In p' (i_params i) /\ p_name p' = p_name p /\
    configured_dt d (p_unit p) en = Some d' /\ p_dt p' = Some d' /\ conv d' v = Ok c1 /\
    p_value p' = match conv d' c1 with Ok c2 => Some c2 | Err _ => None end /\
    (p_has_write p = true -> In (p_name p, v) (i_write i)).
Proof.
  intros C c i p d en v H Hin Ho Hc Hd Hcfg ND Hv.
  destruct (value_applied _ _ _ _ _ _ _ H Hin Ho Hc Hd Hcfg ND Hv) as [p' [d' [c1 [A [B [D [E [F [G [I _]]]]]]]]]].
  exists p', d', c1. auto 10.
Qed.

(* ... which is the converted value itself whenever converting a converted value changes nothing *)
Corollary C10_value_applied_idempotent : forall C c i p d en v,
  mod_init C c = Created i -> In p (c_params C) -> p_optional p = false -> p_iscmd p = false -> p_dt p = Some d ->
  assoc_str (p_name p) c = Some (CDict en) -> NoDup (map fst en) -> In (k_value, v) en ->
  exists p' d' c1, In p' (i_params i) /\ p_name p' = p_name p /\ p_dt p' = Some d' /\ conv d' v = Ok c1 /\
    (conv d' c1 = Ok c1 -> p_value p' = Some c1).
Proof.
  intros C c i p d en v H Hin Ho Hc Hd Hcfg ND Hv.
  destruct (value_applied _ _ _ _ _ _ _ H Hin Ho Hc Hd Hcfg ND Hv) as [p' [d' [c1 [A [B [_ [E [F [G _]]]]]]]]].
  exists p', d', c1. split; [exact A|split; [exact B|split; [exact E|split; [exact F|]]]].
  intros E2. rewrite G, E2. reflexivity.
Qed.

(* overrides of limits and unit only (min / max / unit besides Parameter properties - the common case) never change the
   conversion: the instance datatype converts like the class-level datatype (not so the length and
   character-set properties: see C10_value_checked_against_configured_datatype) *)
Theorem C10_limit_overrides_keep_conversion : forall en d u d',
  limits_only en = true -> configured_dt d u en = Some d' -> forall x, conv d' x = conv d x.
Proof.
  intros en d u d' Hl. apply (configured_dt_ind (fun d0 => forall x, conv d0 x = conv d x)); [reflexivity|].
  intros d0 u0 k v d1 u1 Hin Ep Hd0 E x. rewrite <- Hd0. apply (dt_setprop_conv _ _ _ _ _ _) with (2 := E).
  unfold limits_only in Hl. rewrite forallb_forall in Hl. specialize (Hl _ Hin). simpl in Hl. rewrite Ep in Hl. exact Hl.
Qed.

(* later range checks use the datatype of the instance, which carries the configured limits.  The instance datatype of a
   configured parameter of a created module is d' = the CONFIGURED datatype of its entry, and its well-formedness (C01 wf:
   min <= max, no NaN limits) is DERIVED, not assumed: the class-level datatype d is well formed (what the constructors of
   frappy.datatypes guarantee), every accepted override of a float limit is a number (unl_float_notnan; the limits may
   be inverted in between: Param(min=20, max=30) on FloatRange(0, 10)), and a created module has no inverted limits
   (C10_inverted_limits_rejected, i.e. checkProperties).  Hence whatever `validate` of the instance datatype accepts
   lies in the value set of the configured datatype (C01 validate_sound).  Not covered: min / max overrides of a
   ScaledInteger leaf (scaled_limits_kept; the grid rounding of overridden scaled limits is C02's subject). *)
Theorem C10_later_range_checks_use_instance_limits : forall C c i p d en,
  mod_init C c = Created i -> In p (c_params C) -> p_optional p = false -> p_iscmd p = false -> p_dt p = Some d ->
  assoc_str (p_name p) c = Some (CDict en) -> wf d -> scaled_limits_kept d en ->
  exists p' d', In p' (i_params i) /\ p_name p' = p_name p /\ configured_dt d (p_unit p) en = Some d' /\
    p_dt p' = Some d' /\ wf d' /\ forall x y, valid d' x = Ok y -> in_setb d' y = true.
Proof.
  intros C c i p d en H Hin Ho Hc Hd Hcfg Hwf Hs.
  destruct (created_dt _ _ _ _ _ _ H Hin Ho Hc Hd Hcfg) as [p' [d' [A [B [D [E F]]]]]].
  assert (W : wf d').
  { apply lim_ok_wf; [eapply configured_lim; [apply wf_lim_ok; exact Hwf|exact Hs|exact E]|].
    eapply no_inverted_limits; eassumption. }
  exists p', d'. split; [exact A|]. split; [exact B|]. split; [exact E|]. split; [exact F|]. split; [exact W|].
  intros x y Hv. eapply validate_sound; [exact W|left; reflexivity|exact Hv].
Qed.

(* ... in particular what the driver method of a configured parameter receives at start-up (C10_written_exactly_once)
   lies in the value set of the configured datatype: inside the configured limits *)
Theorem C10_start_up_write_within_configured_limits : forall C c i p d en v,
  mod_init C c = Created i -> In p (c_params C) -> p_optional p = false -> p_iscmd p = false -> p_dt p = Some d ->
  assoc_str (p_name p) c = Some (CDict en) -> NoDup (map fst en) -> In (k_value, v) en ->
  NoDup (map p_name (active (c_params C))) -> p_has_write p = true -> wf d -> scaled_limits_kept d en ->
  exists d', configured_dt d (p_unit p) en = Some d' /\
    forall x, In x (writes_for (p_name p) (startup i)) -> in_setb d' x = true.
Proof.
  intros C c i p d en v H Hin Ho Hc Hd Hcfg ND Hv NDp Hw Hwf Hs.
  destruct (configured_value_written _ _ _ _ _ _ _ H Hin Ho Hc Hd Hcfg ND Hv NDp Hw) as [p1 [d1 [_ [_ [E1 [_ W]]]]]].
  destruct (C10_later_range_checks_use_instance_limits _ _ _ _ _ _ H Hin Ho Hc Hd Hcfg Hwf Hs) as [p2 [d2 [_ [_ [E2 [_ [_ V]]]]]]].
  rewrite E1 in E2. inversion E2; subst d2. exists d1. split; [exact E1|].
  intros x Hx. rewrite W in Hx. destruct (valid d1 v) as [y|] eqn:Ev; [|destruct Hx].
  destruct (p_wfunc p); [|destruct Hx]. destruct Hx as [Hx|[]]. subst x. exact (V v y Ev).
Qed.

(* a configured `constant` (Param(constant=v), anywhere in the entry) of a created module is a value of the configured
   datatype d'; the instance shows it in its transport form (Parameter.finish: datatype.export_value(datatype(v)), what
   the description carries as "constant") and the parameter is readonly *)
Theorem C10_constant_applied : forall C c i p d en v,
  mod_init C c = Created i -> In p (c_params C) -> p_optional p = false -> p_iscmd p = false -> p_dt p = Some d ->
  assoc_str (p_name p) c = Some (CDict en) -> NoDup (map fst en) -> In (k_constant, v) en ->
  exists p' d' c1 j, In p' (i_params i) /\ p_name p' = p_name p /\ configured_dt d (p_unit p) en = Some d' /\
    p_dt p' = Some d' /\ conv d' v = Ok c1 /\ dt_exp d' c1 = Some j /\ p_constant p' = Some j /\ p_readonly p' = true.
Proof.
  intros C c i p d en v H Hin Ho Hc Hd Hcfg ND Hv.
  destruct (created_param _ _ _ _ H Hin Ho Hc) as [mv [p1 [q [w [y [main S]]]]]]. pose proof (st_entry S) as He.
  rewrite Hcfg in He. destruct He as [He Ck].
  pose proof (entry_stored p_constant k_constant step_constant en p p1 v Hc He ND Hv) as Hk.
  destruct (configured_some en (Some d, p_unit p) d eq_refl) as [d' Hd'].
  assert (Hd1 : p_dt p1 = Some d') by (rewrite (entry_dt _ _ _ _ Hc He Hd); exact Hd').
  destruct (check_loop_ok _ _ _ _ Ck k_constant v d') as [c0 Hc0];
    [rewrite checked_order; right; right; left; reflexivity|apply assoc_str_nodup; assumption|exact Hd1|].
  rewrite (conv_ok_nn _ _ _ Hc0) in Hk.
  assert (Hkq : p_constant q = Some v)
    by (rewrite (handle_writes_frame p_constant (st_writes S)), (post_frame p_constant) by reflexivity; exact Hk).
  destruct (finish_param_const q y v d') as [x [j [X1 [X2 [X3 X4]]]]];
    [rewrite (writes_frame p_iscmd static_cmd (st_writes S)), (keeps_cmd (st_keeps S)); exact Hc|exact Hkq
    |rewrite (writes_frame p_dt static_dt (st_writes S)); exact Hd1|exact (st_finish S)|].
  exists (apply_main main y), d', x, j. split; [exact (st_inst S)|].
  rewrite (tail_frame p_name main static_name (st_writes S) (st_finish S)), (tail_frame p_dt main static_dt (st_writes S) (st_finish S)),
    (apply_main_frame p_constant), (apply_main_frame p_readonly) by reflexivity.
  split; [exact (keeps_name (st_keeps S))|]. split; [exact Hd'|]. split; [exact Hd1|]. auto.
Qed.

(* start-up: the poll thread first hands writeDict to the write methods, then initialReads, then the first polls; every
   write method receives its configured (validated) value exactly once - or, when the value does not validate or
   there is no driver method, never (see the refuted statement below); this holds for unexported modules as well, and
   also when write methods take over pending values of other parameters (p_takes) *)
Theorem C10_written_once_before_poll : forall C c i n,
  mod_init C c = Created i -> NoDup (map p_name (active (c_params C))) ->
  (has_thread i = true ->
   exists ws rs, startup i = ws ++ EvInit :: rs /\ forallb is_write ws = true /\ forallb is_read rs = true) /\
  writes_for n (startup i) =
    (if has_thread i
     then match assoc_str n (i_write i) with Some v => handed (i_params i) n v | None => [] end
     else []) /\
  (List.length (writes_for n (startup i)) <= 1)%nat.
Proof.
  intros C c i n H ND. pose proof (created_write_nodup _ _ _ H ND) as NW. split; [|split].
  - intros Ht. destruct (startup_shape i NW Ht) as [ws [rs [A [B [D _]]]]]. exists ws, rs. auto.
  - apply startup_writes. exact NW.
  - rewrite (startup_writes i n NW). destruct (has_thread i); [|simpl; auto].
    destruct (assoc_str n (i_write i)); [apply handed_le1|simpl; auto].
Qed.

(* exactly once, for ALL modules, configurations and take-over scripts: the hardware write calls (driver write methods
   entered) of the start-up phase all come before initialReads and the first polls, and as a multiset they are exactly:
   one call write_<n>(validated v) per writeDict entry (n, v) - `handed` is that one call, or none for a value that does
   not validate (open finding) / a parameter without driver method.  It does not matter who makes the call: the loop of
   writeInitParams or a write method of an earlier parameter that took the pending value over (p_takes, nested to any
   depth); an entry consumed that way is not written a second time.  Without poll thread there is nothing to write. *)
Theorem C10_written_exactly_once : forall C c i,
  mod_init C c = Created i -> NoDup (map p_name (active (c_params C))) ->
  (has_thread i = true ->
   exists ws rs, startup i = ws ++ EvInit :: rs /\ forallb is_write ws = true /\ forallb is_read rs = true /\
     Permutation ws (flat_map (fun nv => map (EvWrite (fst nv)) (handed (i_params i) (fst nv) (snd nv))) (i_write i)) /\
     (forall n, writes_for n ws =
                match assoc_str n (i_write i) with Some v => handed (i_params i) n v | None => [] end)) /\
  (forall n v, (List.length (handed (i_params i) n v) <= 1)%nat) /\
  (has_thread i = false -> i_write i = [] /\ startup i = []).
Proof.
  intros C c i H ND. pose proof (created_write_nodup _ _ _ H ND) as NW. split; [|split].
  - intros Ht. destruct (startup_shape i NW Ht) as [ws [rs [A [B [D [P R]]]]]]. exists ws, rs.
    split; [exact A|split; [exact B|split; [exact D|split; [exact P|]]]].
    intros n. pose proof (startup_writes i n NW) as W.
    rewrite Ht, A, R, writes_for_app, writes_for_reads, app_nil_r in W. exact W.
  - intros n v. apply handed_le1.
  - intros Ht. split; [|apply startup_none; exact Ht]. unfold has_thread in Ht. destruct (i_write i); [reflexivity|].
    rewrite orb_true_r in Ht. discriminate.
Qed.

(* ... applied to a configured value: the driver method of a parameter with a configured value receives exactly that
   value, validated by the datatype of the instance, exactly once before the first poll (nothing when it does not
   validate: open finding, or when the write wrapper has no driver method behind it) *)
Theorem C10_configured_value_written_exactly_once : forall C c i p d en v,
  mod_init C c = Created i -> In p (c_params C) -> p_optional p = false -> p_iscmd p = false -> p_dt p = Some d ->
  assoc_str (p_name p) c = Some (CDict en) -> NoDup (map fst en) -> In (k_value, v) en ->
  NoDup (map p_name (active (c_params C))) -> p_has_write p = true ->
  exists p' d', find_param (p_name p) (i_params i) = Some p' /\ p_dt p' = Some d' /\
    configured_dt d (p_unit p) en = Some d' /\
    has_thread i = true /\
    writes_for (p_name p) (startup i) = match valid d' v with Ok x => if p_wfunc p then [x] else [] | Err _ => [] end.
Proof. intros; eapply configured_value_written; eassumption. Qed.

(* writeDict = exactly the values of parameters with a write wrapper: the converse of the last clause of
   C10_value_applied - every entry is the configured value (or, when the configuration gives none, the class-level
   value) of a non-optional parameter of the class with a write wrapper, one entry per name *)
Theorem C10_writedict_only_configured_values : forall C c i,
  mod_init C c = Created i ->
  (forall n v, In (n, v) (i_write i) ->
     exists p, In p (c_params C) /\ p_optional p = false /\ p_iscmd p = false /\ p_name p = n /\ p_has_write p = true /\
       ((exists en, assoc_str n c = Some (CDict en) /\ In (k_value, v) en) \/ p_value p = Some v)) /\
  (NoDup (map p_name (active (c_params C))) -> NoDup (map fst (i_write i))).
Proof.
  intros C c i H. split; [|intros ND; exact (created_write_nodup _ _ _ H ND)]. intros n v Hin.
  (* (n, v) was registered by the step a of one parameter p of the class: not a command (its step registers nothing);
     the step raised no error, so _handle_writes registered the value p1 carried after the cfg entry, and that value
     is the `value` of the entry or the one of the class *)
  destruct (created_inv _ _ _ H) as [mv [accs [ps R]]]. rewrite (cb_inst R) in Hin.
  simpl in Hin. unfold writes_of in Hin. apply in_flat_map in Hin. destruct Hin as [a [Ha Hw]].
  destruct (a_write a) as [v0|] eqn:Ew; [|destruct Hw]. destruct Hw as [Hw|[]]. inversion Hw; subst. clear Hw.
  destruct (phaseB_back _ _ _ _ _ (cb_phaseB R) Ha) as [p [Hp [Ho Hs]]].
  destruct (p_iscmd p) eqn:Hc.
  { destruct (acc_step_inv _ _ _ _ Hs) as [pk [ers [K [-> _]]]].
    rewrite acc_of_cmd in Ew; [discriminate|rewrite (keeps_cmd K); exact Hc]. }
  destruct (acc_step_ok _ _ _ _ Hc Hs (flat_map_nil _ _ _ (cb_errs R) Ha)) as [p1 [K [He Hh]]].
  destruct (handle_writes_ok _ _ _ _ Hh) as [d1 [_ [_ Hm]]].
  destruct (p_value p1) as [v1|] eqn:Ev1; [|rewrite Ew in Hm; discriminate]. destruct Hm as [_ Hm]. rewrite Ew in Hm.
  destruct (p_has_write p1) eqn:Ehw; [|discriminate]. inversion Hm; subst v1. rewrite (keeps_hw K) in Ehw.
  exists p. rewrite (acc_step_name _ _ _ _ Hs).
  split; [exact Hp|]. split; [exact Ho|]. split; [exact Hc|]. split; [reflexivity|]. split; [exact Ehw|].
  destruct (assoc_str (p_name p) c) as [[x|en]|] eqn:Ecfg; [contradiction| |subst p1; right; exact Ev1].
  destruct He as [He _].
  destruct (entry_source p_value k_value step_value _ _ _ _ Hc He Ev1) as [Hi|Hv]; [left; exists en; auto|right; exact Hv].
Qed.

(* second half: an erroneous configuration is rejected whole - no instance *)
Theorem C10_unknown_name_rejected : forall C c k i,
  In k (map fst c) -> mem_str k (known_names C) = false -> mod_init C c <> Created i.
Proof.
  intros C c k i Hin Hk H. destruct (created_inv _ _ _ H) as [mv [accs [ps R]]].
  pose proof (unknown_names_in C c k Hin Hk) as Hu. rewrite (cb_unknown R) in Hu. destruct Hu.
Qed.

(* value / default / constant anywhere in a Param entry: when it is no value of the configured datatype d' - the class
   datatype with ALL overrides of the entry applied, whatever the order of the dict - no module is created *)
Theorem C10_wrong_type_value_rejected : forall C c i p d en k v d' e,
  In p (c_params C) -> p_optional p = false -> p_iscmd p = false -> p_dt p = Some d ->
  assoc_str (p_name p) c = Some (CDict en) -> mem_str k checked_value_props = true -> assoc_str k en = Some v ->
  configured_dt d (p_unit p) en = Some d' -> conv d' v = Err e -> mod_init C c <> Created i.
Proof.
  intros C c i p d en k v d' e Hin Ho Hc Hd Hcfg Hm Ha Hd' Hcv H.
  destruct (created_param _ _ _ _ H Hin Ho Hc) as [mv [p1 [q [w [y [main S]]]]]]. pose proof (st_entry S) as He.
  rewrite Hcfg in He. destruct He as [He Ck].
  destruct (check_loop_ok _ _ _ _ Ck k v d' (mem_checked_in _ Hm) Ha) as [c1 Hc1];
    [rewrite (entry_dt _ _ _ _ Hc He Hd); exact Hd'|congruence].
Qed.

(* ... and for a `constant` (other than None) the rejection does not even go through the collected error list:
   Parameter.finish converts the constant unguarded, the BadValueError leaves Module.__init__ - no instance, and no
   ConfigError either (the node reports "error creating <module>" only).  This is why the third clause of
   C10_error_list_names_every_collected_item can name `<p>.constant` only for Param(constant=None) *)
Theorem C10_wrong_type_constant_leaves_init : forall C c p d en v d' e,
  In p (c_params C) -> p_optional p = false -> p_iscmd p = false -> p_dt p = Some d ->
  assoc_str (p_name p) c = Some (CDict en) -> NoDup (map fst en) -> In (k_constant, v) en -> v <> PNone ->
  configured_dt d (p_unit p) en = Some d' -> conv d' v = Err e ->
  (forall i, mod_init C c <> Created i) /\ (forall es, mod_init C c <> Rejected es).
Proof.
  intros C c p d en v d' e Hin Ho Hc Hd Hcfg ND Hv Hnn Hd' Hcv. split.
  - intros i. apply (C10_wrong_type_value_rejected C c i p d en k_constant v d' e Hin Ho Hc Hd Hcfg);
      [vm_compute; reflexivity|apply assoc_str_nodup; assumption|exact Hd'|exact Hcv].
  - intros es H. destruct (rejected_inv _ _ _ H) as [mv [esA [accs [ps [EA [EB [EF _]]]]]]].
    destruct (phaseB_in _ _ _ _ _ EB Hin Ho) as [a [Ha Hs]]. rewrite Hcfg in Hs.
    destruct (Forall2_in_l _ _ _ (a_param a) (map_opt_spec _ _ _ EF)) as [y [_ Hy]]; [apply in_map; exact Ha|].
    destruct (acc_step_inv _ _ _ _ Hs) as [pk [ers [K [-> [r [E S]]]]]]. unfold apply_entry in E.
    destruct (apply_entry_keep p en) as [pk0 [|er|p1]] eqn:Epre.
    + apply pair_equal_spec in E. destruct E as [_ <-]. exact S.
    + exact (entry_noerr _ _ _ _ Hc Epre).
    + (* the first loop went through: whatever the second loop says, the step keeps the constant and finish meets it *)
      pose proof (apply_entry_keep_go _ _ _ _ Epre) as ->. apply pair_equal_spec in E. destruct E as [<- _].
      pose proof (entry_stored p_constant k_constant step_constant en p p1 v Hc Epre ND Hv) as Hk.
      assert (Hnv : nn v = Some v) by (destruct v; try reflexivity; exfalso; apply Hnn; reflexivity).
      destruct (finish_param_const (a_param (acc_of (mexport mv) p1 ers)) y v d') as [x [j [X1 _]]];
        [| | |exact Hy|congruence]; rewrite acc_of_frame by reflexivity;
        [rewrite (keeps_cmd K); exact Hc|rewrite Hk; exact Hnv|rewrite (entry_dt _ _ _ _ Hc Epre Hd); exact Hd'].
Qed.

Theorem C10_missing_required_value_rejected : forall C c i p,
  In p (c_params C) -> p_optional p = false -> p_iscmd p = false -> p_needscfg p = true -> p_value p = None ->
  assoc_str (p_name p) c = None -> mod_init C c <> Created i.
Proof.
  intros C c i p Hin Ho Hc Hn Hv Hcfg H.
  destruct (created_param _ _ _ _ H Hin Ho Hc) as [mv [p1 [q [w [y [main S]]]]]]. pose proof (st_entry S) as He.
  rewrite Hcfg in He. subst p1. destruct (handle_writes_ok _ _ _ _ (st_writes S)) as [d1 [_ [Hnc _]]]. exact (Hnc Hn Hv).
Qed.

Theorem C10_missing_mandatory_description_rejected : forall C c i p,
  In p (c_params C) -> p_optional p = false -> p_iscmd p = false -> p_descr p = None ->
  assoc_str (p_name p) c = None -> mod_init C c <> Created i.
Proof.
  intros C c i p Hin Ho Hc Hdn Hcfg H.
  destruct (created_param _ _ _ _ H Hin Ho Hc) as [mv [p1 [q [w [y [main S]]]]]]. pose proof (st_entry S) as He.
  rewrite Hcfg in He. subst p1. apply (created_has_description _ _ _ _ H (st_inst S)).
  rewrite (tail_frame p_descr main static_descr (st_writes S) (st_finish S)). exact Hdn.
Qed.

(* per-item completeness of the error list of a rejected module (the ConfigError raised by Module.__init__), for the
   items the code collects while it applies the configuration: every unknown name, every module property whose value
   does not validate, every Param entry whose properties all apply (p1, final datatype d1) and whose value / default /
   constant is no value of d1 (named by the first of the three that fails, in this fixed order: the checks stop there)
   and every missing required
   value are named together, whatever else is wrong in the same module.
   NOT per item (the full statement "every erroneous item is named" does not hold for the code, see notes): the
   consistency checks (mandatory properties, min <= max, missing description) only run when nothing was collected before
   (`if not self.errors:`), and an unknown or ill-typed parameter property leaves __init__ as ProgrammingError (outcome
   Crashed: the module is reported by name only). *)
Theorem C10_error_list_names_every_collected_item : forall C c es,
  mod_init C c = Rejected es ->
  (forall k, In k (map fst c) -> mem_str k (known_names C) = false -> exists l, In (ErrUnknown l) es /\ In k l) /\
  (forall sp v e, In sp (all_mprops C) -> mprop_cfg_value c (mp_name sp) = Some v ->
     mp_validate (mp_type sp) v = Err e -> is_bad_value e = true -> In (ErrModProp (mp_name sp)) es) /\
  (forall p en k v p1 d1 e, In p (c_params C) -> p_optional p = false -> p_iscmd p = false ->
     assoc_str (p_name p) c = Some (CDict en) -> apply_entry_keep p en = (p1, PGo p1) ->
     mem_str k checked_value_props = true -> assoc_str k en = Some v -> p_dt p1 = Some d1 -> conv d1 v = Err e ->
     exists k', mem_str k' checked_value_props = true /\ In (ErrBadValue (p_name p) k') es) /\
  (forall p d, In p (c_params C) -> p_optional p = false -> p_iscmd p = false -> p_dt p = Some d ->
     p_needscfg p = true -> p_value p = None -> assoc_str (p_name p) c = None -> In (ErrNeedsCfg (p_name p)) es).
Proof.
  intros C c es H. split; [|split; [|split]].
  { intros k Hin Hk. destruct (rejected_inv _ _ _ H) as [mv [esA [accs [ps [_ [_ [_ ->]]]]]]].
    pose proof (unknown_names_in C c k Hin Hk) as Hu.
    exists (unknown_names C c). split; [|exact Hu]. apply (in_or_else (first_errs C c esA accs)).
    unfold first_errs. apply in_or_app. right. apply in_or_app. right.
    destruct (unknown_names C c); [destruct Hu|left; reflexivity]. }
  { intros sp v e Hin Hv He Hb. destruct (rejected_inv _ _ _ H) as [mv [esA [accs [ps [EA [_ [_ ->]]]]]]].
    apply (in_or_else (first_errs C c esA accs)). unfold first_errs. apply in_or_app. left.
    unfold phaseA in EA. destruct (fold_left (mprop_step c) (all_mprops C) (Some ([], []))) as [[mv0 es0]|] eqn:E; [|discriminate].
    inversion EA; subst. destruct (phaseA_fold _ _ _ _ _ E) as [_ [_ [_ [_ F]]]]. eapply F; eassumption. }
  { intros p en k v p1 d1 e Hin Ho Hc Hcfg Hpre Hm Ha Ed1 Hcv. destruct (check_loop p1 en checked_value_props) as [|er|p2] eqn:Eck.
    - (* an exception that is no BadValueError leaves __init__: the module is not Rejected *)
      exfalso. destruct (rejected_step _ _ _ _ H Hin Ho) as [mv [a [Hs _]]].
      rewrite Hcfg, acc_step_eq in Hs. unfold apply_entry in Hs. rewrite Hpre, Eck in Hs. discriminate.
    - destruct (check_loop_err _ _ _ _ Eck) as [k' [Hk' He]]. subst er. exists k'. split; [apply mem_str_In; exact Hk'|].
      rewrite <- (keeps_name (apply_entry_keep_keeps _ _ _ _ Hpre)). eapply check_error_listed; eassumption.
    - exfalso. destruct (check_loop_ok _ _ _ _ Eck k v d1 (mem_checked_in _ Hm) Ha Ed1) as [c1 Hc1]. congruence. }
  { intros p d Hin Ho Hc Hd Hn Hv Hcfg. destruct (rejected_step _ _ _ _ H Hin Ho) as [mv [a [Hs Hes]]]. apply Hes.
    rewrite Hcfg, acc_step_eq in Hs. injection Hs as <-. unfold acc_of. cbv zeta.
    rewrite (post_frame p_iscmd), Hc by reflexivity. unfold handle_writes.
    rewrite (post_frame p_dt), (post_frame p_value), (post_frame p_needscfg), (post_frame p_name), Hd, Hv, Hn by reflexivity.
    destruct (p_default (post (mexport mv) p)); left; reflexivity. }
Qed.

(* no parameter of a created module has min > max in its datatype, also not on the element type of an array
   (ArrayOf.checkProperties descends into the element type); dt_inverted
   also covers minchars > maxchars, minbytes > maxbytes, minlen > maxlen *)
Theorem C10_inverted_limits_rejected : forall C c i p d,
  mod_init C c = Created i -> In p (i_params i) -> p_iscmd p = false -> p_dt p = Some d -> dt_inverted d = false.
Proof. intros; eapply no_inverted_limits; eassumption. Qed.

(* the export configuration is applied as a whole: requests are resolved under exactly the export names the final
   accessibles carry (the names shown in the description), every name at most once; a hidden accessible has no entry *)
Theorem C10_export_names_applied : forall C c i,
  mod_init C c = Created i ->
  NoDup (map fst (i_names i)) /\
  forall s n, In (s, n) (i_names i) <-> exists p', In p' (i_params i) /\ p_name p' = n /\ p_export p' = XName s.
Proof.
  intros C c i H. destruct (created_inv _ _ _ H) as [mv [accs [ps R]]]. rewrite (cb_inst R). simpl.
  split; [apply (dup_errs_nodup _ _ (cb_dup R))|].
  (* the name-map entry of a step is the one of the final accessible *)
  assert (T : forall a y, In a accs -> finish_param (a_param a) = Some y ->
              name_of (apply_main (main_unit ps) y) = a_name a).
  { intros a y Ha Hy. destruct (phaseB_shape _ _ _ _ (cb_phaseB R) a Ha) as [-> NX]. unfold name_of.
    rewrite (apply_main_frame p_export), (apply_main_frame p_name), (finish_param_export _ _ NX Hy),
      (finish_param_name _ _ Hy) by reflexivity. reflexivity. }
  intros s n. unfold names_of. rewrite in_flat_map. split.
  - intros [a [Ha Hn]]. destruct (Forall2_in_l _ _ _ (a_param a) (map_opt_spec _ _ _ (cb_finish R))) as [y [Hyin Hy]]; [apply in_map; exact Ha|].
    exists (apply_main (main_unit ps) y). split; [apply in_map; exact Hyin|].
    rewrite <- (T a y Ha Hy) in Hn. unfold name_of in Hn.
    destruct (p_export (apply_main (main_unit ps) y)) as [| |s']; [destruct Hn|destruct Hn|].
    destruct Hn as [Hn|[]]. inversion Hn; subst. auto.
  - intros [p' [Hin [Hn Hx]]]. apply in_map_iff in Hin. destruct Hin as [y [<- Hyin]].
    destruct (Forall2_in_r _ _ _ y (map_opt_spec _ _ _ (cb_finish R)) Hyin) as [q [Hq Hf]]. apply in_map_iff in Hq.
    destruct Hq as [a [<- Ha]].
    exists a. split; [exact Ha|]. rewrite <- (T a y Ha Hf). unfold name_of. rewrite Hx, Hn. left. reflexivity.
Qed.

(* node level: only created modules are registered, one failing module makes the node refuse to start, every failing
   module is named in the errors *)
Theorem C10_node_rejects_whole : forall classes secs,
  let rs := create_all classes secs in
  (forall n, In n (registered rs) <->
             exists s i, In (n, s) secs /\ mod_init (nth (fst s) classes dummy_cls) (snd s) = Created i) /\
  (node_starts rs = true <-> forall r, In r rs -> is_created (snd r) = true) /\
  (forall n, (exists e, In e (node_errors rs) /\ nerr_name e = n) <-> exists o, In (n, o) rs /\ is_created o = false).
Proof.
  intros classes secs rs. split; [|split].
  - intros n. rewrite registered_iff. split.
    + intros [o [Hin Hc]]. destruct (create_all_in _ _ _ _ Hin) as [s [Hs Ho]]. destruct o; try discriminate.
      exists s, i. split; [exact Hs|symmetry; exact Ho].
    + intros [s [i [Hin Hm]]]. exists (Created i). split; [|reflexivity]. unfold rs, create_all.
      apply in_map_iff. exists (n, s). simpl. rewrite Hm. split; [reflexivity|exact Hin].
  - apply node_starts_iff.
  - intros n. apply node_errors_iff.
Qed.

(* merging of several files: the sections of the first file are kept unchanged and in place; later files only add
   sections with new names, tagged with the equipment id of their file *)
Theorem C10_merge_first_file_wins : forall fs acc res,
  load_rest acc fs = Some res ->
  exists extra, res = acc ++ extra /\
    Forall (fun e => mem_str (fst e) (map fst acc) = false /\
                     exists f s, In f fs /\ snd e = tag_origin (f_eid f) s) extra.
Proof.
  induction fs as [|f fs IH]; intros acc res H; simpl in H.
  - inversion H; subst. exists []. rewrite app_nil_r. split; [reflexivity|constructor].
  - destruct (file_sections (f_mods f) []) as [o|] eqn:E; [|discriminate].
    destruct (merge_modules_prefix (f_eid f) o acc) as [ex [He Hf]]. rewrite He in H.
    apply IH in H. destruct H as [ex2 [Hr Hf2]]. exists (ex ++ ex2). rewrite Hr, app_assoc. split; [reflexivity|].
    apply Forall_app. split.
    + eapply Forall_impl; [|exact Hf]. intros e [s [_ [Ht Hm]]]. split; [exact Hm|]. exists f, s. split; [left; reflexivity|exact Ht].
    + eapply Forall_impl; [|exact Hf2]. intros e [Hm [f' [s [Hin Ht]]]]. split.
      * rewrite map_app in Hm. exact (mem_str_app_false _ _ _ Hm).
      * exists f', s. split; [right; exact Hin|exact Ht].
Qed.

(* where the code still violates the property (open finding C10/out-of-range-value-not-written) *)
Theorem C10_refuted_out_of_range_value_not_written : exists C c i, mod_init C c = Created i /\ never_handed i = true.
Proof. exact refuted_out_of_range_value_not_written. Qed.

(* non-vacuity of C10_value_checked_against_configured_datatype: Param('abcdef', maxchars=3) is rejected naming
   label.value, Param('\181m/s', isUTF8=True) is applied - the class-level StringType() alone would decide the other way *)
Example C10_demo_configured_datatype :
  match mod_init C3 [descr; (s_ "label", CDict (param_dict (Some abcdef) [(k_maxchars, PInt 3)]))] with
  | Rejected [ErrBadValue n k] => str_eqb n (s_ "label") && str_eqb k k_value
  | _ => false
  end &&
  match mod_init C3 [descr; (s_ "label", CDict (param_dict (Some (PStr [181%N; 109%N])) [(k_isutf8, PBool true)]))] with
  | Created i => match find_param (s_ "label") (i_params i) with
                 | Some p => pv_same (match p_value p with Some x => x | None => PNone end) (PStr [181%N; 109%N])
                 | None => false
                 end
  | _ => false
  end &&
  match mod_init C3 [descr; (s_ "label", CDict [(k_value, PStr [181%N; 109%N])])] with Rejected _ => true | _ => false end
  = true.
Proof. vm_compute. reflexivity. Qed.
(* non-vacuity: a configuration that is applied (value converted, limits and unit overridden, write registered and handed
   over before the first poll) *)
Definition demo_cfg : cfg :=
  [descr; (s_ "p1", CDict [(k_min, PInt 1); (k_unit, PStr (s_ "mK")); (k_value, PInt 5)])].
Example C10_demo :
  match mod_init C1 demo_cfg with
  | Created i =>
      match find_param (s_ "p1") (i_params i) with
      | Some p => pv_same (match p_value p with Some v => v | None => PNone end) (PFloat (of_Z 5))
                  && str_eqb (p_unit p) (s_ "mK")
                  && match p_dt p with Some (TFloat mn _ _ _) => fsame mn (of_Z 1) | _ => false end
      | None => false end
      && match startup i with [EvWrite _ v; EvInit] => pv_same v (PFloat (of_Z 5)) | _ => false end
  | _ => false
  end = true.
Proof. vm_compute. reflexivity. Qed.

(* non-vacuity of the take-over clause: write_p1 takes over the pending value of p3, whose write method takes over the one
   of p2; all three are configured: each driver method is entered once (p3 and p2 nested inside write_p1, in this order),
   nothing is written a second time by the loop *)
Definition C2 : cls :=
  {| c_params := [mkpt "p1" fl010 true [s_ "p3"; s_ "p2"]; mkpt "p2" fl010 true []; mkpt "p3" fl010 true [s_ "p2"]];
     c_props := []; c_enablepoll := true |}.
Definition demo_cfg2 : cfg :=
  [descr; (s_ "p1", CDict [(k_value, PInt 1)]); (s_ "p2", CDict [(k_value, PInt 2)]); (s_ "p3", CDict [(k_value, PInt 3)])].
Example C10_demo_takeover :
  match mod_init C2 demo_cfg2 with
  | Created i =>
      list_eqb str_eqb (map fst (i_write i)) [s_ "p1"; s_ "p2"; s_ "p3"]
      && match startup i with
         | [EvWrite n1 v1; EvWrite n2 v2; EvWrite n3 v3; EvInit] =>
             str_eqb n1 (s_ "p1") && str_eqb n2 (s_ "p3") && str_eqb n3 (s_ "p2")
             && pv_same v1 (PFloat (of_Z 1)) && pv_same v2 (PFloat (of_Z 3)) && pv_same v3 (PFloat (of_Z 2))
         | _ => false
         end
  | _ => false
  end = true.
Proof. vm_compute. reflexivity. Qed.

Print Assumptions C10_source_facts.
Print Assumptions C10_value_checked_against_configured_datatype.
Print Assumptions C10_value_applied.
Print Assumptions C10_value_applied_idempotent.
Print Assumptions C10_limit_overrides_keep_conversion.
Print Assumptions C10_later_range_checks_use_instance_limits.
Print Assumptions C10_start_up_write_within_configured_limits.
Print Assumptions C10_constant_applied.
Print Assumptions C10_wrong_type_constant_leaves_init.
Print Assumptions C10_written_once_before_poll.
Print Assumptions C10_written_exactly_once.
Print Assumptions C10_configured_value_written_exactly_once.
Print Assumptions C10_writedict_only_configured_values.
Print Assumptions C10_unknown_name_rejected.
Print Assumptions C10_wrong_type_value_rejected.
Print Assumptions C10_missing_required_value_rejected.
Print Assumptions C10_missing_mandatory_description_rejected.
Print Assumptions C10_error_list_names_every_collected_item.
Print Assumptions C10_inverted_limits_rejected.
Print Assumptions C10_export_names_applied.
Print Assumptions C10_node_rejects_whole.
Print Assumptions C10_merge_first_file_wins.
Print Assumptions C10_refuted_out_of_range_value_not_written.

