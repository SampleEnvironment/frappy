(* C10 - witness for the place where the code still violates the property (the model reproduces it).
   Unexported modules, inverted limits of array elements and the name map are repaired in the code (68acea7, 6fe53e9,
   8235152): the positive theorems about them are unconditional. *)
From Coq Require Import String.
From Coq Require Import ZArith NArith Bool List.
Import ListNotations.
Local Open Scope list_scope.
Require Import FV.Base.Util FV.Base.F64 FV.Base.PyVal FV.C01.Model FV.Gen.C10 FV.C10.Model FV.C10.Lemmas.

Definition fl010 : dtype := TFloat fzero (of_Z 10) fzero relres0.
Definition mkpt (name : string) (dt : dtype) (wf : bool) (takes : list str) : param :=
  {| p_name := s_ name; p_iscmd := false; p_optional := false; p_predef := false; p_dt := Some dt; p_unit := [];
     p_dtdefault := PInt 0; p_descr := Some (s_ "d"); p_readonly := false; p_needscfg := false;
     p_export := XName (95%N :: s_ name); p_visibility := 1; p_group := []; p_default := None; p_value := None;
     p_has_write := true; p_wfunc := wf; p_polled := false; p_uninit := false; p_takes := takes;
     p_constant := None |}.
Definition mkp (name : string) (dt : dtype) (wf : bool) : param := mkpt name dt wf [].
Definition C1 : cls :=
  {| c_params := [mkp "p1" fl010 true; mkp "p2" TBool false; mkp "p3" (TArray fl010 0 3) false]; c_props := [];
     c_enablepoll := true |}.
Definition descr : str * cval := (k_description, CRaw (PStr (s_ "a module"))).

(* Mod('m', C1, 'a module', p1=100) *)
Definition cfg_oor : cfg := [descr; (s_ "p1", CDict [(k_value, PInt 100)])].
Definition nilb {A} (l : list A) : bool := match l with [] => true | _ => false end.

(* a writeDict entry of a parameter with a driver write method, in a module that has a poll thread, whose value the
   write method never receives *)
Definition never_handed (i : inst) : bool :=
  has_thread i &&
  existsb (fun nv => match find_param (fst nv) (i_params i) with
                     | Some p => p_wfunc p && nilb (writes_for (fst nv) (startup i))
                     | None => false end) (i_write i).

Theorem refuted_out_of_range_value_not_written : exists C c i, mod_init C c = Created i /\ never_handed i = true.
Proof. exists C1, cfg_oor. apply created_if. vm_compute. reflexivity. Qed.

(* regression for the finding C10/default-before-datatype-override, repaired in the code by 8b6cdcd: a configured
   `default` is checked with the datatype as configured by ALL items of the same Param, whether it is written before or
   after the override that decides about it (it is not silently dropped) *)
Definition str0 : dtype := TString 0 unlimited false.
Definition C3 : cls := {| c_params := [mkp "label" str0 false]; c_props := []; c_enablepoll := true |}.
Definition abcdef : pyval := PStr (s_ "abcdef").
Definition cfg_default_first : cfg :=
  [descr; (s_ "label", CDict [(k_default, abcdef); (k_maxchars, PInt 3)])].
Definition cfg_default_last : cfg :=
  [descr; (s_ "label", CDict [(k_maxchars, PInt 3); (k_default, abcdef)])].
Definition is_default_error (o : outcome) : bool :=
  match o with Rejected [ErrBadValue n k] => str_eqb n (s_ "label") && str_eqb k k_default | _ => false end.
Example default_rejected_in_either_order :
  is_default_error (mod_init C3 cfg_default_first) && is_default_error (mod_init C3 cfg_default_last) = true.
Proof. vm_compute. reflexivity. Qed.
(* Param(default='\181m', isUTF8=True) and Param(isUTF8=True, default='\181m') are both applied *)
Definition um : pyval := PStr [181%N; 109%N].
Example utf8_default_applied_in_either_order :
  match mod_init C3 [descr; (s_ "label", CDict [(k_default, um); (k_isutf8, PBool true)])],
        mod_init C3 [descr; (s_ "label", CDict [(k_isutf8, PBool true); (k_default, um)])] with
  | Created i1, Created i2 =>
      match find_param (s_ "label") (i_params i1), find_param (s_ "label") (i_params i2) with
      | Some p1, Some p2 => pv_same (match p_value p1 with Some x => x | None => PNone end) um
                            && pv_same (match p_value p2 with Some x => x | None => PNone end) um
      | _, _ => false
      end
  | _, _ => false
  end = true.
Proof. vm_compute. reflexivity. Qed.
