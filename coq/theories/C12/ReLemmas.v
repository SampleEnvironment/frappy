(* C12 -- lemmas about ReModel.v (callbacks that register / unregister callbacks while they are dispatched) *)
From Coq Require Import List Arith ZArith NArith Bool Lia.
Import ListNotations.
Require Import FV.C12.Model FV.C12.Lemmas FV.C12.ReModel.

(* the invocations made by dispatches, oldest first when applied to a reversed log *)
Definition disp_of (l : list rinv) : list (nat * cbname * ckey * key * entry) :=
  flat_map (fun i => match i with RDisp c cn lv k e _ => [(c, cn, lv, k, e)] | _ => [] end) l.
(* how often callback c0 raised UnregisterCallback in a dispatch *)
Definition raised (c0 : nat) (l : list rinv) : nat :=
  length (filter (fun i => match i with RDisp c _ _ _ _ BUnreg => Nat.eqb c0 c | _ => false end) l).
(* how often register_callback appended c0 to the list of (cn, lv) *)
Definition added (c0 : nat) (cn : cbname) (lv : ckey) (l : list rinv) : nat :=
  length (filter (fun i => match i with
                           | RAdd c cn' lv' => cbname_eqb cn' cn && ckey_eqb lv' lv && Nat.eqb c0 c
                           | _ => false end) l).
(* how often c0 stands in a callback list *)
Definition cnt (c0 : nat) (l : list nat) : nat := length (filter (Nat.eqb c0) l).

Lemma disp_of_app : forall a b, disp_of (a ++ b) = disp_of a ++ disp_of b.
Proof. intros; unfold disp_of; apply flat_map_app. Qed.
Lemma raised_app : forall c a b, raised c (a ++ b) = raised c a + raised c b.
Proof. intros; unfold raised; rewrite filter_app, app_length; reflexivity. Qed.
Lemma added_app : forall c cn lv a b, added c cn lv (a ++ b) = added c cn lv a + added c cn lv b.
Proof. intros; unfold added; rewrite filter_app, app_length; reflexivity. Qed.
Lemma cnt_app : forall c a b, cnt c (a ++ b) = cnt c a + cnt c b.
Proof. intros; unfold cnt; rewrite filter_app, app_length; reflexivity. Qed.

Lemma raised_nodisp : forall c l, disp_of l = [] -> raised c l = 0.
Proof.
  induction l as [|i l IH]; intros H; [reflexivity|].
  destruct i; simpl in H; try discriminate; apply IH in H; unfold raised in *; simpl; exact H.
Qed.

Lemma raised_cons_disp : forall c0 c cn lv k e b n,
  raised c0 (RDisp c cn lv k e b :: n) = (match b with BUnreg => if Nat.eqb c0 c then 1 else 0 | _ => 0 end) + raised c0 n.
Proof. intros. unfold raised. simpl. destruct b; auto. destruct (Nat.eqb c0 c); auto. Qed.

Lemma cnt_remove1_le : forall c0 c l, cnt c0 (remove1 c l) <= cnt c0 l.
Proof.
  induction l as [|x l IH]; simpl; [lia|].
  destruct (Nat.eqb c x); unfold cnt in *; simpl; destruct (Nat.eqb c0 x); simpl; lia.
Qed.
Lemma cnt_remove1_mem : forall c l, mem_nat c l = true -> S (cnt c (remove1 c l)) = cnt c l.
Proof.
  induction l as [|x l IH]; simpl; intros H; [discriminate|].
  destruct (Nat.eqb c x) eqn:E; simpl in H.
  - unfold cnt; simpl; rewrite E; reflexivity.
  - unfold cnt in *; simpl; rewrite E; apply IH; exact H.
Qed.
Lemma mem_false_cnt : forall c l, mem_nat c l = false -> cnt c l = 0.
Proof.
  induction l as [|x l IH]; simpl; intros H; [reflexivity|].
  apply orb_false_iff in H. destruct H as [E H]. unfold cnt in *; simpl; rewrite E; apply IH; exact H.
Qed.
Lemma cnt_zero_notin : forall c l, cnt c l = 0 -> ~ In c l.
Proof.
  induction l as [|a l IH]; intros H I; [exact I|].
  unfold cnt in *; simpl in H. destruct I as [E|I].
  - subst. rewrite Nat.eqb_refl in H. discriminate.
  - destruct (Nat.eqb c a); [discriminate|apply IH; auto].
Qed.

Lemma same_list : forall cn' k' cn lv, cbname_eqb cn' cn && ckey_eqb k' lv = true <-> cn' = cn /\ k' = lv.
Proof. intros. rewrite andb_true_iff, cbname_eqb_eq, ckey_eqb_eq. reflexivity. Qed.

(* what every step that is not a dispatch invocation does, seen from the list of (cn, lv) *)
Definition rext (cn : cbname) (lv : ckey) (s s' : rst) : Prop :=
  exists new, rlog s' = new ++ rlog s /\ disp_of new = [] /\ rcache s' = rcache s /\
    forall c0, cnt c0 (rcbs s' cn lv) <= cnt c0 (rcbs s cn lv) + added c0 cn lv new.

Lemma rext_refl : forall cn lv s, rext cn lv s s.
Proof. intros; exists []; repeat split; auto; intros; simpl; unfold added; simpl; lia. Qed.
Lemma rext_trans : forall cn lv a b c, rext cn lv a b -> rext cn lv b c -> rext cn lv a c.
Proof.
  intros cn lv a b c [n1 [L1 [D1 [C1 K1]]]] [n2 [L2 [D2 [C2 K2]]]].
  exists (n2 ++ n1). rewrite L2, L1, app_assoc, disp_of_app, D1, D2. repeat split; try congruence.
  intros c0. rewrite added_app. specialize (K1 c0). specialize (K2 c0). lia.
Qed.
(* an invocation that is not made by a dispatch *)
Lemma rext_invoke : forall W cn lv s mk,
  disp_of [mk (r_fin (W (rctr s)))] = [] -> is_ghost (mk (r_fin (W (rctr s)))) = false ->
  rext cn lv s (fst (rinvoke W s mk)).
Proof.
  intros W cn lv s mk D G. exists [mk (r_fin (W (rctr s)))]. simpl. repeat split; auto.
  intro c0. unfold added. simpl. destruct (mk _); try discriminate; simpl; lia.
Qed.

Lemma rext_unregister : forall cn lv s k' cn' c', rext cn lv s (runregister s k' cn' c').
Proof.
  intros. exists []. unfold runregister, added. simpl. repeat split; auto. intros c0. rewrite Nat.add_0_r.
  destruct (cbname_eqb cn' cn && ckey_eqb k' lv) eqn:E; [|lia].
  apply same_list in E. destruct E; subst. apply cnt_remove1_le.
Qed.

Lemma rext_register : forall W cn lv s k' cn' c', rext cn lv s (rregister W s k' cn' c').
Proof.
  intros. unfold rregister.
  set (args := match cn' with CHErr => [] | _ => rreg_args (rcache s) k' end).
  assert (E : forall sa, rext cn lv (fst sa) (fst (fold_left (rreg_step W cn' k' c') args sa))).
  { induction args as [|a args IH]; intros sa; simpl; [apply rext_refl|].
    eapply rext_trans; [|apply IH]. apply (rext_invoke W cn lv (fst sa) (RImm c' cn' k' (fst a) (snd a))); reflexivity. }
  specialize (E (s, true)). set (sa := fold_left _ args (s, true)) in *.
  destruct (snd sa); [|exact E]. eapply rext_trans; [exact E|].
  exists [RAdd c' cn' k']. unfold added. simpl. repeat split; auto. intros c0.
  destruct (cbname_eqb cn' cn && ckey_eqb k' lv) eqn:G; simpl; [|lia].
  apply same_list in G. destruct G; subst. rewrite cnt_app. unfold cnt at 2. simpl.
  destruct (Nat.eqb c0 c'); simpl; lia.
Qed.

Lemma rext_acts : forall W cn lv acts so, rext cn lv (fst so) (fst (fold_left (do_act W cn lv) acts so)).
Proof.
  induction acts as [|a acts IH]; intros so; simpl; [apply rext_refl|].
  eapply rext_trans; [|apply IH].
  destruct a; simpl; [apply rext_register|apply rext_unregister].
Qed.
(* once popped, always popped *)
Lemma orph_mono : forall W cn lv acts so, snd (fold_left (do_act W cn lv) acts so) = false -> snd so = false.
Proof.
  induction acts as [|a acts IH]; intros so H; simpl in H; [exact H|].
  apply IH in H. destruct a; simpl in H; [exact H|].
  apply orb_false_iff in H. tauto.
Qed.

Lemma rext_herr : forall W cn lv s, rext cn lv s (rcallback_herr W s).
Proof.
  intros W cn lv s. unfold rcallback_herr. generalize (rcbs s CHErr KNode) as copy. intro copy. revert s.
  induction copy as [|c copy IH]; intros s; simpl; [apply rext_refl|].
  eapply rext_trans; [|apply IH]. unfold rherr_step.
  pose proof (rext_invoke W cn lv s (RErr c) eq_refl eq_refl) as E. destruct (rinvoke W s (RErr c)) as [s1 b].
  destruct (r_fin b); try exact E.
  eapply rext_trans; [exact E|apply (rext_unregister cn lv s1 KNode CHErr c)].
Qed.

(* what follows the calls an invoked callback made: nothing, the handler of UnregisterCallback, or the handleError
   callbacks.  The handler takes one registration from the callback if it has one. *)
Lemma rext_finish : forall W cn lv c b s2 orph,
  let s3 := match b with
            | BOk => s2
            | BUnreg => if orph || negb (mem_nat c (rcbs s2 cn lv)) then s2
                        else r_setcbs s2 cn lv (remove1 c (rcbs s2 cn lv))
            | BExc => rcallback_herr W s2
            end in
  rext cn lv s2 s3 /\ (b = BUnreg -> orph = false -> cnt c (rcbs s3 cn lv) <= cnt c (rcbs s2 cn lv) - 1).
Proof.
  intros. subst s3. destruct b; [split; [apply rext_refl|discriminate]| |split; [apply rext_herr|discriminate]].
  destruct (orph || negb (mem_nat c (rcbs s2 cn lv))) eqn:G.
  - split; [apply rext_refl|]. intros _ ->. apply negb_true_iff in G. rewrite (mem_false_cnt _ _ G). lia.
  - split; [apply (rext_unregister cn lv s2 lv cn c)|]. intros _ _.
    apply orb_false_iff in G. destruct G as [_ G]. apply negb_false_iff in G.
    simpl. rewrite (proj2 (same_list cn lv cn lv)) by auto. rewrite <- (cnt_remove1_mem c _ G). lia.
Qed.

(* the loop of one dispatch: start state s, callbacks done so far, current state and whether the held list object
   has been popped *)
Definition dinv cn lv pk e s done (so : rst * bool) : Prop :=
  exists new, rlog (fst so) = new ++ rlog s /\
    rev (disp_of new) = map (fun c => (c, cn, lv, pk, e)) done /\
    rcache (fst so) = rcache s /\
    (forall c0, cnt c0 (rcbs (fst so) cn lv) <= cnt c0 (rcbs s cn lv) + added c0 cn lv new) /\
    (forall c0, snd so = false -> added c0 cn lv new = 0 ->
       cnt c0 (rcbs (fst so) cn lv) <= cnt c0 (rcbs s cn lv) - raised c0 new).

Lemma upd_step_inv : forall W cn lv pk e s done so c,
  dinv cn lv pk e s done so -> dinv cn lv pk e s (done ++ [c]) (rupd_step W cn lv pk e so c).
Proof.
  intros W cn lv pk e s done so c (n & L & D & C & K & J).
  unfold rupd_step, rinvoke. set (b := W (rctr (fst so))).
  set (s1 := {| rcache := rcache (fst so); rcbs := rcbs (fst so);
                rlog := RDisp c cn lv pk e (r_fin b) :: rlog (fst so); rctr := S (rctr (fst so)) |}).
  destruct (rext_acts W cn lv (r_acts b) (s1, snd so)) as (n2 & L2 & D2 & C2 & K2).
  pose proof (orph_mono W cn lv (r_acts b) (s1, snd so)) as OM.
  set (so2 := fold_left (do_act W cn lv) (r_acts b) (s1, snd so)) in *.
  destruct (rext_finish W cn lv c (r_fin b) (fst so2) (snd so2)) as [(n3 & L3 & D3 & C3 & K3) H3].
  cbv zeta. unfold dinv. cbn [fst snd] in *.
  exists (n3 ++ n2 ++ RDisp c cn lv pk e (r_fin b) :: n).
  split; [|split; [|split; [rewrite C3, C2; exact C|split]]].
  - rewrite L3, L2. simpl. rewrite L, <- !app_assoc. reflexivity.
  - rewrite !disp_of_app, D3, D2. simpl. rewrite D, map_app. reflexivity.
  - intros c0. rewrite !added_app. specialize (K c0). specialize (K2 c0). specialize (K3 c0).
    change (added c0 cn lv (RDisp c cn lv pk e (r_fin b) :: n)) with (added c0 cn lv n). simpl in K2. lia.
  - (* the new raise, if any, is one of c: with the list not popped the handler then took a registration from c
       or c had none left (H3); everything else in between only added what [added] counts *)
    intros c0 O A. rewrite !added_app in A.
    change (added c0 cn lv (RDisp c cn lv pk e (r_fin b) :: n)) with (added c0 cn lv n) in A.
    rewrite !raised_app, (raised_nodisp c0 n3 D3), (raised_nodisp c0 n2 D2).
    specialize (J c0 (OM O)). specialize (K2 c0). specialize (K3 c0). simpl in K2.
    rewrite raised_cons_disp.
    destruct (r_fin b); simpl; try lia. destruct (Nat.eqb c0 c) eqn:E; [|lia].
    apply Nat.eqb_eq in E. subst c0. specialize (H3 eq_refl O). lia.
Qed.

Lemma rcallback2_inv : forall W cn lv pk e s, dinv cn lv pk e s (rcbs s cn lv) (rcallback2 W cn lv pk e s).
Proof.
  intros. unfold rcallback2.
  assert (G : forall copy done so, dinv cn lv pk e s done so ->
                dinv cn lv pk e s (done ++ copy) (fold_left (rupd_step W cn lv pk e) copy so)).
  { induction copy as [|c copy IH]; intros done so I; simpl.
    - rewrite app_nil_r; exact I.
    - replace (done ++ c :: copy) with ((done ++ [c]) ++ copy) by (rewrite <- app_assoc; reflexivity).
      apply IH, upd_step_inv, I. }
  apply (G _ [] (s, false)). exists []. simpl. repeat split; auto; intros; unfold added, raised; simpl; lia.
Qed.

Lemma rcallback_cache : forall W cn lv pk e s, rcache (rcallback W cn lv pk e s) = rcache s.
Proof. intros. destruct (rcallback2_inv W cn lv pk e s) as (n & _ & _ & C & _). exact C. Qed.

(* the list object is popped only by an unregister_callback made from inside the dispatch for the same list *)
Definition unreg_on (cn : cbname) (lv : ckey) (a : act) : bool :=
  match a with AcUnreg k' cn' _ => cbname_eqb cn cn' && ckey_eqb lv k' | _ => false end.
Lemma acts_no_pop : forall W cn lv acts so,
  forallb (fun a => negb (unreg_on cn lv a)) acts = true -> snd (fold_left (do_act W cn lv) acts so) = snd so.
Proof.
  induction acts as [|a acts IH]; intros so H; simpl in *; [reflexivity|].
  apply andb_true_iff in H. destruct H as [H1 H2]. rewrite (IH _ H2).
  destruct a; simpl in *; [reflexivity|].
  apply negb_true_iff in H1. rewrite H1. simpl. apply orb_false_r.
Qed.
Lemma upd_fold_no_pop : forall W cn lv pk e,
  (forall n, forallb (fun a => negb (unreg_on cn lv a)) (r_acts (W n)) = true) ->
  forall copy so, snd (fold_left (rupd_step W cn lv pk e) copy so) = snd so.
Proof.
  intros W cn lv pk e H. induction copy as [|c copy IH]; intros so; simpl; [reflexivity|].
  rewrite IH. unfold rupd_step, rinvoke. cbv zeta. simpl snd.
  rewrite (acts_no_pop W cn lv (r_acts (W (rctr (fst so))))); [reflexivity|apply H].
Qed.

(* the log only grows: arrival order *)
Lemma rstep_log_extends : forall W s o, log_extends (rlog s) (rlog (rstep W s o)).
Proof.
  assert (G : forall W cn lv pk e s, log_extends (rlog s) (rlog (rcallback W cn lv pk e s))).
  { intros. destruct (rcallback2_inv W cn lv pk e s) as (n & L & _). exists n. exact L. }
  intros W s [pk e|k cn c|k cn c]; unfold rstep.
  - unfold rupdate_value, rlevels, rlevel2, rlevel1. repeat (eapply log_extends_trans; [|apply G]). apply log_extends_refl.
  - destruct (rext_register W CItem KNode s k cn c) as [n [L _]]. exists n; exact L.
  - apply log_extends_refl.
Qed.
