(* C12 -- lemmas about the concurrent model (ConcModel.v): invariants over ALL step sequences (= all schedules of
   receive thread, transmissions and callers, all peer scripts).  No hypothesis on the callers is needed: since repository
   commit 276f60f a caller never writes the cache for an error that came from a reply. *)
From Coq Require Import List Arith ZArith NArith Bool Lia.
Import ListNotations.
Require Import FV.C12.Model FV.C12.Lemmas FV.C12.ConcModel.

Lemma Forall_upd_nth : forall {A} (P : A -> Prop) f i l,
  Forall P l -> (forall x, P x -> P (f x)) -> Forall P (upd_nth i f l).
Proof.
  intros A P f i l. revert i. induction l as [|x l IH]; intros i H Hf; simpl.
  - destruct i; constructor.
  - inversion H; subst. destruct i; constructor; auto.
Qed.
Lemma nth_error_upd_nth : forall {A} (f : A -> A) i l c,
  nth_error l i = Some c -> nth_error (upd_nth i f l) i = Some (f c).
Proof.
  intros A f i l. revert i. induction l as [|x l IH]; intros [|i] c H; simpl in *; try discriminate.
  - inversion H; reflexivity.
  - apply IH; auto.
Qed.
Lemma last_write_notin : forall k later e, (forall e', ~ In (k, e') later) -> last_write k later e = e.
Proof.
  induction later as [|[k' e'] r IH]; intros e H; simpl; auto.
  destruct (key_eqb k k') eqn:E.
  - apply key_eqb_eq in E. subst. exfalso. apply (H e'). left; reflexivity.
  - apply IH. intros e2 I. apply (H e2). right; exact I.
Qed.
Section Conc.
Variable C : client.
Variable imp : nat -> nat -> option nat.
Variable W : nat -> beh.

(* a released caller that has not run yet: the cache entry of the parameter of its reply is the import of the reply,
   or the newest write made since *)
Definition rel_ok (ch : list (key * entry)) (c : caller) : Prop :=
  match c_st c with
  | CReleased m now later =>
      forall k e, decode C imp now (cm_msg m) = OUpd k e -> cache_get k ch = Some (last_write k later e)
  | _ => True
  end.
(* the receive thread about to set the event: the cache holds the import of the reply *)
Definition rx_ok (ch : list (key * entry)) (r : rxpc) : Prop :=
  match r with
  | RSet _ m now => forall k e, decode C imp now (cm_msg m) = OUpd k e -> cache_get k ch = Some e
  | _ => True
  end.
(* in every file that imports this one the name hides Model.inv, the type of recorded invocations *)
Definition inv (s : cst) : Prop :=
  rx_ok (cache (base s)) (rx s) /\ Forall (rel_ok (cache (base s))) (cls s).

Lemma note_write_ok : forall ch k e c, rel_ok ch c -> rel_ok (cache_set k e ch) (note_write k e c).
Proof.
  intros ch k e c H. unfold rel_ok, note_write in *. destruct (c_st c) as [| | |m now later] eqn:S; simpl; try rewrite S; auto.
  intros k0 e0 D. simpl. rewrite cache_get_set. destruct (key_eqb k0 k); auto.
Qed.

(* steps of a caller that leave cache and receive thread alone *)
Lemma inv_frame : forall s s' i f,
  inv s -> cache (base s') = cache (base s) -> rx s' = rx s -> cls s' = upd_nth i f (cls s) ->
  (forall c, rel_ok (cache (base s)) (f c)) -> inv s'.
Proof.
  intros s s' i f [H1 H2] Hc Hr Hl Hf. unfold inv. rewrite Hc, Hr, Hl. split; auto.
  apply Forall_upd_nth; auto.
Qed.

Lemma inv_do_match : forall s m now b cl,
  Forall (rel_ok (cache b)) cl ->
  (forall k e, decode C imp now (cm_msg m) = OUpd k e -> cache_get k (cache b) = Some e) ->
  inv (do_match s m now b cl).
Proof.
  intros s m now b cl HF HD. unfold do_match. destruct (find_caller m cl 0) as [i|]; unfold inv; simpl; split; auto.
  apply Forall_upd_nth; auto. intros c0 _. exact I.
Qed.

(* a caller that runs again only finishes its call *)
Lemma wake_finish : forall s i c k m, exists o, wake C s i c k m = finish s i c o (base s) (cls s).
Proof.
  intros. unfold wake. destruct (is_error_reply m); eauto. destruct (k_kind k); eauto.
  destruct (reply_error C m); eauto.
Qed.

(* a step that is refused leaves everything but [stuck] alone, so [exact H] settles it *)
Lemma inv_step : forall s x, inv s -> inv (cstep_fn C imp W s x).
Proof.
  intros s x H. destruct x as [m now| |i|i|i]; unfold cstep_fn.
  - destruct (rx s) eqn:R; try exact H.
    destruct H as [H1 H2].
    destruct (decode C imp now (cm_msg m)) as [| |k e] eqn:D.
    + apply inv_do_match; auto. intros k e D'. rewrite D in D'. discriminate.
    + unfold inv; simpl. rewrite callback_herr_cache. split; [exact I|auto].
    + unfold inv; simpl. split; [exact I|auto].
  - destruct (rx s) as [|m now|] eqn:R; try exact H.
    destruct (decode C imp now (cm_msg m)) as [| |k e] eqn:D; try exact H.
    destruct H as [H1 H2].
    apply inv_do_match.
    + rewrite update_value_cache. rewrite Forall_forall in *. intros c I.
      apply in_map_iff in I. destruct I as [c0 [E I]]. subst c. apply note_write_ok. apply H2; auto.
    + intros k' e' D'. rewrite D in D'. inversion D'; subst. rewrite update_value_cache. apply cache_get_set_same.
  - destruct (rx s) as [| |j m now] eqn:R; try exact H.
    destruct (Nat.eqb i j); try exact H.
    destruct H as [H1 H2]. rewrite R in H1. simpl in H1.
    unfold inv; simpl. split; [exact I|].
    apply Forall_upd_nth; auto; intros c _; unfold rel_ok; simpl; exact H1.
  - destruct (nth_error (cls s) i) as [c|]; try exact H.
    destruct (c_st c); try exact H.
    destruct (cur_call c); try exact H.
    eapply (inv_frame s _ i (set_cstate CWaiting)); eauto; try reflexivity; try (intro c0; exact I).
  - destruct (nth_error (cls s) i) as [c|]; try exact H.
    destruct (c_st c) as [| | |m now later]; try exact H.
    destruct (cur_call c) as [k|]; try exact H.
    destruct (wake_finish s i c k m) as [o ->].
    eapply (inv_frame s _ i advance); eauto; try reflexivity; try (intro c0; exact I).
Qed.

Lemma inv_run : forall steps s, inv s -> inv (crun C imp W s steps).
Proof.
  unfold crun. induction steps as [|x r IH]; intros s H; simpl in *; auto.
  apply IH. apply inv_step; auto.
Qed.

Lemma inv_init : forall b progs, inv (cinit b progs).
Proof.
  intros b progs. unfold inv, cinit; simpl. split; [exact I|].
  rewrite Forall_forall. intros c H. apply in_map_iff in H. destruct H as [p [E _]]. subst c. exact I.
Qed.

(* the release step itself: the caller becomes runnable with the cache holding the import of its reply *)
Theorem release_step : forall s i m now,
  inv s -> rx s = RSet i m now ->
  let s' := cstep_fn C imp W s (SRxSet i) in
  stuck s' = stuck s /\ rx s' = RIdle /\
  (forall c, nth_error (cls s) i = Some c -> nth_error (cls s') i = Some (set_cstate (CReleased m now []) c)) /\
  (forall k e, decode C imp now (cm_msg m) = OUpd k e -> cache_get k (cache (base s')) = Some e).
Proof.
  intros s i m now [H1 H2] R. simpl. rewrite R, Nat.eqb_refl. simpl. repeat split; auto.
  - intros c Hn. apply nth_error_upd_nth; auto.
  - rewrite R in H1. exact H1.
Qed.

Lemma rx_set_ok : forall s i m now,
  inv s -> rx s = RSet i m now ->
  forall k e, decode C imp now (cm_msg m) = OUpd k e -> cache_get k (cache (base s)) = Some e.
Proof. intros s i m now [H1 _] R. rewrite R in H1. exact H1. Qed.
Lemma released_ok : forall s i c m now later,
  inv s -> nth_error (cls s) i = Some c -> c_st c = CReleased m now later ->
  forall k e, decode C imp now (cm_msg m) = OUpd k e -> cache_get k (cache (base s)) = Some (last_write k later e).
Proof.
  intros s i c m now later [_ H2] Hn Hs k e D. rewrite Forall_forall in H2.
  specialize (H2 c (nth_error_In _ _ Hn)). unfold rel_ok in H2. rewrite Hs in H2. apply H2; auto.
Qed.

Theorem wake_sees_reply : forall s i c k m now later e,
  inv s -> nth_error (cls s) i = Some c -> c_st c = CReleased m now later -> cur_call c = Some k ->
  decode C imp now (cm_msg m) = OUpd (k_key k) e -> (is_error_reply m = false \/ k_kind k = RRead) ->
  cstep_fn C imp W s (SWake i) =
  finish s i c (OSeen (Some (last_write (k_key k) later e))) (base s) (cls s).
Proof.
  intros s i c k m now later e H Hn Hs Hc D Hk.
  simpl. rewrite Hn, Hs, Hc. unfold wake.
  rewrite (released_ok s i c m now later H Hn Hs _ _ D).
  destruct (is_error_reply m) eqn:IE; auto.
  destruct Hk as [X|K]; [discriminate|]. rewrite K.
  (* an error reply that the sequential model accepts is an error_read, and the error it decodes to is the one
     get_reply raises *)
  destruct (decode_OUpd _ _ _ _ _ _ D) as (U & _ & [items t ts x _ F _ _|items t ts name text err Dm _ _ N0 N1 ME _]).
  - unfold is_error_reply in IE. destruct (m_action (cm_msg m)); discriminate.
  - unfold reply_error. rewrite Dm, N0, N1, ME. reflexivity.
Qed.

Definition arrived (steps : list cstep) : list (cmsg * Z) :=
  flat_map (fun x => match x with SRecv m now => [(m, now)] | _ => [] end) steps.
Definition in_progress (r : rxpc) : list (cmsg * Z) :=
  match r with RUpdate m now => [(m, now)] | _ => [] end.

(* what a step does to the sequential state and to the bookkeeping of lines: it is refused, or it completes no
   line, or it completes the processing of the line (m, now) *)
Definition cstep_effect (s : cst) (x : cstep) (s' : cst) : Prop :=
  s' = mk_stuck s \/
  stuck s' = stuck s /\
  (base s' = base s /\ done s' = done s /\ in_progress (rx s') = in_progress (rx s) ++ arrived [x] \/
   exists m now, base s' = recv C imp W (base s) (cm_msg m) now /\ done s' = (m, now) :: done s /\
     in_progress (rx s') = [] /\ in_progress (rx s) ++ arrived [x] = [(m, now)]).

Lemma effect_none : forall s x s', stuck s' = stuck s -> base s' = base s -> done s' = done s ->
  in_progress (rx s') = in_progress (rx s) ++ arrived [x] -> cstep_effect s x s'.
Proof. intros. right. auto. Qed.
Lemma effect_done : forall s x m now b cl,
  b = recv C imp W (base s) (cm_msg m) now -> in_progress (rx s) ++ arrived [x] = [(m, now)] ->
  cstep_effect s x (do_match s m now b cl).
Proof.
  intros s x m now b cl -> Q. right. split; [|right; exists m, now]; unfold do_match; destruct (find_caller m cl 0); auto.
Qed.

Lemma cstep_cases : forall s x, cstep_effect s x (cstep_fn C imp W s x).
Proof.
  intros s x. destruct x as [m now| |i|i|i]; unfold cstep_fn.
  - destruct (rx s) eqn:R; try (left; reflexivity).
    destruct (decode C imp now (cm_msg m)) as [| |k e] eqn:D.
    + apply effect_done; [unfold recv|]; rewrite ?D, ?R; reflexivity.
    + right. split; [reflexivity|right]. exists m, now. unfold recv. rewrite D, R. repeat split.
    + apply effect_none; try reflexivity. rewrite R. reflexivity.
  - destruct (rx s) as [|m now|] eqn:R; try (left; reflexivity).
    destruct (decode C imp now (cm_msg m)) as [| |k e] eqn:D; try (left; reflexivity).
    apply effect_done; [unfold recv|]; rewrite ?D, ?R; reflexivity.
  - destruct (rx s) as [| |j m now] eqn:R; try (left; reflexivity).
    destruct (Nat.eqb i j); [|left; reflexivity]. apply effect_none; try reflexivity. rewrite R. reflexivity.
  - destruct (nth_error (cls s) i) as [c|]; [|left; reflexivity].
    destruct (c_st c); try (left; reflexivity). destruct (cur_call c); [|left; reflexivity].
    apply effect_none; try reflexivity. symmetry. apply app_nil_r.
  - destruct (nth_error (cls s) i) as [c|]; [|left; reflexivity].
    destruct (c_st c) as [| | |m now later]; try (left; reflexivity). destruct (cur_call c) as [k|]; [|left; reflexivity].
    destruct (wake_finish s i c k m) as [o ->]. apply effect_none; try reflexivity. symmetry. apply app_nil_r.
Qed.

(* base is the sequential model run over the completed lines; in a run that followed the implementation (never
   stuck) the completed lines plus the one in progress are the received lines [pre], in the order of their arrival *)
Definition hist (b0 : st) (pre : list (cmsg * Z)) (s : cst) : Prop :=
  base s = run C imp W b0 (done_ops (done s)) /\ (stuck s = false -> rev (done s) ++ in_progress (rx s) = pre).

Lemma hist_step : forall b0 pre s x, hist b0 pre s -> hist b0 (pre ++ arrived [x]) (cstep_fn C imp W s x).
Proof.
  intros b0 pre s x [HB HA].
  destruct (cstep_cases s x) as [->|[S [(B & D & P)|(m & now & B & D & P & Q)]]]; unfold hist.
  - split; [exact HB|discriminate].
  - rewrite S, B, D, P, app_assoc. split; [exact HB|]. intro N. rewrite (HA N). reflexivity.
  - rewrite S, B, D, P, HB, app_nil_r. unfold done_ops, run.
    change (rev ((m, now) :: done s)) with (rev (done s) ++ [(m, now)]). rewrite map_app, fold_left_app.
    split; [reflexivity|]. intro N. rewrite <- (HA N), <- app_assoc, Q. reflexivity.
Qed.

Lemma hist_run : forall b0 steps pre s, hist b0 pre s -> hist b0 (pre ++ arrived steps) (crun C imp W s steps).
Proof.
  unfold crun. induction steps as [|x r IH]; intros pre s H; simpl.
  - rewrite app_nil_r. exact H.
  - replace (pre ++ _) with ((pre ++ arrived [x]) ++ arrived r) by (simpl; rewrite app_nil_r, app_assoc; reflexivity).
    apply IH, hist_step, H.
Qed.

End Conc.
