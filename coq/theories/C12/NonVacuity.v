(* C12 - vacuity audit: every property theorem with premises is applied at a concrete, non-trivial instance
   (the client built by Run.v: predefined names and error tables of FV.Gen.C12), and the premise of C12_e2e_write is
   shown to be unsatisfiable by the conversion tables that Run.check_case builds (imp_of over a finite list). *)
From Coq Require Import List Arith ZArith NArith Bool Lia.
Import ListNotations.
Require Import FV.Base.Util FV.Gen.C12 FV.C12.Model FV.C12.Lemmas FV.C12.ConcModel FV.C12.ConcLemmas FV.C12.ReModel FV.C12.ReLemmas
  FV.C12.Run FV.C12.Properties.

Definition nv_d : dsc :=
  [([109%N], [{| a_name := s_value; a_cmd := false; a_dt := 0 |}; {| a_name := s_target; a_cmd := false; a_dt := 1 |}]);
   ([110%N], [{| a_name := s_value; a_cmd := false; a_dt := 2 |}])].
Definition nv_C : client := the_client nv_d.

Lemma nv_colon_free : colon_free nv_d.
Proof. intros m accs [H|[H|[]]]; inversion H; reflexivity. Qed.

Example C12_identifier_full_applies : forall act,
  resolve nv_C act (Some (mk_ident [109%N] s_target)) = Some ([109%N], internalize predefined_names s_target).
Proof.
  intro act.
  eapply (C12_identifier_full predefined_names error_classes error_names nv_d [109%N] _
           {| a_name := s_target; a_cmd := false; a_dt := 1 |} act nv_colon_free).
  - left; reflexivity.
  - right; left; reflexivity.
Qed.
Example C12_identifier_shorthand_applies :
  resolve nv_C AChanged (Some [109%N]) = Some ([109%N], s_target) /\
  resolve nv_C AUpdate (Some [110%N]) = Some ([110%N], s_value).
Proof.
  split.
  - eapply (C12_identifier_shorthand predefined_names error_classes error_names nv_d [109%N] _
             {| a_name := s_target; a_cmd := false; a_dt := 1 |} AChanged nv_colon_free).
    + left; reflexivity.
    + right; left; reflexivity.
    + discriminate.
    + reflexivity.
  - eapply (C12_identifier_shorthand predefined_names error_classes error_names nv_d [110%N] _
             {| a_name := s_value; a_cmd := false; a_dt := 2 |} AUpdate nv_colon_free).
    + right; left; reflexivity.
    + left; reflexivity.
    + discriminate.
    + reflexivity.
Qed.
Example C12_identifier_unknown_applies : forall act,
  resolve nv_C act (Some (mk_ident [109%N] [120%N])) = None.
Proof.
  intro act. apply C12_identifier_unknown; [|reflexivity].
  intros m accs a H1 H2.
  destruct H1 as [H1|[H1|[]]]; inversion H1; subst; clear H1.
  - destruct H2 as [H2|[H2|[]]]; subst; discriminate.
  - destruct H2 as [H2|[]]; subst; discriminate.
Qed.

Definition nv_imp : nat -> nat -> option nat :=
  imp_of [(0, 0, Some 10); (0, 1, Some 11); (1, 0, Some 20); (2, 0, None)].
Definition nv_W : nat -> beh := beh_of [(0, BUnreg); (3, BExc)].
Definition nv_msg (id : str) (p : nat) (t : tq) : msg :=
  {| m_action := AUpdate; m_ident := Some id;
     m_data := DList [{| i_payload := p; i_kind := IKHashable |}; {| i_payload := 99; i_kind := IKDict t |}] |}.
Definition nv_ops1 : list op :=
  [OReg KNode CItem 1; OReg KNode CItem 2; OReg (KMod [109%N]) CEvent 3; OReg (KPar [109%N] s_value) CEvent 4;
   ORecv (nv_msg [109%N] 0 (TNum (TFin 50))) 100].
Definition nv_s1 : st := run nv_C nv_imp nv_W (st0 [0]) nv_ops1.

Example C12_callbacks_once_applies : exists new,
  let m := nv_msg [109%N] 1 TAbsent in
  let k := ([109%N], s_value) in let e := (Some 11, TFin 200%Z, None) in
  level_lists nv_s1 CItem k = [2] /\ level_lists nv_s1 CEvent k = [3; 4] /\
  log (recv nv_C nv_imp nv_W nv_s1 m 200) = new ++ log nv_s1 /\
  rev (filter is_upd new) = [InvUpd 2 CItem k e; InvUpd 3 CEvent k e; InvUpd 4 CEvent k e] /\
  cache_get k (cache (recv nv_C nv_imp nv_W nv_s1 m 200)) = Some e.
Proof.
  destruct (C12_callbacks_once_in_order nv_C nv_imp nv_W nv_s1 (nv_msg [109%N] 1 TAbsent) 200
              ([109%N], s_value) (Some 11, TFin 200%Z, None) eq_refl) as [new [A [B D]]].
  assert (L : level_lists nv_s1 CItem ([109%N], s_value) = [2] /\ level_lists nv_s1 CEvent ([109%N], s_value) = [3; 4])
    by (vm_compute; split; reflexivity).
  destruct L as [L1 L2]. rewrite L1, L2 in B. exists new. cbv zeta. auto.
Qed.

Definition nv_ops2 : list op :=
  [ORecv (nv_msg [109%N] 1 (TNum (TFin 999))) 200; OReg KNode CEvent 5; ORecv (nv_msg (mk_ident [109%N] s_target) 0 TAbsent) 300].
Example C12_timestamp_not_future_applies :
  cache (run nv_C nv_imp nv_W nv_s1 nv_ops2) =
    [(([109%N], s_value), (Some 11, TFin 200%Z, None)); (([109%N], s_target), (Some 20, TFin 300%Z, None))] /\
  cache_le (cache (run nv_C nv_imp nv_W nv_s1 nv_ops2)) 300.
Proof.
  split; [vm_compute; reflexivity|].
  apply (C12_timestamp_not_future nv_C nv_imp nv_W nv_ops2 nv_s1 100).
  - apply (C12_timestamp_not_future nv_C nv_imp nv_W nv_ops1 (st0 [0]) 0); [intros k v ts er []|simpl; lia].
  - simpl. lia.
Qed.

(* lines that are not accepted: rejected payload (import fails), unorderable timestamp, no identifier *)
Example C12_malformed_skipped_applies :
  let bad1 := nv_msg [110%N] 0 TAbsent in let bad2 := nv_msg [109%N] 0 TBad in
  decode nv_C nv_imp 150 bad1 = OFail /\ decode nv_C nv_imp 150 bad2 = OFail /\
  cache (recv nv_C nv_imp nv_W nv_s1 bad1 150) = cache nv_s1 /\
  cache (run nv_C nv_imp nv_W nv_s1 (ORecv bad2 150 :: nv_ops2)) = cache (run nv_C nv_imp nv_W nv_s1 nv_ops2).
Proof.
  cbv zeta. split; [reflexivity|]. split; [reflexivity|]. split.
  - destruct (C12_malformed_skipped nv_C nv_imp nv_W nv_s1 (nv_msg [110%N] 0 TAbsent) 150) as [[new [_ [_ [H _]]]] _].
    + intros k e H. vm_compute in H. discriminate.
    + exact H.
  - destruct (C12_malformed_skipped nv_C nv_imp nv_W nv_s1 (nv_msg [109%N] 0 TBad) 150) as [_ H].
    + intros k e H. vm_compute in H. discriminate.
    + exact (H nv_s1 [] nv_ops2).
Qed.

Example C12_register_immediate_applies :
  log (register nv_W nv_s1 KNode CEvent 7) =
    rev (map (fun a => InvUpd 7 CEvent (fst a) (snd a)) (reg_args nv_s1 KNode)) ++ log nv_s1 /\
  reg_args nv_s1 KNode <> [].
Proof.
  split; [|vm_compute; discriminate].
  apply (C12_register_immediate nv_W nv_s1 KNode CEvent 7). discriminate.
Qed.

(* Why C12_e2e_write is pointwise.  Premises "forall x, exists j, exp_c x = Some j /\ imp_n j = Some x" (and the same for
   exp_n / imp_c) over ALL value ids: (a) are satisfiable by total conversions, (b) are NOT satisfiable by what
   Run.check_case passes (imp_of over a finite table): such a function is None beyond the largest listed payload.
   The pointwise statement (Properties.v) applies to both (c). *)
Definition old_e2e_premise (ex im : nat -> option nat) : Prop := forall x, exists j, ex x = Some j /\ im j = Some x.
Example C12_e2e_write_old_premise_total : old_e2e_premise (fun x => Some (S x)) (fun j => Some (pred j)).
Proof. intro x. exists (S x). split; reflexivity. Qed.

Fixpoint tbl_bound (l : list (nat * nat * option nat)) : nat :=
  match l with [] => 0 | (_, j, _) :: r => Nat.max (S j) (tbl_bound r) end.
Lemma imp_of_beyond : forall l dt x, tbl_bound l <= x -> imp_of l dt x = None.
Proof.
  induction l as [|[[d j] r] l IH]; intros dt x H; [reflexivity|].
  change (tbl_bound ((d, j, r) :: l)) with (Nat.max (S j) (tbl_bound l)) in H.
  change (imp_of ((d, j, r) :: l) dt x) with (if Nat.eqb d dt && Nat.eqb x j then r else imp_of l dt x).
  destruct (Nat.eqb x j) eqn:E.
  - apply Nat.eqb_eq in E. lia.
  - rewrite andb_false_r. apply IH. lia.
Qed.
Lemma C12_e2e_write_old_premise_unsatisfiable_for_tables : forall exp dt (imp_n : nat -> option nat),
  ~ old_e2e_premise (imp_of exp dt) imp_n.
Proof.
  intros exp dt imp_n H. destruct (H (tbl_bound exp)) as [j [E _]].
  rewrite imp_of_beyond in E by lia. discriminate.
Qed.
(* (c) the theorem at total conversions and at tables *)
Example C12_e2e_write_applies_total : forall v r,
  e2e_write (fun x => Some (S x)) (fun j => Some (pred j)) (fun x => Some (x + 2)) (fun j => Some (j - 2)) v r
  = (Some v, Some r).
Proof.
  intros v r. apply C12_e2e_write.
  - exists (S v). split; reflexivity.
  - exists (r + 2). split; [reflexivity|]. cbv beta. rewrite Nat.add_sub. reflexivity.
Qed.
Example C12_e2e_write_applies_on_tables :
  let exp := [(0, 5, Some 50); (0, 6, Some 60)] in let imp := [(0, 50, Some 5); (0, 60, Some 6)] in
  e2e_write (imp_of exp 0) (imp_of imp 0) (imp_of exp 0) (imp_of imp 0) 5 6 = (Some 5, Some 6).
Proof. cbv zeta. apply C12_e2e_write; eexists; split; reflexivity. Qed.
Example C12_e2e_struct_members_applies :
  struct_get 0 (struct_validate [(0, 11); (1, 22)] [(1, 33)]) = Some 11 /\
  struct_get 1 (struct_validate [(0, 11); (1, 22)] [(1, 33)]) = Some 33 /\
  map fst (struct_validate [(0, 11); (1, 22)] [(1, 33)]) = [0; 1].
Proof.
  destruct (C12_e2e_struct_members [(0, 11); (1, 22)] [(1, 33)]) as [G K].
  split; [rewrite G; reflexivity|]. split; [rewrite G; reflexivity|].
  rewrite K; [reflexivity|]. intros kv [H|[]]. subst kv. right. left. reflexivity.
Qed.

(* concurrent model: prefixes of the schedule of
   C12_conc_demo (two callers, same cache key, answers in opposite order, an update in between) *)
Definition nv_cC : client := the_client cdemo_d.
Definition nv_cimp : nat -> nat -> option nat := fun _ j => Some j.
Definition nv_cW : nat -> beh := fun _ => BOk.
Definition nv_cb : st := register nv_cW (st0 [0]) KNode CItem 1.
Definition nv_progs : list (list call) :=
  [[{| k_kind := RChange; k_ident := cdemo_ident; k_key := cdemo_key |}];
   [{| k_kind := RRead; k_ident := cdemo_ident; k_key := cdemo_key |}]].
Definition nv_cs (n : nat) : cst := crun nv_cC nv_cimp nv_cW (cinit nv_cb nv_progs) (firstn n cdemo_steps).

(* first clause at the moment the receive thread is about to release caller 0 *)
Example C12_reply_cached_applies_RSet :
  rx (nv_cs 4) = RSet 0 (cdemo_msg AChanged 1) 100 /\
  cache_get cdemo_key (cache (base (nv_cs 4))) = Some (Some 1, TFin 100%Z, None).
Proof.
  split; [reflexivity|].
  destruct (C12_reply_cached_before_release nv_cC nv_cimp nv_cW nv_cb nv_progs (firstn 4 cdemo_steps)) as [H _].
  apply (H 0 (cdemo_msg AChanged 1) 100%Z); reflexivity.
Qed.
Definition nv_later : list (key * entry) :=
  [(cdemo_key, (Some 3, TFin 120%Z, None)); (cdemo_key, (Some 2, TFin 110%Z, None))].
Definition nv_c0 : caller :=
  {| c_calls := [{| k_kind := RChange; k_ident := cdemo_ident; k_key := cdemo_key |}]; c_pc := 0;
     c_st := CReleased (cdemo_msg AChanged 1) 100 nv_later |}.
(* second clause: caller 0 released, two newer lines processed before it runs *)
Example C12_reply_cached_applies_released :
  (exists c, nth_error (cls (nv_cs 10)) 0 = Some c /\
     c_st c = CReleased (cdemo_msg AChanged 1) 100
                [(cdemo_key, (Some 3, TFin 120%Z, None)); (cdemo_key, (Some 2, TFin 110%Z, None))]) /\
  cache_get cdemo_key (cache (base (nv_cs 10))) = Some (Some 3, TFin 120%Z, None).
Proof.
  split; [exists nv_c0; split; [vm_compute|]; reflexivity|].
  destruct (C12_reply_cached_before_release nv_cC nv_cimp nv_cW nv_cb nv_progs (firstn 10 cdemo_steps)) as [_ H].
  exact (H 0 nv_c0 (cdemo_msg AChanged 1) 100%Z nv_later eq_refl eq_refl cdemo_key (Some 1, TFin 100%Z, None) eq_refl).
Qed.

Example C12_released_call_applies :
  nth_error (cls (nv_cs 10)) 0 = Some nv_c0 /\
  cstep_fn nv_cC nv_cimp nv_cW (nv_cs 10) (SWake 0) =
    finish (nv_cs 10) 0 nv_c0 (OSeen (Some (Some 3, TFin 120%Z, None))) (base (nv_cs 10)) (cls (nv_cs 10)).
Proof.
  split; [vm_compute; reflexivity|].
  exact (C12_released_call_sees_its_reply nv_cC nv_cimp nv_cW nv_cb nv_progs (firstn 10 cdemo_steps) 0 nv_c0
           {| k_kind := RChange; k_ident := cdemo_ident; k_key := cdemo_key |} (cdemo_msg AChanged 1) 100%Z nv_later
           (Some 1, TFin 100%Z, None) eq_refl eq_refl eq_refl eq_refl (or_introl eq_refl)).
Qed.
(* the error_read branch of the disjunction *)
Definition nv_progs_e : list (list call) := [[{| k_kind := RRead; k_ident := cdemo_ident; k_key := cdemo_key |}]].
Definition nv_steps_e : list cstep :=
  [SSend 0; SRecv cdemo_err 100; SRxUpdate; SRxSet 0; SRecv (cdemo_msg AUpdate 2) 110; SRxUpdate].
Definition nv_se : cst := crun nv_cC nv_cimp nv_cW (cinit nv_cb nv_progs_e) nv_steps_e.
Definition nv_later_e : list (key * entry) := [(cdemo_key, (Some 2, TFin 110%Z, None))].
Definition nv_c0e : caller :=
  {| c_calls := [{| k_kind := RRead; k_ident := cdemo_ident; k_key := cdemo_key |}]; c_pc := 0;
     c_st := CReleased cdemo_err 100 nv_later_e |}.
Example C12_released_call_applies_error_read :
  is_error_reply cdemo_err = true /\ nth_error (cls nv_se) 0 = Some nv_c0e /\
  cstep_fn nv_cC nv_cimp nv_cW nv_se (SWake 0) =
    finish nv_se 0 nv_c0e (OSeen (Some (Some 2, TFin 110%Z, None))) (base nv_se) (cls nv_se).
Proof.
  split; [reflexivity|]. split; [vm_compute; reflexivity|].
  exact (C12_released_call_sees_its_reply nv_cC nv_cimp nv_cW nv_cb nv_progs_e nv_steps_e 0 nv_c0e
           {| k_kind := RRead; k_ident := cdemo_ident; k_key := cdemo_key |} cdemo_err 100%Z nv_later_e
           (None, TFin 100%Z, Some (s_InternalError, [120%N])) eq_refl eq_refl eq_refl eq_refl (or_intror eq_refl)).
Qed.

Example C12_conc_is_sequential_applies :
  stuck (nv_cs 12) = false /\ length (done (nv_cs 12)) = 3 /\
  rev (done (nv_cs 12)) ++ in_progress (rx (nv_cs 12)) = arrived (firstn 12 cdemo_steps).
Proof.
  split; [reflexivity|]. split; [reflexivity|].
  apply (C12_conc_is_sequential nv_cC nv_cimp nv_cW nv_cb nv_progs (firstn 12 cdemo_steps)). reflexivity.
Qed.

Definition nv_rW : nat -> rbeh :=
  rbeh_of [(0, {| r_acts := [AcReg KNode CEvent 2; AcUnreg (KMod [109%N]) CItem 7]; r_fin := BUnreg |});
           (1, {| r_acts := []; r_fin := BExc |})].
Definition nv_rs : rst := rrun nv_rW (rst0 [0]) [RReg KNode CEvent 1; RReg KNode CEvent 3; RReg (KMod [109%N]) CItem 7].
Definition nv_re : entry := (Some 1, TFin 100%Z, None).
Definition nv_rs' : rst := rcallback nv_rW CEvent KNode re_demo_key nv_re nv_rs.
Definition nv_new : list rinv := firstn (length (rlog nv_rs') - length (rlog nv_rs)) (rlog nv_rs').
Lemma nv_new_eq : forall new, rlog nv_rs' = new ++ rlog nv_rs -> new = nv_new.
Proof. intros new E. apply (app_inv_tail (rlog nv_rs)). rewrite <- E. vm_compute. reflexivity. Qed.

Example C12_nonvacuous_reentrant_state :
  rcbs nv_rs CEvent KNode = [1; 3] /\ rcbs nv_rs' CEvent KNode = [3; 2] /\
  rpopped nv_rW CEvent KNode re_demo_key nv_re nv_rs = false /\
  raised 1 nv_new = 1 /\ added 1 CEvent KNode nv_new = 0 /\ added 2 CEvent KNode nv_new = 1.
Proof. vm_compute. repeat split; reflexivity. Qed.

Example C12_reentrant_applies :
  rev (disp_of nv_new) = [(1, CEvent, KNode, re_demo_key, nv_re); (3, CEvent, KNode, re_demo_key, nv_re)] /\
  cnt 1 (rcbs nv_rs' CEvent KNode) <= cnt 1 (rcbs nv_rs CEvent KNode) - raised 1 nv_new.
Proof.
  destruct (C12_callbacks_once_with_reentrant_registration nv_rW CEvent KNode re_demo_key nv_re nv_rs)
    as [new [E [D [_ [_ H]]]]].
  apply nv_new_eq in E. subst new. split.
  - rewrite D. reflexivity.
  - apply H; reflexivity.
Qed.
Example C12_oneshot_gone_applies : ~ In 1 (rcbs nv_rs' CEvent KNode).
Proof.
  destruct (C12_oneshot_gone_after_unregister nv_rW CEvent KNode re_demo_key nv_re nv_rs 1) as [new [E H]].
  apply nv_new_eq in E. subst new.
  apply H; try reflexivity; vm_compute; lia.
Qed.
Example C12_not_registered_applies : forall cn' lv' k' e', ~ In (2, cn', lv', k', e') (disp_of nv_new).
Proof.
  destruct (C12_not_registered_not_dispatched nv_rW CEvent KNode re_demo_key nv_re nv_rs 2) as [new [E H]].
  - vm_compute. intros [H|[H|[]]]; discriminate.
  - apply nv_new_eq in E. subst new. exact H.
Qed.
Example C12_list_popped_applies : rpopped nv_rW CEvent KNode re_demo_key nv_re nv_rs = false.
Proof.
  apply C12_list_popped_only_by_inner_unregister.
  intro n. destruct n as [|[|n]]; reflexivity.
Qed.
