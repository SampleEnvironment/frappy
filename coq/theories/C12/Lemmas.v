(* C12 -- lemmas about Model.v: what callbacks and registration leave alone (cache, other callback lists), the cache
   as a fold over the received lines, what an accepted line looks like and the timestamp invariant, the update invocations
   of a dispatch (grows) and that the log only extends (log_extends), the identifier table, the conversions of the write path. *)
From Coq Require Import List Arith ZArith NArith Bool Lia.
Import ListNotations.
Require Import FV.C12.Model.

Lemma str_eqb_eq : forall a b, str_eqb a b = true <-> a = b.
Proof.
  induction a as [|x a IH]; destruct b as [|y b]; simpl; split; intro H; try discriminate; auto.
  - apply andb_true_iff in H. destruct H as [H1 H2]. apply N.eqb_eq in H1. apply IH in H2. subst; auto.
  - inversion H; subst. apply andb_true_iff. split; [apply N.eqb_refl|apply IH; auto].
Qed.
Lemma str_eqb_refl : forall a, str_eqb a a = true.
Proof. intro a. apply str_eqb_eq. reflexivity. Qed.
Lemma key_eqb_eq : forall a b, key_eqb a b = true <-> a = b.
Proof.
  intros [a1 a2] [b1 b2]. unfold key_eqb. simpl. rewrite andb_true_iff, !str_eqb_eq.
  split; [intros [-> ->]; auto|intro H; inversion H; auto].
Qed.
Lemma key_eqb_refl : forall a, key_eqb a a = true.
Proof. intro a. apply key_eqb_eq. reflexivity. Qed.
Lemma key_eqb_sym : forall a b, key_eqb a b = key_eqb b a.
Proof.
  intros a b. destruct (key_eqb a b) eqn:E, (key_eqb b a) eqn:F; auto;
    [apply key_eqb_eq in E|apply key_eqb_eq in F]; subst; rewrite key_eqb_refl in *; discriminate.
Qed.
Lemma ckey_eqb_eq : forall a b, ckey_eqb a b = true <-> a = b.
Proof.
  intros [|m|m p] [|m'|m' p']; simpl; split; intro H; try discriminate; auto.
  - apply str_eqb_eq in H. subst; auto.
  - inversion H. apply str_eqb_refl.
  - apply andb_true_iff in H. destruct H as [H1 H2]. apply str_eqb_eq in H1, H2. subst; auto.
  - inversion H. rewrite !str_eqb_refl. reflexivity.
Qed.
Lemma cbname_eqb_eq : forall a b, cbname_eqb a b = true <-> a = b.
Proof. intros [] []; simpl; split; intro H; try discriminate; auto. Qed.

Lemma cache_get_set : forall k k' e l,
  cache_get k' (cache_set k e l) = if key_eqb k' k then Some e else cache_get k' l.
Proof.
  induction l as [|[k2 e2] l IH]; simpl; [reflexivity|].
  destruct (key_eqb k k2) eqn:E; simpl.
  - apply key_eqb_eq in E. subst k2. destruct (key_eqb k' k); reflexivity.
  - destruct (key_eqb k' k2) eqn:E2; [|exact IH].
    apply key_eqb_eq in E2. subst k2. rewrite key_eqb_sym, E. reflexivity.
Qed.
Lemma cache_get_set_same : forall k e l, cache_get k (cache_set k e l) = Some e.
Proof. intros. rewrite cache_get_set, key_eqb_refl. reflexivity. Qed.
Lemma cache_set_In : forall k e l k' e', In (k', e') (cache_set k e l) -> (k', e') = (k, e) \/ In (k', e') l.
Proof.
  induction l as [|[k2 e2] l IH]; simpl; intros k' e' H.
  - destruct H as [H|[]]. left; auto.
  - destruct (key_eqb k k2); simpl in H.
    + destruct H as [H|H]; [left; auto|right; right; auto].
    + destruct H as [H|H]; [right; left; auto|]. apply IH in H. destruct H; auto.
Qed.

Lemma run_herr_cache : forall W copy s, cache (run_herr W copy s) = cache s.
Proof.
  induction copy as [|c r IH]; intro s; simpl; auto.
  destruct (W (ctr s)); rewrite IH; reflexivity.
Qed.
Lemma callback_herr_cache : forall W s, cache (callback_herr W s) = cache s.
Proof. intros. apply run_herr_cache. Qed.
Lemma run_upd_cache : forall W cn k pk e copy s, cache (run_upd W cn k pk e copy s) = cache s.
Proof.
  induction copy as [|c r IH]; intro s; simpl; auto.
  destruct (W (ctr s)); rewrite IH; simpl; auto. rewrite callback_herr_cache. reflexivity.
Qed.
Lemma update_value_cache : forall W pk e s, cache (update_value W pk e s) = cache_set pk e (cache s).
Proof. intros. unfold update_value, levels, callback. rewrite !run_upd_cache. reflexivity. Qed.

(* registration: the immediate calls, in the order of the arguments; nothing else changes *)
Lemma run_reg_spec : forall W cn c args s b,
  log (fst (run_reg W cn c args s b)) = rev (map (fun a => InvUpd c cn (fst a) (snd a)) args) ++ log s /\
  cbs (fst (run_reg W cn c args s b)) = cbs s /\ cache (fst (run_reg W cn c args s b)) = cache s.
Proof.
  induction args as [|[pk e] r IH]; intros s b; simpl; auto.
  match goal with |- context [run_reg W cn c r ?S ?B] => destruct (IH S B) as [L [R K]] end.
  rewrite L, R, K. simpl. rewrite <- app_assoc. auto.
Qed.

Lemma set_cbs_other : forall s cn k l cn' k', (cn', k') <> (cn, k) -> cbs (set_cbs s cn k l) cn' k' = cbs s cn' k'.
Proof.
  intros. simpl. destruct (cbname_eqb cn cn') eqn:E1; simpl; auto.
  destruct (ckey_eqb k k') eqn:E2; auto.
  apply cbname_eqb_eq in E1. apply ckey_eqb_eq in E2. subst. contradiction.
Qed.
(* register_callback: the immediate calls, then the append unless one of them raised UnregisterCallback *)
Lemma register_spec : forall W s k cn c,
  log (register W s k cn c) =
    rev (map (fun a => InvUpd c cn (fst a) (snd a)) (match cn with CHErr => [] | _ => reg_args s k end)) ++ log s /\
  cache (register W s k cn c) = cache s /\
  (forall cn' k', (cn', k') <> (cn, k) -> cbs (register W s k cn c) cn' k' = cbs s cn' k') /\
  (cbs (register W s k cn c) cn k = cbs s cn k ++ [c] \/ cbs (register W s k cn c) cn k = cbs s cn k).
Proof.
  intros. unfold register. set (args := match cn with CHErr => [] | _ => reg_args s k end).
  destruct (run_reg_spec W cn c args s true) as [L [R K]]. destruct (run_reg W cn c args s true) as [s1 ap].
  simpl in L, R, K. destruct ap; rewrite <- R; repeat split; auto.
  - intros. apply set_cbs_other. auto.
  - left. simpl. rewrite (proj2 (cbname_eqb_eq cn cn)), (proj2 (ckey_eqb_eq k k)); reflexivity.
Qed.

(* the cache after any history is a pure function of the received messages *)
Definition cache_step (C : client) (imp : nat -> nat -> option nat) (c : list (key * entry)) (o : op) : list (key * entry) :=
  match o with
  | ORecv m now => match decode C imp now m with OUpd k e => cache_set k e c | _ => c end
  | _ => c
  end.
Lemma step_cache : forall C imp W s o, cache (step C imp W s o) = cache_step C imp (cache s) o.
Proof.
  intros. destruct o as [m now|k cn c|k cn c]; simpl.
  - unfold recv. destruct (decode C imp now m); auto using callback_herr_cache, update_value_cache.
  - apply register_spec.
  - reflexivity.
Qed.
Lemma run_cache : forall C imp W ops s, cache (run C imp W s ops) = fold_left (cache_step C imp) ops (cache s).
Proof.
  induction ops as [|o ops IH]; intro s; simpl; auto.
  unfold run in *. simpl. rewrite IH, step_cache. reflexivity.
Qed.

(* specification: the meaning of the last message accepted for parameter k *)
Definition last_upd (C : client) (imp : nat -> nat -> option nat) (k : key) (acc : option entry) (o : op) : option entry :=
  match o with
  | ORecv m now => match decode C imp now m with
                   | OUpd k' e => if key_eqb k' k then Some e else acc
                   | _ => acc
                   end
  | _ => acc
  end.
Lemma cache_is_last : forall C imp k ops c,
  cache_get k (fold_left (cache_step C imp) ops c) = fold_left (last_upd C imp k) ops (cache_get k c).
Proof.
  induction ops as [|o ops IH]; intro c; simpl; auto.
  rewrite IH. f_equal.
  destruct o as [m now| |]; simpl; auto.
  destruct (decode C imp now m) as [| |k' e]; auto.
  rewrite cache_get_set, key_eqb_sym. reflexivity.
Qed.

Definition ts_le (t : tnum) (now : Z) : Prop :=
  match t with TFin z => (z <= now)%Z | TNInf => True | _ => False end.
Lemma tmin_le : forall now t ts, tmin now t = Some ts -> ts_le ts now.
Proof.
  intros now t ts H. destruct t as [|[z| | |]|]; simpl in H; inversion H; subst; simpl; auto; try lia.
  destruct (Z.ltb z now) eqn:E; [apply Z.ltb_lt in E|]; lia.
Qed.
(* what decode has seen of a line it accepts with entry e: a value that imports, or an error report from which
   make_secop_error rebuilds the error; t is the 't' qualifier, ts the clamped timestamp *)
Inductive accepted (C : client) (now : Z) (m : msg) (e : entry) : Prop :=
| AccValue items t ts x :
    m_data m = DList items -> is_error_action (m_action m) = false -> tmin now t = Some ts ->
    e = (Some x, ts, None) -> accepted C now m e
| AccError items t ts name text err :
    m_data m = DList items -> is_error_action (m_action m) = true -> tmin now t = Some ts ->
    nth_error items 0 = Some name -> nth_error items 1 = Some text ->
    make_error C (i_kind name) (i_kind text) = Some err ->
    e = (None, ts, Some err) -> accepted C now m e.

Lemma decode_OUpd : forall C imp now m k e, decode C imp now m = OUpd k e ->
  is_update_message (m_action m) = true /\ resolve C (m_action m) (m_ident m) = Some k /\ accepted C now m e.
Proof.
  intros C imp now m k e H. unfold decode in H.
  destruct (m_data m) as [| |items] eqn:Dm; try discriminate;
    destruct (is_update_message (m_action m)); try discriminate;
    destruct (resolve C (m_action m) (m_ident m)) as [k0|]; try discriminate.
  destruct (is_error_action (m_action m)) eqn:EA.
  - destruct (nth_error items 2) as [[p2 [t| | |]]|]; try discriminate.
    destruct (nth_error items 0) as [name|] eqn:N0; try discriminate.
    destruct (nth_error items 1) as [text|] eqn:N1; try discriminate.
    destruct (make_error C _ _) as [err|] eqn:ME; try discriminate.
    destruct (tmin now t) as [ts|] eqn:T; try discriminate.
    destruct (assoc_last key_eqb k0 (params C)); try discriminate.
    injection H as <- <-. repeat split. eapply AccError; eauto.
  - destruct (nth_error items 1) as [[p2 [t| | |]]|]; try discriminate.
    destruct (nth_error items 0); try discriminate.
    destruct (tmin now t) as [ts|] eqn:T; try discriminate.
    destruct (assoc_last key_eqb k0 (params C)); try discriminate.
    destruct (imp _ _) as [x|]; try discriminate.
    injection H as <- <-. repeat split. eapply AccValue; eauto.
Qed.
Lemma decode_ts : forall C imp now m k v ts er, decode C imp now m = OUpd k (v, ts, er) -> ts_le ts now.
Proof.
  intros C imp now m k v ts er H.
  destruct (decode_OUpd _ _ _ _ _ _ H) as (_ & _ & [items t ts' x _ _ T E|items t ts' name text err _ _ T _ _ _ E]);
    injection E as _ -> _; exact (tmin_le _ _ _ T).
Qed.
Lemma ts_le_mono : forall t a b, ts_le t a -> (a <= b)%Z -> ts_le t b.
Proof. intros [z| | |] a b H L; simpl in *; auto; lia. Qed.

Definition cache_le (c : list (key * entry)) (now : Z) : Prop :=
  forall k v ts er, In (k, (v, ts, er)) c -> ts_le ts now.
(* the clock of the receiving thread does not go backwards *)
Fixpoint clock_ok (now0 : Z) (ops : list op) : Prop :=
  match ops with
  | [] => True
  | ORecv _ now :: r => (now0 <= now)%Z /\ clock_ok now r
  | _ :: r => clock_ok now0 r
  end.
Fixpoint final_now (now0 : Z) (ops : list op) : Z :=
  match ops with
  | [] => now0
  | ORecv _ now :: r => final_now now r
  | _ :: r => final_now now0 r
  end.
Lemma timestamps_not_future : forall C imp ops c now0,
  cache_le c now0 -> clock_ok now0 ops -> cache_le (fold_left (cache_step C imp) ops c) (final_now now0 ops).
Proof.
  induction ops as [|o ops IH]; intros c now0 Hc Hk; simpl; auto.
  destruct o as [m now|k cn cb|k cn cb]; simpl in *; [|apply IH; auto|apply IH; auto].
  destruct Hk as [L Hk]. apply IH; auto.
  assert (cache_le c now) as Hc' by (intros k v ts er I; eapply ts_le_mono; [eapply Hc; eauto|auto]).
  destruct (decode C imp now m) as [| |k [[v ts] er]] eqn:D; auto.
  intros k' v' ts' er' I. apply cache_set_In in I. destruct I as [I|I].
  - inversion I; subst. eapply decode_ts; eauto.
  - eapply Hc'; eauto.
Qed.

Definition is_upd (i : inv) : bool := match i with InvUpd _ _ _ _ => true | InvErr _ => false end.

(* log l' is log l with newer invocations in front; ups are the update invocations among them, oldest first *)
Definition grows (ups l l' : list inv) : Prop := exists new, l' = new ++ l /\ filter is_upd new = rev ups.
Lemma grows_refl : forall l, grows [] l l.
Proof. intro. exists []. auto. Qed.
Lemma grows_trans : forall u1 u2 l1 l2 l3, grows u1 l1 l2 -> grows u2 l2 l3 -> grows (u1 ++ u2) l1 l3.
Proof.
  intros u1 u2 l1 l2 l3 [n1 [-> F1]] [n2 [-> F2]]. exists (n2 ++ n1).
  rewrite app_assoc, filter_app, rev_app_distr, F1, F2. auto.
Qed.

Lemma run_herr_grows : forall W copy s, grows [] (log s) (log (run_herr W copy s)).
Proof.
  induction copy as [|c r IH]; intro s; simpl; [apply grows_refl|].
  apply (grows_trans [] [] _ (InvErr c :: log s)); [exists [InvErr c]; auto|].
  destruct (W (ctr s)); apply IH.
Qed.
Lemma run_upd_grows : forall W cn k pk e copy s,
  grows (map (fun c => InvUpd c cn pk e) copy) (log s) (log (run_upd W cn k pk e copy s)).
Proof.
  induction copy as [|c r IH]; intro s; simpl; [apply grows_refl|].
  assert (G : grows [InvUpd c cn pk e] (log s) (InvUpd c cn pk e :: log s)) by (exists [InvUpd c cn pk e]; auto).
  destruct (W (ctr s)).
  1, 2: apply (grows_trans [_] _ _ _ _ G); apply IH.
  apply (grows_trans [_] _ _ (log (callback_herr W (fst (invoke W s (InvUpd c cn pk e)))))); [|apply IH].
  apply (grows_trans [_] [] _ _ _ G). apply run_herr_grows.
Qed.

(* the lists other than the dispatched one and the handleError list stay as they are *)
Lemma run_herr_cbs : forall W copy s cn k, cn <> CHErr -> cbs (run_herr W copy s) cn k = cbs s cn k.
Proof.
  induction copy as [|c r IH]; intros s cn k N; simpl; auto.
  destruct (W (ctr s)); rewrite IH by auto; auto.
  rewrite set_cbs_other by congruence. reflexivity.
Qed.
Lemma run_upd_cbs : forall W cn k pk e copy s cn' k', cn' <> CHErr -> (cn', k') <> (cn, k) ->
  cbs (run_upd W cn k pk e copy s) cn' k' = cbs s cn' k'.
Proof.
  induction copy as [|c r IH]; intros s cn' k' N1 N2; simpl; auto.
  rewrite IH by auto. destruct (W (ctr s)); auto.
  - rewrite set_cbs_other by auto. reflexivity.
  - unfold callback_herr. rewrite run_herr_cbs by auto. reflexivity.
Qed.

Definition level_lists (s : st) (cn : cbname) (pk : key) : list nat :=
  cbs s cn KNode ++ cbs s cn (KMod (fst pk)) ++ cbs s cn (KPar (fst pk) (snd pk)).

Lemma levels_cbs : forall W cn pk e s cn' k', cn' <> CHErr -> cn' <> cn ->
  cbs (levels W cn pk e s) cn' k' = cbs s cn' k'.
Proof. intros. unfold levels, callback. rewrite !run_upd_cbs; auto; congruence. Qed.
Lemma levels_grows : forall W cn pk e s, cn <> CHErr ->
  grows (map (fun c => InvUpd c cn pk e) (level_lists s cn pk)) (log s) (log (levels W cn pk e s)).
Proof.
  intros W cn pk e s N. unfold levels, level_lists. rewrite !map_app.
  set (s1 := callback W cn KNode pk e s). set (s2 := callback W cn (KMod (fst pk)) pk e s1).
  replace (cbs s cn (KPar (fst pk) (snd pk))) with (cbs s2 cn (KPar (fst pk) (snd pk)))
    by (unfold s2, s1, callback; rewrite !run_upd_cbs; auto; discriminate).
  replace (cbs s cn (KMod (fst pk))) with (cbs s1 cn (KMod (fst pk)))
    by (unfold s1, callback; rewrite run_upd_cbs; auto; discriminate).
  exact (grows_trans _ _ _ _ _ (run_upd_grows _ _ _ _ _ _ s)
           (grows_trans _ _ _ _ _ (run_upd_grows _ _ _ _ _ _ s1) (run_upd_grows _ _ _ _ _ _ s2))).
Qed.
Lemma update_value_grows : forall W pk e s,
  grows (map (fun c => InvUpd c CItem pk e) (level_lists s CItem pk)
         ++ map (fun c => InvUpd c CEvent pk e) (level_lists s CEvent pk)) (log s) (log (update_value W pk e s)).
Proof.
  intros. unfold update_value.
  set (s1 := levels W CItem pk e (set_cache s (cache_set pk e (cache s)))).
  replace (level_lists s CEvent pk) with (level_lists s1 CEvent pk)
    by (unfold level_lists, s1; rewrite !levels_cbs by discriminate; reflexivity).
  apply (grows_trans _ _ _ (log s1)); [|apply levels_grows; discriminate].
  apply (levels_grows W CItem pk e (set_cache s _)). discriminate.
Qed.

(* the log only grows: invocations of earlier messages stay in front (arrival order) *)
Definition log_extends {A} (l l' : list A) : Prop := exists new, l' = new ++ l.
Lemma log_extends_refl : forall {A} (l : list A), log_extends l l.
Proof. intros. exists []. reflexivity. Qed.
Lemma log_extends_trans : forall {A} (l1 l2 l3 : list A), log_extends l1 l2 -> log_extends l2 l3 -> log_extends l1 l3.
Proof. intros A l1 l2 l3 [n1 ->] [n2 ->]. exists (n2 ++ n1). apply app_assoc. Qed.
Lemma log_extends_fold : forall {A S O} (lg : S -> list A) (f : S -> O -> S),
  (forall s o, log_extends (lg s) (lg (f s o))) -> forall ops s, log_extends (lg s) (lg (fold_left f ops s)).
Proof.
  intros A S O lg f H. induction ops as [|o ops IH]; intro s; simpl; [apply log_extends_refl|].
  eapply log_extends_trans; [apply H|apply IH].
Qed.
Lemma grows_log_extends : forall ups l l', grows ups l l' -> log_extends l l'.
Proof. intros ups l l' [new [L _]]. exists new. exact L. Qed.

Lemma step_log_extends : forall C imp W s o, log_extends (log s) (log (step C imp W s o)).
Proof.
  intros. destruct o as [m now|k cn c|k cn c]; simpl.
  - unfold recv. destruct (decode C imp now m) as [| |k e].
    + apply log_extends_refl.
    + eapply grows_log_extends, run_herr_grows.
    + eapply grows_log_extends, update_value_grows.
  - eexists. apply register_spec.
  - apply log_extends_refl.
Qed.

Lemma assoc_last_In : forall {V} k (l : list (str * V)) v, assoc_last str_eqb k l = Some v -> In (k, v) l.
Proof.
  induction l as [|[k' v'] l IH]; simpl; intros v H; [discriminate|].
  destruct (assoc_last str_eqb k l) eqn:E.
  - inversion H; subst. right. apply IH. reflexivity.
  - destruct (str_eqb k k') eqn:E2; [|discriminate]. inversion H; subst.
    apply str_eqb_eq in E2. subst. left. reflexivity.
Qed.
Lemma assoc_last_None : forall {V} k (l : list (str * V)) v, assoc_last str_eqb k l = None -> ~ In (k, v) l.
Proof.
  induction l as [|[k' v'] l IH]; simpl; intros v H I; auto.
  destruct (assoc_last str_eqb k l) eqn:E; [discriminate|].
  destruct I as [I|I].
  - inversion I; subst. rewrite str_eqb_refl in H. discriminate.
  - eapply IH; eauto.
Qed.
Lemma assoc_last_det : forall {V} k (l : list (str * V)) v,
  In (k, v) l -> (forall v', In (k, v') l -> v' = v) -> assoc_last str_eqb k l = Some v.
Proof.
  intros V k l v I U. destruct (assoc_last str_eqb k l) as [v'|] eqn:E.
  - apply assoc_last_In in E. f_equal. auto.
  - exfalso. eapply assoc_last_None; eauto.
Qed.

Lemma has_colon_mk_ident : forall m a, has_colon (mk_ident m a) = true.
Proof.
  intros. unfold has_colon, mk_ident. rewrite existsb_app. simpl. rewrite orb_true_r. reflexivity.
Qed.
Lemma mk_ident_inj : forall m m' a a',
  has_colon m = false -> has_colon m' = false -> mk_ident m a = mk_ident m' a' -> m = m' /\ a = a'.
Proof.
  unfold mk_ident, has_colon.
  induction m as [|x m IH]; destruct m' as [|y m']; intros a a' H1 H2 E.
  - inversion E. auto.
  - inversion E; subst. cbn [existsb] in H2. rewrite N.eqb_refl in H2. discriminate.
  - inversion E; subst. cbn [existsb] in H1. rewrite N.eqb_refl in H1. discriminate.
  - inversion E; subst. cbn [existsb] in H1, H2. apply orb_false_iff in H1, H2.
    destruct H1 as [_ H1]. destruct H2 as [_ H2].
    destruct (IH m' a a' H1 H2 H3). subst. auto.
Qed.

Definition colon_free (d : dsc) : Prop := forall m accs, In (m, accs) d -> has_colon m = false.

Lemma internal_of_In : forall predef d k v,
  In (k, v) (internal_of predef d) ->
  exists m accs a, In (m, accs) d /\ In a accs /\ k = mk_ident m (a_name a) /\ v = (m, internalize predef (a_name a)).
Proof.
  intros predef d k v H. unfold internal_of in H. apply in_flat_map in H.
  destruct H as [[m accs] [I1 I2]]. apply in_map_iff in I2. destruct I2 as [a [E I3]].
  simpl in E. inversion E; subst. exists m, accs, a. auto.
Qed.
Lemma internal_of_lookup : forall predef d m accs a,
  colon_free d -> In (m, accs) d -> In a accs ->
  assoc_last str_eqb (mk_ident m (a_name a)) (internal_of predef d) = Some (m, internalize predef (a_name a)).
Proof.
  intros predef d m accs a CF I1 I2. apply assoc_last_det.
  - unfold internal_of. apply in_flat_map. exists (m, accs). split; auto.
    apply in_map_iff. exists a. auto.
  - intros v' H. apply internal_of_In in H. destruct H as [m' [accs' [a' [J1 [J2 [E ->]]]]]].
    apply mk_ident_inj in E; eauto. destruct E as [-> E]. rewrite E. reflexivity.
Qed.

(* an identifier that no accessible of the description has is not in the table *)
Lemma internal_of_None : forall predef d i,
  (forall m accs a, In (m, accs) d -> In a accs -> i <> mk_ident m (a_name a)) ->
  assoc_last str_eqb i (internal_of predef d) = None.
Proof.
  intros predef d i U. destruct (assoc_last str_eqb i (internal_of predef d)) as [v|] eqn:D; auto.
  apply assoc_last_In, internal_of_In in D. destruct D as (m & accs & a & J1 & J2 & E & _).
  destruct (U _ _ _ J1 J2 E).
Qed.

(* a conversion followed by another returns y exactly when some wire value links them *)
Lemma bind_Some_iff : forall {A B} (f : A -> option nat) (g : nat -> option B) x y,
  match f x with Some j => g j | None => None end = Some y <-> (exists j, f x = Some j /\ g j = Some y).
Proof.
  intros. split.
  - destruct (f x) as [j|]; [|discriminate]. intro H. exists j. auto.
  - intros [j [-> H]]. exact H.
Qed.

Lemma combine_fst_le : forall {A B} (v : list A) (p : list B), length v <= length p -> map fst (combine v p) = v.
Proof.
  induction v as [|x v IH]; destruct p as [|y p]; simpl; intro L; auto; try lia.
  f_equal. apply IH. lia.
Qed.

Lemma struct_get_set : forall k k0 x0 l,
  struct_get k (struct_set k0 x0 l) = if Nat.eqb k k0 then Some x0 else struct_get k l.
Proof.
  induction l as [|[k' v'] l IH]; simpl.
  - reflexivity.
  - destruct (Nat.eqb k0 k') eqn:E; simpl.
    + apply Nat.eqb_eq in E. subst k'. destruct (Nat.eqb k k0); reflexivity.
    + destruct (Nat.eqb k k') eqn:E2.
      * apply Nat.eqb_eq in E2. subst k'. rewrite Nat.eqb_sym in E. rewrite E. reflexivity.
      * exact IH.
Qed.
Lemma struct_set_keys : forall k x l, In k (map fst l) -> map fst (struct_set k x l) = map fst l.
Proof.
  induction l as [|[k' v'] l IH]; simpl; intro H; [tauto|].
  destruct (Nat.eqb k k') eqn:E; simpl.
  - apply Nat.eqb_eq in E. subst. reflexivity.
  - f_equal. apply IH. destruct H as [H|H]; [subst; rewrite Nat.eqb_refl in E; discriminate|exact H].
Qed.
