(* C12 -- the property theorems and their demonstrations on concrete histories (the Examples and their test data;
   Run.v supplies imp_of); the facts they rest on are in Lemmas.v, ConcLemmas.v, ReLemmas.v.
   C ranges over every client (description + error tables), imp over every datatype import function, W over
   every behaviour of callbacks (return / UnregisterCallback / exception at any invocation), ops over every
   history of received lines, registrations and unregistrations, s over every client state. *)
From Coq Require Import List Arith ZArith NArith Bool Lia.
Import ListNotations.
Require Import FV.Gen.C12 FV.C12.Model FV.C12.Lemmas FV.C12.ConcModel FV.C12.ConcLemmas FV.C12.ReModel FV.C12.ReLemmas FV.C12.Run.

(* obligations on the facts regenerated from /repo (Gen/C12.v) *)
Theorem C12_source_facts :
  update_messages_ok = true /\ timestamp_clamped_before_update = true /\ shorthand_lookup_shape = true /\
  reply_update_precedes_release = true /\ reply_error_not_stored_again = true /\
  update_value_order = true /\ callback_iterates_copy = true /\ unregister_handler_checks_membership = true /\
  register_appends_in_place = true /\
  dispatch_removes_from_fetched_list = true /\ internalize_shape = true /\
  error_default_is_InternalError = true /\ array_validate_pads_previous = true /\
  struct_missing_optional_means_all_optional = true /\ struct_validate_merges_previous = true /\ predefined_names <> [] /\ error_classes <> [] /\ error_names <> [].
Proof. repeat split; try reflexivity; discriminate. Qed.

(* 1. The cache entry of every parameter is the meaning (decode) of the last line accepted for it -- whatever the
      callbacks do, whatever is registered, whatever else arrived in between. *)
Theorem C12_cache_is_last_message : forall C imp W ops s k,
  cache_get k (cache (run C imp W s ops)) = fold_left (last_upd C imp k) ops (cache_get k (cache s)).
Proof. intros. rewrite run_cache. apply cache_is_last. Qed.

(* 2. Which parameter a line is about: full identifier, default accessible shorthand, unknown identifier, and
      no identifier at all (a line without identifier is about no parameter and is never accepted; until repository
      commit 0fe05ab the code took it for the module called "None"). *)
Theorem C12_identifier_full : forall predef classes names d m accs a act,
  colon_free d -> In (m, accs) d -> In a accs ->
  resolve (mk_client predef classes names d) act (Some (mk_ident m (a_name a))) = Some (m, internalize predef (a_name a)).
Proof. intros. unfold resolve. simpl. erewrite internal_of_lookup; eauto. Qed.
Theorem C12_identifier_shorthand : forall predef classes names d m accs a act,
  colon_free d -> In (m, accs) d -> In a accs -> m <> [] ->
  a_name a = (match act with AChanged => s_target | _ => s_value end) ->
  resolve (mk_client predef classes names d) act (Some m) = Some (m, a_name a).
Proof.
  intros predef classes names d m accs a act CF I1 I2 NE E. unfold resolve. simpl.
  (* every identifier of the table has a colon, a module name has none *)
  pose proof (CF _ _ I1) as H. rewrite internal_of_None
    by (intros m' accs' a' _ _ X; pose proof (has_colon_mk_ident m' (a_name a')); congruence).
  destruct m as [|x m]; [contradiction|]. rewrite H, <- E.
  erewrite internal_of_lookup by eauto. rewrite E. destruct act; reflexivity.
Qed.
Theorem C12_identifier_unknown : forall predef classes names d act i,
  (forall m accs a, In (m, accs) d -> In a accs -> i <> mk_ident m (a_name a)) -> has_colon i = true ->
  resolve (mk_client predef classes names d) act (Some i) = None.
Proof.
  intros predef classes names d act i U HC. unfold resolve. simpl.
  rewrite internal_of_None by exact U. destruct i; auto. rewrite HC. reflexivity.
Qed.
Theorem C12_no_identifier : forall C imp act now m,
  resolve C act None = None /\ (m_ident m = None -> forall k e, decode C imp now m <> OUpd k e).
Proof.
  intros. split; [reflexivity|]. intros H k e D.
  apply decode_OUpd in D. rewrite H in D. destruct D as [_ [D _]]. discriminate.
Qed.

(* 3. An accepted line invokes every callback registered at that moment for the node, the module or the parameter
      exactly once, updateItem before updateEvent, node then module then parameter, each with the entry that is
      then in the cache; other callbacks (handleError after a failing callback) may be interleaved, no other
      update callback is. *)
Theorem C12_callbacks_once_in_order : forall C imp W s m now k e,
  decode C imp now m = OUpd k e -> exists new,
  log (recv C imp W s m now) = new ++ log s /\
  rev (filter is_upd new) = map (fun c => InvUpd c CItem k e) (level_lists s CItem k)
                            ++ map (fun c => InvUpd c CEvent k e) (level_lists s CEvent k) /\
  cache_get k (cache (recv C imp W s m now)) = Some e.
Proof.
  intros C imp W s m now k e D. unfold recv. rewrite D.
  destruct (update_value_grows W k e s) as [new [L F]]. exists new. split; [exact L|split].
  - rewrite F. apply rev_involutive.
  - rewrite update_value_cache. apply cache_get_set_same.
Qed.

(* arrival order: what was invoked for earlier ops is never reordered or dropped by later ones *)
Theorem C12_invocations_in_arrival_order : forall C imp W ops1 ops2 s, exists new,
  log (run C imp W s (ops1 ++ ops2)) = new ++ log (run C imp W s ops1).
Proof.
  intros. unfold run. rewrite fold_left_app. apply (log_extends_fold log), step_log_extends.
Qed.

(* 4. Timestamps are never in the future of the receiving clock. *)
Theorem C12_timestamp_not_future : forall C imp W ops s now0,
  cache_le (cache s) now0 -> clock_ok now0 ops -> cache_le (cache (run C imp W s ops)) (final_now now0 ops).
Proof. intros. rewrite run_cache. apply timestamps_not_future; auto. Qed.

(* 5. A line that is not accepted (malformed, unknown parameter, command identifier, rejected payload, other
      action) changes neither cache nor update registrations, invokes no update callback, and the following
      lines are processed as if it had not arrived. *)
Theorem C12_malformed_skipped : forall C imp W s m now,
  (forall k e, decode C imp now m <> OUpd k e) ->
  (exists new, log (recv C imp W s m now) = new ++ log s /\ filter is_upd new = [] /\
               cache (recv C imp W s m now) = cache s /\
               (forall cn k, cn <> CHErr -> cbs (recv C imp W s m now) cn k = cbs s cn k)) /\
  (forall s1 ops1 ops2, cache (run C imp W s1 (ops1 ++ ORecv m now :: ops2)) = cache (run C imp W s1 (ops1 ++ ops2))).
Proof.
  intros C imp W s m now H. split.
  - unfold recv. destruct (decode C imp now m) as [| |k e].
    + exists []. auto.
    + destruct (run_herr_grows W (cbs s CHErr KNode) s) as [new [L F]]. exists new.
      unfold callback_herr. rewrite run_herr_cache. auto using run_herr_cbs.
    + destruct (H k e eq_refl).
  - intros. rewrite !run_cache, !fold_left_app. simpl.
    destruct (decode C imp now m) as [| |k e]; auto. destruct (H k e eq_refl).
Qed.

(* 6. Registration calls back immediately, once per cached entry the key selects, in cache order, with the cached
      entry; it touches no other registration and never the cache. *)
Theorem C12_register_immediate : forall W s k cn c, cn <> CHErr ->
  log (register W s k cn c) = rev (map (fun a => InvUpd c cn (fst a) (snd a)) (reg_args s k)) ++ log s /\
  cache (register W s k cn c) = cache s /\
  (forall cn' k', (cn', k') <> (cn, k) -> cbs (register W s k cn c) cn' k' = cbs s cn' k') /\
  (cbs (register W s k cn c) cn k = cbs s cn k ++ [c] \/ cbs (register W s k cn c) cn k = cbs s cn k).
Proof.
  intros W s k cn c N. pose proof (register_spec W s k cn c) as H.
  replace (match cn with CHErr => [] | _ => reg_args s k end) with (reg_args s k) in H by (destruct cn; auto; contradiction).
  exact H.
Qed.

(* 7. Write path end to end: the driver receives the value the caller passed and the cache receives the value the
      driver returned, exactly when these two values round-trip through the conversions (the datatype law of C02,
      needed at these two values only).  The statement is pointwise on purpose: premises
      "forall x, exists j, exp_c x = Some j /\ imp_n j = Some x" over ALL value ids are satisfied by no finite conversion
      table (what Run.check_case passes, imp_of), so a theorem with them would say nothing about the cases of the harness
      (NonVacuity.v C12_e2e_write_old_premise_unsatisfiable_for_tables).  C12_e2e_write_on_tables applies it to tables.
      The node validates arrays and structs against the previous value of the parameter: an array hands every element
      on (it was cut to the previous length until repository commit 672d284; the source fact
      array_validate_pads_previous ties the model to the fix); of a struct the members passed replace those of the
      previous value and the others keep their value (partial struct), no member is lost or invented. *)
Theorem C12_e2e_write : forall exp_c imp_n exp_n imp_c v r,
  (exists j, exp_c v = Some j /\ imp_n j = Some v) -> (exists j, exp_n r = Some j /\ imp_c j = Some r) ->
  e2e_write exp_c imp_n exp_n imp_c v r = (Some v, Some r).
Proof.
  intros exp_c imp_n exp_n imp_c v r H1 H2. apply bind_Some_iff in H1, H2.
  unfold e2e_write. rewrite H1, H2. reflexivity.
Qed.
Theorem C12_e2e_write_exact : forall exp_c imp_n exp_n imp_c v r,
  (fst (e2e_write exp_c imp_n exp_n imp_c v r) = Some v <-> (exists j, exp_c v = Some j /\ imp_n j = Some v)) /\
  (snd (e2e_write exp_c imp_n exp_n imp_c v r) = Some r <-> (exists j, exp_n r = Some j /\ imp_c j = Some r)) /\
  (e2e_read exp_n imp_c r = Some r <-> (exists j, exp_n r = Some j /\ imp_c j = Some r)).
Proof.
  intros. unfold e2e_write, e2e_read. simpl. split; [|split]; apply bind_Some_iff.
Qed.
(* the theorem at the environment of a CE2E case: finite tables, two value ids that round-trip, others that do not *)
Example C12_e2e_write_on_tables :
  let exp := [(0, 5, Some 50); (0, 6, Some 60); (0, 7, Some 70)] in let imp := [(0, 50, Some 5); (0, 60, Some 6); (0, 70, None)] in
  e2e_write (imp_of exp 0) (imp_of imp 0) (imp_of exp 0) (imp_of imp 0) 5 6 = (Some 5, Some 6) /\
  fst (e2e_write (imp_of exp 0) (imp_of imp 0) (imp_of exp 0) (imp_of imp 0) 7 6) <> Some 7.
Proof.
  cbv zeta. split.
  - apply C12_e2e_write; eexists; split; reflexivity.
  - vm_compute. discriminate.
Qed.
Theorem C12_e2e_array_exact : forall (A : Type) (prev v : list A), array_validate prev v = v.
Proof.
  intros A prev v. unfold array_validate. destruct prev as [|y prev]; auto.
  apply combine_fst_le. rewrite app_length, map_length, repeat_length. lia.
Qed.
Theorem C12_e2e_struct_members : forall prev v,
  (forall k, struct_get k (struct_validate prev v) =
             match assoc_last Nat.eqb k v with Some x => Some x | None => struct_get k prev end) /\
  ((forall kv, In kv v -> In (fst kv) (map fst prev)) -> map fst (struct_validate prev v) = map fst prev).
Proof.
  unfold struct_validate. intros prev v. split; revert prev; induction v as [|[k0 x0] v IH]; intros prev; simpl; auto.
  - intro k. rewrite IH. destruct (assoc_last Nat.eqb k v); [reflexivity|].
    rewrite struct_get_set. destruct (Nat.eqb k k0); reflexivity.
  - (* a value that names only members the previous value has: same members afterwards, in the same order *)
    intro H.
    assert (E : map fst (struct_set k0 x0 prev) = map fst prev) by (apply struct_set_keys, (H (k0, x0)); auto).
    rewrite IH; [exact E|]. intros kv I. rewrite E. auto.
Qed.
Example C12_e2e_struct_partial_demo :
  struct_validate [(0, 11); (1, 22)] [(1, 33)] = [(0, 11); (1, 33)].
Proof. reflexivity. Qed.

(* 8. Callers of setParameter / readParameter / getParameter concurrent with the receive thread (ConcModel.v).
      A step sequence is one schedule of one peer script: every interleaving of the atomic steps of the receive
      thread (receive+decode / cache update+callbacks+match / set event), the transmissions and the callers.
      All three theorems quantify over ALL step sequences, clients, import functions, callback behaviours, caller
      programs and start states.  They need no hypothesis on what the callers do: since repository commit 276f60f
      the cache write of readParameter's fallback does not run for an error that came from a reply (finding
      C12/read-error-fallback-overwrites-later-update: before, it also ran then, when a later line had replaced the
      cache entry); the source fact reply_error_not_stored_again ties the model to the repair. *)

(* whenever the receive thread is about to release a caller with a reply, the cache already holds the import of that
   reply; and from the release until the caller runs the cache entry of that parameter is the import of the reply or
   of the newest line processed since (the cache mirrors the LAST message) *)
Theorem C12_reply_cached_before_release : forall C imp W b progs steps,
  let s := crun C imp W (cinit b progs) steps in
  (forall i m now, rx s = RSet i m now ->
     forall k e, decode C imp now (cm_msg m) = OUpd k e -> cache_get k (cache (base s)) = Some e) /\
  (forall i c m now later, nth_error (cls s) i = Some c -> c_st c = CReleased m now later ->
     forall k e, decode C imp now (cm_msg m) = OUpd k e ->
     cache_get k (cache (base s)) = Some (last_write k later e)).
Proof.
  intros C imp W b progs steps s.
  assert (I : inv C imp s) by apply inv_run, inv_init.
  split; intros; [eapply rx_set_ok|eapply released_ok]; eauto.
Qed.

(* what the released call returns: after reply / changed, and after error_read for a read, the entry made by the
   receive thread from the answering line (or from a newer line for the same parameter); the caller changes neither
   cache nor callback lists nor the invocation log (no second update: one round of callbacks per message) *)
Theorem C12_released_call_sees_its_reply : forall C imp W b progs steps,
  let s := crun C imp W (cinit b progs) steps in
  forall i c k m now later e,
  nth_error (cls s) i = Some c -> c_st c = CReleased m now later -> cur_call c = Some k ->
  decode C imp now (cm_msg m) = OUpd (k_key k) e -> (is_error_reply m = false \/ k_kind k = RRead) ->
  cstep_fn C imp W s (SWake i) = finish s i c (OSeen (Some (last_write (k_key k) later e))) (base s) (cls s).
Proof.
  intros. eapply wake_sees_reply; eauto. apply inv_run, inv_init.
Qed.

(* for every schedule the cache, the callback lists and the invocation log are those of the sequential model run over
   the processed lines in arrival order: theorems 1, 3, 4, 5 above hold for the concurrent client as they stand
   (every callback exactly once per accepted line, in arrival order; cache = last message) *)
Theorem C12_conc_is_sequential : forall C imp W b progs steps,
  let s := crun C imp W (cinit b progs) steps in
  base s = run C imp W b (done_ops (done s)) /\
  (stuck s = false -> rev (done s) ++ in_progress (rx s) = arrived steps).
Proof.
  intros C imp W b progs steps.
  exact (hist_run C imp W b steps [] (cinit b progs) (conj eq_refl (fun _ => eq_refl))).
Qed.

(* 9. Callbacks that call back into the client (ReModel.v): W n is what the n-th invocation does -- any list of
      register_callback / unregister_callback calls on the same or on other keys and callback names, then return /
      UnregisterCallback / another exception.  For EVERY such W, every level (cn, lv) of every message (pk, e) and every
      client state s (hence for every dispatch of every history rrun W s0 ops):
      (a) the dispatch invokes exactly the callbacks that stand in the list of (cn, lv) when the dispatch of that level
          starts, each once, in list order, with the meaning of the message -- whatever the invoked callbacks register or
          unregister meanwhile, also when one of them unregisters a callback that then raises UnregisterCallback (until
          repository commit 4741ef2 the ValueError of cblist.remove ended the dispatch there: finding
          C12/unregister-then-oneshot-breaks-dispatch).  A
          callback registered during the dispatch is not dispatched for this message (it got its immediate call with the
          cached state, theorem 6); one unregistered during the dispatch is still called;
      (b) callbacks never touch the cache;
      (c) a list grows only by register_callback: occurrences of c0 afterwards <= occurrences before + number of times
          register_callback appended c0 to this list meanwhile;
      (d) every UnregisterCallback costs the callback one registration as long as it has one: if the list object the
          dispatch holds was not popped from the dict meanwhile (rpopped: an unregister_callback from inside the
          dispatch left this very list empty) and c0 was not appended to the list meanwhile, occurrences of c0
          afterwards <= occurrences before - number of times c0 raised UnregisterCallback (truncated subtraction: the
          handler  if cbfunc in cblist: cblist.remove(cbfunc)  removes nothing when none is left).
      The source facts register_appends_in_place / dispatch_removes_from_fetched_list / callback_iterates_copy /
      unregister_handler_checks_membership tie the single list per (callback name, key) of the model to the code. *)
Theorem C12_callbacks_once_with_reentrant_registration : forall W cn lv pk e s,
  exists new, rlog (rcallback W cn lv pk e s) = new ++ rlog s /\
    rev (disp_of new) = map (fun c => (c, cn, lv, pk, e)) (rcbs s cn lv) /\
    rcache (rcallback W cn lv pk e s) = rcache s /\
    (forall c0, cnt c0 (rcbs (rcallback W cn lv pk e s) cn lv) <= cnt c0 (rcbs s cn lv) + added c0 cn lv new) /\
    (forall c0, rpopped W cn lv pk e s = false -> added c0 cn lv new = 0 ->
       cnt c0 (rcbs (rcallback W cn lv pk e s) cn lv) <= cnt c0 (rcbs s cn lv) - raised c0 new).
Proof. intros. exact (rcallback2_inv W cn lv pk e s). Qed.

(* the one-shot clause spelled out: (1) a callback that raised UnregisterCallback in a dispatch as often as it stood in
   the list, and was not appended again meanwhile, is not in the list afterwards -- also when it (or another callback)
   registered other callbacks on the same list from inside the dispatch, or unregistered some (as long as the list was
   not left empty by an unregister_callback from inside: rpopped); (2) a callback that is not in the list of a
   level is not dispatched by that level, whatever the dispatched callbacks register meanwhile.  Together: never
   invoked again (until somebody registers it again).  (3) the list object is popped only by an unregister_callback for
   the dispatched list made from inside the dispatch: when no invoked callback makes one, rpopped is false. *)
Theorem C12_oneshot_gone_after_unregister : forall W cn lv pk e s c0,
  exists new, rlog (rcallback W cn lv pk e s) = new ++ rlog s /\
    (rpopped W cn lv pk e s = false -> cnt c0 (rcbs s cn lv) <= raised c0 new -> added c0 cn lv new = 0 ->
     ~ In c0 (rcbs (rcallback W cn lv pk e s) cn lv)).
Proof.
  intros W cn lv pk e s c0.
  destruct (C12_callbacks_once_with_reentrant_registration W cn lv pk e s) as [new [L [_ [_ [_ J]]]]].
  exists new. split; [exact L|]. intros O H1 H2. apply cnt_zero_notin.
  specialize (J c0 O H2). lia.
Qed.
Theorem C12_not_registered_not_dispatched : forall W cn lv pk e s c0,
  ~ In c0 (rcbs s cn lv) ->
  exists new, rlog (rcallback W cn lv pk e s) = new ++ rlog s /\
    forall cn' lv' k' e', ~ In (c0, cn', lv', k', e') (disp_of new).
Proof.
  intros W cn lv pk e s c0 NI.
  destruct (C12_callbacks_once_with_reentrant_registration W cn lv pk e s) as [new [L [D _]]].
  exists new. split; [exact L|]. intros cn' lv' k' e' I.
  apply in_rev in I. rewrite D in I. apply in_map_iff in I. destruct I as [c [E I]].
  injection E as -> _ _ _ _. contradiction.
Qed.
Theorem C12_list_popped_only_by_inner_unregister : forall W cn lv pk e s,
  (forall n, forallb (fun a => negb (unreg_on cn lv a)) (r_acts (W n)) = true) ->
  rpopped W cn lv pk e s = false.
Proof. intros. unfold rpopped, rcallback2. rewrite upd_fold_no_pop; auto. Qed.

(* a message is the cache write followed by the six dispatches in the fixed order, each starting in the state the
   previous one left (rlevel1 / rlevel2 are those states); invocations of a history are never reordered or dropped *)
Theorem C12_reentrant_message_levels : forall W pk e s,
  rupdate_value W pk e s =
    (let s0 := rwrite pk e s in
     let s3 := rcallback W CItem (KPar (fst pk) (snd pk)) pk e (rlevel2 W CItem pk e s0) in
     rcallback W CEvent (KPar (fst pk) (snd pk)) pk e
       (rcallback W CEvent (KMod (fst pk)) pk e (rcallback W CEvent KNode pk e s3))) /\
  cache_get pk (rcache (rupdate_value W pk e s)) = Some e.
Proof.
  intros. split; [reflexivity|].
  unfold rupdate_value, rlevels, rlevel2, rlevel1. rewrite !rcallback_cache.
  simpl. apply cache_get_set_same.
Qed.
Theorem C12_reentrant_invocations_in_arrival_order : forall W ops1 ops2 s, exists new,
  rlog (rrun W s (ops1 ++ ops2)) = new ++ rlog (rrun W s ops1).
Proof. intros. unfold rrun. rewrite fold_left_app. apply (log_extends_fold rlog), rstep_log_extends. Qed.

(* non-vacuity: the one-shot callback 1 registers its successor 2 on its own list and raises UnregisterCallback; a
   failing callback 3 stands behind it.  Callback 1 is invoked for the first message only, 2 gets the first message
   as immediate call and the later ones by dispatch, once each. *)
Definition re_demo_key : key := ([109%N], s_value).
Definition re_demo_e (n : nat) : entry := (Some n, TFin 100%Z, None).
Example C12_reentrant_demo :
  let W := fun n => match n with
                    | 0 => {| r_acts := [AcReg KNode CEvent 2]; r_fin := BUnreg |}
                    | 2 => {| r_acts := []; r_fin := BExc |}
                    | _ => {| r_acts := []; r_fin := BOk |} end in
  let s := rrun W (rst0 [0]) [RReg KNode CEvent 1; RReg KNode CEvent 3; RMsg re_demo_key (re_demo_e 1);
                               RMsg re_demo_key (re_demo_e 2)] in
  rcbs s CEvent KNode = [3; 2] /\
  filter (fun i => negb (is_ghost i)) (rev (rlog s)) =
    [RDisp 1 CEvent KNode re_demo_key (re_demo_e 1) BUnreg; RImm 2 CEvent KNode re_demo_key (re_demo_e 1) BOk;
     RDisp 3 CEvent KNode re_demo_key (re_demo_e 1) BExc; RErr 0 BOk;
     RDisp 3 CEvent KNode re_demo_key (re_demo_e 2) BOk; RDisp 2 CEvent KNode re_demo_key (re_demo_e 2) BOk].
Proof. vm_compute. repeat split; reflexivity. Qed.

(* non-vacuity of the concurrent theorems: a write and a read of the same parameter, answered in the opposite order,
   an update in between; the writer runs only after the answer to the reader was processed *)
Definition cdemo_key : key := ([109%N], s_target).
Definition cdemo_ident : str := mk_ident [109%N] s_target.
Definition cdemo_d : dsc := [([109%N], [{| a_name := s_target; a_cmd := false; a_dt := 0 |}])].
Definition cdemo_msg (a : action) (p : nat) : cmsg :=
  {| cm_msg := {| m_action := a; m_ident := Some cdemo_ident;
                  m_data := DList [{| i_payload := p; i_kind := IKHashable |}; {| i_payload := 9; i_kind := IKDict TAbsent |}] |};
     cm_other := None |}.
Definition cdemo_steps : list cstep :=
  [SSend 0; SSend 1; SRecv (cdemo_msg AChanged 1) 100; SRxUpdate; SRxSet 0;
   SRecv (cdemo_msg AUpdate 2) 110; SRxUpdate; SRecv (cdemo_msg AReply 3) 120; SRxUpdate; SRxSet 1;
   SWake 0; SWake 1].
Example C12_conc_demo :
  let s := crun (mk_client predefined_names error_classes error_names cdemo_d) (fun _ j => Some j) (fun _ => BOk)
                (cinit (register (fun _ => BOk) (st0 [0]) KNode CItem 1)
                       [[{| k_kind := RChange; k_ident := cdemo_ident; k_key := cdemo_key |}];
                        [{| k_kind := RRead; k_ident := cdemo_ident; k_key := cdemo_key |}]]) cdemo_steps in
  stuck s = false /\
  rev (seen s) = [(0, 0, OSeen (Some (Some 3, TFin 120%Z, None))); (1, 0, OSeen (Some (Some 3, TFin 120%Z, None)))] /\
  rev (log (base s)) = [InvUpd 1 CItem cdemo_key (Some 1, TFin 100%Z, None); InvUpd 1 CItem cdemo_key (Some 2, TFin 110%Z, None);
                        InvUpd 1 CItem cdemo_key (Some 3, TFin 120%Z, None)].
Proof. vm_compute. repeat split; reflexivity. Qed.

(* the schedule of finding C12/read-error-fallback-overwrites-later-update (repaired by 276f60f): a read answered by an error report, an update of the same parameter processed
   before the caller runs: the call returns the newer entry, the cache keeps it, two invocations for two lines *)
Definition cdemo_err : cmsg :=
  {| cm_msg := {| m_action := AErrRead; m_ident := Some cdemo_ident;
                  m_data := DList [{| i_payload := 5; i_kind := IKStr [69%N] None |}; {| i_payload := 6; i_kind := IKStr [120%N] None |};
                                   {| i_payload := 9; i_kind := IKDict TAbsent |}] |};
     cm_other := None |}.
Example C12_conc_demo_error_then_update :
  let s := crun (mk_client predefined_names error_classes error_names cdemo_d) (fun _ j => Some j) (fun _ => BOk)
                (cinit (register (fun _ => BOk) (st0 [0]) KNode CItem 1)
                       [[{| k_kind := RRead; k_ident := cdemo_ident; k_key := cdemo_key |}]])
                [SSend 0; SRecv cdemo_err 100; SRxUpdate; SRxSet 0; SRecv (cdemo_msg AUpdate 2) 110; SRxUpdate; SWake 0] in
  stuck s = false /\
  seen s = [(0, 0, OSeen (Some (Some 2, TFin 110%Z, None)))] /\
  cache (base s) = [(cdemo_key, (Some 2, TFin 110%Z, None))] /\
  rev (log (base s)) = [InvUpd 1 CItem cdemo_key (None, TFin 100%Z, Some (s_InternalError, [120%N]));
                        InvUpd 1 CItem cdemo_key (Some 2, TFin 110%Z, None)].
Proof. vm_compute. repeat split; reflexivity. Qed.

(* non-vacuity: a history with a one-shot node callback, a failing module callback and a malformed line *)
Definition demo_d : dsc := [([109%N], [{| a_name := s_value; a_cmd := false; a_dt := 0 |}])].
Definition demo_val (t : tq) : msg :=
  {| m_action := AUpdate; m_ident := Some [109%N];
     m_data := DList [{| i_payload := 0; i_kind := IKHashable |}; {| i_payload := 1; i_kind := IKDict t |}] |}.
Example C12_demo :
  let s := run (mk_client predefined_names error_classes error_names demo_d) (fun _ j => Some j)
               (fun n => match n with 0 => BUnreg | 1 => BExc | _ => BOk end) (st0 [0])
               [OReg KNode CItem 1; OReg (KMod [109%N]) CEvent 2;
                ORecv (demo_val (TNum (TFin 500))) 100; ORecv (demo_val TBad) 200; ORecv (demo_val TAbsent) 300] in
  cache s = [(([109%N], s_value), (Some 0, TFin 300%Z, None))] /\
  rev (log s) = [InvUpd 1 CItem ([109%N], s_value) (Some 0, TFin 100%Z, None);
                 InvUpd 2 CEvent ([109%N], s_value) (Some 0, TFin 100%Z, None); InvErr 0;
                 InvErr 0;
                 InvUpd 2 CEvent ([109%N], s_value) (Some 0, TFin 300%Z, None)].
Proof. vm_compute. split; reflexivity. Qed.

Print Assumptions C12_source_facts.
Print Assumptions C12_cache_is_last_message.
Print Assumptions C12_identifier_full.
Print Assumptions C12_identifier_shorthand.
Print Assumptions C12_identifier_unknown.
Print Assumptions C12_no_identifier.
Print Assumptions C12_callbacks_once_in_order.
Print Assumptions C12_invocations_in_arrival_order.
Print Assumptions C12_timestamp_not_future.
Print Assumptions C12_malformed_skipped.
Print Assumptions C12_register_immediate.
Print Assumptions C12_e2e_write.
Print Assumptions C12_e2e_write_exact.
Print Assumptions C12_e2e_array_exact.
Print Assumptions C12_e2e_struct_members.
Print Assumptions C12_reply_cached_before_release.
Print Assumptions C12_released_call_sees_its_reply.
Print Assumptions C12_conc_is_sequential.
Print Assumptions C12_callbacks_once_with_reentrant_registration.
Print Assumptions C12_oneshot_gone_after_unregister.
Print Assumptions C12_not_registered_not_dispatched.
Print Assumptions C12_list_popped_only_by_inner_unregister.
Print Assumptions C12_reentrant_message_levels.
Print Assumptions C12_reentrant_invocations_in_arrival_order.
